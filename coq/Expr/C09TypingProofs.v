(* C09 — soundness of the reported result type and nullability, by one structural induction on expressions. *)
From Coq Require Import List ZArith Bool Lia.
Import ListNotations.
From GMS Require Import Expr.C09Typing.
Open Scope Z_scope.

Definition opt_P (P : expr -> Prop) (o : option expr) : Prop := match o with Some x => P x | None => True end.
Section ExprInd.
  Variable P : expr -> Prop.
  Hypothesis HField : forall i, P (EField i).
  Hypothesis HLit : forall x, P (ELit x).
  Hypothesis HNeg : forall a, P a -> P (ENeg a).
  Hypothesis HArith : forall o a b, P a -> P b -> P (EArith o a b).
  Hypothesis HIntDiv : forall a b, P a -> P b -> P (EIntDiv a b).
  Hypothesis HMod : forall a b, P a -> P b -> P (EMod a b).
  Hypothesis HCmp : forall o a b, P a -> P b -> P (ECmp o a b).
  Hypothesis HAnd : forall a b, P a -> P b -> P (EAnd a b).
  Hypothesis HOr : forall a b, P a -> P b -> P (EOr a b).
  Hypothesis HNot : forall a, P a -> P (ENot a).
  Hypothesis HIsNull : forall a, P a -> P (EIsNull a).
  Hypothesis HIn : forall a l, P a -> Forall P l -> P (EIn a l).
  Hypothesis HBetween : forall a b c, P a -> P b -> P c -> P (EBetween a b c).
  Hypothesis HCase : forall bs els, Forall (fun p => P (fst p) /\ P (snd p)) bs ->
    opt_P P els -> P (ECase bs els).
  Hypothesis HNullIf : forall a b, P a -> P b -> P (ENullIf a b).
  Hypothesis HIfNull : forall a b, P a -> P b -> P (EIfNull a b).
  Hypothesis HCoalesce : forall a b, P a -> P b -> P (ECoalesce a b).
  Hypothesis HIf : forall c a b, P c -> P a -> P b -> P (EIf c a b).
  Hypothesis HGreatest : forall a b, P a -> P b -> P (EGreatest a b).
  Hypothesis HLeast : forall a b, P a -> P b -> P (ELeast a b).
  Hypothesis HCast : forall a t, P a -> P (ECast a t).
  Hypothesis HConcat : forall a b, P a -> P b -> P (EConcat a b).
  Hypothesis HUpper : forall a, P a -> P (EUpper a).
  Hypothesis HSubstr : forall a p n, P a -> P (ESubstr a p n).
  Hypothesis HLength : forall a, P a -> P (ELength a).

  Fixpoint expr_rect' (e : expr) : P e :=
    match e with
    | EField i => HField i | ELit x => HLit x
    | ENeg a => HNeg a (expr_rect' a)
    | EArith o a b => HArith o a b (expr_rect' a) (expr_rect' b)
    | EIntDiv a b => HIntDiv a b (expr_rect' a) (expr_rect' b)
    | EMod a b => HMod a b (expr_rect' a) (expr_rect' b)
    | ECmp o a b => HCmp o a b (expr_rect' a) (expr_rect' b)
    | EAnd a b => HAnd a b (expr_rect' a) (expr_rect' b)
    | EOr a b => HOr a b (expr_rect' a) (expr_rect' b)
    | ENot a => HNot a (expr_rect' a)
    | EIsNull a => HIsNull a (expr_rect' a)
    | EIn a l => HIn a l (expr_rect' a)
        ((fix go (l : list expr) : Forall P l :=
            match l with [] => Forall_nil _ | x :: t => Forall_cons x (expr_rect' x) (go t) end) l)
    | EBetween a b c => HBetween a b c (expr_rect' a) (expr_rect' b) (expr_rect' c)
    | ECase bs els => HCase bs els
        ((fix go (l : list (expr * expr)) : Forall (fun p => P (fst p) /\ P (snd p)) l :=
            match l with
            | [] => Forall_nil _
            | p :: t => Forall_cons p (conj (expr_rect' (fst p)) (expr_rect' (snd p))) (go t)
            end) bs)
        (match els as o return opt_P P o with Some x => expr_rect' x | None => I end)
    | ENullIf a b => HNullIf a b (expr_rect' a) (expr_rect' b)
    | EIfNull a b => HIfNull a b (expr_rect' a) (expr_rect' b)
    | ECoalesce a b => HCoalesce a b (expr_rect' a) (expr_rect' b)
    | EIf c a b => HIf c a b (expr_rect' c) (expr_rect' a) (expr_rect' b)
    | EGreatest a b => HGreatest a b (expr_rect' a) (expr_rect' b)
    | ELeast a b => HLeast a b (expr_rect' a) (expr_rect' b)
    | ECast a t => HCast a t (expr_rect' a)
    | EConcat a b => HConcat a b (expr_rect' a) (expr_rect' b)
    | EUpper a => HUpper a (expr_rect' a)
    | ESubstr a p n => HSubstr a p n (expr_rect' a)
    | ELength a => HLength a (expr_rect' a)
    end.
End ExprInd.

Lemma conforms_nth s : forall r i, conforms s r = true -> conforms_col (nth i s dflt) (nth i r VNull) = true.
Proof.
  induction s as [|c s IH]; intros [|x r] i H; cbn [conforms] in H; try discriminate.
  - destruct i; reflexivity.
  - apply andb_prop in H. destruct H as [H1 H2]. destruct i; cbn [nth]; [exact H1|]. apply IH. exact H2.
Qed.
Lemma conforms_length s : forall r, conforms s r = true -> length r = length s.
Proof.
  induction s as [|c s IH]; intros [|x r] H; cbn [conforms] in H; try discriminate; [reflexivity|].
  apply andb_prop in H. cbn [length]. f_equal. apply IH. tauto.
Qed.

Lemma bindr_ok x f v : bindr x f = Ok v -> exists w, x = Ok w /\ f w = Ok v.
Proof. destruct x as [w|]; [eauto|discriminate]. Qed.

Lemma fit_typed k z x : fit k z = Ok x -> has_type (TInt k) x = true /\ notnull x = true.
Proof. unfold fit. destruct (in_kind k z) eqn:E; [|discriminate]. intros H. injection H as <-. cbn. auto. Qed.
Lemma bool_val_typed b : has_type TBool (bool_val b) = true.
Proof. destruct b; reflexivity. Qed.
Lemma bool_val_notnull b : notnull (bool_val b) = true.
Proof. reflexivity. Qed.

Lemma int_shape t x : is_integer t = true -> has_type t x = true ->
  x = VNull \/ exists z, x = VInt z /\ (is_unsigned t = true -> 0 <= z).
Proof.
  intros Hi Ht. destruct x as [|z|m sc|n d|b]; [left; reflexivity| |destruct t; discriminate..].
  right. exists z. split; [reflexivity|]. intros Hu. destruct t as [| |k| | |]; try discriminate.
  cbn in Ht. unfold in_kind in Ht. apply andb_prop in Ht. destruct Ht as [L _]. apply Z.leb_le in L.
  destruct k; cbn in Hu; try discriminate; cbn in L; exact L.
Qed.

(* a binary operator that returns NULL as soon as one operand is NULL, and otherwise a non-NULL value of type T or an error *)
Lemma null_prop_sound (g : val -> val -> res) T :
  (forall x y v, g x y = Ok v -> has_type T v = true /\ notnull v = true) ->
  forall x y v, match x, y with VNull, _ | _, VNull => Ok VNull | _, _ => g x y end = Ok v ->
  has_type T v = true /\ (notnull x = true -> notnull y = true -> notnull v = true).
Proof.
  intros G x y v E.
  destruct x; [injection E as <-; split; [reflexivity|discriminate]|..];
    (destruct y; [injection E as <-; split; [reflexivity|discriminate]|..]); destruct (G _ _ _ E); auto.
Qed.

Lemma sw_range w z : 0 < w -> - two (w - 1) <= sw w z < two (w - 1).
Proof.
  intros Hw. unfold sw, two.
  assert (E : 2 ^ w = 2 * 2 ^ (w - 1)) by (rewrite <- Z.pow_succ_r by lia; f_equal; lia).
  assert (Hp : 0 < 2 ^ (w - 1)) by (apply Z.pow_pos_nonneg; lia).
  rewrite E. set (h := 2 ^ (w - 1)) in *. clearbody h.
  assert (B : 0 <= z mod (2 * h) < 2 * h) by (apply Z.mod_pos_bound; lia).
  set (m := z mod (2 * h)) in *. clearbody m.
  destruct (m <? h) eqn:L; [apply Z.ltb_lt in L|apply Z.ltb_ge in L]; lia.
Qed.
Lemma two31 : two (32 - 1) = 2147483648. Proof. reflexivity. Qed.
Lemma two63 : two (64 - 1) = 9223372036854775808. Proof. reflexivity. Qed.

Definition neg_guard (t : ty) : bool :=
  match t with TInt I8 | TInt I16 | TInt I32 | TInt I64 | TInt U32 | TInt U64 => true | TDec _ _ => true | _ => false end.
Lemma neg_typed t x v : neg_guard t = true -> has_type t x = true -> neg_val t x = Ok v -> has_type (neg_ty t) v = true.
Proof.
  intros G T E. destruct x as [|z|m sc|n d|b]; cbn [neg_val] in E; try discriminate.
  - injection E as <-. reflexivity.
  - destruct t as [| |k|p s| |]; try discriminate.
    + destruct k; try discriminate; cbn [neg_ty];
        [| | | |destruct (Z.eqb_spec z (ik_lo I64)) as [|Z0]; [discriminate|]|];
        injection E as <-; cbn [has_type] in *; unfold in_kind, ik_lo, ik_hi in *.
      1-3, 5: lia.
      * pose proof (sw_range 32 (- sw 32 z) ltac:(lia)) as B. rewrite two31 in B. lia.
      * pose proof (sw_range 64 (- sw 64 z) ltac:(lia)) as B. rewrite two63 in B. lia.
    + injection E as <-. cbn [neg_ty has_type] in *. rewrite Z.abs_opp. exact T.
  - injection E as <-. destruct t; try discriminate. cbn [neg_ty has_type] in *. rewrite Z.abs_opp. exact T.
Qed.
Lemma neg_notnull t x v : neg_val t x = Ok v -> notnull x = true -> notnull v = true.
Proof.
  destruct x as [|z|m sc|n d|b]; cbn [neg_val]; intros E N; try discriminate.
  - destruct t as [| |k| | |]; try discriminate; try (injection E as <-; reflexivity).
    destruct k; try (injection E as <-; reflexivity). destruct (z =? ik_lo I64); [discriminate|]. injection E as <-. reflexivity.
  - injection E as <-. reflexivity.
Qed.

Lemma arith_int_ty o l r : is_integer l = true -> is_integer r = true -> exists k, arith_ty o l r = TInt k.
Proof.
  intros Hl Hr. unfold arith_ty.
  assert (is_text l = false) as -> by (destruct l; try reflexivity; discriminate).
  assert (is_text r = false) as -> by (destruct r; try reflexivity; discriminate). cbn [orb].
  assert ((match l, r with TDbl, _ | _, TDbl => true | _, _ => false end) = false) as ->
    by (destruct l, r; try reflexivity; discriminate).
  destruct (is_unsigned l && is_unsigned r); [eauto|]. rewrite Hl, Hr. cbn. eauto.
Qed.
Lemma arith_typed o k x y v : arith_val o (TInt k) x y = Ok v -> has_type (TInt k) v = true.
Proof.
  unfold arith_val. destruct x as [|a|m1 s1|n1 d1|b1], y as [|b|m2 s2|n2 d2|b2]; intros E; try discriminate; try (injection E as <-; reflexivity).
  destruct (in_kind k a && in_kind k b); [|discriminate]. apply fit_typed in E. tauto.
Qed.
Lemma arith_notnull o t x y v : arith_val o t x y = Ok v -> notnull x = true -> notnull y = true -> notnull v = true.
Proof.
  intros E Nx Ny. destruct x as [|a|m1 s1|n1 d1|b1]; try discriminate; destruct y as [|b|m2 s2|n2 d2|b2]; try discriminate;
  unfold arith_val in E; destruct t as [| |k|p s| |]; try discriminate; cbn [to_dec] in E; try discriminate;
  try (destruct (in_kind k a && in_kind k b); [apply fit_typed in E; tauto|discriminate]);
  destruct o; unfold align in E; cbn [fst snd] in E; injection E as <-; reflexivity.
Qed.

Lemma align_ints z w : align (z, 0) (w, 0) = (z, w, 0).
Proof. unfold align. cbn [fst snd]. change (Z.max 0 0) with 0. change (10 ^ (0 - 0)) with 1. rewrite !Z.mul_1_r. reflexivity. Qed.
Lemma intdiv_typed l r x y v :
  (is_unsigned l && is_unsigned r) || (is_signed l && is_signed r) = true ->
  has_type l x = true -> has_type r y = true -> intdiv_val (intdiv_ty l r) x y = Ok v -> has_type (intdiv_ty l r) v = true.
Proof.
  intros G Tx Ty E.
  assert (Il : is_integer l = true) by (unfold is_integer; destruct (is_unsigned l), (is_signed l); cbn in *; try reflexivity; discriminate).
  assert (Ir : is_integer r = true) by (unfold is_integer; destruct (is_unsigned r), (is_signed r), (is_unsigned l), (is_signed l); cbn in *; try reflexivity; discriminate).
  destruct (int_shape l x Il Tx) as [->|[z [-> Pz]]]; [cbn in E; injection E as <-; reflexivity|].
  destruct (int_shape r y Ir Ty) as [->|[w [-> Pw]]]; [cbn in E; injection E as <-; reflexivity|].
  unfold intdiv_val in E. cbn [to_dec] in E. rewrite align_ints in E.
  destruct (w =? 0) eqn:W0; [injection E as <-; reflexivity|]. apply Z.eqb_neq in W0.
  destruct (in_kind I64 (z ÷ w)) eqn:K; [|discriminate]. injection E as <-.
  unfold intdiv_ty. destruct (is_unsigned l) eqn:Ul.
  - destruct (is_unsigned r) eqn:Ur.
    + cbn [orb has_type]. specialize (Pz eq_refl). specialize (Pw eq_refl).
      assert (0 <= z ÷ w) by (apply Z.quot_pos; lia).
      unfold in_kind, ik_lo, ik_hi in *. lia.
    + exfalso. cbn in G. destruct l as [| |k| | |]; try discriminate. cbn in Ul, G. destruct (ik_signed k); discriminate.
  - destruct (is_unsigned r) eqn:Ur; [|exact K].
    exfalso. cbn in G. destruct r as [| |k| | |]; try discriminate. cbn in Ur, G. rewrite andb_comm in G. destruct (ik_signed k); cbn in *; discriminate.
Qed.

(* % with an integer literal operand *)
Lemma rem_le_abs a b : b <> 0 -> Z.abs (Z.rem a b) <= Z.abs a /\ Z.abs (Z.rem a b) < Z.abs b.
Proof.
  intros Hb. rewrite <- Z.rem_abs by exact Hb. assert (0 < Z.abs b) by lia.
  rewrite Z.rem_mod_nonneg by lia. pose proof (Z.mod_pos_bound (Z.abs a) (Z.abs b) ltac:(lia)).
  split; [apply Z.mod_le; lia|lia].
Qed.
Lemma mod_typed p sc x y v lim :
  (x = VNull \/ exists z, x = VInt z) -> (y = VNull \/ exists z, y = VInt z) ->
  (x = VInt lim \/ y = VInt lim) -> Z.abs lim < 10 ^ (p - sc) ->
  mod_val x y = Ok v -> has_type (TDec p sc) v = true.
Proof.
  intros [->|[a ->]] [->|[b ->]] L B E; cbn [mod_val] in E; try (injection E as <-; reflexivity).
  destruct (b =? 0) eqn:B0; [injection E as <-; reflexivity|]. apply Z.eqb_neq in B0. injection E as <-.
  cbn [has_type]. apply Z.ltb_lt. destruct (rem_le_abs a b B0) as [R1 R2].
  destruct L as [L|L]; injection L as ->; lia.
Qed.

Lemma cmp_res_sound o x y v : cmp_res o x y = Ok v ->
  has_type TBool v = true /\ (notnull x = true -> notnull y = true -> notnull v = true).
Proof.
  apply (null_prop_sound (fun x y => match cmp_vals x y with Some c => Ok (bool_val (cop_holds o c)) | None => Err end)).
  intros a b w E. destruct (cmp_vals a b); [|discriminate]. injection E as <-. split; [apply bool_val_typed|reflexivity].
Qed.

Lemma truth_null x : truth x = Some None -> x = VNull.
Proof. destruct x; try discriminate; reflexivity. Qed.
Lemma logic_sound x y v : and3 x y = Ok v \/ or3 x y = Ok v ->
  has_type TBool v = true /\ (notnull x = true -> notnull y = true -> notnull v = true).
Proof.
  unfold and3, or3.
  destruct (truth x) as [[[|]|]|] eqn:Tx, (truth y) as [[[|]|]|] eqn:Ty; intros [E|E]; try discriminate;
    injection E as <-; (split; [reflexivity|]); try reflexivity;
    (apply truth_null in Tx as -> || apply truth_null in Ty as ->); discriminate.
Qed.
Lemma not3_sound x v : not3 x = Ok v -> has_type TBool v = true /\ (notnull x = true -> notnull v = true).
Proof.
  unfold not3. intros E. destruct x as [|a|m s1|n d1|b1]; cbn [truth] in E; try discriminate;
  injection E as <-; split; auto using bool_val_typed; try discriminate.
Qed.

Lemma in_go_typed ev x : forall l sn v, in_go ev x l sn = Ok v -> has_type TBool v = true.
Proof.
  induction l as [|y l IH]; intros sn v E; cbn [in_go] in E.
  - injection E as <-. destruct sn; reflexivity.
  - apply bindr_ok in E as (w & _ & E).
    destruct w; try (eapply IH; exact E);
    (destruct (cmp_vals x _) as [[| |]|]; [injection E as <-; reflexivity|eapply IH; exact E|eapply IH; exact E|discriminate]).
Qed.

(* conversion to the type of a CASE / IF / IFNULL / COALESCE *)
Lemma conv_notnull t x : notnull (conv_to t x) = notnull x.
Proof. destruct t, x; try reflexivity; unfold conv_to; destruct (print_val _); reflexivity. Qed.
Lemma conv_to_typed t x : has_type t x = true -> conv_to t x = x.
Proof. destruct t, x; try reflexivity; discriminate. Qed.
Lemma ikind_eqb_eq a b : ikind_eqb a b = true -> a = b.
Proof. destruct a, b; cbn; intros; try discriminate; reflexivity. Qed.
Lemma ty_equals_has_type a t x : ty_equals a t = true -> has_type a x = true -> has_type t x = true.
Proof.
  intros E T. destruct a as [| |k|p s| |], t as [| |k'|p' s'| |]; cbn in E; try discriminate; try exact T;
  try (apply ikind_eqb_eq in E; subst; exact T);
  try (apply andb_prop in E; destruct E as [E1 E2]; apply Z.eqb_eq in E1, E2; subst; exact T);
  try (destruct k'; try discriminate; exact T); try (destruct k; try discriminate; exact T);
  destruct k; apply ikind_eqb_eq in E; subst; exact T.
Qed.
Lemma print_some_dec m s : exists b, print_val (VDec m s) = Some b.
Proof. unfold print_val. destruct (s <=? 0); eauto. Qed.
Lemma holds_sound a t x : holds a t = true -> has_type a x = true -> has_type t (conv_to t x) = true.
Proof.
  intros H T. unfold holds in H. apply orb_prop in H as [H|H].
  { pose proof (ty_equals_has_type _ _ _ H T) as T'. rewrite conv_to_typed; exact T'. }
  (* the entries of the table, by the kind of value the source type admits *)
  destruct a as [| |k|q r| |], t as [| |k'|p s| |]; try discriminate;
    destruct x as [|z|m sc|n d|b]; try discriminate; try reflexivity; cbn [conv_to has_type] in *;
    unfold in_kind in *; cbn [ik_lo ik_hi] in *; try lia.
  - assert (10 ^ (q - r) <= 10 ^ (p - s)) by (apply Z.pow_le_mono_r; lia). lia.
  - assert (10 ^ (q - r + sc) <= 10 ^ (p - s + sc)) by (apply Z.pow_le_mono_r; lia). lia.
  - destruct (print_some_dec m sc) as [b ->]. reflexivity.
Qed.

Lemma concat_sound x y v : concat_val x y = Ok v ->
  has_type TStr v = true /\ (notnull x = true -> notnull y = true -> notnull v = true).
Proof.
  apply (null_prop_sound (fun x y => match print_val x, print_val y with Some p, Some q => Ok (VStr (p ++ q)) | _, _ => Err end)).
  intros a b w E. destruct (print_val a), (print_val b); try discriminate. injection E as <-. split; reflexivity.
Qed.

Lemma cast_typed t x v : cast_val t x = Ok v -> has_type (cast_ty t) v = true /\ (notnull x = true -> notnull v = true).
Proof.
  unfold cast_val. intros E.
  destruct x as [|z|m sc|n d|b]; try (injection E as <-; split; [destruct t; reflexivity|discriminate]);
  destruct t as [| |p s|]; cbn [cast_ty] in *; try discriminate.
  all: try (repeat match type of E with
    | fit _ _ = _ => apply fit_typed in E; tauto
    | (if ?c then _ else _) = _ => destruct c
    | _ => discriminate
    end; fail).
  all: try (destruct (print_val _); [injection E as <-; split; reflexivity|discriminate]).
  all: destruct (to_dec _) as [[m0 s0]|]; [|discriminate];
    match type of E with (if ?c then _ else _) = _ => destruct c eqn:C end; [|discriminate];
    injection E as <-; split; [|reflexivity]; cbn [has_type];
    apply andb_prop in C; destruct C as [C C3]; apply andb_prop in C; destruct C as [C1 C2];
    replace (p - s + s) with p by lia; rewrite C1, C3, Z.leb_refl; reflexivity.
Qed.

Lemma greatest_int a b : is_integer a = true -> is_integer b = true -> greatest_ty a b = TInt I64.
Proof.
  destruct a as [| |ka| | |], b as [| |kb| | |]; intros Ha Hb; try discriminate; unfold greatest_ty;
  try (destruct ka); try (destruct kb); reflexivity.
Qed.

Section Sound.
Variable s : schema.
Variable r : row.
Hypothesis HC : conforms s r = true.

Definition sound (e : expr) : Prop := forall x, eval s r e = Ok x ->
  (nullable s e = false -> notnull x = true) /\ (well_typed s e = true -> has_type (type_of s e) x = true).

Lemma sound_field i : sound (EField i).
Proof.
  intros x EV. injection EV as <-. pose proof (conforms_nth s r i HC) as [T N]%andb_prop.
  cbn [nullable type_of]. split; [|intros _; exact T]. intros Hn. rewrite Hn in N. exact N.
Qed.

Lemma sound_lit lv : sound (ELit lv).
Proof. intros x EV. injection EV as <-. split; [apply negb_false_iff|auto]. Qed.

Lemma sound_neg e : sound e -> sound (ENeg e).
Proof.
  intros IH x EV. cbn [eval] in EV. apply bindr_ok in EV as (v & Ea & EV). destruct (IH v Ea) as [N T]. split.
  - intros Hn. eapply neg_notnull; eauto.
  - intros [W G]%andb_prop. eapply neg_typed; eauto.
Qed.

Lemma sound_arith o e1 e2 : sound e1 -> sound e2 -> sound (EArith o e1 e2).
Proof.
  intros IH1 IH2 x EV. cbn [eval] in EV. apply bindr_ok in EV as (va & Ea & (vb & Eb & EV)%bindr_ok).
  destruct (IH1 _ Ea) as [N1 T1], (IH2 _ Eb) as [N2 T2]. split.
  - intros [H1 H2]%orb_false_elim. eapply arith_notnull; eauto.
  - cbn [well_typed type_of]. intros [[[W1 W2]%andb_prop I1]%andb_prop I2]%andb_prop.
    destruct (arith_int_ty o _ _ I1 I2) as [k Ek]. rewrite Ek in *. eapply arith_typed; eauto.
Qed.

Lemma sound_intdiv e1 e2 : sound e1 -> sound e2 -> sound (EIntDiv e1 e2).
Proof.
  intros IH1 IH2 x EV. cbn [eval] in EV. apply bindr_ok in EV as (va & Ea & (vb & Eb & EV)%bindr_ok).
  destruct (bad_unsigned _ va || bad_unsigned _ vb); [discriminate|]. split; [discriminate|].
  intros [[W1 W2]%andb_prop G]%andb_prop. exact (intdiv_typed _ _ _ _ _ G (proj2 (IH1 _ Ea) W1) (proj2 (IH2 _ Eb) W2) EV).
Qed.

Lemma int_lit_eval e z x : is_int_lit e = Some z -> eval s r e = Ok x -> x = VInt z.
Proof.
  destruct e as [|[|z'| | |]| | | | | | | | | | | | | | | | | | | | | | |]; cbn; intros L E; try discriminate.
  injection L as ->. injection E as <-. reflexivity.
Qed.

Lemma sound_mod e1 e2 : sound e1 -> sound e2 -> sound (EMod e1 e2).
Proof.
  intros IH1 IH2 x EV. cbn [eval] in EV. apply bindr_ok in EV as (va & Ea & (vb & Eb & EV)%bindr_ok). split; [discriminate|].
  cbn [well_typed]. intros [[[[W1 W2]%andb_prop I1]%andb_prop I2]%andb_prop G]%andb_prop.
  destruct (type_of s (EMod e1 e2)) as [| |?|p sc| |]; try (destruct (is_int_lit e1); [|destruct (is_int_lit e2)]; discriminate).
  assert (S1 : va = VNull \/ exists z, va = VInt z) by (destruct (int_shape _ _ I1 (proj2 (IH1 _ Ea) W1)) as [?|[z [? _]]]; eauto).
  assert (S2 : vb = VNull \/ exists z, vb = VInt z) by (destruct (int_shape _ _ I2 (proj2 (IH2 _ Eb) W2)) as [?|[z [? _]]]; eauto).
  destruct (is_int_lit e1) as [z|] eqn:L1; [|destruct (is_int_lit e2) as [z|] eqn:L2; [|discriminate]];
    apply Z.ltb_lt in G; apply (mod_typed p sc va vb x z); auto; [left|right]; eapply int_lit_eval; eauto.
Qed.

(* comparison, AND, OR, CONCAT: a value-level operator with its own soundness lemma *)
Lemma sound_bin (f : val -> val -> res) T e1 e2 :
  (forall x y v, f x y = Ok v -> has_type T v = true /\ (notnull x = true -> notnull y = true -> notnull v = true)) ->
  sound e1 -> sound e2 -> forall v, bindr (eval s r e1) (fun x => bindr (eval s r e2) (fun y => f x y)) = Ok v ->
  (nullable s e1 || nullable s e2 = false -> notnull v = true) /\ has_type T v = true.
Proof.
  intros F IH1 IH2 v (x & Ea & (y & Eb & EV)%bindr_ok)%bindr_ok. destruct (F _ _ _ EV) as [T' N]. split; [|exact T'].
  intros [H1 H2]%orb_false_elim. apply N; [apply (IH1 _ Ea)|apply (IH2 _ Eb)]; assumption.
Qed.

Lemma sound_not e : sound e -> sound (ENot e).
Proof.
  intros IH x EV. cbn [eval] in EV. apply bindr_ok in EV as (v & Ea & EV). destruct (not3_sound _ _ EV) as [T N]. split.
  - intros Hn. apply N. apply (IH v Ea). exact Hn.
  - cbn [type_of well_typed]. intros [_ W]%andb_prop. destruct (type_of s e); try discriminate; exact T.
Qed.

Lemma sound_isnull e : sound (EIsNull e).
Proof.
  intros x EV. cbn [eval] in EV. apply bindr_ok in EV as (v & _ & EV). injection EV as <-.
  split; intros _; [reflexivity|apply bool_val_typed].
Qed.

Lemma sound_in e l : sound (EIn e l).
Proof.
  intros x EV. cbn [eval] in EV. apply bindr_ok in EV as (v & _ & EV). split; [discriminate|]. intros _.
  destruct v; try (injection EV as <-; reflexivity); eapply in_go_typed; exact EV.
Qed.

Lemma sound_between e1 e2 e3 : sound e1 -> sound e2 -> sound e3 -> sound (EBetween e1 e2 e3).
Proof.
  intros IH1 IH2 IH3 x EV. cbn [eval] in EV.
  apply bindr_ok in EV as (v1 & E1 & (v2 & E2 & (v3 & E3 & (p & C1 & (q & C2 & EV)%bindr_ok)%bindr_ok)%bindr_ok)%bindr_ok).
  destruct (cmp_res_sound _ _ _ _ C1) as [_ M1], (cmp_res_sound _ _ _ _ C2) as [_ M2].
  destruct (logic_sound _ _ _ (or_introl EV)) as [T N]. split; [|intros _; exact T].
  cbn [nullable]. intros [[H1 H2]%orb_false_elim H3]%orb_false_elim.
  pose proof (proj1 (IH1 _ E1) H1). pose proof (proj1 (IH2 _ E2) H2). pose proof (proj1 (IH3 _ E3) H3). auto.
Qed.

(* the value of the chosen branch of CASE / IF / IFNULL / COALESCE, converted to the type t of the whole *)
Lemma branch_sound e t y : sound e -> eval s r e = Ok y ->
  (nullable s e = false -> notnull (conv_to t y) = true) /\
  (well_typed s e = true -> holds (type_of s e) t = true -> has_type t (conv_to t y) = true).
Proof.
  intros IH E. destruct (IH y E) as [N T]. rewrite conv_notnull. split; [exact N|].
  intros W H. exact (holds_sound _ _ _ H (T W)).
Qed.

Lemma sound_case bs els : Forall (fun p => sound (fst p) /\ sound (snd p)) bs -> opt_P sound els -> sound (ECase bs els).
Proof.
  intros Hb He x. cbn [eval nullable well_typed]. generalize (type_of s (ECase bs els)). intros t.
  induction Hb as [|p bs [_ Sp] _ IH]; cbn [case_go existsb forallb andb orb]; intros EV.
  - destruct els as [e|]; [|injection EV as <-; split; [discriminate|reflexivity]].
    apply bindr_ok in EV as (w & Ew & EV). injection EV as <-. destruct (branch_sound e t w He Ew) as [N T].
    split; [exact N|]. intros [W H]%andb_prop. exact (T W H).
  - apply bindr_ok in EV as (cv & _ & EV).
    destruct (truth cv) as [[[|]|]|]; try discriminate.
    2, 3: destruct (IH EV) as [N T]; split;
      [intros [[_ Hr]%orb_false_elim Hx]%orb_false_elim; apply N; rewrite Hr; exact Hx
      |intros [[_ Wr]%andb_prop Wx]%andb_prop; apply T; rewrite Wr; exact Wx].
    apply bindr_ok in EV as (w & Ew & EV). injection EV as <-. destruct (branch_sound _ t w Sp Ew) as [N T]. split.
    + intros [[Hp _]%orb_false_elim _]%orb_false_elim. exact (N Hp).
    + intros [[[[_ W]%andb_prop H]%andb_prop _]%andb_prop _]%andb_prop. exact (T W H).
Qed.

Lemma sound_nullif e1 e2 : sound e1 -> sound (ENullIf e1 e2).
Proof.
  intros IH1 x EV. cbn [eval] in EV. apply bindr_ok in EV as (va & Ea & (vb & _ & EV)%bindr_ok).
  split; [discriminate|]. intros [W1 _]%andb_prop. pose proof (proj2 (IH1 _ Ea) W1) as T1. cbn [type_of].
  destruct va; try (injection EV as <-; reflexivity); destruct vb; try (injection EV as <-; exact T1);
  (destruct (cmp_vals _ _) as [[| |]|]; [injection EV as <-; reflexivity|injection EV as <-; exact T1..|discriminate]).
Qed.

(* IFNULL and COALESCE differ only in the type t they convert to *)
Lemma sound_alt t e1 e2 : sound e1 -> sound e2 -> forall v,
  bindr (eval s r e1) (fun x => match x with VNull => bindr (eval s r e2) (fun y => Ok (conv_to t y)) | _ => Ok (conv_to t x) end) = Ok v ->
  (nullable s e1 && nullable s e2 = false -> notnull v = true) /\
  (well_typed s e1 && well_typed s e2 && holds (type_of s e1) t && holds (type_of s e2) t = true -> has_type t v = true).
Proof.
  intros IH1 IH2 v EV. apply bindr_ok in EV as (x & E1 & EV). destruct (branch_sound e1 t x IH1 E1) as [N1 T1].
  destruct x; try (injection EV as <-; split; [rewrite conv_notnull; reflexivity|intros [[[W1 _]%andb_prop H1]%andb_prop _]%andb_prop; auto]).
  apply bindr_ok in EV as (y & E2 & EV). injection EV as <-. destruct (branch_sound e2 t y IH2 E2) as [N2 T2]. split.
  - intros [H|H]%andb_false_elim; [discriminate (proj1 (IH1 _ E1) H)|exact (N2 H)].
  - intros [[[_ W2]%andb_prop _]%andb_prop H2]%andb_prop. exact (T2 W2 H2).
Qed.

Lemma sound_if e1 e2 e3 : sound e2 -> sound e3 -> sound (EIf e1 e2 e3).
Proof.
  intros IH2 IH3 x EV. cbn [eval] in EV. apply bindr_ok in EV as (cv & _ & EV). cbn [nullable type_of well_typed].
  destruct (truth cv) as [[[|]|]|]; try discriminate; apply bindr_ok in EV as (y & Ey & EV); injection EV as <-;
    [destruct (branch_sound e2 (generalize (type_of s e2) (type_of s e3)) y IH2 Ey) as [N T]
    |destruct (branch_sound e3 (generalize (type_of s e2) (type_of s e3)) y IH3 Ey) as [N T]..]; split.
  1, 3, 5: intros [H2 H3]%orb_false_elim; auto.
  - intros [[[[_ W]%andb_prop _]%andb_prop H]%andb_prop _]%andb_prop. exact (T W H).
  - intros [[[_ W]%andb_prop _]%andb_prop H]%andb_prop. exact (T W H).
  - intros [[[_ W]%andb_prop _]%andb_prop H]%andb_prop. exact (T W H).
Qed.

(* GREATEST and LEAST differ only in the operation op *)
Lemma sound_extreme (op : Z -> Z -> Z) e1 e2 : sound e1 -> sound e2 -> forall v,
  bindr (eval s r e1) (fun x => bindr (eval s r e2) (fun y =>
    if negb (is_integer (type_of s e1) && is_integer (type_of s e2)) then Err else
    match x, y with
    | VNull, _ | _, VNull => Ok VNull
    | VInt p, VInt q => if flt_exact p q then fit I64 (op p q) else Err
    | _, _ => Err
    end)) = Ok v ->
  (nullable s e1 || nullable s e2 = false -> notnull v = true) /\
  (well_typed s e1 && well_typed s e2 && is_integer (type_of s e1) && is_integer (type_of s e2) = true ->
   has_type (greatest_ty (type_of s e1) (type_of s e2)) v = true).
Proof.
  intros IH1 IH2 v EV. apply bindr_ok in EV as (x & E1 & (y & E2 & EV)%bindr_ok).
  destruct (negb _); [discriminate|]. split.
  - intros [H1 H2]%orb_false_elim. pose proof (proj1 (IH1 _ E1) H1). pose proof (proj1 (IH2 _ E2) H2).
    destruct x; try discriminate; destruct y; try discriminate. destruct (flt_exact _ _); [|discriminate]. apply fit_typed in EV. tauto.
  - intros [[_ I1]%andb_prop I2]%andb_prop. rewrite (greatest_int _ _ I1 I2).
    destruct x; try discriminate; try (injection EV as <-; reflexivity); destruct y; try discriminate; try (injection EV as <-; reflexivity).
    destruct (flt_exact _ _); [|discriminate]. apply fit_typed in EV. tauto.
Qed.

Lemma sound_cast e t : sound e -> sound (ECast e t).
Proof.
  intros IH x EV. cbn [eval] in EV. apply bindr_ok in EV as (v & Ea & EV). destruct (bad_unsigned _ v); [discriminate|].
  destruct (cast_typed _ _ _ EV) as [T N]. split; [|intros _; exact T].
  cbn [nullable]. intros Hn. apply N. apply (IH v Ea). destruct t; try discriminate; exact Hn.
Qed.

(* UPPER and SUBSTRING map the bytes of a text value by some g *)
Lemma sound_str_fun (g : list Z -> list Z) e : sound e -> forall v,
  bindr (eval s r e) (fun x => match x with VNull => Ok VNull | VStr b => Ok (VStr (g b)) | _ => Err end) = Ok v ->
  (nullable s e = false -> notnull v = true) /\ (well_typed s e && is_text (type_of s e) = true -> has_type (type_of s e) v = true).
Proof.
  intros IH v EV. apply bindr_ok in EV as (x & Ea & EV). split.
  - intros Hn. pose proof (proj1 (IH x Ea) Hn). destruct x; try discriminate. injection EV as <-. reflexivity.
  - intros [_ W]%andb_prop. destruct (type_of s e); try discriminate. destruct x; try discriminate; injection EV as <-; reflexivity.
Qed.

Lemma sound_length e : sound e -> sound (ELength e).
Proof.
  intros IH x EV. cbn [eval] in EV. apply bindr_ok in EV as (v & Ea & EV). split.
  - intros Hn. pose proof (proj1 (IH v Ea) Hn). destruct v; try discriminate. apply fit_typed in EV. tauto.
  - intros _. destruct v; try discriminate; try (injection EV as <-; reflexivity). apply fit_typed in EV. tauto.
Qed.

Theorem eval_sound : forall e, sound e.
Proof.
  induction e using expr_rect'.
  - apply sound_field.
  - apply sound_lit.
  - apply sound_neg; assumption.
  - apply sound_arith; assumption.
  - apply sound_intdiv; assumption.
  - apply sound_mod; assumption.
  - intros v EV. destruct (sound_bin (cmp_res o) TBool _ _ (cmp_res_sound o) IHe1 IHe2 v EV). split; auto.
  - intros v EV. destruct (sound_bin and3 TBool _ _ (fun x y v E => logic_sound x y v (or_introl E)) IHe1 IHe2 v EV). split; auto.
  - intros v EV. destruct (sound_bin or3 TBool _ _ (fun x y v E => logic_sound x y v (or_intror E)) IHe1 IHe2 v EV). split; auto.
  - apply sound_not; assumption.
  - apply sound_isnull.
  - apply sound_in.
  - apply sound_between; assumption.
  - apply sound_case; assumption.
  - apply sound_nullif; assumption.
  - exact (sound_alt _ _ _ IHe1 IHe2).
  - exact (sound_alt _ _ _ IHe1 IHe2).
  - apply sound_if; assumption.
  - exact (sound_extreme Z.max _ _ IHe1 IHe2).
  - exact (sound_extreme Z.min _ _ IHe1 IHe2).
  - apply sound_cast; assumption.
  - intros v EV. destruct (sound_bin concat_val TStr _ _ concat_sound IHe1 IHe2 v EV). split; auto.
  - exact (sound_str_fun _ _ IHe).
  - exact (sound_str_fun _ _ IHe).
  - apply sound_length; assumption.
Qed.
End Sound.

(* corollaries in the shape of the property *)
Theorem eval_has_type s r e x : conforms s r = true -> well_typed s e = true -> eval s r e = Ok x ->
  has_type (type_of s e) x = true.
Proof. intros HC WT EV. exact (proj2 (eval_sound s r HC e x EV) WT). Qed.

(* nullability needs no guard at all: it holds for every expression of the language *)
Theorem not_null_sound s r e : conforms s r = true -> nullable s e = false -> eval s r e <> Ok VNull.
Proof. intros HC HN EV. pose proof (proj1 (eval_sound s r HC e VNull EV) HN) as H. discriminate. Qed.

Theorem project_conforms s r : conforms s r = true -> forall es out,
  forallb (well_typed s) es = true -> eval_all s r es = Some out -> conforms (project_schema s es) out = true.
Proof.
  intros HC. unfold project_schema. induction es as [|e t IH]; intros out WT EV; cbn [forallb eval_all map] in *.
  - injection EV as <-. reflexivity.
  - apply andb_prop in WT. destruct WT as [We Wt].
    destruct (eval s r e) as [x|] eqn:Ee; [|discriminate]. destruct (eval_all s r t) as [xs|] eqn:Et; [|discriminate].
    injection EV as <-. cbn [conforms]. rewrite (IH xs Wt eq_refl), andb_true_r.
    destruct (eval_sound s r HC e x Ee) as [N T]. unfold conforms_col. cbn [c_ty c_nullable]. rewrite (T We). cbn [andb].
    destruct (nullable s e); [reflexivity|]. exact (N eq_refl).
Qed.
