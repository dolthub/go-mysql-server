(* C08 — RANK / DENSE_RANK for every partition (no size bound): the peer-group framer with look-ahead equals a
   streaming definition, and over sorted keys RANK = 1 + #rows with a smaller key, DENSE_RANK = 1 + #distinct
   smaller keys. *)
From Coq Require Import List ZArith Bool Lia Arith.
Import ListNotations.
From GMS Require Import Base.ListFacts Expr.C08Agg.
Open Scope Z_scope.

Lemma key_eqb_eq a b : key_eqb a b = true <-> a = b.
Proof.
  destruct a as [x|], b as [y|]; cbn; split; intros H; try discriminate; try reflexivity.
  - apply Z.eqb_eq in H. congruence.
  - injection H as ->. apply Z.eqb_refl.
Qed.
Lemma key_eqb_refl a : key_eqb a a = true.
Proof. apply key_eqb_eq. reflexivity. Qed.

(* streaming definition: a row ties with its predecessor => same rank and dense rank;
   otherwise rank = position (1-based) and dense rank + 1 *)
Fixpoint sr (pos gr dr : Z) (prev : v) (keys : list v) : list (Z * Z) :=
  match keys with
  | [] => []
  | k :: t => if key_eqb prev k then (gr, dr) :: sr (pos + 1) gr dr k t
              else (pos + 1, dr + 1) :: sr (pos + 1) (pos + 1) (dr + 1) k t
  end.

Lemma rank_rows_stream n ps : 0 <= ps -> forall keys pos gr dr prev,
  1 <= pos -> 1 <= gr <= pos -> (gr = 1 -> dr = 1) -> (keys <> [] -> n <> 1) ->
  rank_rows n ps (ps + gr - 1) (peer_len prev keys) (ps + pos) gr dr keys = sr pos gr dr prev keys.
Proof.
  intros Hps. induction keys as [|k t IH]; intros pos gr dr prev Hpos Hgr Hd Hn; [reflexivity|].
  assert (Hn1 : (n =? 1) = false) by (apply Z.eqb_neq; apply Hn; discriminate).
  assert (Hi0 : (ps + pos =? 0) = false) by (apply Z.eqb_neq; lia).
  assert (Hn' : t <> [] -> n <> 1) by (intros H; apply Hn; discriminate).
  cbn [rank_rows sr peer_len]. rewrite Hi0, Hn1. replace (ps + pos + 1) with (ps + (pos + 1)) by lia.
  destruct (key_eqb prev k) eqn:E.
  - (* a peer of the previous row: the group's frame start gives back its rank *)
    apply key_eqb_eq in E. subst k. replace (ps + gr - 1 - ps + 1) with gr by lia.
    destruct (Z.eqb_spec gr 1) as [G1|G1].
    + rewrite (Hd G1). subst gr. f_equal. rewrite <- (IH (pos + 1) 1 1 prev) by (auto; lia). f_equal; lia.
    + rewrite Z.eqb_refl. cbn [negb]. f_equal. apply IH; (lia || assumption).
  - (* a new peer group starts at this row *)
    replace (ps + pos - ps + 1) with (pos + 1) by lia.
    destruct (Z.eqb_spec (pos + 1) 1) as [G|G]; [lia|]. destruct (Z.eqb_spec (pos + 1) gr) as [G'|G']; [lia|].
    cbn [negb]. f_equal. rewrite <- (IH (pos + 1) (pos + 1) (dr + 1) k) by (lia || assumption). f_equal; lia.
Qed.

Theorem ranks_stream ps k0 t : 0 <= ps -> ranks ps (k0 :: t) = (1, 1) :: sr 1 1 1 k0 t.
Proof.
  intros Hps. unfold ranks. cbn [rank_rows].
  assert (R : (if ps =? 0 then 1 else if Z.of_nat (length (k0 :: t)) =? 1 then 1 else ps - ps + 1) = 1).
  { destruct (ps =? 0); [reflexivity|]. destruct (_ =? 1); [reflexivity|lia]. }
  rewrite R. cbn [Z.eqb Pos.eqb]. f_equal.
  assert (Hn' : t <> [] -> Z.of_nat (length (k0 :: t)) <> 1) by (intros Ht; destruct t; [congruence|]; cbn [length]; lia).
  pose proof (rank_rows_stream (Z.of_nat (length (k0 :: t))) ps Hps t 1 1 1 k0 ltac:(lia) ltac:(lia) ltac:(auto) Hn') as Q.
  rewrite <- Q. f_equal; lia.
Qed.

(* the ORDER BY order on keys: NULL first *)
Definition vlt (a b : v) : bool :=
  match a, b with None, Some _ => true | Some x, Some y => x <? y | _, _ => false end.
Fixpoint vsorted (l : list v) : Prop :=
  match l with [] => True | x :: t => Forall (fun y => vlt y x = false) t /\ vsorted t end.
Definition cnt_lt (l : list v) (k : v) : Z := Z.of_nat (length (filter (fun y => vlt y k) l)).
Fixpoint mem (x : v) (l : list v) : bool := match l with [] => false | y :: t => key_eqb x y || mem x t end.
Fixpoint ndist (l : list v) : nat := match l with [] => O | x :: t => ((if mem x t then 0 else 1) + ndist t)%nat end.
Definition dcnt_lt (l : list v) (k : v) : Z := Z.of_nat (ndist (filter (fun y => vlt y k) l)).

Lemma vlt_irrefl a : vlt a a = false.
Proof. destruct a; cbn; [apply Z.ltb_irrefl|reflexivity]. Qed.
Lemma vlt_trich a b : vlt a b = false -> vlt b a = false -> a = b.
Proof. destruct a as [x|], b as [y|]; cbn; intros H1 H2; try discriminate; try reflexivity. f_equal. lia. Qed.
Lemma vle_lt_trans a b c : vlt b a = false -> vlt b c = true -> vlt a c = true.
Proof. destruct a as [x|], b as [y|], c as [z|]; cbn; intros H1 H2; try discriminate; try reflexivity. lia. Qed.

Lemma mem_In x l : mem x l = true <-> In x l.
Proof.
  induction l as [|y t IH]; cbn; [split; [discriminate|tauto]|].
  rewrite orb_true_iff, IH, key_eqb_eq. split; intros [H|H]; auto.
Qed.

Lemma mem_filter_lt x k P : vlt x k = true -> mem x (filter (fun y => vlt y k) P) = mem x P.
Proof.
  intros Hx. induction P as [|y P IH]; [reflexivity|]. cbn [filter mem]. destruct (vlt y k) eqn:E.
  - cbn [mem]. rewrite IH. reflexivity.
  - rewrite IH. destruct (key_eqb x y) eqn:Exy; [|reflexivity]. apply key_eqb_eq in Exy. subst. congruence.
Qed.

(* all elements <= k and k occurs: the distinct values are those below k plus k itself *)
Lemma ndist_max k P : Forall (fun y => vlt k y = false) P -> mem k P = true ->
  ndist P = S (ndist (filter (fun y => vlt y k) P)).
Proof.
  induction P as [|x P IH]; intros HF HM; [discriminate|]. inversion HF as [|? ? Hx HF']; subst.
  cbn [ndist filter]. destruct (vlt x k) eqn:E.
  - cbn [ndist]. rewrite mem_filter_lt by exact E.
    assert (HM' : mem k P = true).
    { cbn [mem] in HM. apply orb_prop in HM. destruct HM as [HM|HM]; [|exact HM].
      apply key_eqb_eq in HM. subst x. rewrite vlt_irrefl in E. discriminate. }
    rewrite (IH HF' HM'). lia.
  - assert (x = k) by (apply vlt_trich; assumption). subst x.
    destruct (mem k P) eqn:Hk.
    + rewrite (IH HF' eq_refl). lia.
    + assert (HA : Forall (fun y => vlt y k = true) P).
      { rewrite Forall_forall in *. intros y Hy. destruct (vlt y k) eqn:Ey; [reflexivity|].
        assert (y = k) by (apply vlt_trich; [exact Ey|apply HF'; exact Hy]). subst y.
        apply mem_In in Hy. congruence. }
      rewrite (filter_all _ _ (proj1 (Forall_forall _ _) HA)). lia.
Qed.

Lemma vsorted_app_inv P t : vsorted (P ++ t) -> vsorted P /\ vsorted t /\ (forall p y, In p P -> In y t -> vlt y p = false).
Proof.
  induction P as [|x P IH]; cbn [app vsorted]; intros H.
  - repeat split; auto. intros p y [].
  - destruct H as [HF HS]. apply Forall_app in HF. destruct HF as [HF1 HF2]. destruct (IH HS) as [A [B C]].
    repeat split; auto. intros p y [<-|Hp] Hy; [rewrite Forall_forall in HF2; apply HF2; exact Hy|apply C; assumption].
Qed.

(* in a sorted list, what precedes an occurrence of k is <= k, and only that can be < k *)
Lemma sorted_split L P k t : L = P ++ k :: t -> vsorted L ->
  Forall (fun y => vlt k y = false) P /\ filter (fun y => vlt y k) L = filter (fun y => vlt y k) P.
Proof.
  intros -> H. destruct (vsorted_app_inv _ _ H) as (_ & [Hk _] & C). split.
  - rewrite Forall_forall. intros y Hy. apply (C y k Hy). left. reflexivity.
  - rewrite filter_app, (filter_none _ (k :: t)), app_nil_r; [reflexivity|]. apply Forall_forall. constructor; [apply vlt_irrefl|exact Hk].
Qed.

(* the streaming state after the rows P ++ [prev] of the sorted list L: position, and the rank pair of prev *)
Lemma sr_counts L : vsorted L -> forall t P prev, L = P ++ prev :: t ->
  sr (Z.of_nat (S (length P))) (1 + cnt_lt L prev) (1 + dcnt_lt L prev) prev t
  = map (fun k => (1 + cnt_lt L k, 1 + dcnt_lt L k)) t.
Proof.
  intros HS. induction t as [|k t IH]; intros P prev EL; [reflexivity|]. cbn [sr map].
  assert (EL' : L = (P ++ [prev]) ++ k :: t) by (rewrite <- app_assoc; exact EL).
  specialize (IH (P ++ [prev]) k EL'). rewrite app_length, Nat.add_1_r in IH.
  replace (Z.of_nat (S (length P)) + 1) with (Z.of_nat (S (S (length P)))) by lia.
  destruct (key_eqb prev k) eqn:E.
  - apply key_eqb_eq in E. subst k. f_equal. exact IH.
  - (* a new key: it is strictly larger, so exactly the rows before it are smaller *)
    destruct (sorted_split L P prev (k :: t) EL HS) as [Ple Fprev].
    destruct (sorted_split L _ k t EL' HS) as [Ple' Fk].
    assert (Hlt : vlt prev k = true).
    { destruct (vlt prev k) eqn:El; [reflexivity|]. rewrite (vlt_trich prev k El), key_eqb_refl in E; [discriminate|].
      rewrite Forall_forall in Ple'. apply Ple', in_elt. }
    assert (HPlt : Forall (fun y => vlt y k = true) (P ++ [prev])).
    { apply Forall_app. split; [|repeat constructor; exact Hlt].
      eapply Forall_impl; [|exact Ple]. intros y Hy. exact (vle_lt_trans _ _ _ Hy Hlt). }
    assert (Hc : cnt_lt L k = Z.of_nat (S (length P)))
      by (unfold cnt_lt; rewrite Fk, (filter_all _ _ (proj1 (Forall_forall _ _) HPlt)), app_length, Nat.add_1_r; reflexivity).
    assert (Hd : dcnt_lt L k = 1 + dcnt_lt L prev).
    { unfold dcnt_lt. rewrite Fk, Fprev, (filter_all _ _ (proj1 (Forall_forall _ _) HPlt)), (ndist_max prev (P ++ [prev])).
      - rewrite filter_app. cbn [filter]. rewrite vlt_irrefl, app_nil_r. lia.
      - apply Forall_app. split; [exact Ple|repeat constructor; apply vlt_irrefl].
      - apply mem_In, in_elt. }
    rewrite <- IH, Hc, Hd. f_equal; f_equal; lia.
Qed.

(* RANK = 1 + #{rows with a smaller key};  DENSE_RANK = 1 + #{distinct smaller keys}; any partition, any start *)
Theorem ranks_spec ps keys : 0 <= ps -> vsorted keys ->
  ranks ps keys = map (fun k => (1 + cnt_lt keys k, 1 + dcnt_lt keys k)) keys.
Proof.
  intros Hps HS. destruct keys as [|k0 t]; [reflexivity|]. rewrite ranks_stream by exact Hps.
  destruct (sorted_split (k0 :: t) [] k0 t eq_refl HS) as [_ F]. cbn [map].
  rewrite <- (sr_counts _ HS t [] k0 eq_refl). unfold cnt_lt, dcnt_lt. rewrite F. reflexivity.
Qed.
