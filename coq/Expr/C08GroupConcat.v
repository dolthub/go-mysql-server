(* C08 — GROUP_CONCAT (group_concat.go groupConcatBuffer.Update / Eval) over one text expression:
   NULL values are skipped, and so are EMPTY strings (as written: `if vs == "" { return nil }`); with DISTINCT a value
   already seen is skipped; Eval sorts the kept rows stably by the ORDER BY key (sort.Stable(RowSorter)), joins them
   with the separator, stops as soon as the text reaches group_concat_max_len and cuts it to that length; no row
   kept => NULL. *)
From Coq Require Import List NArith ZArith Bool Lia Arith.
Import ListNotations.
From GMS Require Import Base.CorrLib Base.ListFacts Phys.C04Sort.

Definition str := list N.
Definition gc_row : Type := (Z * option str)%type.           (* ORDER BY key (an integer), value *)

Definition seen (s : str) (l : list str) : bool := existsb (bytes_eqb s) l.

(* Update: state = (distinctSet, rows) *)
Definition gc_update (distinct : bool) (st : list str * list (Z * str)) (r : gc_row) : list str * list (Z * str) :=
  match snd r with
  | None => st
  | Some [] => st
  | Some vs =>
    if distinct && seen vs (fst st) then st
    else ((if distinct then vs :: fst st else fst st), snd st ++ [(fst r, vs)])
  end.

Definition gc_cmp (desc : bool) (a b : Z * str) : comparison :=
  if desc then Z.compare (fst b) (fst a) else Z.compare (fst a) (fst b).

(* the join loop of Eval with its early exit *)
Fixpoint gc_build (sep : str) (maxlen : nat) (first : bool) (acc : str) (vals : list str) : str :=
  match vals with
  | [] => acc
  | x :: t =>
    let acc' := if first then acc ++ x else acc ++ sep ++ x in
    if (maxlen <=? length acc')%nat then acc' else gc_build sep maxlen false acc' t
  end.

Definition gc_eval (order : option bool) (sep : str) (maxlen : nat) (rows : list (Z * str)) : option str :=
  match rows with
  | [] => None
  | _ =>
    let sorted := match order with None => rows | Some desc => ssort (gc_cmp desc) rows end in
    Some (firstn maxlen (gc_build sep maxlen true [] (map snd sorted)))
  end.

Definition group_concat (distinct : bool) (order : option bool) (sep : str) (maxlen : nat) (rs : list gc_row) : option str :=
  gc_eval order sep maxlen (snd (fold_left (gc_update distinct) rs ([], []))).

(* values that take part: non-NULL, non-empty [the code's reading]; first occurrences only under DISTINCT *)
Fixpoint kept (distinct : bool) (sn : list str) (rs : list gc_row) : list (Z * str) :=
  match rs with
  | [] => []
  | (k, None) :: t => kept distinct sn t
  | (k, Some []) :: t => kept distinct sn t
  | (k, Some vs) :: t =>
    if distinct && seen vs sn then kept distinct sn t
    else (k, vs) :: kept distinct (if distinct then vs :: sn else sn) t
  end.
Fixpoint intercalate (sep : str) (vals : list str) : str :=
  match vals with [] => [] | [x] => x | x :: t => x ++ sep ++ intercalate sep t end.
Definition gc_spec (distinct : bool) (order : option bool) (sep : str) (maxlen : nat) (rs : list gc_row) : option str :=
  match kept distinct [] rs with
  | [] => None
  | rows =>
    let sorted := match order with None => rows | Some desc => ssort (gc_cmp desc) rows end in
    Some (firstn maxlen (intercalate sep (map snd sorted)))
  end.

Lemma fold_kept distinct : forall rs sn acc,
  fold_left (gc_update distinct) rs (sn, acc) = (fst (fold_left (gc_update distinct) rs (sn, acc)), acc ++ kept distinct sn rs).
Proof.
  induction rs as [|[k [vs|]] t IH]; intros sn acc; cbn [fold_left kept].
  - rewrite app_nil_r. reflexivity.
  - unfold gc_update at 2 4. cbn [snd fst]. destruct vs as [|c vs']; [apply IH|].
    destruct (distinct && seen (c :: vs') sn) eqn:E; [apply IH|].
    rewrite IH at 1. cbn [snd]. rewrite <- app_assoc. reflexivity.
  - unfold gc_update at 2 4. cbn [snd]. apply IH.
Qed.

Lemma gc_build_spec sep maxlen : forall vals acc,
  firstn maxlen (gc_build sep maxlen false acc vals)
  = firstn maxlen (acc ++ flat_map (fun x => sep ++ x) vals).
Proof.
  induction vals as [|x t IH]; intros acc; cbn [gc_build flat_map]; [rewrite app_nil_r; reflexivity|].
  destruct (Nat.leb_spec maxlen (length (acc ++ sep ++ x))) as [H|H].
  - rewrite <- (firstn_prefix maxlen (acc ++ sep ++ x) (flat_map (fun y => sep ++ y) t)) by exact H.
    rewrite <- !app_assoc. reflexivity.
  - rewrite IH. rewrite <- !app_assoc. reflexivity.
Qed.

Lemma intercalate_cons sep x t : intercalate sep (x :: t) = x ++ flat_map (fun y => sep ++ y) t.
Proof.
  revert x. induction t as [|y t IH]; intros x; [cbn; rewrite app_nil_r; reflexivity|].
  change (intercalate sep (x :: y :: t)) with (x ++ sep ++ intercalate sep (y :: t)).
  rewrite IH. cbn [flat_map]. rewrite <- !app_assoc. reflexivity.
Qed.

Lemma gc_build_first sep maxlen vals :
  firstn maxlen (gc_build sep maxlen true [] vals) = firstn maxlen (intercalate sep vals).
Proof.
  destruct vals as [|x t]; [reflexivity|]. cbn [gc_build app]. rewrite intercalate_cons.
  destruct (Nat.leb_spec maxlen (length x)) as [H|H].
  - symmetry. apply firstn_prefix. exact H.
  - apply gc_build_spec.
Qed.

Theorem group_concat_spec distinct order sep maxlen rs :
  group_concat distinct order sep maxlen rs = gc_spec distinct order sep maxlen rs.
Proof.
  unfold group_concat, gc_spec, gc_eval. rewrite fold_kept. cbn [snd app].
  destruct (kept distinct [] rs) as [|r0 rows]; [reflexivity|]. f_equal. apply gc_build_first.
Qed.

(* the definition of GROUP_CONCAT keeps empty strings: 'a', '', 'b' concatenates to 'a,,b'; the code gives 'a,b' *)
Theorem group_concat_empty_string_refuted :
  exists rs, group_concat false None [44%N] 1024 rs = Some [97; 44; 98]%N /\
             rs = [(1%Z, Some [97%N]); (2%Z, Some []); (3%Z, Some [98%N])].
Proof. eexists. split; [|reflexivity]. vm_compute. reflexivity. Qed.
