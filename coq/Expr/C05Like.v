(* C05: LIKE and the LIKE-prefix rewrite of simplifyExpression (sql/analyzer/optimization_rules.go, case *expression.Like,
   incrementLastRune) for utf8mb4_0900_bin.  Strings and patterns are sequences of code points; the collation compares
   code points lexicographically ([cmp_bytes] of C05Expr is that order); escapes are not modelled: [rewrite_like] leaves
   every pattern containing a backslash unchanged, whereas the rule counts `\_` and `\%` as plain characters and
   rewrites such a pattern with the backslash kept; the generator emits no backslashes. *)
From Coq Require Import List ZArith NArith Bool Lia.
Import ListNotations.
From GMS Require Import Expr.C05Expr.
Open Scope N_scope.

(* '%' = 37 matches any sequence, '_' = 95 any single code point *)
Fixpoint like (p : list N) : list N -> bool :=
  match p with
  | [] => fun s => match s with [] => true | _ => false end
  | c :: p' =>
      if N.eqb c 37 then
        (fix go (s : list N) : bool := like p' s || match s with [] => false | _ :: s' => go s' end)
      else if N.eqb c 95 then fun s => match s with [] => false | _ :: s' => like p' s' end
      else fun s => match s with [] => false | x :: s' => N.eqb x c && like p' s' end
  end.

Definition plain_char (c : N) : bool := negb (N.eqb c 37) && negb (N.eqb c 95) && negb (N.eqb c 92).
Definition no_wild (p : list N) : bool := forallb plain_char p.

Fixpoint is_prefix (p s : list N) : bool :=
  match p, s with
  | [], _ => true
  | _, [] => false
  | c :: p', x :: s' => N.eqb x c && is_prefix p' s'
  end.

(* incrementLastRune: the last code point replaced by the next one, skipping the surrogate range; none for U+10FFFF *)
Definition max_rune : N := 1114111.
Definition next_rune (c : N) : N := if N.eqb (c + 1) 55296 then 57344 else c + 1.
Definition incr_last (p : list N) : option (list N) :=
  match rev p with
  | [] => None
  | c :: q => if N.eqb c max_rune then None else Some (rev q ++ [next_rune c])
  end.

Definition ge_str (s p : list N) : bool := match cmp_bytes s p with Lt => false | _ => true end.
Definition lt_str (s u : list N) : bool := match cmp_bytes s u with Lt => true | _ => false end.

(* what the rule produces for  s LIKE pat  ([LRSame] = left unchanged); the result is given by its truth value on s *)
Inductive like_rewrite := LREquals (p : list N) | LRRange (lo hi : list N) | LRLowerAndLike (lo : list N) | LRSame.

Definition count (c : N) (p : list N) : nat := length (filter (N.eqb c) p).

Definition rewrite_like (pat : list N) : like_rewrite :=
  match pat with
  | [] => LRSame
  | _ =>
      if existsb (N.eqb 92) pat then LRSame                       (* escapes: not modelled, not generated *)
      else if Nat.ltb 0 (count 95 pat) then LRSame                (* single-character wildcards *)
      else match count 37 pat with
           | O => LREquals pat
           | S O =>
               match rev pat with
               | c :: q =>
                   if N.eqb c 37 then
                     match q with
                     | [] => LRSame                               (* just "%" *)
                     | _ => match incr_last (rev q) with
                            | Some hi => LRRange (rev q) hi
                            | None => LRLowerAndLike (rev q)
                            end
                     end
                   else LRSame
               | [] => LRSame
               end
           | _ => LRSame
           end
  end.

Definition eval_rewrite (pat : list N) (s : list N) : bool :=
  match rewrite_like pat with
  | LREquals p => list_eqb N.eqb s p
  | LRRange lo hi => ge_str s lo && lt_str s hi
  | LRLowerAndLike lo => ge_str s lo && like pat s
  | LRSame => like pat s
  end.

Lemma like_pct_all s : like [37] s = true.
Proof. induction s as [|x s IH]; cbn; [reflexivity|]. cbn in IH. exact IH. Qed.

Lemma like_plain c p s : plain_char c = true ->
  like (c :: p) s = match s with [] => false | x :: s' => N.eqb x c && like p s' end.
Proof.
  unfold plain_char. intros [[H37 H95]%andb_prop _]%andb_prop. apply negb_true_iff in H37, H95.
  cbn [like]. rewrite H37, H95. reflexivity.
Qed.

Lemma like_prefix p : no_wild p = true -> forall s, like (p ++ [37]) s = is_prefix p s.
Proof.
  induction p as [|c p IH]; intros Hn s; [apply like_pct_all|].
  apply andb_prop in Hn as [Hc Hn]. cbn [app]. rewrite (like_plain _ _ _ Hc).
  destruct s as [|x s]; [reflexivity|]. cbn [is_prefix]. rewrite (IH Hn). reflexivity.
Qed.

Lemma like_no_wild p : no_wild p = true -> forall s, like p s = list_eqb N.eqb s p.
Proof.
  induction p as [|c p IH]; intros Hn s; [destruct s; reflexivity|].
  apply andb_prop in Hn as [Hc Hn]. rewrite (like_plain _ _ _ Hc).
  destruct s as [|x s]; [reflexivity|]. cbn [list_eqb]. rewrite (IH Hn). reflexivity.
Qed.

Definition valid_rune (c : N) : Prop := c < 55296 \/ 57344 <= c.

(* no valid code point lies strictly between c and its successor *)
Lemma next_rune_gap x c : valid_rune x -> valid_rune c -> (x < next_rune c <-> x <= c).
Proof. unfold valid_rune, next_rune. destruct (N.eqb_spec (c + 1) 55296); lia. Qed.

Lemma prefix_range_last c x s' : valid_rune x -> valid_rune c ->
  N.eqb x c = (ge_str (x :: s') [c] && lt_str (x :: s') [next_rune c]).
Proof.
  intros Vx Vc. pose proof (next_rune_gap x c Vx Vc) as G. unfold ge_str, lt_str. cbn [cmp_bytes].
  destruct (N.eqb_spec x c) as [->|Hne].
  - rewrite N.compare_refl. destruct (N.compare_spec c (next_rune c)); try lia. destruct s'; reflexivity.
  - destruct (N.compare_spec x c); try reflexivity; try lia.
    destruct (N.compare_spec x (next_rune c)); try lia; destruct s'; reflexivity.
Qed.

Lemma prefix_range q c : valid_rune c ->
  forall s, Forall valid_rune s ->
    is_prefix (q ++ [c]) s = (ge_str s (q ++ [c]) && lt_str s (q ++ [next_rune c])).
Proof.
  intros Vc. induction q as [|y q IH]; intros s Vs; (destruct s as [|x s']; [reflexivity|]); inversion Vs; subst;
    cbn [app is_prefix].
  - rewrite <- prefix_range_last by assumption. destruct s'; apply andb_true_r.
  - unfold ge_str, lt_str in *. cbn [cmp_bytes].
    destruct (N.eqb_spec x y) as [->|Hne]; [rewrite N.compare_refl; apply IH; assumption|].
    destruct (N.compare_spec x y); try lia; reflexivity.
Qed.

Lemma incr_last_snoc q c : incr_last (q ++ [c]) = if N.eqb c max_rune then None else Some (q ++ [next_rune c]).
Proof. unfold incr_last. rewrite rev_app_distr. cbn. rewrite rev_involutive. reflexivity. Qed.

(* the range produced by the rule selects exactly the strings matching  prefix%  *)
Theorem like_prefix_range q c hi s :
  no_wild (q ++ [c]) = true -> valid_rune c -> Forall valid_rune s ->
  incr_last (q ++ [c]) = Some hi ->
  like ((q ++ [c]) ++ [37]) s = (ge_str s (q ++ [c]) && lt_str s hi).
Proof.
  intros Hn Vc Vs Hi. rewrite incr_last_snoc in Hi. destruct (N.eqb c max_rune); [discriminate|].
  injection Hi as <-. rewrite (like_prefix _ Hn). apply prefix_range; assumption.
Qed.

Lemma prefix_ge p : forall s, is_prefix p s = true -> ge_str s p = true.
Proof.
  induction p as [|c p IH]; intros s H.
  - unfold ge_str. destruct s; reflexivity.
  - destruct s as [|x s]; [discriminate|]. cbn [is_prefix] in H. apply andb_prop in H. destruct H as [H1 H2].
    apply N.eqb_eq in H1. subst. unfold ge_str in *. cbn [cmp_bytes]. rewrite N.compare_refl. apply IH. exact H2.
Qed.

(* the residual form keeps the LIKE, so it is equivalent as soon as the prefix implies the lower bound *)
Theorem like_lower_and_like p s :
  no_wild p = true -> (ge_str s p && like (p ++ [37]) s) = like (p ++ [37]) s.
Proof.
  intros Hn. rewrite (like_prefix p Hn). destruct (is_prefix p s) eqn:E; [|apply andb_false_r].
  rewrite (prefix_ge p s E). reflexivity.
Qed.

Lemma count_app c a b : count c (a ++ b) = (count c a + count c b)%nat.
Proof. unfold count. rewrite filter_app, app_length. reflexivity. Qed.

Lemma no_wild_of_counts p :
  existsb (N.eqb 92) p = false -> count 95 p = O -> count 37 p = O -> no_wild p = true.
Proof.
  induction p as [|c p IH]; [reflexivity|]. unfold count in *. cbn [existsb filter].
  intros H92 H95 H37. apply orb_false_elim in H92. destruct H92 as [E92 H92].
  destruct (N.eqb 95 c) eqn:E95; [cbn in H95; discriminate|]. destruct (N.eqb 37 c) eqn:E37; [cbn in H37; discriminate|].
  cbn [no_wild forallb]. unfold plain_char.
  rewrite (N.eqb_sym c 37), E37, (N.eqb_sym c 95), E95, (N.eqb_sym c 92), E92. cbn [negb andb].
  apply IH; assumption.
Qed.

Theorem rewrite_like_sound pat s :
  Forall valid_rune pat -> Forall valid_rune s -> eval_rewrite pat s = like pat s.
Proof.
  intros Vp Vs. unfold eval_rewrite, rewrite_like.
  destruct pat as [|p0 pat0] eqn:Epat; [reflexivity|]. rewrite <- Epat in *. clear Epat p0 pat0.
  destruct (existsb (N.eqb 92) pat) eqn:E92; [reflexivity|].
  destruct (Nat.ltb 0 (count 95 pat)) eqn:E95; [reflexivity|].
  apply Nat.ltb_ge in E95. assert (C95 : count 95 pat = O) by lia.
  destruct (count 37 pat) as [|[|n]] eqn:E37; try reflexivity.
  - symmetry. apply like_no_wild. apply no_wild_of_counts; assumption.
  - destruct (rev pat) as [|c q] eqn:Er; [reflexivity|].
    destruct (N.eqb_spec c 37) as [->|]; [|reflexivity].
    destruct q as [|c0 q0] eqn:Eq; [reflexivity|]. rewrite <- Eq in *.
    assert (Hp : pat = rev q ++ [37]) by (rewrite <- (rev_involutive pat), Er; reflexivity).
    assert (Hnw : no_wild (rev q) = true).
    { rewrite Hp in E92, C95, E37. rewrite existsb_app in E92. apply orb_false_elim in E92. destruct E92 as [A _].
      rewrite count_app in C95, E37. cbn in C95, E37. apply no_wild_of_counts; [exact A|lia|lia]. }
    assert (Hq : rev q = rev q0 ++ [c0]) by (rewrite Eq; reflexivity).
    destruct (incr_last (rev q)) as [hi|] eqn:Ei.
    + rewrite Hp. rewrite Hq in *. apply eq_sym. apply like_prefix_range; try assumption.
      rewrite Hp in Vp. apply Forall_app in Vp. destruct Vp as [Vp _]. apply Forall_app in Vp. destruct Vp as [_ Vc].
      inversion Vc; assumption.
    + rewrite Hp. apply like_lower_and_like. exact Hnw.
Qed.
