(* C10 — index arithmetic of the string functions, with Go's wrapping int64 arithmetic and every slice
   expression that would be out of range as the explicit outcome [Panic].
   Mirrors sql/expression/function/substring.go (Substring.Eval, Left.Eval, Right.Eval), insert.go (Insert.Eval),
   rpad_lpad.go (padString, divmod). *)
From Coq Require Import ZArith Bool Lia.
Open Scope Z_scope.

Definition i64min : Z := - 2 ^ 63.
Definition i64max : Z := 2 ^ 63 - 1.
Definition in64 (z : Z) : Prop := i64min <= z <= i64max.
Definition wrap (z : Z) : Z := (z + 2 ^ 63) mod 2 ^ 64 - 2 ^ 63.

Inductive outcome : Type :=
| Slice (lo hi : Z)           (* the result is text[lo:hi] (possibly concatenated with other in-range pieces) *)
| Const                       (* "" or the unchanged input *)
| Fail                        (* an error value is returned *)
| Panic.                      (* slice bounds out of range / makeslice: len out of range *)

(* Go: s[lo:hi] panics unless 0 <= lo <= hi <= len(s) *)
Definition slice (n lo hi : Z) : outcome :=
  if (0 <=? lo) && (lo <=? hi) && (hi <=? n) then Slice lo hi else Panic.

(* Substring.Eval after the conversions: n = rune count, start and len are int64 *)
Definition substring (n start len : Z) : outcome :=
  let startIdx := if start <? 0 then wrap (n + start) else wrap (start - 1) in
  if (startIdx <? 0) || (startIdx >=? n) || (len <=? 0) then Const else
  let len' := if wrap (startIdx + len) >? n then wrap (n - startIdx) else len in
  slice n startIdx (wrap (startIdx + len')).

(* Left.Eval: text[:length] *)
Definition left (n len : Z) : outcome :=
  let length := if len >? n then n else len in
  if length <=? 0 then Const else slice n 0 length.

(* Right.Eval: text[runeCount-length:] *)
Definition right (n len : Z) : outcome :=
  let length := if len >? n then n else len in
  if length <=? 0 then Const else slice n (wrap (n - length)) n.

(* Insert.Eval: s[:startIdx] + newstr + s[endIdx:]  (n = len(s) in bytes) *)
Definition insert (n p l : Z) : outcome :=
  if p <? 1 then Const else
  let startIdx := wrap (p - 1) in
  if startIdx >=? n then Const else
  let endIdx := if l <? 0 then n else
                  let e := wrap (startIdx + l) in if e >? n then n else e in
  match slice n 0 startIdx, slice n endIdx n with
  | Slice _ _, Slice lo hi => Slice lo hi
  | _, _ => Panic
  end.

(* padString: n = len(str), m = len(padStr); strings.Repeat allocates quo*m bytes and the runtime refuses
   (recoverable panic "makeslice: len out of range") anything above its maximum allocation size *)
Definition max_alloc : Z := 2 ^ 48.

Definition pad (n m length : Z) : outcome :=
  if length <=? 0 then Const else
  if n >=? length then slice n 0 length else
  if m =? 0 then Const else
  let padLen := wrap (length - n) in
  let quo := padLen / m in
  let rem := padLen mod m in
  if quo * m >? max_alloc then Panic else
  match slice m 0 rem with
  | Slice _ _ => slice (n + quo * m + rem) 0 length
  | o => o
  end.

(* the hypothesis is [in64 z] written out, so that [lia] proves it once [in64] is unfolded in the context *)
Lemma wrap_id z : - 2 ^ 63 <= z <= 2 ^ 63 - 1 -> wrap z = z.
Proof. intros H. unfold wrap. rewrite Z.mod_small by lia. lia. Qed.

Lemma slice_ok n lo hi : 0 <= lo <= hi -> hi <= n -> slice n lo hi = Slice lo hi.
Proof. intros H1 H2. unfold slice. rewrite !(proj2 (Z.leb_le _ _)) by lia. reflexivity. Qed.

Ltac zb := repeat match goal with
  | H : (_ <? _) = true |- _ => apply Z.ltb_lt in H
  | H : (_ <? _) = false |- _ => apply Z.ltb_ge in H
  | H : (_ <=? _) = true |- _ => apply Z.leb_le in H
  | H : (_ <=? _) = false |- _ => apply Z.leb_gt in H
  | H : (_ >? _) = _ |- _ => rewrite Z.gtb_ltb in H
  | H : (_ >=? _) = _ |- _ => rewrite Z.geb_leb in H
  | H : (_ || _) = false |- _ => apply orb_false_iff in H; destruct H
  end.

Theorem left_never_panics n len : 0 <= n -> left n len <> Panic.
Proof.
  intros Hn. unfold left. destruct (len >? n) eqn:E1; destruct (_ <=? 0) eqn:E2; try discriminate; zb;
    rewrite slice_ok by lia; discriminate.
Qed.

Theorem right_never_panics n len : 0 <= n -> in64 n -> right n len <> Panic.
Proof.
  unfold in64, i64min, i64max. intros Hn Hi. unfold right.
  destruct (len >? n) eqn:E1; destruct (_ <=? 0) eqn:E2; try discriminate; zb;
    rewrite wrap_id, slice_ok by lia; discriminate.
Qed.

(* SUBSTRING from a start index i inside the text: text[i : min n (i + len)] as long as i + len does not overflow *)
Lemma substring_from n i len : - 2 ^ 63 <= n <= 2 ^ 63 - 1 -> 0 <= i < n -> 0 < len -> i + len <= 2 ^ 63 - 1 ->
  slice n i (wrap (i + (if wrap (i + len) >? n then wrap (n - i) else len))) = Slice i (Z.min n (i + len)).
Proof.
  intros Hn Hi Hl Hov. rewrite (wrap_id (i + len)) by lia. destruct (i + len >? n) eqn:E; zb.
  - rewrite (wrap_id (n - i)), wrap_id, slice_ok by lia. f_equal. lia.
  - rewrite wrap_id, slice_ok by lia. f_equal. lia.
Qed.

(* SUBSTRING: safe whenever start index + length does not overflow int64 ... *)
Theorem substring_no_overflow_never_panics n start len :
  0 <= n -> in64 n -> in64 start -> in64 len ->
  (start >= 1 -> start - 1 + len <= i64max) -> (start < 0 -> n + start + len <= i64max) ->
  substring n start len <> Panic.
Proof.
  unfold in64, i64min, i64max. intros Hn Hi Hs Hl Hov Hov2. unfold substring.
  destruct (start <? 0) eqn:E0; zb; rewrite wrap_id by lia;
    (destruct (_ || _ || _) eqn:E1; [discriminate|]); zb; rewrite substring_from by lia; discriminate.
Qed.

(* ... and not otherwise: SUBSTRING('abc', 2, 9223372036854775807) *)
Theorem substring_overflow_panics : substring 3 2 i64max = Panic.
Proof. vm_compute. reflexivity. Qed.

Theorem insert_no_overflow_never_panics n p l :
  0 <= n -> in64 n -> in64 p -> in64 l -> (p - 1 + l <= i64max) -> insert n p l <> Panic.
Proof.
  unfold in64, i64min, i64max. intros Hn Hi Hp Hl Hov. unfold insert.
  destruct (p <? 1) eqn:E0; [discriminate|]. zb. rewrite (wrap_id (p - 1)) by lia.
  destruct (p - 1 >=? n) eqn:E1; [discriminate|]. zb. rewrite (slice_ok n 0 (p - 1)) by lia.
  destruct (l <? 0) eqn:E2; [|rewrite (wrap_id (p - 1 + l)) by lia; destruct (p - 1 + l >? n) eqn:E3];
    zb; rewrite slice_ok by lia; discriminate.
Qed.

(* INSERT('abc', 2, 9223372036854775807, 'x') *)
Theorem insert_overflow_panics : insert 3 2 i64max = Panic.
Proof. vm_compute. reflexivity. Qed.

Theorem pad_small_never_panics n m length :
  0 <= n -> 0 <= m -> in64 n -> in64 length -> length <= max_alloc -> pad n m length <> Panic.
Proof.
  unfold in64, i64min, i64max, max_alloc. intros Hn Hm Hi Hl Hmax. unfold pad.
  destruct (length <=? 0) eqn:E0; [discriminate|].
  destruct (n >=? length) eqn:E1; zb; [rewrite slice_ok by lia; discriminate|].
  destruct (m =? 0) eqn:E2; [discriminate|]. apply Z.eqb_neq in E2. rewrite (wrap_id (length - n)) by lia.
  (* quo * m + rem = length - n with 0 <= rem < m *)
  pose proof (Z.div_mod (length - n) m ltac:(lia)) as Hdm.
  pose proof (Z.mod_pos_bound (length - n) m ltac:(lia)) as Hmod.
  assert (0 <= (length - n) / m) as Hq by (apply Z.div_pos; lia).
  destruct (_ >? max_alloc) eqn:E3; zb; [unfold max_alloc in E3; lia|].
  rewrite (slice_ok m 0 _), slice_ok by lia. discriminate.
Qed.

(* LPAD('a', 5000000000000000000, 'b') *)
Theorem pad_huge_panics : pad 1 1 5000000000000000000 = Panic.
Proof. vm_compute. reflexivity. Qed.
