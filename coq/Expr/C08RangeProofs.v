(* C08 — RANGE frames: the sliding search of rangeFramerBase.Next yields, for every sorted (ascending) integer key
   list and all bounds/offsets, exactly the rows whose key lies within the bounds of the current row's key. *)
From Coq Require Import List ZArith Bool Lia Arith.
Import ListNotations.
From GMS Require Import Expr.C08Agg.
Open Scope Z_scope.

Fixpoint zsorted (l : list Z) : Prop :=
  match l with [] => True | x :: t => Forall (fun y => x <= y) t /\ zsorted t end.

Definition ge (t : Z) : Z -> bool := fun x => x >=? t.

Lemma first_sat_ext p q l : (forall x, p x = q x) -> first_sat p l = first_sat q l.
Proof. intros H. induction l as [|k t IH]; cbn; [reflexivity|]. rewrite H, IH. reflexivity. Qed.

Lemma gt_as_ge c x : (x >? c) = ge (c + 1) x.
Proof. unfold ge. destruct (Z.gtb_spec x c), (Z.geb_spec x (c + 1)); try reflexivity; lia. Qed.

Lemma first_sat_le p l : (first_sat p l <= length l)%nat.
Proof. induction l as [|k t IH]; cbn; [lia|]. destruct (p k); lia. Qed.

Lemma first_sat_spec t l : zsorted l -> forall j, (j < length l)%nat ->
  ((j < first_sat (ge t) l)%nat <-> nth j l 0 < t).
Proof.
  induction l as [|x r IH]; intros Hs j Hj; [cbn in Hj; lia|].
  destruct Hs as [Hx Hr]. cbn [first_sat]. unfold ge at 1. destruct (Z.geb_spec x t) as [H|H].
  - split; [lia|]. intros Hlt. exfalso. destruct j as [|j]; cbn [nth] in Hlt; [lia|].
    rewrite Forall_forall in Hx. cbn [length] in Hj. assert (Hjr : (j < length r)%nat) by lia.
    specialize (Hx (nth j r 0) (nth_In r 0 Hjr)). lia.
  - destruct j as [|j]; cbn [nth]; [split; intros; lia|].
    cbn [length] in Hj. assert (Hjr : (j < length r)%nat) by lia. rewrite <- (IH Hr j Hjr). lia.
Qed.

Lemma first_sat_mono t1 t2 l : t1 <= t2 -> (first_sat (ge t1) l <= first_sat (ge t2) l)%nat.
Proof.
  intros H. induction l as [|x r IH]; cbn; [lia|]. unfold ge at 1 3.
  destruct (Z.geb_spec x t1), (Z.geb_spec x t2); lia.
Qed.

Lemma find_before p l : forall s, (s <= first_sat p l)%nat -> find_boundary p l s = first_sat p l.
Proof.
  unfold find_boundary. induction l as [|x r IH]; intros s Hs; cbn [first_sat] in *.
  - assert (s = O) by lia. subst. reflexivity.
  - destruct s as [|s]; [reflexivity|]. destruct (p x) eqn:E; [lia|]. cbn [skipn]. rewrite <- (IH s) by lia. lia.
Qed.

Lemma find_after t l : zsorted l -> forall s, (first_sat (ge t) l <= s <= length l)%nat -> find_boundary (ge t) l s = s.
Proof.
  unfold find_boundary. induction l as [|x r IH]; intros Hs s H; cbn [first_sat length] in *.
  - assert (s = O) by lia. subst. reflexivity.
  - destruct Hs as [Hx Hr]. destruct s as [|s].
    + cbn [skipn first_sat]. destruct (ge t x); [reflexivity|lia].
    + cbn [skipn]. specialize (IH Hr s). unfold ge in H at 1. destruct (Z.geb_spec x t) as [Hge|Hlt]; [|lia].
      (* all later keys are >= t *)
      assert (F0 : first_sat (ge t) r = O); [|lia].
      destruct r as [|y r']; [reflexivity|]. cbn. unfold ge. inversion Hx; subst.
      destruct (Z.geb_spec y t); [reflexivity|lia].
Qed.

Lemma nth_map_seq {B} (f : nat -> B) n i d : (i < n)%nat -> nth i (map f (seq 0 n)) d = f i.
Proof.
  intros H. rewrite (nth_indep _ d (f O)) by (rewrite map_length, seq_length; exact H).
  rewrite map_nth, seq_nth by exact H. reflexivity.
Qed.

Section Frames.
  Variables (sb eb : bound) (keys : list Z).
  Hypothesis SORTED : zsorted keys.
  Notation n := (length keys).
  Definition key_at (i : nat) := nth i keys 0.
  Definition ideal_start (i : nat) : nat := if is_unbp sb then O else first_sat (ge (key_at i + off sb)) keys.
  Definition ideal_end (i : nat) : nat := if is_unbf eb then n else first_sat (ge (key_at i + off eb + 1)) keys.

  Lemma key_mono i j : (i <= j < n)%nat -> key_at i <= key_at j.
  Proof.
    unfold key_at. revert i j. induction keys as [|x r IH]; intros i j H; [cbn in H; lia|].
    destruct SORTED as [Hx Hr]. destruct j as [|j]; [assert (i = O) by lia; subst; lia|].
    destruct i as [|i]; cbn [nth].
    - rewrite Forall_forall in Hx. apply Hx. apply nth_In. cbn [length] in H. lia.
    - apply IH; [exact Hr|cbn [length] in H; lia].
  Qed.

  Lemma ideal_start_mono i : (S i < n)%nat -> (ideal_start i <= ideal_start (S i))%nat.
  Proof.
    intros H. unfold ideal_start. destruct (is_unbp sb); [lia|]. apply first_sat_mono.
    pose proof (key_mono i (S i) ltac:(lia)). lia.
  Qed.
  Lemma ideal_end_mono i : (S i < n)%nat -> (ideal_end i <= ideal_end (S i))%nat.
  Proof.
    intros H. unfold ideal_end. destruct (is_unbf eb); [lia|]. apply first_sat_mono.
    pose proof (key_mono i (S i) ltac:(lia)). lia.
  Qed.
  Lemma ideal_start_le i : (ideal_start i <= n)%nat.
  Proof. unfold ideal_start. destruct (is_unbp sb); [lia|apply first_sat_le]. Qed.
  Lemma ideal_end_le i : (ideal_end i <= n)%nat.
  Proof. unfold ideal_end. destruct (is_unbf eb); [lia|apply first_sat_le]. Qed.

  (* the framer run from a state that has not overtaken the ideal bounds of the current row *)
  Lemma range_rows_spec : forall todo idx fs fe, (idx + todo = n)%nat ->
    (fs <= ideal_start idx)%nat -> (fe <= Nat.max (ideal_start idx) (ideal_end idx))%nat ->
    range_rows sb eb keys fs fe idx todo
    = map (fun i => (ideal_start i, Nat.max (ideal_start i) (ideal_end i))) (seq idx todo).
  Proof.
    induction todo as [|t IH]; intros idx fs fe Hn Hfs Hfe; [reflexivity|].
    cbn [range_rows seq map]. fold (key_at idx).
    assert (Ens : (if is_unbp sb then O else find_boundary (fun x => x >=? key_at idx + off sb) keys fs) = ideal_start idx).
    { unfold ideal_start in *. destruct (is_unbp sb); [reflexivity|]. apply (find_before (ge _)). exact Hfs. }
    rewrite Ens.
    assert (Ene : (if is_unbf eb then length keys
                   else find_boundary (fun x => x >? key_at idx + off eb) keys (Nat.max fe (ideal_start idx)))
                  = Nat.max (ideal_start idx) (ideal_end idx)).
    { pose proof (ideal_start_le idx) as Hsl. unfold ideal_end in *. destruct (is_unbf eb); [lia|].
      set (E := first_sat (ge (key_at idx + off eb + 1)) keys) in *.
      assert (Hext : forall s, find_boundary (fun x => x >? key_at idx + off eb) keys s = find_boundary (ge (key_at idx + off eb + 1)) keys s).
      { intros s. unfold find_boundary. f_equal. apply first_sat_ext. intros x. apply gt_as_ge. }
      rewrite Hext. destruct (le_lt_dec (Nat.max fe (ideal_start idx)) E) as [Hle|Hgt].
      - rewrite find_before by exact Hle. fold E. lia.
      - rewrite (find_after _ _ SORTED) by (fold E; lia). lia. }
    rewrite Ene. f_equal. destruct t as [|t']; [reflexivity|].
    apply IH; [lia| |].
    - apply ideal_start_mono. lia.
    - pose proof (ideal_start_mono idx ltac:(lia)). pose proof (ideal_end_mono idx ltac:(lia)). lia.
  Qed.

  Theorem range_frames_eq :
    range_frames sb eb keys = map (fun i => (ideal_start i, Nat.max (ideal_start i) (ideal_end i))) (seq 0 n).
  Proof. unfold range_frames. apply range_rows_spec; [reflexivity|lia|lia]. Qed.

  Lemma ideal_start_spec i j : (j < n)%nat ->
    ((ideal_start i <= j)%nat <-> is_unbp sb = true \/ key_at i + off sb <= key_at j).
  Proof.
    intros Hj. unfold ideal_start. destruct (is_unbp sb); [split; [auto|lia]|].
    pose proof (first_sat_spec (key_at i + off sb) keys SORTED j Hj) as A. fold (key_at j) in A.
    split; [right; lia|intros [H|H]; [discriminate|lia]].
  Qed.
  Lemma ideal_end_spec i j : (j < n)%nat ->
    ((j < ideal_end i)%nat <-> is_unbf eb = true \/ key_at j <= key_at i + off eb).
  Proof.
    intros Hj. unfold ideal_end. destruct (is_unbf eb); [split; [auto|lia]|].
    pose proof (first_sat_spec (key_at i + off eb + 1) keys SORTED j Hj) as A. fold (key_at j) in A.
    split; [right; lia|intros [H|H]; [discriminate|lia]].
  Qed.

  (* the property: row j is in the frame of row i iff its key is within the bounds, peers included *)
  Theorem range_frame_spec i : (i < n)%nat ->
    let '(s, e) := nth i (range_frames sb eb keys) (O, O) in
    forall j, (j < n)%nat ->
      ((s <= j < e)%nat <->
       (is_unbp sb = true \/ key_at i + off sb <= key_at j) /\ (is_unbf eb = true \/ key_at j <= key_at i + off eb)).
  Proof.
    intros Hi. rewrite range_frames_eq, nth_map_seq by exact Hi. intros j Hj.
    rewrite <- ideal_start_spec, <- ideal_end_spec by exact Hj. lia.
  Qed.
End Frames.

(* the sort direction is not consulted: over a DESCENDING key list the frames are not the definition's *)
Theorem range_desc_refuted :
  exists keys i j, let '(s, e) := nth i (range_frames Cur UnbF keys) (O, O) in
    (* keys descending 5,2,1,1,0: for the last row (key 0) CURRENT ROW .. UNBOUNDED FOLLOWING must hold only itself *)
    keys = [5; 2; 1; 1; 0] /\ i = 4%nat /\ j = 0%nat /\ (s <= j < e)%nat.
Proof. exists [5; 2; 1; 1; 0], 4%nat, 0%nat. vm_compute. repeat split; lia. Qed.
