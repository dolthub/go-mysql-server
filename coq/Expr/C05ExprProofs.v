(* Proofs about the C05 expression layer: ternary-logic partition, soundness of simplify / push_not. *)
From Coq Require Import List ZArith NArith Bool Lia Permutation.
Import ListNotations.
From GMS Require Import Base.ListFacts Expr.C05Expr.
Open Scope Z_scope.

Arguments wrap64 : simpl never.
Arguments pow10 : simpl never.
Arguments cmp_num : simpl never.
Arguments str_truthy : simpl never.

Section ExprInd.
  Variable P : expr -> Prop.
  Hypothesis HLit : forall v t, P (Lit v t).
  Hypothesis HCol : forall i t, P (Col i t).
  Hypothesis HCmp : forall op a b, P a -> P b -> P (Cmp op a b).
  Hypothesis HNsEq : forall a b, P a -> P b -> P (NsEq a b).
  Hypothesis HArith : forall op a b, P a -> P b -> P (Arith op a b).
  Hypothesis HNeg : forall a, P a -> P (Neg a).
  Hypothesis HAnd : forall a b, P a -> P b -> P (And a b).
  Hypothesis HOr : forall a b, P a -> P b -> P (Or a b).
  Hypothesis HXor : forall a b, P a -> P b -> P (Xor a b).
  Hypothesis HNot : forall a, P a -> P (Not a).
  Hypothesis HIsNull : forall a, P a -> P (IsNull a).
  Hypothesis HIsTrue : forall i a, P a -> P (IsTrue i a).
  Hypothesis HIn : forall a l, P a -> Forall P l -> P (In a l).
  Hypothesis HBetween : forall a b c, P a -> P b -> P c -> P (Between a b c).
  Hypothesis HCase : forall a b c, P a -> P b -> P c -> P (Case a b c).

  Fixpoint expr_ind' (e : expr) : P e :=
    match e with
    | Lit v t => HLit v t
    | Col i t => HCol i t
    | Cmp op a b => HCmp op a b (expr_ind' a) (expr_ind' b)
    | NsEq a b => HNsEq a b (expr_ind' a) (expr_ind' b)
    | Arith op a b => HArith op a b (expr_ind' a) (expr_ind' b)
    | Neg a => HNeg a (expr_ind' a)
    | And a b => HAnd a b (expr_ind' a) (expr_ind' b)
    | Or a b => HOr a b (expr_ind' a) (expr_ind' b)
    | Xor a b => HXor a b (expr_ind' a) (expr_ind' b)
    | Not a => HNot a (expr_ind' a)
    | IsNull a => HIsNull a (expr_ind' a)
    | IsTrue i a => HIsTrue i a (expr_ind' a)
    | In a l => HIn a l (expr_ind' a)
                  ((fix go (l : list expr) : Forall P l :=
                      match l with [] => Forall_nil P | x :: r => Forall_cons x (expr_ind' x) (go r) end) l)
    | Between a b c => HBetween a b c (expr_ind' a) (expr_ind' b) (expr_ind' c)
    | Case a b c => HCase a b c (expr_ind' a) (expr_ind' b) (expr_ind' c)
    end.
End ExprInd.

Lemma to_tri_of_tri t : to_tri (of_tri t) = t.
Proof. destruct t; reflexivity. Qed.

Lemma to_tri_null v : to_tri v = TN <-> v = VNull.
Proof.
  destruct v; split; intros H; try reflexivity; try discriminate;
    unfold to_tri in H; destruct (truthy _); discriminate.
Qed.

Lemma de_morgan_and a b : not3 (and3 a b) = or3 (not3 a) (not3 b).
Proof. destruct a, b; reflexivity. Qed.
Lemma de_morgan_or a b : not3 (or3 a b) = and3 (not3 a) (not3 b).
Proof. destruct a, b; reflexivity. Qed.
Lemma not3_invol a : not3 (not3 a) = a.
Proof. destruct a; reflexivity. Qed.

Lemma cmp_bytes_antisym a : forall b, cmp_bytes b a = CompOpp (cmp_bytes a b).
Proof.
  induction a as [|x a IH]; intros [|y b]; cbn; try reflexivity.
  rewrite (N.compare_antisym x y). destruct (N.compare x y); cbn; try reflexivity. apply IH.
Qed.

Lemma cmp_bytes_refl a : cmp_bytes a a = Eq.
Proof. induction a as [|x a IH]; cbn; [reflexivity|]. rewrite N.compare_refl. exact IH. Qed.

Lemma cmp_num_antisym m1 s1 m2 s2 : cmp_num m2 s2 m1 s1 = CompOpp (cmp_num m1 s1 m2 s2).
Proof. unfold cmp_num. apply Z.compare_antisym. Qed.

Lemma cmp_val_antisym a b : cmp_val b a = CompOpp (cmp_val a b).
Proof.
  destruct a, b; cbn [cmp_val]; try reflexivity;
    try apply Z.compare_antisym; try apply cmp_num_antisym; try apply cmp_bytes_antisym.
Qed.

Lemma cmp_val_refl a : cmp_val a a = Eq.
Proof.
  destruct a; cbn [cmp_val]; try reflexivity.
  - apply Z.compare_refl.
  - unfold cmp_num. apply Z.compare_refl.
  - apply cmp_bytes_refl.
Qed.

Definition flip_op (op : cmpop) : cmpop :=
  match op with CEq => CEq | CLt => CGt | CLe => CGe | CGt => CLt | CGe => CLe end.

Lemma cmp3_flip op l r : cmp3 op l r = cmp3 (flip_op op) r l.
Proof.
  destruct l, r; try reflexivity; unfold cmp3;
    match goal with |- context [cmp_val ?x ?y] =>
      rewrite (cmp_val_antisym y x); destruct (cmp_val y x); destruct op; reflexivity end.
Qed.

Definition neg_op (op : cmpop) : cmpop :=
  match op with CGt => CLe | CGe => CLt | CLt => CGe | CLe => CGt | CEq => CEq end.

Lemma cmp3_neg op l r : op <> CEq -> not3 (cmp3 op l r) = cmp3 (neg_op op) l r.
Proof.
  intros Hop. destruct l, r; try reflexivity; unfold cmp3;
    match goal with |- context [cmp_val ?x ?y] => destruct (cmp_val x y); destruct op; try reflexivity; congruence end.
Qed.

Lemma is_true_tri v : is_true v = match to_tri v with TT => true | _ => false end.
Proof. reflexivity. Qed.

Lemma eval_not r p : eval r (Not p) = of_tri (not3 (to_tri (eval r p))).
Proof. reflexivity. Qed.

Lemma is_true_and r p q : is_true (eval r (And p q)) = (is_true (eval r p) && is_true (eval r q))%bool.
Proof. cbn [eval]. unfold is_true. rewrite to_tri_of_tri. destruct (to_tri (eval r p)), (to_tri (eval r q)); reflexivity. Qed.

Lemma three_way r p :
  let a := is_true (eval r p) in
  let b := is_true (eval r (Not p)) in
  let c := is_true (eval r (IsNull p)) in
  (a = true /\ b = false /\ c = false) \/ (a = false /\ b = true /\ c = false) \/ (a = false /\ b = false /\ c = true).
Proof.
  cbn zeta. rewrite eval_not. cbn [eval]. unfold is_true. rewrite to_tri_of_tri.
  destruct (eval r p) as [|z|m s|b] eqn:E; cbn [to_tri].
  - right; right. repeat split; reflexivity.
  - destruct (truthy (VInt z)); cbn; auto.
  - destruct (truthy (VDec m s)); cbn; auto.
  - destruct (truthy (VStr b)); cbn; auto.
Qed.

Lemma tlp_perm q p : Permutation q (sigma p q ++ sigma (Not p) q ++ sigma (IsNull p) q).
Proof.
  unfold sigma. induction q as [|r q IH]; [constructor|].
  cbn [filter]. destruct (three_way r p) as [(Ha & Hb & Hc)|[(Ha & Hb & Hc)|(Ha & Hb & Hc)]];
    rewrite Ha, Hb, Hc.
  - cbn. constructor. exact IH.
  - apply Permutation_cons_app. exact IH.
  - rewrite app_assoc. apply Permutation_cons_app. rewrite <- app_assoc. exact IH.
Qed.

Lemma sigma_In p q r : List.In r (sigma p q) <-> List.In r q /\ is_true (eval r p) = true.
Proof. unfold sigma. apply filter_In. Qed.

(* the guard: Boolean-typed leaves hold 0 / 1 / NULL *)
Definition boolishb (v : val) : bool :=
  match v with VNull => true | VInt z => (Z.eqb z 0 || Z.eqb z 1)%bool | _ => false end.

Definition leaf_ok (v : val) (t : ty) : bool :=
  match t with TyBool => boolishb v | TyNull => match v with VNull => true | _ => false end | _ => true end.

Fixpoint bool_ok (r : row) (e : expr) : bool :=
  match e with
  | Lit v t => leaf_ok v t
  | Col i t => leaf_ok (nth i r VNull) t
  | Cmp _ a b | NsEq a b | Arith _ a b | And a b | Or a b | Xor a b => bool_ok r a && bool_ok r b
  | Neg a | Not a | IsNull a | IsTrue _ a => bool_ok r a
  | In a l => bool_ok r a && forallb (bool_ok r) l
  | Between a b c | Case a b c => bool_ok r a && bool_ok r b && bool_ok r c
  end.

Lemma closed_row r e : closed e = true -> eval r e = eval [] e /\ bool_ok r e = bool_ok [] e.
Proof.
  induction e using expr_ind'; cbn [closed eval bool_ok]; intros Hc;
    repeat match goal with H : (_ && _)%bool = true |- _ => apply andb_prop in H; destruct H end;
    try discriminate; try (split; reflexivity);
    repeat match goal with IH : closed ?a = true -> _, H : closed ?a = true |- _ => destruct (IH H) as [-> ->]; clear IH end;
    try (split; reflexivity).
  (* In *)
  assert (Hl : map (eval r) l = map (eval []) l /\ forallb (bool_ok r) l = forallb (bool_ok []) l).
  { clear - H H1. induction H as [|x l Hx Hl IH]; [split; reflexivity|]. cbn in H1. apply andb_prop in H1.
    destruct H1 as [H1 H2]. cbn. destruct (Hx H1) as [-> ->], (IH H2) as [-> ->]. split; reflexivity. }
  destruct Hl as [-> ->]. split; reflexivity.
Qed.

Lemma eval_closed r e : closed e = true -> eval r e = eval [] e.
Proof. intros H. apply closed_row, H. Qed.

Lemma boolish_of_tri t : boolishb (of_tri t) = true.
Proof. destruct t; reflexivity. Qed.
Lemma boolish_vbool b : boolishb (vbool b) = true.
Proof. destruct b; reflexivity. Qed.

Lemma boolish_round v : boolishb v = true -> of_tri (to_tri v) = v.
Proof.
  destruct v as [|z| |]; cbn; try discriminate; try reflexivity.
  intros H. apply orb_prop in H. destruct H as [H|H]; apply Z.eqb_eq in H; subst; reflexivity.
Qed.

Lemma gen_ty_null_l t : gen_ty TyNull t = t.
Proof. destruct t; reflexivity. Qed.
Lemma leaf_ok_gen v a b : leaf_ok v a = true \/ leaf_ok v b = true -> leaf_ok v (gen_ty a b) = true.
Proof. destruct a, b, v; cbn; intros [H|H]; try reflexivity; try discriminate; exact H. Qed.

Lemma typed_value r e : bool_ok r e = true -> leaf_ok (eval r e) (ty_of e) = true.
Proof.
  induction e using expr_ind'; cbn [bool_ok ty_of eval leaf_ok]; intros Hok;
    try exact Hok; try apply boolish_of_tri; try reflexivity.
  - destruct (eval r e1), (eval r e2); try apply boolish_vbool; reflexivity.
  - specialize (IHe Hok). destruct (ty_of e); try apply boolish_of_tri. destruct (eval r e); try discriminate. reflexivity.
  - destruct (eval r e); try apply boolish_vbool; reflexivity.
  - destruct (eval r e); try apply boolish_vbool; reflexivity.
  - destruct (eval r e); try apply boolish_of_tri; reflexivity.
  - rewrite gen_ty_null_l. apply andb_prop in Hok as [[_ H2]%andb_prop H3]. apply leaf_ok_gen. destruct (is_true _); auto.
Qed.

Lemma is_bool_ty_spec e : is_bool_ty e = true -> ty_of e = TyBool.
Proof. unfold is_bool_ty. destruct (ty_of e); cbn; congruence. Qed.

(* what the rules trust: a Boolean-typed expression is its own truth value *)
Lemma bool_round r e : bool_ok r e = true -> is_bool_ty e = true -> of_tri (to_tri (eval r e)) = eval r e.
Proof.
  intros Hok B. apply boolish_round. pose proof (typed_value r e Hok) as T. rewrite (is_bool_ty_spec e B) in T. exact T.
Qed.

Lemma def_true_eval r e : def_true e = true -> to_tri (eval r e) = TT.
Proof. destruct e as [[] ?| | | | | | | | | | | | | |]; cbn; try discriminate; intros ->; reflexivity. Qed.
Lemma def_false_eval r e : def_false e = true -> to_tri (eval r e) = TF.
Proof. destruct e as [[] ?| | | | | | | | | | | | | |]; cbn; try discriminate; intros ->%negb_true_iff; reflexivity. Qed.

Lemma same_field_eval r a b : same_field a b = true -> eval r a = eval r b.
Proof.
  destruct a, b; cbn; try discriminate. intros H. apply Nat.eqb_eq in H. subst. reflexivity.
Qed.

Lemma fold_const_sound r e :
  bool_ok r e = true -> eval r (fold_const e) = eval r e /\ bool_ok r (fold_const e) = true.
Proof.
  intros Hok. unfold fold_const. destruct (closed e) eqn:Hc; [|auto].
  destruct (closed_row r e Hc) as [E B]. split; [symmetry; exact E|].
  apply (typed_value [] e). rewrite <- B. exact Hok.
Qed.

Lemma and3_TT_l x : and3 TT x = x.
Proof. destruct x; reflexivity. Qed.
Lemma and3_TT_r x : and3 x TT = x.
Proof. destruct x; reflexivity. Qed.
Lemma and3_TF_r x : and3 x TF = TF.
Proof. destruct x; reflexivity. Qed.
Lemma or3_TF_l x : or3 TF x = x.
Proof. destruct x; reflexivity. Qed.
Lemma or3_TF_r x : or3 x TF = x.
Proof. destruct x; reflexivity. Qed.
Lemma or3_TT_r x : or3 x TT = TT.
Proof. destruct x; reflexivity. Qed.

(* BETWEEN as lo <= v AND v <= hi, and what remains of it when a bound is v itself or both bounds coincide *)
Lemma eval_between r v lo hi :
  eval r (Between v lo hi) = of_tri (and3 (cmp3 CGe (eval r v) (eval r lo)) (cmp3 CLe (eval r v) (eval r hi))).
Proof. cbn [eval]. rewrite !to_tri_of_tri, (cmp3_flip CLe (eval r lo)), (cmp3_flip CGe (eval r hi)). reflexivity. Qed.

Lemma cmp3_ge_le_eq x y : and3 (cmp3 CGe x y) (cmp3 CLe x y) = cmp3 CEq x y.
Proof. destruct x, y; try reflexivity; unfold cmp3; destruct (cmp_val _ _); reflexivity. Qed.
Lemma cmp3_self_l op v h : and3 (cmp3 CGe v v) (cmp3 op v h) = cmp3 op v h.
Proof. destruct v; [reflexivity|..]; unfold cmp3 at 1; rewrite cmp_val_refl; apply and3_TT_l. Qed.
Lemma cmp3_self_r op v l : and3 (cmp3 op v l) (cmp3 CLe v v) = cmp3 op v l.
Proof. destruct v; [reflexivity|..]; unfold cmp3 at 2; rewrite cmp_val_refl; apply and3_TT_r. Qed.

Lemma simplify_node_sound r e :
  bool_ok r e = true -> eval r (simplify_node e) = eval r e /\ bool_ok r (simplify_node e) = true.
Proof.
  intros Hok. assert (Same : eval r e = eval r e /\ bool_ok r e = true) by (split; [reflexivity|exact Hok]).
  destruct e; try (apply fold_const_sound; exact Hok); try exact Same; cbn [simplify_node].
  - (* And *)
    destruct (andb_prop _ _ Hok) as [H1 H2].
    destruct (def_false e1) eqn:F1; [cbn [eval]; rewrite (def_false_eval r e1 F1); split; reflexivity|].
    destruct (def_false e2) eqn:F2; [cbn [eval]; rewrite (def_false_eval r e2 F2), and3_TF_r; split; reflexivity|].
    destruct (def_true e1) eqn:T1, (def_true e2) eqn:T2; cbn [andb]; try exact Same.
    + cbn [eval]. rewrite (def_true_eval r e1 T1), (def_true_eval r e2 T2). split; reflexivity.
    + destruct (is_bool_ty e2) eqn:B2; [|exact Same]. split; [|exact H2].
      cbn [eval]. rewrite (def_true_eval r e1 T1), and3_TT_l. symmetry. apply bool_round; assumption.
    + destruct (is_bool_ty e1) eqn:B1; [|exact Same]. split; [|exact H1].
      cbn [eval]. rewrite (def_true_eval r e2 T2), and3_TT_r. symmetry. apply bool_round; assumption.
  - (* Or *)
    destruct (andb_prop _ _ Hok) as [H1 H2].
    destruct (def_true e1) eqn:T1; [cbn [eval]; rewrite (def_true_eval r e1 T1); split; reflexivity|].
    destruct (def_true e2) eqn:T2; [cbn [eval]; rewrite (def_true_eval r e2 T2), or3_TT_r; split; reflexivity|].
    destruct (def_false e1) eqn:F1, (def_false e2) eqn:F2; cbn [andb]; try exact Same.
    + cbn [eval]. rewrite (def_false_eval r e1 F1), (def_false_eval r e2 F2). split; reflexivity.
    + destruct (is_bool_ty e2) eqn:B2; [|exact Same]. split; [|exact H2].
      cbn [eval]. rewrite (def_false_eval r e1 F1), or3_TF_l. symmetry. apply bool_round; assumption.
    + destruct (is_bool_ty e1) eqn:B1; [|exact Same]. split; [|exact H1].
      cbn [eval]. rewrite (def_false_eval r e2 F2), or3_TF_r. symmetry. apply bool_round; assumption.
  - (* Not *)
    destruct e; try exact Same. destruct v; try exact Same; cbn [eval]; unfold to_tri;
      match goal with |- context [truthy ?x] => destruct (truthy x) end; split; reflexivity.
  - (* Between *)
    cbn [bool_ok] in Hok. apply andb_prop in Hok as [[H1 H2]%andb_prop H3]. rewrite eval_between.
    destruct (same_field e2 e3) eqn:S23; [|destruct (is_col e1 && same_field e2 e1)%bool eqn:S21;
      [|destruct (is_col e1 && same_field e3 e1)%bool eqn:S31]];
      cbn [eval bool_ok]; rewrite ?to_tri_of_tri, H1, ?H2, ?H3; (split; [f_equal|reflexivity]).
    + rewrite <- (same_field_eval r _ _ S23). symmetry. apply cmp3_ge_le_eq.
    + apply andb_prop in S21 as [_ S21]. rewrite (same_field_eval r _ _ S21). symmetry. apply cmp3_self_l.
    + apply andb_prop in S31 as [_ S31]. rewrite (same_field_eval r _ _ S31). symmetry. apply cmp3_self_r.
Qed.

Lemma simplify_sound_ok r e :
  bool_ok r e = true -> eval r (simplify e) = eval r e /\ bool_ok r (simplify e) = true.
Proof.
  (* the node function is applied to a node e' with simplified children, which is guarded and has the value of e *)
  assert (Node : forall e e', bool_ok r e' = true -> eval r e' = eval r e ->
                   eval r (simplify_node e') = eval r e /\ bool_ok r (simplify_node e') = true).
  { intros e0 e' Hk He. destruct (simplify_node_sound r e' Hk) as [A B]. split; [congruence|exact B]. }
  assert (List : forall l, Forall (fun x => bool_ok r x = true -> eval r (simplify x) = eval r x /\ bool_ok r (simplify x) = true) l ->
                   forallb (bool_ok r) l = true ->
                   map (eval r) (map simplify l) = map (eval r) l /\ forallb (bool_ok r) (map simplify l) = true).
  { induction 1 as [|x l Hx Hl IH]; cbn; [split; reflexivity|]. intros [H1 H2]%andb_prop.
    destruct (Hx H1) as [A B], (IH H2) as [C D]. rewrite A, B, C, D. split; reflexivity. }
  induction e using expr_ind'; intros Hok; cbn [simplify]; apply Node; cbn [bool_ok eval] in *;
    repeat match goal with H : (_ && _)%bool = true |- _ => apply andb_prop in H; destruct H end;
    repeat match goal with IH : bool_ok r ?a = true -> _, H : bool_ok r ?a = true |- _ =>
      destruct (IH H) as [E B]; rewrite ?E, ?B; clear IH E B end;
    try reflexivity; try assumption.
  all: destruct (List l H H1) as [E B]; rewrite ?E, ?B; reflexivity.
Qed.

Ltac rw_push := repeat match goal with Hq : eval _ (push _ _) = _ |- _ => rewrite Hq; clear Hq end.

Lemma push_sound_ok r e :
  bool_ok r e = true ->
  eval r (push false e) = eval r e /\ eval r (push true e) = eval r (Not e).
Proof.
  induction e using expr_ind'; intros Hok; cbn [bool_ok] in Hok;
    repeat match goal with H : (_ && _)%bool = true |- _ => apply andb_prop in H; destruct H end;
    repeat match goal with IH : bool_ok r ?a = true -> _, H : bool_ok r ?a = true |- _ =>
      destruct (IH H) as [? ?]; clear IH end;
    cbn [push].
  (* where the negation stays at the node, both results are the node over its pushed children *)
  all: try (split; cbn [eval]; rw_push; reflexivity).
  - (* Cmp *)
    split.
    + destruct op; cbn [eval]; rw_push; reflexivity.
    + destruct op; cbn [eval]; rewrite ?to_tri_of_tri; rw_push; try reflexivity;
        match goal with |- of_tri (cmp3 ?o _ _) = of_tri (not3 (cmp3 ?o' _ _)) =>
          rewrite (cmp3_neg o'); [reflexivity|discriminate] end.
  - (* And *)
    split; [cbn [eval]; rw_push; reflexivity|].
    cbn [eval]. rw_push. cbn [eval]. rewrite !to_tri_of_tri, de_morgan_and. reflexivity.
  - (* Or *)
    split; [cbn [eval]; rw_push; reflexivity|].
    cbn [eval]. rw_push. cbn [eval]. rewrite !to_tri_of_tri, de_morgan_or. reflexivity.
  - (* Not *)
    split; [assumption|].
    destruct (is_bool_ty e) eqn:B.
    + rw_push. cbn [eval]. rewrite to_tri_of_tri, not3_invol. symmetry. apply bool_round; assumption.
    + cbn [eval]. rw_push. reflexivity.
  - (* In *)
    assert (Hl : map (eval r) (map (push false) l) = map (eval r) l).
    { clear - H H1. induction H as [|x l Hx Hl IH]; [reflexivity|]. cbn in H1. apply andb_prop in H1.
      destruct H1 as [H1 H2]. destruct (Hx H1) as [A _]. cbn. rewrite A, (IH H2). reflexivity. }
    split; cbn [eval]; rewrite Hl; rw_push; reflexivity.
  - (* Between *)
    split; [cbn [eval]; rw_push; reflexivity|].
    cbn [eval]. rw_push. rewrite !to_tri_of_tri, de_morgan_and.
    rewrite (cmp3_neg CLe), (cmp3_neg CGe) by discriminate. cbn [neg_op].
    rewrite (cmp3_flip CGt (eval r e2) (eval r e1)), (cmp3_flip CLt (eval r e3) (eval r e1)). reflexivity.
Qed.

(* the unguarded statements are false of the faithful model *)
Definition witness_row : row := [VInt 5].
Definition witness_simplify : expr :=
  Cmp CEq (Or (Lit (VInt 0) TyBool) (Col 0 TyBool)) (Lit (VInt 1) TyInt).
Definition witness_push : expr :=
  Cmp CEq (Not (Not (Col 0 TyBool))) (Lit (VInt 1) TyInt).

Lemma simplify_unsound :
  exists r e, is_true (eval r e) = true /\ is_true (eval r (simplify e)) = false.
Proof. exists witness_row, witness_simplify. split; vm_compute; reflexivity. Qed.

Lemma push_not_unsound :
  exists r e, is_true (eval r e) = true /\ is_true (eval r (push_not e)) = false.
Proof. exists witness_row, witness_push. split; vm_compute; reflexivity. Qed.

(* composition as the analyzer applies it (simplifyFilters, then pushNotFilters) *)
Lemma rewrite_sound r e : bool_ok r e = true -> eval r (push_not (simplify e)) = eval r e.
Proof.
  intros Hok. destruct (simplify_sound_ok r e Hok) as [Hs Hb].
  unfold push_not. destruct (push_sound_ok r _ Hb) as [Hp _]. congruence.
Qed.

Lemma sigma_ext p p' q :
  (forall r, List.In r q -> eval r p' = eval r p) -> sigma p' q = sigma p q.
Proof.
  intros H. unfold sigma. apply filter_ext_in. intros r Hr. rewrite (H r Hr). reflexivity.
Qed.

Lemma rewrite_sigma p q :
  Forall (fun r => bool_ok r p = true) q -> sigma (push_not (simplify p)) q = sigma p q.
Proof.
  intros H. apply sigma_ext. intros r Hr. apply rewrite_sound. rewrite Forall_forall in H. exact (H r Hr).
Qed.

Definition cross (A B : list row) : list row := flat_map (fun a => map (app a) B) A.
(* joinIter for an inner join: for each left row, the right rows for which the condition on the merged row is TRUE *)
Definition nlj (p : expr) (A B : list row) : list row :=
  flat_map (fun a => map (app a) (filter (fun b => is_true (eval (a ++ b) p)) B)) A.

Lemma nlj_eq p A B : nlj p A B = sigma p (cross A B).
Proof.
  unfold nlj, cross, sigma. induction A as [|a A IH]; [reflexivity|].
  cbn [flat_map]. rewrite filter_app, IH, filter_map_comm. reflexivity.
Qed.
