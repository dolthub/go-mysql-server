(* C08 — proofs: every buffer fold equals its list specification; ROWS frames; prefix sums; refutations. *)
From Coq Require Import List ZArith Bool Lia.
Import ListNotations.
From GMS Require Import Base.ListFacts Expr.C08Agg Expr.C08RankProofs Expr.C08NtileProofs.
Open Scope Z_scope.

Lemma fold_nonnull {S} (step : S -> v -> S) : (forall st, step st None = st) ->
  forall xs st, fold_left step xs st = fold_left (fun st n => step st (Some n)) (nonnull xs) st.
Proof.
  intros HN. induction xs as [|[n|] t IH]; intros st; cbn [fold_left nonnull flat_map app]; [reflexivity|apply IH|].
  rewrite HN. apply IH.
Qed.

Lemma zsum_cons x t : zsum (x :: t) = x + zsum t.
Proof. reflexivity. Qed.
Lemma zsum_nil : zsum [] = 0.
Proof. reflexivity. Qed.

Lemma sum_fold l : forall b acc,
  fold_left (fun st n => sum_update st (Some n)) l (b, acc) = (match l with [] => b | _ => false end, acc + zsum l).
Proof.
  induction l as [|x t IH]; intros b acc; cbn [fold_left sum_update snd].
  - rewrite zsum_nil, Z.add_0_r. reflexivity.
  - rewrite IH, zsum_cons, Z.add_assoc. destruct t; reflexivity.
Qed.

Theorem sum_buf_spec xs : sum_buf xs = spec_sum xs.
Proof.
  unfold sum_buf, spec_sum. rewrite fold_nonnull, sum_fold by reflexivity. destruct (nonnull xs); reflexivity.
Qed.

Lemma fold_count {B} (l : list B) : forall c, fold_left (fun c (_ : B) => c + 1) l c = c + Z.of_nat (length l).
Proof. induction l as [|x t IH]; intros c; cbn [fold_left length]; [lia|]. rewrite IH. lia. Qed.

Theorem count_buf_spec xs : count_buf xs = Z.of_nat (length (nonnull xs)).
Proof. unfold count_buf. rewrite fold_nonnull by reflexivity. apply (fold_count (nonnull xs) 0). Qed.

Theorem count_star_spec xs : count_star xs = Z.of_nat (length xs).
Proof. apply (fold_count xs 0). Qed.

(* AVG: a SUM buffer and a count of the non-NULL values *)
Lemma avg_fold l : forall st r,
  fold_left (fun st n => avg_update st (Some n)) l (st, r)
  = (fold_left (fun st n => sum_update st (Some n)) l st, r + Z.of_nat (length l)).
Proof.
  induction l as [|x t IH]; intros st r; cbn [fold_left avg_update fst snd length].
  - rewrite Z.add_0_r. reflexivity.
  - rewrite IH. f_equal. lia.
Qed.

Theorem avg_buf_spec xs : avg_buf xs = spec_avg xs.
Proof.
  unfold avg_buf, spec_avg. rewrite fold_nonnull, avg_fold, sum_fold by reflexivity.
  destruct (nonnull xs) as [|a l]; [reflexivity|]. cbn [fst snd sum_eval].
  destruct (Z.eqb_spec (0 + Z.of_nat (length (a :: l))) 0) as [E|_]; [cbn [length] in E; lia|].
  rewrite andb_false_r. reflexivity.
Qed.

(* MIN / MAX: one buffer, which replaces its value only by a strictly better one *)
Section Extremum.
  Variables (better : Z -> Z -> bool) (pick : Z -> Z -> Z) (R : Z -> Z -> Prop).
  Hypothesis better_pick : forall c n, (if better n c then n else c) = pick c n.
  Hypothesis R_refl : forall x, R x x.
  Hypothesis R_trans : forall x y z, R x y -> R y z -> R x z.
  Hypothesis pick_spec : forall a x, (pick a x = a \/ pick a x = x) /\ R a (pick a x) /\ R x (pick a x).

  Lemma pick_fold l : forall c,
    fold_left (fun (m : v) n => match m with None => Some n | Some c => if better n c then Some n else m end) l (Some c)
    = Some (fold_left pick l c).
  Proof.
    induction l as [|x t IH]; intros c; cbn [fold_left]; [reflexivity|].
    rewrite <- better_pick. destruct (better x c); apply IH.
  Qed.

  Lemma fold_pick_spec l : forall a, In (fold_left pick l a) (a :: l) /\ Forall (fun y => R y (fold_left pick l a)) (a :: l).
  Proof.
    induction l as [|x t IH]; intros a; cbn [fold_left].
    - split; [left; reflexivity|constructor; [apply R_refl|constructor]].
    - destruct (IH (pick a x)) as [HI HF]. destruct (pick_spec a x) as (Hc & Ra & Rx). split.
      + destruct HI as [HI|HI]; [|right; right; exact HI].
        destruct Hc as [E|E]; [left|right; left]; congruence.
      + inversion HF as [|? ? H1 H2]; subst. repeat constructor; eauto.
  Qed.

  Lemma extremum_meaning (buf : list v -> v) :
    (forall xs, buf xs = match nonnull xs with [] => None | a :: l => Some (fold_left pick l a) end) ->
    forall xs, (buf xs = None <-> nonnull xs = []) /\
      (forall m, buf xs = Some m -> In m (nonnull xs) /\ Forall (fun y => R y m) (nonnull xs)).
  Proof.
    intros Hbuf xs. rewrite Hbuf. destruct (nonnull xs) as [|a l]; split; try easy.
    intros m H. injection H as <-. apply fold_pick_spec.
  Qed.
End Extremum.

Theorem max_buf_spec xs : max_buf xs = spec_max xs.
Proof.
  unfold max_buf, spec_max. rewrite fold_nonnull by reflexivity. destruct (nonnull xs) as [|a l]; [reflexivity|].
  apply (pick_fold Z.gtb Z.max). intros c n. destruct (Z.gtb_spec n c); lia.
Qed.

Theorem min_buf_spec xs : min_buf xs = spec_min xs.
Proof.
  unfold min_buf, spec_min. rewrite fold_nonnull by reflexivity. destruct (nonnull xs) as [|a l]; [reflexivity|].
  apply (pick_fold Z.ltb Z.min). intros c n. destruct (Z.ltb_spec n c); lia.
Qed.

Theorem max_buf_meaning xs :
  (max_buf xs = None <-> nonnull xs = []) /\
  (forall m, max_buf xs = Some m -> In m (nonnull xs) /\ Forall (fun y => y <= m) (nonnull xs)).
Proof. apply (extremum_meaning Z.max (fun y m => y <= m)); try exact max_buf_spec; intros; lia. Qed.

Theorem min_buf_meaning xs :
  (min_buf xs = None <-> nonnull xs = []) /\
  (forall m, min_buf xs = Some m -> In m (nonnull xs) /\ Forall (fun y => m <= y) (nonnull xs)).
Proof. apply (extremum_meaning Z.min (fun y m => m <= y)); try exact min_buf_spec; intros; lia. Qed.

Theorem bit_bufs_spec xs :
  bit_and_buf xs = fold_left Z.land (map u64 (nonnull xs)) (2 ^ 64 - 1) /\
  bit_or_buf xs = fold_left Z.lor (map u64 (nonnull xs)) 0 /\
  bit_xor_buf xs = fold_left Z.lxor (map u64 (nonnull xs)) 0.
Proof.
  assert (G : forall (op : Z -> Z -> Z) r, fold_left (bit_update op) xs r = fold_left op (map u64 (nonnull xs)) r).
  { intros op r. rewrite fold_nonnull by reflexivity. generalize (nonnull xs) r.
    induction l as [|x t IH]; intros r'; [reflexivity|apply IH]. }
  repeat split; apply G.
Qed.

(* the interval produced for the row at idx is exactly the rows of the partition within the offsets, for all
   offsets, including offsets past the partition edges and a start bound after the end bound *)
Theorem rows_frame_spec ps pe idx sb eb : ps <= idx < pe ->
  forall j, fst (frame ps pe idx sb eb) <= j < snd (frame ps pe idx sb eb) <->
    ps <= j < pe /\ (is_unbp sb = true \/ idx + off sb <= j) /\ (is_unbf eb = true \/ j <= idx + off eb).
Proof.
  intros Hidx j. unfold frame. cbn [fst snd].
  destruct (is_unbp sb) eqn:Eu, (is_unbf eb) eqn:Ef; cbn [orb];
    repeat match goal with
    | |- context [?a <? ?b] => destruct (Z.ltb_spec a b)
    | |- context [?a >? ?b] => destruct (Z.gtb_spec a b)
    end; cbn [fst snd]; intuition (try discriminate; try reflexivity; try lia).
Qed.

Lemma prefix_from_nth l : forall acc i, (i < length l)%nat ->
  nth i (prefix_from acc l) 0 = acc + zsum (firstn (S i) l).
Proof.
  induction l as [|x t IH]; intros acc i Hi; [cbn in Hi; lia|].
  cbn [prefix_from]. destruct i as [|i].
  - cbn [nth firstn]. rewrite zsum_cons, zsum_nil. lia.
  - cbn [nth]. rewrite IH by (cbn [length] in Hi; lia).
    change (firstn (S (S i)) (x :: t)) with (x :: firstn (S i) t). rewrite zsum_cons. lia.
Qed.

Lemma zsum_app a b : zsum (a ++ b) = zsum a + zsum b.
Proof. induction a as [|x t IH]; cbn [app]; [rewrite zsum_nil; lia|]. rewrite !zsum_cons, IH. lia. Qed.

(* one operand of computePrefixSum, for the position k rows into the partition that starts at ps *)
Lemma prefix_value l ps k : (k <= length l)%nat ->
  (if ps + Z.of_nat k - ps - 1 >=? 0 then znth (prefix_from 0 l) (ps + Z.of_nat k - ps - 1) 0 else 0) = zsum (firstn k l).
Proof.
  intros Hk. replace (ps + Z.of_nat k - ps - 1) with (Z.of_nat k - 1) by lia. destruct k as [|k]; [reflexivity|].
  replace (Z.of_nat (S k) - 1) with (Z.of_nat k) by lia.
  destruct (Z.geb_spec (Z.of_nat k) 0); [|lia]. unfold znth.
  destruct (Z.ltb_spec (Z.of_nat k) 0); [lia|]. rewrite Nat2Z.id, prefix_from_nth by lia. lia.
Qed.

Lemma firstn_split {A} (l : list A) a b : (a <= b)%nat -> (a <= length l)%nat ->
  firstn b l = firstn a l ++ firstn (b - a) (skipn a l).
Proof.
  intros Hab Ha. rewrite <- (firstn_skipn a l) at 1.
  rewrite firstn_app, firstn_firstn, firstn_length, Nat.min_r, Nat.min_l by lia. reflexivity.
Qed.

(* computePrefixSum over a frame inside the partition is the sum of the frame's values *)
Theorem prefix_diff_spec (l : list Z) (a b : nat) : (a <= b <= length l)%nat ->
  forall ps, prefix_diff (ps + Z.of_nat a) (ps + Z.of_nat b) ps (prefix_from 0 l) = zsum (firstn (b - a) (skipn a l)).
Proof.
  intros H ps. unfold prefix_diff. rewrite !prefix_value, (firstn_split l a b), zsum_app by lia. lia.
Qed.

(* where the code departs from the definition *)
(* SUM over a non-empty frame of NULLs is 0, not NULL *)
Theorem win_sum_all_null_refuted :
  exists buf ps pe s e, 0 <= ps <= s /\ s < e <= pe /\ pe = Z.of_nat (length buf) /\
    win_agg FSum buf ps pe s e <> of_v (spec_sum (slice buf s e)).
Proof. exists [None; Some 5], 0, 2, 0, 1. repeat split; try lia. vm_compute. discriminate. Qed.

(* AVG over a frame without non-NULL values is NaN, not NULL *)
Theorem win_avg_no_value_refuted :
  exists buf ps pe s e, 0 <= ps <= s /\ s <= e <= pe /\ pe = Z.of_nat (length buf) /\
    spec_avg (slice buf s e) = None /\ win_agg FAvg buf ps pe s e = WNaN.
Proof. exists [None; Some 5], 0, 2, 0, 1. repeat split; try lia. Qed.

(* MIN with a frame that lies before the first row of the buffer panics (slice bounds out of range) *)
Theorem win_min_frame_before_buffer_refuted :
  exists buf ps pe idx sb eb, ps <= idx < pe /\
    win_agg FMin buf ps pe (fst (frame ps pe idx sb eb)) (snd (frame ps pe idx sb eb)) = WPanic.
Proof. exists [Some 1; Some 2], 0, 2, 0, (Prec 3), (Prec 2). split; [lia|reflexivity]. Qed.

(* the three columns the prefix sums run over: the value with NULL as 0, and the indicators of non-NULL and of NULL *)
Lemma zsum_val0 xs : zsum (map val0 xs) = zsum (nonnull xs).
Proof.
  induction xs as [|[n|] t IH]; cbn [map nonnull flat_map app val0]; [reflexivity| |];
    rewrite ?zsum_cons; unfold nonnull in IH; rewrite IH; reflexivity.
Qed.

Lemma zsum_ind xs : zsum (map (fun x : v => match x with None => 0 | Some _ => 1 end) xs) = Z.of_nat (length (nonnull xs)).
Proof.
  induction xs as [|[n|] t IH]; cbn [map nonnull flat_map app length]; [reflexivity| |];
    rewrite zsum_cons; unfold nonnull in IH; rewrite IH; lia.
Qed.

Lemma zsum_nullind xs : zsum (map (fun x : v => match x with None => 1 | Some _ => 0 end) xs)
  = Z.of_nat (length xs) - Z.of_nat (length (nonnull xs)).
Proof.
  induction xs as [|[n|] t IH]; cbn [map nonnull flat_map app length]; [reflexivity| |];
    rewrite zsum_cons; unfold nonnull in IH; rewrite IH; lia.
Qed.

Lemma prefix_diff_map (f : v -> Z) (part : list v) (a b : nat) ps : (a <= b <= length part)%nat ->
  prefix_diff (ps + Z.of_nat a) (ps + Z.of_nat b) ps (prefix_from 0 (map f part))
  = zsum (map f (firstn (b - a) (skipn a part))).
Proof.
  intros H. rewrite prefix_diff_spec by (rewrite map_length; exact H).
  rewrite skipn_map, firstn_map. reflexivity.
Qed.

(* the frame [ps+a, ps+b) of the partition: when it holds a non-NULL value, window SUM is SUM of the frame *)
Theorem win_sum_guarded buf ps pe (a b : nat) :
  let part := slice buf ps pe in let fr := firstn (b - a) (skipn a part) in
  (a < b <= length part)%nat -> nonnull fr <> [] ->
  win_agg FSum buf ps pe (ps + Z.of_nat a) (ps + Z.of_nat b) = of_v (spec_sum fr).
Proof.
  cbn zeta. intros H Hnn. unfold win_agg, float_prefix. cbn [fst].
  destruct (Z.ltb_spec (ps + Z.of_nat b - (ps + Z.of_nat a)) 1) as [Hlt|_]; [lia|].
  rewrite prefix_diff_map by lia. rewrite zsum_val0. unfold spec_sum.
  destruct (nonnull (firstn (b - a) (skipn a (slice buf ps pe)))); [congruence|reflexivity].
Qed.

(* window COUNT(x) is always the number of non-NULL values of the frame (0 for an empty one) *)
Theorem win_count_spec buf ps pe (a b : nat) :
  let part := slice buf ps pe in let fr := firstn (b - a) (skipn a part) in
  (a <= b <= length part)%nat ->
  win_agg FCount buf ps pe (ps + Z.of_nat a) (ps + Z.of_nat b) = WInt (Z.of_nat (length (nonnull fr))).
Proof.
  cbn zeta. intros H. unfold win_agg, count_prefix. rewrite prefix_diff_map by lia. rewrite zsum_ind. reflexivity.
Qed.

(* a nondecreasing key list is determined, up to renaming, by which neighbours tie *)
Fixpoint keys_of_pattern (k : Z) (bs : list bool) : list v :=
  match bs with [] => [Some k] | b :: t => Some k :: keys_of_pattern (if b then k else k + 1) t end.
Definition count_lt (keys : list v) (k : v) : Z :=
  Z.of_nat (length (filter (fun y => val0 y <? val0 k) keys)).
Fixpoint distinct (l : list Z) : list Z :=
  match l with [] => [] | x :: t => if existsb (Z.eqb x) t then distinct t else x :: distinct t end.
Definition distinct_lt (keys : list v) (k : v) : Z :=
  Z.of_nat (length (distinct (map val0 (filter (fun y => val0 y <? val0 k) keys)))).
Definition pairs_eqb (a b : list (Z * Z)) : bool :=
  (Nat.eqb (length a) (length b)) && forallb (fun p => (fst (fst p) =? fst (snd p)) && (snd (fst p) =? snd (snd p))) (combine a b).
(* RANK = 1 + number of rows with a smaller key, DENSE_RANK = 1 + number of distinct smaller keys *)
Definition ranks_ok (keys : list v) : bool :=
  let want := map (fun k => (1 + count_lt keys k, 1 + distinct_lt keys k)) keys in
  pairs_eqb (ranks 0 keys) want && pairs_eqb (ranks 3 keys) want.

Lemma pairs_eqb_refl a : pairs_eqb a a = true.
Proof.
  unfold pairs_eqb. rewrite Nat.eqb_refl. induction a as [|p t IH]; [reflexivity|].
  cbn [combine forallb fst snd]. rewrite !Z.eqb_refl. exact IH.
Qed.

(* on keys without NULL, counting with [val0] is counting in the ORDER BY order of C08RankProofs *)
Lemma vlt_val0 y k : y <> None -> k <> None -> vlt y k = (val0 y <? val0 k).
Proof. destruct y, k; try congruence; reflexivity. Qed.

Lemma mem_val0 x l : x <> None -> ~ In None l -> existsb (Z.eqb (val0 x)) (map val0 l) = mem x l.
Proof.
  intros Hx. induction l as [|y t IH]; intros Hl; [reflexivity|]. cbn [map existsb mem].
  rewrite IH by (intros H; apply Hl; right; exact H). f_equal.
  destruct x, y; try congruence; [reflexivity|]. exfalso. apply Hl. left. reflexivity.
Qed.

Lemma distinct_ndist l : ~ In None l -> length (distinct (map val0 l)) = ndist l.
Proof.
  induction l as [|x t IH]; intros Hl; [reflexivity|]. cbn [map distinct ndist].
  assert (Ht : ~ In None t) by (intros H; apply Hl; right; exact H).
  rewrite mem_val0; [|intros ->; apply Hl; left; reflexivity|exact Ht].
  destruct (mem x t); cbn [length]; rewrite (IH Ht); reflexivity.
Qed.

Theorem ranks_ok_sorted keys : vsorted keys -> ~ In None keys -> ranks_ok keys = true.
Proof.
  intros HS Hn. unfold ranks_ok. cbn zeta.
  rewrite (map_ext_in _ (fun k => (1 + cnt_lt keys k, 1 + dcnt_lt keys k)));
    [rewrite !ranks_spec, pairs_eqb_refl by (lia || exact HS); reflexivity|].
  intros k Hk. unfold count_lt, distinct_lt, cnt_lt, dcnt_lt.
  rewrite (filter_ext_in _ (fun y => vlt y k)).
  - rewrite distinct_ndist; [reflexivity|]. intros H. apply filter_In in H. exact (Hn (proj1 H)).
  - intros y Hy. symmetry. apply vlt_val0; intros ->; auto.
Qed.

Lemma pattern_keys bs : forall k, Forall (fun y => exists z, y = Some z /\ k <= z) (keys_of_pattern k bs).
Proof.
  induction bs as [|b t IH]; intros k; cbn [keys_of_pattern]; (constructor; [exists k; split; [reflexivity|lia]|]).
  - constructor.
  - eapply Forall_impl; [|apply IH]. cbn. intros y (z & -> & Hz). exists z. split; [reflexivity|]. destruct b; lia.
Qed.

Lemma pattern_sorted bs : forall k, vsorted (keys_of_pattern k bs).
Proof.
  induction bs as [|b t IH]; intros k; cbn [keys_of_pattern vsorted]; (split; [|auto]); [constructor|].
  eapply Forall_impl; [|apply pattern_keys]. cbn. intros y (z & -> & Hz). apply Z.ltb_ge. destruct b; lia.
Qed.

Theorem ranks_ok_pattern bs : ranks_ok (keys_of_pattern 0 bs) = true.
Proof.
  apply ranks_ok_sorted; [apply pattern_sorted|]. intros H.
  pose proof (pattern_keys bs 0) as F. rewrite Forall_forall in F. destruct (F _ H) as (z & E & _). discriminate.
Qed.

Theorem ranks_bounded bs : (length bs <= 10)%nat -> ranks_ok (keys_of_pattern 0 bs) = true.
Proof. intros _. apply ranks_ok_pattern. Qed.

(* the first (c mod b) buckets hold c/b + 1 rows, the others c/b rows; more buckets than rows: one row each *)
Definition ntile_spec (count : nat) (b : Z) (i : nat) : Z :=
  let c := Z.of_nat count in let i := Z.of_nat i in
  if b >? c then i + 1 else
  let size := c / b in let big := c mod b in
  if i <? big * (size + 1) then i / (size + 1) + 1 else big + (i - big * (size + 1)) / size + 1.
Definition ntile_ok (count b : nat) : bool :=
  let bz := Z.of_nat b in
  let got := ntile count bz in let want := map (ntile_spec count bz) (seq 0 count) in
  (Nat.eqb (length got) (length want)) && forallb (fun p => fst p =? snd p) (combine got want).

Theorem ntile_spec_all count b : 1 <= b -> ntile count b = map (ntile_spec count b) (seq 0 count).
Proof.
  intros Hb. unfold ntile. set (c := Z.of_nat count).
  destruct (Z.gtb_spec b c) as [Hgt|Hle].
  - rewrite ntile_rows_closed by lia. apply map_ext_in. intros j Hj. apply in_seq in Hj.
    unfold ntile_closed, ntile_spec. fold c. destruct (Z.gtb_spec b c); [|lia].
    cbn [Z.mul]. destruct (Z.ltb_spec (Z.of_nat j) 0); [lia|]. rewrite Z.sub_0_r, Z.div_1_r. lia.
  - assert (Hs : 1 <= c / b) by (apply Z.div_le_lower_bound; lia).
    pose proof (Z.mod_pos_bound c b ltac:(lia)) as HB.
    rewrite ntile_rows_closed by lia. apply map_ext_in. intros j Hj.
    unfold ntile_closed, ntile_spec. fold c. destruct (Z.gtb_spec b c); [lia|]. reflexivity.
Qed.

Theorem ntile_ok_all c b : (1 <= b)%nat -> ntile_ok c b = true.
Proof.
  intros Hb. unfold ntile_ok. cbn zeta. rewrite ntile_spec_all, Nat.eqb_refl by lia.
  induction (map _ _) as [|x t IH]; [reflexivity|]. cbn [combine forallb fst snd andb]. rewrite Z.eqb_refl. exact IH.
Qed.

Theorem ntile_bounded c b : (c <= 40)%nat -> (1 <= b <= 45)%nat -> ntile_ok c b = true.
Proof. intros _ Hb. apply ntile_ok_all. lia. Qed.

Theorem lead_lag_spec buf ps pe pos offset def :
  lead_lag buf ps pe pos offset def =
  if (ps <=? pos - offset) && (pos - offset <? pe) then znth buf (pos - offset) None else def.
Proof. unfold lead_lag. rewrite Z.geb_leb. reflexivity. Qed.

Lemma slice_sub {A} (buf : list A) ps pe (a b : nat) : 0 <= ps ->
  (a <= b <= length (slice buf ps pe))%nat ->
  slice buf (ps + Z.of_nat a) (ps + Z.of_nat b) = firstn (b - a) (skipn a (slice buf ps pe)).
Proof.
  intros Hps H. unfold slice in *.
  replace (Z.to_nat (ps + Z.of_nat b - (ps + Z.of_nat a))) with (b - a)%nat by lia.
  replace (Z.to_nat (ps + Z.of_nat a)) with (Z.to_nat ps + a)%nat by lia.
  rewrite firstn_length in H.
  rewrite skipn_firstn_comm, firstn_firstn, skipn_skipn, Nat.min_l by lia. reflexivity.
Qed.

Definition frame_rows (buf : list v) ps pe (a b : nat) : list v := firstn (b - a) (skipn a (slice buf ps pe)).

Theorem win_max_spec buf ps pe (a b : nat) : 0 <= ps -> (a <= b <= length (slice buf ps pe))%nat ->
  win_agg FMax buf ps pe (ps + Z.of_nat a) (ps + Z.of_nat b) = of_v (spec_max (frame_rows buf ps pe a b)).
Proof.
  intros Hps H. unfold win_agg, frame_rows. rewrite Z.max_l by lia. rewrite (slice_sub buf ps pe) by assumption.
  rewrite max_buf_spec. reflexivity.
Qed.

Theorem win_min_spec buf ps pe (a b : nat) : 0 <= ps -> (a <= b <= length (slice buf ps pe))%nat ->
  win_agg FMin buf ps pe (ps + Z.of_nat a) (ps + Z.of_nat b) = of_v (spec_min (frame_rows buf ps pe a b)).
Proof.
  intros Hps H. unfold win_agg, frame_rows. destruct (Z.ltb_spec (ps + Z.of_nat a) 0); [lia|].
  rewrite (slice_sub buf ps pe) by assumption. rewrite min_buf_spec. reflexivity.
Qed.

Lemma nth_firstn' {A} (l : list A) d : forall n i, (i < n)%nat -> nth i (firstn n l) d = nth i l d.
Proof.
  induction l as [|x t IH]; intros n i H; [rewrite firstn_nil; reflexivity|].
  destruct n as [|n]; [lia|]. destruct i as [|i]; [reflexivity|]. cbn [firstn nth]. apply IH. lia.
Qed.
Lemma nth_skipn' {A} (l : list A) d : forall n i, nth i (skipn n l) d = nth (n + i) l d.
Proof.
  induction l as [|x t IH]; intros n i; [rewrite skipn_nil; destruct i, n; reflexivity|].
  destruct n as [|n]; [reflexivity|]. cbn [skipn Nat.add nth]. apply IH.
Qed.

Lemma last_nth' {A} (l : list A) d : last l d = nth (length l - 1) l d.
Proof.
  induction l as [|x t IH]; [reflexivity|]. destruct t as [|y t']; [reflexivity|].
  change (last (x :: y :: t') d) with (last (y :: t') d). rewrite IH. cbn [length Nat.sub nth]. rewrite Nat.sub_0_r. reflexivity.
Qed.

Lemma znth_slice {A} (buf : list A) ps pe (i : nat) d : 0 <= ps -> (i < length (slice buf ps pe))%nat ->
  znth buf (ps + Z.of_nat i) d = nth i (slice buf ps pe) d.
Proof.
  intros Hps Hi. unfold znth, slice in *. destruct (Z.ltb_spec (ps + Z.of_nat i) 0); [lia|].
  rewrite firstn_length in Hi. rewrite nth_firstn' by lia. rewrite nth_skipn'. f_equal. lia.
Qed.

(* FIRST_VALUE / LAST_VALUE: the value of the first / last row of the frame, NULL for an empty frame *)
Theorem win_first_last_spec buf ps pe (a b : nat) : 0 <= ps -> (a <= b <= length (slice buf ps pe))%nat ->
  win_agg FFirst buf ps pe (ps + Z.of_nat a) (ps + Z.of_nat b)
    = (if (a <? b)%nat then of_v (hd None (frame_rows buf ps pe a b)) else WNull) /\
  win_agg FLast buf ps pe (ps + Z.of_nat a) (ps + Z.of_nat b)
    = (if (a <? b)%nat then of_v (last (frame_rows buf ps pe a b) None) else WNull).
Proof.
  intros Hps H. unfold win_agg, frame_rows. set (part := slice buf ps pe) in *.
  destruct (Nat.ltb_spec a b) as [Hab|Hab];
    destruct (Z.ltb_spec (ps + Z.of_nat b - (ps + Z.of_nat a)) 1) as [Hz|Hz]; try lia; [|split; reflexivity].
  (* row i of the frame is row a + i of the partition *)
  assert (Hn : forall i, (i < b - a)%nat -> nth i (firstn (b - a) (skipn a part)) None = nth (a + i) part None)
    by (intros i Hi; rewrite nth_firstn' by lia; apply nth_skipn').
  assert (Hl : length (firstn (b - a) (skipn a part)) = (b - a)%nat) by (rewrite firstn_length, skipn_length; lia).
  replace (ps + Z.of_nat b - 1) with (ps + Z.of_nat (b - 1)) by lia.
  rewrite !(znth_slice buf ps pe) by (fold part; lia). fold part. split; f_equal.
  - rewrite <- (Nat.add_0_r a) at 1. rewrite <- Hn by lia. destruct (firstn _ _); reflexivity.
  - rewrite last_nth', Hl, Hn by lia. f_equal. lia.
Qed.

(* the count AvgAgg divides by, taken from the running NULL counts, is the number of non-NULL values of the frame *)
Lemma frame_nonnull_count (part : list v) ps (a b : nat) : (a <= b <= length part)%nat ->
  let nulls := prefix_from 0 (map (fun x : v => match x with None => 1 | Some _ => 0 end) part) in
  let si := ps + Z.of_nat a - ps - 1 in let ei := ps + Z.of_nat b - ps - 1 in
  (if ei >=? 0 then ei + 1 - znth nulls ei 0 else 0) - (if si >=? 0 then si + 1 - znth nulls si 0 else 0)
  = Z.of_nat (length (nonnull (firstn (b - a) (skipn a part)))).
Proof.
  intros H. cbn zeta. set (l := map _ part).
  assert (Hl : length l = length part) by apply map_length.
  pose proof (prefix_value l ps a ltac:(lia)) as Pa. pose proof (prefix_value l ps b ltac:(lia)) as Pb.
  rewrite (firstn_split l a b), zsum_app in Pb by lia. unfold l in Pb at 3.
  rewrite skipn_map, firstn_map, zsum_nullind, firstn_length, skipn_length in Pb.
  destruct (Z.geb_spec (ps + Z.of_nat b - ps - 1) 0), (Z.geb_spec (ps + Z.of_nat a - ps - 1) 0); lia.
Qed.

(* AVG: with at least one non-NULL value in the frame it is sum / count of the non-NULL values *)
Theorem win_avg_guarded buf ps pe (a b : nat) : (a <= b <= length (slice buf ps pe))%nat ->
  nonnull (frame_rows buf ps pe a b) <> [] ->
  win_agg FAvg buf ps pe (ps + Z.of_nat a) (ps + Z.of_nat b)
  = WQ (zsum (nonnull (frame_rows buf ps pe a b))) (Z.of_nat (length (nonnull (frame_rows buf ps pe a b)))).
Proof.
  intros H Hnn. unfold win_agg, float_prefix, frame_rows in *. cbn [fst snd].
  rewrite frame_nonnull_count, prefix_diff_map, zsum_val0 by lia.
  destruct (nonnull (firstn (b - a) (skipn a (slice buf ps pe)))); [congruence|reflexivity].
Qed.
