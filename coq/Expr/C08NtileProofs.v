(* C08 — NTILE for every partition size and every bucket count (no bound): the state machine of NTile.Compute
   yields the closed form; consequently bucket sizes are c/b + 1 for the first c mod b buckets and c/b after. *)
From Coq Require Import List ZArith Bool Lia Arith.
Import ListNotations.
From GMS Require Import Expr.C08Agg.
Open Scope Z_scope.

(* compare the Euclidean divisions of i and of i - 1 *)
Lemma div_step i d : 1 <= i -> 1 <= d -> i / d = (i - 1) / d + (if i mod d =? 0 then 1 else 0).
Proof.
  intros Hi Hd.
  pose proof (Z.div_mod i d ltac:(lia)). pose proof (Z.mod_pos_bound i d ltac:(lia)).
  pose proof (Z.div_mod (i - 1) d ltac:(lia)). pose proof (Z.mod_pos_bound (i - 1) d ltac:(lia)).
  destruct (Z.eqb_spec (i mod d) 0); nia.
Qed.

Lemma map_seq_S (F : Z -> Z) x r :
  map (fun j => F (x + Z.of_nat j)) (seq 0 (S r)) = F x :: map (fun j => F (x + 1 + Z.of_nat j)) (seq 0 r).
Proof.
  cbn [seq map]. f_equal; [f_equal; lia|]. rewrite <- seq_shift, map_map. apply map_ext. intros j. f_equal. lia.
Qed.

(* closed form in the row index x (0-based) *)
Definition ntile_closed (s B0 x : Z) : Z :=
  if x <? B0 * (s + 1) then x / (s + 1) + 1 else B0 + (x - B0 * (s + 1)) / s + 1.

(* the closed form goes up by one exactly at the bucket boundaries: the multiples of s + 1 up to the end of the big
   buckets, and every s rows from there on *)
Lemma ntile_closed_step s B0 x : 1 <= s -> 0 <= B0 -> 1 <= x ->
  ntile_closed s B0 x = ntile_closed s B0 (x - 1)
    + (if (if x <=? B0 * (s + 1) then x mod (s + 1) else (x - B0 * (s + 1)) mod s) =? 0 then 1 else 0).
Proof.
  intros Hs HB Hx. unfold ntile_closed.
  destruct (Z.leb_spec x (B0 * (s + 1))) as [Hle|Hgt], (Z.ltb_spec (x - 1) (B0 * (s + 1))) as [Hp|Hp]; try lia.
  - pose proof (div_step x (s + 1) Hx ltac:(lia)) as D.
    destruct (Z.ltb_spec x (B0 * (s + 1))); [lia|]. assert (x = B0 * (s + 1)) as -> by lia.
    rewrite Z.div_mul in D by lia. rewrite Z.mod_mul, Z.sub_diag, Z.div_0_l in * by lia. cbn in *. lia.
  - destruct (Z.ltb_spec x (B0 * (s + 1))); [lia|].
    pose proof (div_step (x - B0 * (s + 1)) s ltac:(lia) Hs) as D.
    replace (x - 1 - B0 * (s + 1)) with (x - B0 * (s + 1) - 1) by lia. lia.
Qed.

(* The state machine at row x >= 1 carries the bucket of row x - 1.  After the B0 big buckets (phase 2) its position
   counts from their end; inside them (phase 1) it is x itself and [g] big buckets are still to be closed. *)
Lemma ntile_phase2 s B0 : 1 <= s -> 0 <= B0 -> forall rows x pos k,
  1 <= pos -> pos = x - B0 * (s + 1) -> k = ntile_closed s B0 (x - 1) ->
  ntile_rows rows pos s 0 k = map (fun j => ntile_closed s B0 (x + Z.of_nat j)) (seq 0 rows).
Proof.
  intros Hs HB. induction rows as [|r IH]; intros x pos k Hp Ep Ek; [reflexivity|].
  rewrite map_seq_S. cbn [ntile_rows]. destruct (Z.eqb_spec pos 0); [lia|]. cbn [Z.gtb Z.compare andb Z.eqb].
  pose proof (ntile_closed_step s B0 x Hs HB ltac:(lia)) as Fx. rewrite <- Ek, <- Ep in Fx. revert Fx.
  destruct (Z.leb_spec x (B0 * (s + 1))); [lia|].
  destruct (Z.eqb_spec (pos mod s) 0); intros Fx; (f_equal; [lia|]); apply IH; try lia; rewrite Z.add_simpl_r; lia.
Qed.

Lemma ntile_phase1 s B0 : 1 <= s -> 1 <= B0 -> forall rows x g k,
  1 <= x <= B0 * (s + 1) -> g = B0 - (x - 1) / (s + 1) -> k = ntile_closed s B0 (x - 1) ->
  ntile_rows rows x s g k = map (fun j => ntile_closed s B0 (x + Z.of_nat j)) (seq 0 rows).
Proof.
  intros Hs HB. induction rows as [|r IH]; intros x g k Hx Eg Ek; [reflexivity|].
  rewrite map_seq_S. cbn [ntile_rows]. destruct (Z.eqb_spec x 0); [lia|].
  pose proof (ntile_closed_step s B0 x Hs ltac:(lia) ltac:(lia)) as Fx. rewrite <- Ek in Fx. revert Fx.
  destruct (Z.leb_spec x (B0 * (s + 1))); [|lia].
  pose proof (div_step x (s + 1) ltac:(lia) ltac:(lia)) as D.
  pose proof (Z.div_mod x (s + 1) ltac:(lia)) as DM.
  assert (Hq : (x - 1) / (s + 1) < B0) by (apply Z.div_lt_upper_bound; lia).
  destruct (Z.gtb_spec g 0); [|lia]. cbn [andb].
  destruct (Z.eqb_spec (x mod (s + 1)) 0) as [Hm|Hm]; intros Fx.
  - (* a bucket boundary: x = (s + 1) * (x / (s + 1)) *)
    f_equal; [lia|]. destruct (Z.eqb_spec (g - 1) 0) as [Hg0|Hg0].
    + (* the last big bucket is closed: x = B0 * (s + 1) *)
      rewrite Hg0. apply (ntile_phase2 s B0 Hs); try lia. rewrite Z.add_simpl_r. lia.
    + apply IH; [nia|rewrite Z.add_simpl_r; lia..].
  - assert (Hlt : x < B0 * (s + 1)).
    { destruct (Z.eq_dec x (B0 * (s + 1))) as [E|E]; [|lia]. exfalso. apply Hm. rewrite E. apply Z.mod_mul. lia. }
    destruct (Z.eqb_spec g 0); [lia|]. cbn [andb]. f_equal; [lia|].
    apply IH; try lia; rewrite Z.add_simpl_r; lia.
Qed.

(* from the initial state *)
Lemma ntile_rows_closed s B0 rows : 1 <= s -> 0 <= B0 ->
  ntile_rows rows 0 s B0 1 = map (fun j => ntile_closed s B0 (Z.of_nat j)) (seq 0 rows).
Proof.
  intros Hs HB. destruct rows as [|r]; [reflexivity|].
  change (fun j => ntile_closed s B0 (Z.of_nat j)) with (fun j => ntile_closed s B0 (0 + Z.of_nat j)). rewrite map_seq_S.
  assert (F0 : ntile_closed s B0 0 = 1).
  { unfold ntile_closed. destruct (Z.ltb_spec 0 (B0 * (s + 1))); [rewrite Z.div_0_l by lia; reflexivity|].
    assert (B0 = 0) by nia. subst. reflexivity. }
  cbn [ntile_rows Z.eqb]. f_equal; [lia|]. assert (E0 : (0 + 1 - 1) / (s + 1) = 0) by (apply Z.div_0_l; lia).
  destruct (Z.eq_dec B0 0) as [->|E]; [apply (ntile_phase2 s 0 Hs)|apply (ntile_phase1 s B0 Hs)]; try lia; symmetry; exact F0.
Qed.

(* bucket sizes: bucket m holds the rows [start m, start m + size m), size = s+1 for the first `big`
   buckets and s afterwards; so sizes differ by at most 1 and never increase *)
Lemma div_eq_iff x d q : 0 < d -> (x / d = q <-> q * d <= x < (q + 1) * d).
Proof.
  intros Hd. pose proof (Z.div_mod x d ltac:(lia)) as E. pose proof (Z.mod_pos_bound x d Hd) as B. split.
  - intros <-. nia.
  - intros H. symmetry. apply (Z.div_unique x d q (x - q * d)); lia.
Qed.

Definition bucket_start (s big m : Z) : Z :=
  if m - 1 <=? big then (m - 1) * (s + 1) else big * (s + 1) + (m - 1 - big) * s.
Definition bucket_size (s big m : Z) : Z := if m <=? big then s + 1 else s.

Theorem ntile_bucket_rows s big m x : 1 <= s -> 0 <= big -> 1 <= m -> 0 <= x ->
  (ntile_closed s big x = m <-> bucket_start s big m <= x < bucket_start s big m + bucket_size s big m).
Proof.
  intros Hs Hb Hm Hx. unfold ntile_closed, bucket_start, bucket_size.
  destruct (Z.ltb_spec x (big * (s + 1))) as [Hlt|Hge].
  - (* inside the big buckets: x / (s + 1) = m - 1 *)
    pose proof (div_eq_iff x (s + 1) (m - 1) ltac:(lia)) as D.
    destruct (Z.leb_spec (m - 1) big), (Z.leb_spec m big); nia.
  - pose proof (div_eq_iff (x - big * (s + 1)) s (m - 1 - big) ltac:(lia)) as D.
    destruct (Z.leb_spec (m - 1) big), (Z.leb_spec m big); nia.
Qed.

Theorem ntile_sizes_nonincreasing s big m : 1 <= s -> 0 <= big -> 1 <= m ->
  bucket_size s big (m + 1) <= bucket_size s big m <= bucket_size s big (m + 1) + 1.
Proof. intros. unfold bucket_size. destruct (Z.leb_spec (m + 1) big), (Z.leb_spec m big); lia. Qed.
