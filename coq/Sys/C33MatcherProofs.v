(* C33, layer 2 - soundness of the reference matcher w.r.t. the language semantics M. *)
From Coq Require Import List NArith Arith Bool Lia.
Import ListNotations.
From GMS Require Import Base.ListFacts Sys.C33Matcher.

(* the continuation-passing core: whatever the matcher returns was produced by the continuation after a piece of
   the subject that belongs to the language of r (in its context) *)
Lemma m_sound : forall r pre s k v, m r pre s k = Some v ->
  exists mid post, s = mid ++ post /\ M r pre mid post /\ k (rev mid ++ pre) post = Some v.
Proof.
  induction r as [| c | | neg rs | a IHa b IHb | a IHa b IHb | a IHa | |]; intros pre s k v H; cbn [m] in H.
  - exists [], s. repeat split; [constructor|exact H].
  - destruct s as [|x s']; [discriminate|]. destruct (N.eqb_spec x c) as [->|]; [|discriminate].
    exists [c], s'. repeat split; [constructor|exact H].
  - destruct s as [|x s']; [discriminate|]. destruct (any_ok x) eqn:E; [|discriminate].
    exists [x], s'. repeat split; [constructor; exact E|exact H].
  - destruct s as [|x s']; [discriminate|]. destruct (in_cls neg rs x) eqn:E; [|discriminate].
    exists [x], s'. repeat split; [constructor; exact E|exact H].
  - apply IHa in H. destruct H as (m1 & post1 & -> & Ha & H).
    apply IHb in H. destruct H as (m2 & post & -> & Hb & H).
    exists (m1 ++ m2), post. split; [rewrite app_assoc; reflexivity|]. split; [constructor; assumption|].
    rewrite rev_app_distr, <- app_assoc. exact H.
  - destruct (m a pre s k) eqn:E.
    + injection H as <-. apply IHa in E. destruct E as (mid & post & -> & Ha & E).
      exists mid, post. repeat split; [apply M_altl; exact Ha|exact E].
    + apply IHb in H. destruct H as (mid & post & -> & Hb & H).
      exists mid, post. repeat split; [apply M_altr; exact Hb|exact H].
  - remember (length s) as n eqn:En. clear En. revert pre s v H.
    induction n as [|n IHn]; intros pre s v H.
    + exists [], s. repeat split; [constructor|exact H].
    + match type of H with context [m a pre s ?kk] => destruct (m a pre s kk) eqn:E end.
      * injection H as <-. apply IHa in E. destruct E as (m1 & post1 & -> & Ha & E).
        destruct (length post1 <? length (m1 ++ post1)); [|discriminate].
        apply IHn in E. destruct E as (m2 & post & -> & Hs & E).
        exists (m1 ++ m2), post. split; [rewrite app_assoc; reflexivity|]. split; [apply M_starS; assumption|].
        rewrite rev_app_distr, <- app_assoc. exact E.
      * exists [], s. repeat split; [constructor|exact H].
  - destruct pre; [|discriminate]. exists [], s. repeat split; [constructor|exact H].
  - destruct s; [|discriminate]. exists [], []. repeat split; [constructor|exact H].
Qed.

Lemma match_at_sound : forall r pre s n, match_at r pre s = Some n ->
  exists mid post, s = mid ++ post /\ M r pre mid post /\ length post = n.
Proof.
  intros r pre s n H. unfold match_at in H. apply m_sound in H. destruct H as (mid & post & E & HM & H).
  exists mid, post. repeat split; try assumption. injection H as <-. reflexivity.
Qed.

Lemma find_from_sound : forall r s pre i a b, find_from r pre s i = Some (a, b) ->
  exists skipped mid post, s = skipped ++ mid ++ post /\ a = i + length skipped /\ b = a + length mid /\
    M r (rev skipped ++ pre) mid post /\
    (forall j, j < length skipped -> match_at r (rev (firstn j skipped) ++ pre) (skipn j s) = None).
Proof.
  intros r s. induction s as [|x s IH]; intros pre i a b H; cbn [find_from] in H;
    (destruct (match_at r pre _) as [n|] eqn:E; [remember (_ - n) as d eqn:Hd in H; injection H as <- <-|]);
    try discriminate.
  (* a match at the current position, whether or not any subject is left: nothing was skipped *)
  1,2: apply match_at_sound in E; destruct E as (mid & post & E0 & HM & <-); exists [], mid, post;
       split; [exact E0|]; split; [symmetry; apply Nat.add_0_r|];
       split; [rewrite Hd, E0, app_length, Nat.add_sub; reflexivity|];
       split; [exact HM|intros j Hj; inversion Hj].
  apply IH in H. destruct H as (sk & mid & post & -> & -> & -> & HM & Hleft).
  exists (x :: sk), mid, post. cbn [app length rev]. rewrite <- app_assoc, Nat.add_succ_r.
  repeat split; [exact HM|]. intros [|j] Hj; [exact E|].
  cbn [firstn skipn rev]. rewrite <- app_assoc. apply Hleft. now apply Nat.succ_lt_mono.
Qed.

(* a reported match lies inside the subject and its text belongs to the language of the pattern, in
   the context of what precedes and follows it *)
Theorem matcher_sound : forall r s a b, find r s = Some (a, b) ->
  a <= b /\ b <= length s /\
  M r (rev (firstn a s)) (firstn (b - a) (skipn a s)) (skipn b s).
Proof.
  intros r s a b H. apply find_from_sound in H.
  destruct H as (sk & mid & post & -> & -> & -> & HM & _). cbn [Nat.add]. rewrite app_nil_r in HM.
  rewrite !app_length. split; [apply Nat.le_add_r|]. split; [rewrite Nat.add_assoc; apply Nat.le_add_r|].
  rewrite firstn_app_length, skipn_app_length, Nat.add_comm, Nat.add_sub, firstn_app_length.
  rewrite Nat.add_comm, <- app_length, app_assoc, skipn_app_length. exact HM.
Qed.

(* leftmost with respect to the matcher itself: no earlier start position is accepted *)
Theorem matcher_leftmost : forall r s a b, find r s = Some (a, b) ->
  forall j, j < a -> match_at r (rev (firstn j s)) (skipn j s) = None.
Proof.
  intros r s a b H j Hj. apply find_from_sound in H.
  destruct H as (sk & mid & post & -> & -> & -> & _ & Hleft). specialize (Hleft j Hj).
  rewrite app_nil_r in Hleft. rewrite firstn_app, (proj2 (Nat.sub_0_le j _)), app_nil_r by now apply Nat.lt_le_incl.
  exact Hleft.
Qed.

(* non-vacuity: (a|ab)(c|bcd)? on "xabcdy": leftmost-first picks a; in the optional group c fails on b and bcd matches,
   so the match is "abcd" *)
Example matcher_nonvacuous :
  find (Seq (Alt (Chr 97) (Seq (Chr 97) (Chr 98))) (Opt (Alt (Chr 99) (Seq (Chr 98) (Seq (Chr 99) (Chr 100))))))
       [120; 97; 98; 99; 100; 121]%N = Some (1, 5)
  /\ find (Seq Bol (Plus (Cls false [(97, 99)]%N))) [97; 98; 122]%N = Some (0, 2)
  /\ find (Seq (Star Any) Eol) [97; 98]%N = Some (0, 2)
  /\ find (Chr 122) [97; 98]%N = None.
Proof. vm_compute. repeat split. Qed.
