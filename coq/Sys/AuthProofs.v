(* Proofs about the authentication model (C40). *)
From Coq Require Import List NArith Bool Lia Arith.
Import ListNotations.
From GMS Require Import Sys.Auth.
Open Scope N_scope.

Lemma beqb_eq a b : beqb a b = true <-> a = b.
Proof.
  revert b. induction a as [|x a IH]; intros [|y b]; cbn [beqb]; split; intros E;
    try reflexivity; try discriminate.
  - apply andb_prop in E. destruct E as [E1 E2]. apply N.eqb_eq in E1. apply IH in E2. congruence.
  - injection E as -> ->. rewrite N.eqb_refl. cbn. apply IH. reflexivity.
Qed.

Lemma beqb_refl a : beqb a a = true.
Proof. apply beqb_eq. reflexivity. Qed.

(* digits 0..9 land in '0'..'9', digits 10..15 in 'A'..'F', past the test for 'a'..'f' *)
Lemma hexval_hexdig d : d < 16 -> hexval (hexdig d) = Some d.
Proof.
  intros Hd. unfold hexval, hexdig. destruct (N.ltb_spec d 10).
  - rewrite (proj2 (N.leb_le 48 _)), (proj2 (N.leb_le _ 57)) by lia. cbn [andb]. f_equal. lia.
  - rewrite (proj2 (N.leb_gt _ 57)), (proj2 (N.leb_gt 97 _)), andb_false_r by lia. cbn [andb].
    rewrite (proj2 (N.leb_le 65 _)), (proj2 (N.leb_le _ 70)) by lia. cbn [andb]. f_equal. lia.
Qed.

Lemma hex_decode_encode b :
  Forall (fun x => x < 256) b -> hex_decode (hex_encode b) = Some b.
Proof.
  induction 1 as [|x b Hx Hb IH]; [reflexivity|].
  cbn [hex_encode hex_decode].
  assert (Hq : x / 16 < 16) by (apply N.div_lt_upper_bound; [discriminate|exact Hx]).
  assert (Hr : x mod 16 < 16) by (apply N.mod_lt; discriminate).
  rewrite (hexval_hexdig _ Hq), (hexval_hexdig _ Hr), IH.
  do 2 f_equal. rewrite N.mul_comm. symmetry. apply N.div_mod'.
Qed.

Lemma xor_bytes_length a : forall b, length a = length b -> length (xor_bytes a b) = length a.
Proof.
  induction a as [|x a IH]; intros [|y b] Hl; cbn in *; try lia. rewrite IH; lia.
Qed.

Lemma xor_bytes_comm a : forall b, xor_bytes a b = xor_bytes b a.
Proof.
  induction a as [|x a IH]; intros [|y b]; cbn; try reflexivity.
  rewrite IH, N.lxor_comm. reflexivity.
Qed.

Lemma xor_bytes_cancel a : forall s, length a = length s -> xor_bytes s (xor_bytes a s) = a.
Proof.
  induction a as [|x a IH]; intros [|y s] Hl; cbn in *; try lia; [reflexivity|].
  rewrite IH by lia. f_equal.
  rewrite N.lxor_comm, N.lxor_assoc, N.lxor_nilpotent, N.lxor_0_r. reflexivity.
Qed.

Section WithHash.
  Variable H : bytes -> bytes.
  Hypothesis H_len : forall x, length (H x) = 20%nat.

  Lemma validate_empty_resp salt auth : validate H [] salt auth = false.
  Proof. reflexivity. Qed.

  Lemma validate_empty_auth resp salt : validate H resp salt [] = false.
  Proof. destruct resp; reflexivity. Qed.

  Lemma validate_unfold resp salt auth :
    resp <> [] -> auth <> [] ->
    validate H resp salt auth =
      match hex_decode (strip_star auth) with
      | None => false
      | Some hash =>
          if Nat.ltb (length resp) 20 then false
          else beqb (H (xor_bytes (H (salt ++ hash)) (firstn 20 resp))) hash
      end.
  Proof.
    destruct resp; [congruence|]. destruct auth; [congruence|]. intros _ _.
    unfold validate. destruct (hex_decode _) as [hash|]; [|reflexivity]. cbv zeta. rewrite H_len. reflexivity.
  Qed.

  (* for EVERY response: accepted iff it has at least 20 bytes, the stored string decodes to a hash, and the first 20
     bytes open the scramble to a preimage of that hash (bytes beyond the 20th are ignored, as in the code) *)
  Theorem validate_accept_iff resp salt auth :
    validate H resp salt auth = true <->
    auth <> [] /\ (20 <= length resp)%nat /\
    exists hash, hex_decode (strip_star auth) = Some hash /\
                 H (xor_bytes (H (salt ++ hash)) (firstn 20 resp)) = hash.
  Proof.
    destruct resp as [|r resp]; [split; [discriminate|]; intros (_ & Hl & _); now apply Nat.nle_succ_0 in Hl|].
    destruct auth as [|a auth]; [split; [discriminate|]; intros (F & _); congruence|].
    rewrite validate_unfold by discriminate.
    destruct (hex_decode _) as [hash|]; [|split; [discriminate|]; intros (_ & _ & h & E & _); discriminate].
    destruct (Nat.ltb_spec (length (r :: resp)) 20) as [Hs|Hl];
      [split; [discriminate|]; intros (_ & Hl & _); now apply Nat.lt_nge in Hs|].
    split.
    - intros E%beqb_eq. split; [discriminate|]. split; [exact Hl|]. exists hash. auto.
    - intros (_ & _ & h & [= <-] & E). apply beqb_eq, E.
  Qed.

  (* malformed credentials are rejected: every response shorter than the digest (the empty one included) gets [false] *)
  Theorem validate_short_response_rejected resp salt auth :
    (length resp < 20)%nat -> validate H resp salt auth = false.
  Proof.
    intros Hl. destruct (validate H resp salt auth) eqn:E; [|reflexivity].
    apply validate_accept_iff in E. destruct E as (_ & Hl' & _). lia.
  Qed.

  (* accepting a 20-byte response = the client exhibited a preimage of the stored hash, masked by the scramble *)
  Theorem validate_accept_preimage resp salt auth :
    length resp = 20%nat ->
    (validate H resp salt auth = true <->
     auth <> [] /\ exists hash stage1, hex_decode (strip_star auth) = Some hash /\ length stage1 = 20%nat /\
                                       H stage1 = hash /\ resp = xor_bytes stage1 (H (salt ++ hash))).
  Proof.
    intros Hl. rewrite validate_accept_iff, firstn_all2 by lia. split.
    - intros (Ha & _ & hash & Hd & He). split; [exact Ha|]. exists hash, (xor_bytes (H (salt ++ hash)) resp).
      repeat split; [exact Hd| |exact He|].
      + rewrite xor_bytes_length; rewrite H_len; auto.
      + rewrite (xor_bytes_comm (xor_bytes _ _)), (xor_bytes_comm (H _) resp), xor_bytes_cancel; [reflexivity|now rewrite H_len].
    - intros (Ha & hash & stage1 & Hd & Hs & He & ->). split; [exact Ha|].
      split; [lia|]. exists hash. split; [exact Hd|]. now rewrite xor_bytes_cancel by (rewrite H_len; exact Hs).
  Qed.

  Hypothesis H_byte : forall x, Forall (fun b => b < 256) (H x).

  Theorem honest_client_accepted salt pw :
    pw <> [] -> validate H (client_response H salt pw) salt (stored_auth H pw) = true.
  Proof.
    intros Hp. destruct pw as [|c pw]; [congruence|].
    set (p := c :: pw). change (client_response H salt p) with (xor_bytes (H p) (H (salt ++ H (H p)))).
    change (stored_auth H p) with (42 :: hex_encode (H (H p))).
    apply validate_accept_iff. split; [discriminate|].
    rewrite xor_bytes_length, H_len by (rewrite !H_len; reflexivity). split; [lia|].
    exists (H (H p)). split; [apply hex_decode_encode, H_byte|].
    rewrite firstn_all2 by (rewrite xor_bytes_length; rewrite !H_len; lia).
    rewrite xor_bytes_cancel by (rewrite !H_len; reflexivity). reflexivity.
  Qed.

  (* an account created without a password stores the empty string; the honest client sends nothing *)
  Lemma honest_client_empty salt : client_response H salt [] = [] /\ stored_auth H [] = [].
  Proof. split; reflexivity. Qed.
End WithHash.

(* declarative reading of a host pattern: '%' stands for any run of non-newline bytes, the rest is literal *)
Inductive gmatch : bytes -> bytes -> Prop :=
| gm_nil : gmatch [] []
| gm_lit c p h : c <> 37 -> gmatch p h -> gmatch (c :: p) (c :: h)
| gm_pct p w h : Forall (fun x => x <> 10) w -> gmatch p h -> gmatch (37 :: p) (w ++ h).

(* [glob] and [gmatch] obey the same two recursion equations, one per kind of pattern byte *)
Lemma glob_pct p h :
  glob (37 :: p) h = glob p h || match h with [] => false | x :: h' => negb (x =? 10) && glob (37 :: p) h' end.
Proof. destruct h; reflexivity. Qed.

Lemma glob_lit c p h : c <> 37 ->
  glob (c :: p) h = match h with [] => false | x :: h' => (x =? c) && glob p h' end.
Proof. intros Hc. cbn [glob]. destruct (N.eqb_spec c 37); [contradiction|reflexivity]. Qed.

Lemma gmatch_pct p h :
  gmatch (37 :: p) h <-> gmatch p h \/ match h with [] => False | x :: h' => x <> 10 /\ gmatch (37 :: p) h' end.
Proof.
  split.
  - intros E. inversion E as [|c p0 h0 Hc Hm|p0 w h0 Hw Hm]; subst; [contradiction|].
    destruct Hw as [|x w Hx Hw]; [left; exact Hm|right]. split; [exact Hx|]. now apply gm_pct.
  - intros [E|E]; [exact (gm_pct p [] h (Forall_nil _) E)|]. destruct h as [|x h]; [contradiction|]. destruct E as [Hx E].
    inversion E as [|c p0 h0 Hc Hm|p0 w h0 Hw Hm]; subst; [contradiction|].
    apply (gm_pct p (x :: w)); [constructor|]; assumption.
Qed.

Lemma gmatch_lit c p h : c <> 37 ->
  (gmatch (c :: p) h <-> match h with [] => False | x :: h' => x = c /\ gmatch p h' end).
Proof.
  intros Hc. split.
  - intros E. inversion E; subst; [auto|contradiction].
  - destruct h as [|x h]; [contradiction|]. intros [-> E]. now apply gm_lit.
Qed.

Theorem glob_spec p : forall h, glob p h = true <-> gmatch p h.
Proof.
  induction p as [|c p IH]; intros h.
  - destruct h; cbn; split; intros E; try constructor; try discriminate; inversion E.
  - destruct (N.eq_dec c 37) as [->|Hc].
    + induction h as [|x h IHh]; rewrite glob_pct, gmatch_pct, orb_true_iff, IH; [intuition discriminate|].
      rewrite andb_true_iff, negb_true_iff, N.eqb_neq, IHh. reflexivity.
    + rewrite glob_lit, gmatch_lit by exact Hc. destruct h as [|x h]; [intuition discriminate|].
      rewrite andb_true_iff, N.eqb_eq, IH. reflexivity.
Qed.

Lemma find_none_iff {A} (f : A -> bool) l : find f l = None <-> forall x, In x l -> f x = false.
Proof.
  split; [apply find_none|].
  induction l as [|a l IH]; intros Hf; [reflexivity|].
  cbn. rewrite (Hf a (or_introl eq_refl)). apply IH. intros x Hx. apply Hf. right. exact Hx.
Qed.

Lemma find_app_first {A} (f : A -> bool) pre u post :
  (forall x, In x pre -> f x = false) -> f u = true -> find f (pre ++ u :: post) = Some u.
Proof.
  intros Hpre Hu. induction pre as [|x pre IH]; cbn [app find]; [now rewrite Hu|].
  rewrite (Hpre x (or_introl eq_refl)). apply IH. intros y Hy. apply Hpre. now right.
Qed.

Definition selectable (u : user) (name orig : bytes) : Prop :=
  (u_name u = name \/ u_name u = []) /\ host_matches orig (norm_host orig) (u_host u) = true.

(* the tests of GetUser's three passes; the third is the second with the empty name *)
Definition p_exact (name orig : bytes) (u : user) : bool :=
  beqb (u_host u) (norm_host orig) && beqb (u_name u) name.
Definition p_named (name orig : bytes) (u : user) : bool :=
  beqb (u_name u) name && host_matches orig (norm_host orig) (u_host u).

Lemma get_user_unfold users name orig :
  get_user users name orig =
    match find (p_exact name orig) users with
    | Some u => Some u
    | None => match find (p_named name orig) users with
              | Some u => Some u
              | None => find (p_named [] orig) users
              end
    end.
Proof. reflexivity. Qed.

Lemma p_exact_iff name orig u : p_exact name orig u = true <-> u_host u = norm_host orig /\ u_name u = name.
Proof. unfold p_exact. now rewrite andb_true_iff, !beqb_eq. Qed.
Lemma p_named_iff name orig u :
  p_named name orig u = true <-> u_name u = name /\ host_matches orig (norm_host orig) (u_host u) = true.
Proof. unfold p_named. now rewrite andb_true_iff, beqb_eq. Qed.

(* an exact (host, name) entry also passes the second test: its host equals the normalised client host *)
Lemma p_exact_named name orig u : p_exact name orig u = true -> p_named name orig u = true.
Proof.
  rewrite p_exact_iff, p_named_iff. intros [Hh Hn]. split; [exact Hn|].
  unfold host_matches. rewrite Hh, beqb_refl. reflexivity.
Qed.

Lemma selectable_iff u name orig :
  selectable u name orig <-> p_named name orig u = true \/ p_named [] orig u = true.
Proof.
  split.
  - intros [[Hn|Hn] Hm]; [left|right]; now apply p_named_iff.
  - intros [E|E]; apply p_named_iff in E; destruct E; split; auto.
Qed.

(* the selected account passed one of the three tests, and a later test only after the earlier found nothing *)
Lemma get_user_some users name orig u : get_user users name orig = Some u ->
  In u users /\
  (p_exact name orig u = true \/
   find (p_exact name orig) users = None /\
   (p_named name orig u = true \/ find (p_named name orig) users = None /\ p_named [] orig u = true)).
Proof.
  rewrite get_user_unfold. destruct (find (p_exact _ _) users) eqn:F1.
  { intros [= ->]. apply find_some in F1. destruct F1. auto. }
  destruct (find (p_named name orig) users) eqn:F2.
  { intros [= ->]. apply find_some in F2. destruct F2. auto. }
  intros F3. apply find_some in F3. destruct F3. auto 6.
Qed.

Theorem get_user_sound users name orig u :
  get_user users name orig = Some u -> In u users /\ selectable u name orig.
Proof.
  intros E. apply get_user_some in E. rewrite selectable_iff.
  destruct E as [Hi [E|[_ [E|[_ E]]]]]; auto using p_exact_named.
Qed.

Theorem get_user_none_iff users name orig :
  get_user users name orig = None <-> forall u, In u users -> ~ selectable u name orig.
Proof.
  rewrite get_user_unfold. split.
  - intros E u Hi Hs. apply selectable_iff in Hs.
    destruct (find (p_exact _ _) users); [discriminate|].
    destruct (find (p_named name orig) users) eqn:F2; [discriminate|].
    destruct Hs as [Hs|Hs]; [rewrite (find_none _ _ F2 u Hi) in Hs|rewrite (find_none _ _ E u Hi) in Hs]; discriminate.
  - intros Hall.
    assert (Hnone : forall p, (forall u, p u = true -> selectable u name orig) -> find p users = None).
    { intros p Hp. apply find_none_iff. intros u Hi. apply not_true_is_false. intros Hu. exact (Hall u Hi (Hp u Hu)). }
    rewrite !Hnone; [reflexivity|..]; intros u Hu; apply selectable_iff; auto using p_exact_named.
Qed.

(* priority: an account whose (host, name) equals the normalised client address wins ... *)
Theorem get_user_exact_first users name orig u :
  get_user users name orig = Some u ->
  (exists v, In v users /\ u_host v = norm_host orig /\ u_name v = name) ->
  u_host u = norm_host orig /\ u_name u = name.
Proof.
  intros E (v & Hi & Hv). apply p_exact_iff. apply p_exact_iff in Hv.
  apply get_user_some in E. destruct E as [_ [E|[F1 _]]]; [exact E|].
  rewrite (find_none _ _ F1 v Hi) in Hv. discriminate.
Qed.

(* ... and the anonymous account is used only when no account of that name matches *)
Theorem get_user_named_before_anonymous users name orig u :
  get_user users name orig = Some u -> u_name u <> name ->
  u_name u = [] /\ forall v, In v users -> u_name v = name -> host_matches orig (norm_host orig) (u_host v) = false.
Proof.
  intros E Hne. apply get_user_some in E.
  destruct E as [_ [E|[_ [E|[F2 E]]]]]; [apply p_exact_iff in E; tauto|apply p_named_iff in E; tauto|].
  apply p_named_iff in E. split; [tauto|]. intros v Hi Hv.
  pose proof (find_none _ _ F2 v Hi) as G. unfold p_named in G. now rewrite Hv, beqb_refl in G.
Qed.

(* among several matching accounts of the same rank the first inserted one is taken *)
Theorem get_user_first_inserted pre u post name orig :
  (forall v, In v (pre ++ u :: post) -> ~ (u_host v = norm_host orig /\ u_name v = name)) ->
  u_name u = name -> host_matches orig (norm_host orig) (u_host u) = true ->
  (forall v, In v pre -> u_name v = name -> host_matches orig (norm_host orig) (u_host v) = false) ->
  get_user (pre ++ u :: post) name orig = Some u.
Proof.
  intros Hex Hn Hm Hpre. rewrite get_user_unfold.
  replace (find (p_exact name orig) _) with (@None user).
  2:{ symmetry. apply find_none_iff. intros v Hi. apply not_true_is_false. rewrite p_exact_iff. exact (Hex v Hi). }
  rewrite (find_app_first (p_named name orig)); [reflexivity| |now apply p_named_iff].
  intros v Hi. apply not_true_is_false. rewrite p_named_iff. intros [Hv Hmv]. now rewrite (Hpre v Hi Hv) in Hmv.
Qed.

Section Login.
  Variable H : bytes -> bytes.
  Hypothesis H_len : forall x, length (H x) = 20%nat.

  Definition credentials_ok (u : user) (salt resp : bytes) : Prop :=
    (u_auth u = [] /\ resp = []) \/ (u_auth u <> [] /\ validate H resp salt (u_auth u) = true).

  Theorem login_accept_iff users name host salt resp n h :
    login H true users name host salt resp = Accept n h <->
    exists u, get_user users name host = Some u /\ u_locked u = false /\ credentials_ok u salt resp /\
              n = u_name u /\ h = u_host u.
  Proof.
    unfold login, credentials_ok. cbn [negb]. split.
    - destruct (get_user users name host) as [u|]; [|discriminate]. destruct (u_locked u) eqn:L; [discriminate|].
      intros E. exists u. split; [reflexivity|]. split; [exact L|]. destruct (u_auth u) as [|a au].
      + destruct resp; [|discriminate]. injection E as <- <-. auto.
      + destruct (validate _ _ _ _); [|discriminate]. injection E as <- <-. split; [right|]; auto. split; [discriminate|reflexivity].
    - intros (u & -> & -> & C & -> & ->). destruct C as [[-> ->]|[A V]]; [reflexivity|].
      destruct (u_auth u); [congruence|]. now rewrite V.
  Qed.

  Theorem login_session_identity users name host salt resp n h :
    login H true users name host salt resp = Accept n h ->
    exists u, In u users /\ selectable u name host /\ u_locked u = false /\ n = u_name u /\ h = u_host u.
  Proof.
    intros E. apply login_accept_iff in E. destruct E as [u [G [L [_ [-> ->]]]]].
    apply get_user_sound in G. destruct G as [Hi Hs]. exists u. auto.
  Qed.

  Theorem login_unknown_rejected users name host salt resp :
    (forall u, In u users -> ~ selectable u name host) -> login H true users name host salt resp = Deny.
  Proof.
    intros Hall. apply get_user_none_iff in Hall. unfold login. cbn [negb]. rewrite Hall. reflexivity.
  Qed.

  Theorem login_locked_rejected users name host salt resp u :
    get_user users name host = Some u -> u_locked u = true -> login H true users name host salt resp = Deny.
  Proof. intros G L. unfold login. cbn [negb]. rewrite G, L. reflexivity. Qed.

  Theorem login_empty_password_rule users name host salt resp u :
    get_user users name host = Some u -> u_locked u = false -> u_auth u = [] ->
    (login H true users name host salt resp = Accept (u_name u) (u_host u) <-> resp = []) /\
    (resp <> [] -> login H true users name host salt resp = Deny).
  Proof.
    intros G L A. unfold login. cbn [negb]. rewrite G, L, A. destruct resp.
    - split; [split; reflexivity|congruence].
    - split; [split; discriminate|reflexivity].
  Qed.

  (* every attempt is either accepted or denied, and it is denied whenever the credentials are not valid for the
     selected account: wrong, missing and malformed credentials alike *)
  Theorem login_invalid_credentials_rejected users name host salt resp u :
    get_user users name host = Some u -> ~ credentials_ok u salt resp ->
    login H true users name host salt resp = Deny.
  Proof.
    intros G Hc.
    destruct (login H true users name host salt resp) as [n h|] eqn:E; [|reflexivity].
    exfalso. apply login_accept_iff in E. destruct E as [u' [G' [_ [C _]]]].
    rewrite G in G'. injection G' as <-. contradiction.
  Qed.

  (* malformed: a non-empty response shorter than the digest is denied whatever the account table *)
  Theorem login_malformed_response_rejected users name host salt resp :
    resp <> [] -> (length resp < 20)%nat -> login H true users name host salt resp = Deny.
  Proof.
    intros Hr Hl.
    destruct (login H true users name host salt resp) as [n h|] eqn:E; [|reflexivity].
    exfalso. apply login_accept_iff in E. destruct E as [u [_ [_ [[[_ C]|[_ C]] _]]]]; [contradiction|].
    rewrite (validate_short_response_rejected H H_len) in C by exact Hl. discriminate.
  Qed.

  Hypothesis H_byte : forall x, Forall (fun b => b < 256) (H x).

  (* end to end: an unlocked account created with password pw, selected for this client, accepts the honest client *)
  Theorem login_honest_client_accepted users name host salt pw u :
    get_user users name host = Some u -> u_locked u = false -> u_auth u = stored_auth H pw ->
    login H true users name host salt (client_response H salt pw) = Accept (u_name u) (u_host u).
  Proof.
    intros G L A. apply login_accept_iff. exists u. repeat split; auto.
    unfold credentials_ok. destruct pw as [|c pw].
    - left. split; [exact A|reflexivity].
    - right. rewrite A. split; [discriminate|]. apply honest_client_accepted; auto. discriminate.
  Qed.
End Login.
