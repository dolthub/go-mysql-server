(* C39: one simulation theorem over whole histories.  The abstract machine keeps, per account, a plain list of facts
   (FG p | FD db p | FT db tbl p) and the role edges; GRANT conses a fact, REVOKE filters it out (with the documented
   database-level behaviour of the code: when no database-level fact of that database remains, every fact of the
   database goes), REVOKE ALL filters a level, DROP removes the account and its edges.  Theorem: after every history the
   allow/deny decision of the model of the code equals the decision of the abstract machine. *)
From Coq Require Import List NArith Bool Lia.
Import ListNotations.
From GMS Require Import Base.ListFacts Sys.Privs Sys.PrivsProofs Sys.PrivsUnion.
Open Scope N_scope.

Definition fact_at (l : level) (p : N) : fact := match l with LG => FG p | LD d => FD d p | LT d t => FT d t p end.

Definition amem (f : fact) (fs : list fact) : bool := existsb (fact_eqb f) fs.

Lemma amem_filter (P : fact -> bool) f fs : amem f (filter P fs) = P f && amem f fs.
Proof.
  unfold amem. induction fs as [|g fs IH]; cbn [filter existsb]; [symmetry; apply andb_false_r|].
  destruct (P g) eqn:Pg; cbn [existsb]; rewrite IH; destruct (fact_eqb_spec f g) as [->|]; rewrite ?Pg; reflexivity.
Qed.

Definition is_fd (d : str) (f : fact) : bool := match f with FD e _ => seqb e d | _ => false end.
Definition is_fg (f : fact) : bool := match f with FG _ => true | _ => false end.
Definition is_ft (d t : str) (f : fact) : bool := match f with FT e u _ => seqb e d && seqb u t | _ => false end.

Definition a_add (l : level) (p : N) (fs : list fact) : list fact := fact_at l p :: fs.

Definition a_rem (l : level) (p : N) (fs : list fact) : list fact :=
  let fs' := filter (fun f => negb (fact_eqb f (fact_at l p))) fs in
  match l with
  | LD d => if existsb (is_fd d) fs' then fs' else filter (fun f => negb (on_db d f)) fs'
  | _ => fs'
  end.

Definition a_clear (l : level) (fs : list fact) : list fact :=
  match l with
  | LG => filter (fun f => negb (is_fg f)) fs
  | LD d => filter (fun f => negb (on_db d f)) fs
  | LT d t => filter (fun f => negb (is_ft d t f)) fs
  end.

Record astate : Type := mkA { a_users : list (str * list fact); a_edges : list (str * str) }.
Definition ainit : astate := mkA [] [].
Definition a_has_user (a : astate) (u : str) : bool := match aget u (a_users a) with Some _ => true | None => false end.
Definition a_upd (a : astate) (u : str) (f : list fact -> list fact) : astate :=
  match aget u (a_users a) with None => a | Some fs => mkA (aput u (f fs) (a_users a)) (a_edges a) end.

Definition aexec (a : astate) (st : stmt) : astate :=
  match st with
  | SCreate u => if a_has_user a u then a else mkA (aput u [] (a_users a)) (a_edges a)
  | SDrop u =>
      if a_has_user a u
      then mkA (adel u (a_users a)) (filter (fun e => negb (seqb (fst e) u) && negb (seqb (snd e) u)) (a_edges a))
      else a
  | SGrant u l ps => a_upd a u (fun x => fold_left (fun acc p => a_add l p acc) ps x)
  | SRevoke u l ps => a_upd a u (fun x => fold_left (fun acc p => a_rem l p acc) ps x)
  | SGrantAll u l => a_upd a u (fun x => fold_left (fun acc p => a_add l p acc) (all_at l) x)
  | SRevokeAll u l => a_upd a u (a_clear l)
  | SGrantRole r u =>
      if a_has_user a u && a_has_user a r
      then mkA (a_users a) (filter (fun e => negb (edge_eqb e (r, u))) (a_edges a) ++ [(r, u)])
      else a
  | SRevokeRole r u =>
      if a_has_user a u && a_has_user a r
      then mkA (a_users a) (filter (fun e => negb (edge_eqb e (r, u))) (a_edges a))
      else a
  end.

Definition arun (a : astate) (h : list stmt) : astate := fold_left aexec h a.

(* a fact is available to u when u holds it or a role granted to u holds it *)
Definition a_own (a : astate) (u : str) (f : fact) : bool := match aget u (a_users a) with Some fs => amem f fs | None => false end.
Definition a_avail (a : astate) (u : str) (f : fact) : bool :=
  a_own a u f || existsb (fun e => seqb (snd e) u && a_own a (fst e) f) (a_edges a).

Definition aallowed (a : astate) (u : str) (ops : list op) : bool :=
  a_has_user a u &&
  (a_avail a u (FG SUPER) ||
   forallb (fun o => let '(d, t, p) := o in a_avail a u (FG p) || a_avail a u (FD d p) || a_avail a u (FT d t p)) ops).

Definition refines (ps : privset) (fs : list fact) : Prop := forall f, holds ps f = amem f fs.

Lemma refines_add l p ps fs : refines ps fs -> refines (add_at l p ps) (a_add l p fs).
Proof. intros R f. rewrite add_at_facts, R. reflexivity. Qed.

Lemma on_db_fd d p : on_db d (FD d p) = true.
Proof. cbn. apply seqb_refl. Qed.

Lemma is_fd_amem d fs : existsb (is_fd d) fs = true <-> exists q, amem (FD d q) fs = true.
Proof.
  unfold amem. setoid_rewrite existsb_exists. split.
  - intros [[q|e q|e u q] [Hi Hd]]; try discriminate. apply seqb_eq in Hd. subst e.
    exists q, (FD d q). split; [exact Hi|apply fact_eqb_refl].
  - intros [q [g [Hi E]]]. destruct (fact_eqb_spec (FD d q) g) as [<-|]; [|discriminate].
    exists (FD d q). split; [exact Hi|apply seqb_refl].
Qed.

Lemma is_fd_pempty fs d s : (forall q, amem (FD d q) fs = pmem q s) -> existsb (is_fd d) fs = negb (pempty s).
Proof.
  intros E. apply eq_true_iff_eq. rewrite is_fd_amem, nonempty_pmem.
  split; intros [q H]; exists q; [rewrite <- E|rewrite E]; exact H.
Qed.

Lemma refines_rem l p ps fs : refines ps fs -> refines (rem_at l p ps) (a_rem l p fs).
Proof.
  intros R f. destruct l as [|d|d t]; cbn [rem_at a_rem fact_at].
  - rewrite rem_global_facts, amem_filter, R. reflexivity.
  - rewrite rem_db_facts.
    set (fs' := filter (fun g => negb (fact_eqb g (FD d p))) fs).
    assert (F' : forall g, amem g fs' = negb (fact_eqb g (FD d p)) && holds ps g)
      by (intros g; unfold fs'; rewrite amem_filter, R; reflexivity).
    rewrite (is_fd_pempty fs' d (prem p (d_privs (db_of ps d)))).
    2:{ intros q. rewrite F', pmem_prem. cbn [fact_eqb holds]. rewrite seqb_refl. reflexivity. }
    unfold db_keeps_entry, db_of. destruct (aget d (dbs ps)) as [ds|] eqn:A.
    + (* exact while a database-level privilege remains; otherwise both sides drop every fact of d, the named one included *)
      destruct (pempty (prem p (d_privs ds))); cbn [negb]; [|symmetry; apply F'].
      rewrite amem_filter, F'. destruct (fact_eqb_spec f (FD d p)) as [->|]; [rewrite on_db_fd|]; reflexivity.
    + (* no entry: nothing of d is held, so the filter on the right removes nothing *)
      cbn [negb pempty prem filter d_privs empty_d]. rewrite amem_filter, F'. destruct (on_db d f) eqn:O; [|reflexivity].
      rewrite (holds_none_on_db ps d f A O), andb_false_r. reflexivity.
  - rewrite rem_tbl_facts, amem_filter, R. reflexivity.
Qed.

Lemma refines_clear l ps fs : refines ps fs -> refines (clear_at l ps) (a_clear l fs).
Proof.
  intros R f. destruct l as [|d|d t]; cbn [clear_at a_clear]; rewrite amem_filter, <- R.
  - rewrite clear_global_facts. destruct f; reflexivity.
  - apply clear_db_facts.
  - rewrite clear_tbl_facts. destruct f; reflexivity.
Qed.

Lemma refines_fold (F : N -> privset -> privset) (G : N -> list fact -> list fact) qs :
  (forall p ps fs, refines ps fs -> refines (F p ps) (G p fs)) ->
  forall ps fs, refines ps fs ->
    refines (fold_left (fun acc p => F p acc) qs ps) (fold_left (fun acc p => G p acc) qs fs).
Proof. intros H. induction qs as [|q qs IH]; intros ps fs R; [exact R|]. cbn [fold_left]. apply IH, H, R. Qed.

(* refinement of the account table: the same accounts, each refined *)
Definition urel (us : list (str * privset)) (afs : list (str * list fact)) : Prop :=
  forall k, match aget k us, aget k afs with
            | Some ps, Some fs => refines ps fs
            | None, None => True
            | _, _ => False
            end.

Lemma urel_aput us afs k ps fs : urel us afs -> refines ps fs -> urel (aput k ps us) (aput k fs afs).
Proof. intros U R k'. rewrite !aget_aput. destruct (seqb k' k); [exact R|apply U]. Qed.

Lemma urel_adel us afs k : urel us afs -> urel (adel k us) (adel k afs).
Proof. intros U k'. rewrite !aget_adel. destruct (seqb k' k); [exact I|apply U]. Qed.

Definition srel (s : state) (a : astate) : Prop := urel (users s) (a_users a) /\ edges s = a_edges a.

Lemma srel_has_user s a u : srel s a -> has_user s u = a_has_user a u.
Proof.
  intros [U _]. unfold has_user, a_has_user. specialize (U u).
  destruct (aget u (users s)), (aget u (a_users a)); try reflexivity; contradiction.
Qed.

Lemma srel_own s a u f : srel s a -> holds (privs_of s u) f = a_own a u f.
Proof.
  intros [U _]. rewrite holds_privs_of. unfold a_own. specialize (U u).
  destruct (aget u (users s)), (aget u (a_users a)); try contradiction; [apply U|reflexivity].
Qed.

Lemma srel_upd s a u F G :
  srel s a -> (forall ps fs, refines ps fs -> refines (F ps) (G fs)) -> srel (upd_user s u F) (a_upd a u G).
Proof.
  intros [U E] H. unfold upd_user, a_upd. pose proof (U u) as X.
  destruct (aget u (users s)) as [ps|], (aget u (a_users a)) as [fs|]; try contradiction; [|split; assumption].
  split; [apply urel_aput; [exact U|apply H, X]|exact E].
Qed.

Lemma aexec_sim s a st : srel s a -> srel (exec s st) (aexec a st).
Proof.
  intros R. pose proof R as [U E].
  destruct st as [u|u|u l qs|u l qs|u l|u l|r u|r u]; cbn [exec aexec]; rewrite <- ?(srel_has_user s a _ R).
  3-6: apply srel_upd; [exact R|intros ps fs].
  7-8: destruct (has_user s u && has_user s r); [split; cbn; [exact U|rewrite E; reflexivity]|exact R].
  - destruct (has_user s u); [exact R|]. split; [|exact E]. apply urel_aput; [exact U|]. intros []; reflexivity.
  - destruct (has_user s u); [|exact R]. split; cbn; [apply urel_adel, U|rewrite E; reflexivity].
  - exact (refines_fold (add_at l) (a_add l) qs (refines_add l) ps fs).
  - exact (refines_fold (rem_at l) (a_rem l) qs (refines_rem l) ps fs).
  - exact (refines_fold (add_at l) (a_add l) _ (refines_add l) ps fs).
  - apply refines_clear.
Qed.

Lemma arun_sim h : forall s a, srel s a -> srel (run s h) (arun a h).
Proof. induction h as [|st h IH]; intros s a R; [exact R|]. apply IH, aexec_sim, R. Qed.

Theorem allowed_sim s a u ops : srel s a -> state_wf s -> allowed s u ops = aallowed a u ops.
Proof.
  intros R W. rewrite (allowed_grants s u ops W), (srel_has_user s a u R). unfold aallowed. f_equal.
  apply grants_ext. intros f. unfold a_avail, role_gives. rewrite (srel_own s a u f R), <- (proj2 R). f_equal.
  apply existsb_ext. intros e. rewrite <- (srel_own s a (fst e) f R), holds_privs_of. reflexivity.
Qed.

Lemma init_srel : srel init ainit.
Proof. split; [intros k; exact I|reflexivity]. Qed.

(* THE simulation theorem: for every history of CREATE / DROP / GRANT / REVOKE / GRANT ALL / REVOKE ALL / GRANT role /
   REVOKE role, every account and every list of requirements, the model of the code decides as the fact machine does *)
Theorem history_simulation h u ops : allowed (run init h) u ops = aallowed (arun ainit h) u ops.
Proof. apply allowed_sim; [apply arun_sim, init_srel|apply run_wf, init_wf]. Qed.

(* where the fact machine differs from the textbook reading "REVOKE removes exactly the named fact": only at the
   database level, and only when no database-level fact of that database remains afterwards *)
Theorem a_rem_exact l p fs f :
  (match l with LD d => existsb (is_fd d) (filter (fun g => negb (fact_eqb g (fact_at l p))) fs) = true | _ => True end) ->
  amem f (a_rem l p fs) = negb (fact_eqb f (fact_at l p)) && amem f fs.
Proof.
  intros G. unfold a_rem. destruct l as [|d|d t]; [apply amem_filter| |apply amem_filter].
  rewrite G. apply amem_filter.
Qed.

Theorem a_add_exact l p fs f : amem f (a_add l p fs) = fact_eqb f (fact_at l p) || amem f fs.
Proof. reflexivity. Qed.
