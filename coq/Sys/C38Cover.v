(* C38 — ReleaseAll's name list covers every lock the session holds (invariant of the small-step model). *)
From Coq Require Import List NArith Bool.
Import ListNotations.
From GMS Require Import Sys.Locks Sys.LocksProofs.
Open Scope N_scope.

(* the names that session t's bookkeeping accounts for, by program counter: normally its lock set; also the name it has
   just won the CAS for, when AddLock is next; not the name it has just released, when DelLock is next; inside
   ReleaseAll the names still to be visited; and nothing at all once ReleaseAll is about to return its count *)
Definition covered (l : list N) (p : pc) (n : N) : Prop :=
  match p with
  | PTAdd _ m => n = m \/ In n l
  | PUDel m => n <> m /\ In n l
  | PRIter todo _ => In n todo
  | PRLoad m todo _ | PRCas m _ todo _ => n = m \/ In n todo
  | PRet (RCount _) => False
  | _ => In n l
  end.

Definition Cover (s : cstate) : Prop :=
  forall t n id c, t <> 0 -> lk s n = Some (id, t, c) -> covered (sset s t) (pcs s t) n.

Lemma cover_init : Cover cinit.
Proof. intros t n id c _ H. discriminate. Qed.

(* the program counters at which the bookkeeping is just the lock set *)
Definition plain (p : pc) : bool :=
  match p with
  | PTAdd _ _ | PUDel _ | PRIter _ _ | PRLoad _ _ _ | PRCas _ _ _ _ | PRet (RCount _) => false
  | _ => true
  end.

Lemma covered_plain l p n : plain p = true -> covered l p n = In n l.
Proof. destruct p as [| | | | | | | | | | | | | | | |[]]; (discriminate || reflexivity). Qed.

Lemma in_add_name n m l : In n (add_name m l) <-> n = m \/ In n l.
Proof.
  unfold add_name. destruct (existsb (N.eqb m) l) eqn:E.
  - apply existsb_exists in E as (x & Hx & Ex). apply N.eqb_eq in Ex. subst x.
    split; [auto|]. intros [->|H]; auto.
  - cbn. split; intros [H|H]; auto.
Qed.

Lemma in_del_name n m l : In n (del_name m l) <-> n <> m /\ In n l.
Proof. unfold del_name. rewrite filter_In, negb_true_iff, N.eqb_neq. tauto. Qed.

(* actor t0 moves without touching the pointers *)
Lemma cover_nolk s t0 l' p' :
  Cover s ->
  (forall n id c, lk s n = Some (id, t0, c) -> covered (sset s t0) (pcs s t0) n -> covered l' p' n) ->
  Cover (mkC (lk s) (nid s) (fupd (sset s) t0 l') (fupd (pcs s) t0 p')).
Proof.
  intros HC Hob t n id c Ht Hl. cbn in *. unfold fupd. destruct (N.eqb_spec t t0) as [->|Hne]; eauto.
Qed.

Lemma cover_set_pc s t0 p' :
  Cover s ->
  (forall n id c, lk s n = Some (id, t0, c) -> covered (sset s t0) (pcs s t0) n -> covered (sset s t0) p' n) ->
  Cover (set_pc s t0 p').
Proof.
  intros HC Hob t n id c Ht Hl. cbn in *. unfold fupd. destruct (N.eqb_spec t t0) as [->|Hne]; eauto.
Qed.

Lemma cover_plain s t0 p p' :
  Cover s -> pcs s t0 = p -> plain p = true -> plain p' = true -> Cover (set_pc s t0 p').
Proof.
  intros HC Hp H1 H2. apply cover_set_pc; [exact HC|]. intros n id c _. now rewrite Hp, !covered_plain.
Qed.

(* actor t0 installs a new cell {o, c} at name m, with o = 0 or o = t0 *)
Lemma cover_install s t0 m o c p' :
  Cover s -> o = 0 \/ o = t0 ->
  (forall n id c, n <> m -> lk s n = Some (id, t0, c) -> covered (sset s t0) (pcs s t0) n -> covered (sset s t0) p' n) ->
  (o <> 0 -> covered (sset s t0) p' m) ->
  Cover (install s m o c t0 p').
Proof.
  intros HC Ho Hob Hm t n id c0 Ht Hl. cbn in *. unfold fupd in *.
  destruct (N.eqb_spec n m) as [->|Hn].
  - injection Hl as <- <- <-. destruct Ho as [-> | ->]; [contradiction|].
    rewrite N.eqb_refl. now apply Hm.
  - destruct (N.eqb_spec t t0) as [->|Hne]; eauto.
Qed.

Lemma cover_step s a l s' : R s a -> Cover s -> cstep s l s' -> Cover s'.
Proof.
  intros HR HC Hstep. destruct Hstep.
  (* most rules lead from one program counter to another with the plain bookkeeping, and leave the pointers alone *)
  all: try (eapply cover_plain; [exact HC|eassumption|reflexivity|reflexivity]).
  - (* c_inv: ReleaseAll starts with the whole lock set to visit *)
    destruct o; try (eapply cover_plain; [exact HC|eassumption|reflexivity|reflexivity]).
    apply cover_set_pc; [exact HC|]. rewrite H0. auto.
  - (* c_resp: after ReleaseAll nothing is held *)
    apply cover_set_pc; [exact HC|]. rewrite H. now destruct r.
  - (* c_create_new *)
    apply cover_install; [exact HC|now left| |easy].
    rewrite H. auto.
  - (* c_tload_other *)
    destruct b; (eapply cover_plain; [exact HC|eassumption|reflexivity|reflexivity]).
  - (* c_tcas_free: the name is accounted for until AddLock has run *)
    apply cover_install; [exact HC|now right|rewrite H; cbn; auto|now left].
  - (* c_tcas_own: t held the name already *)
    pose proof (r_thr _ _ HR t) as Ht. rewrite H in Ht. cbn in Ht.
    destruct Ht as (Ht0 & _ & _ & [Ho|Ho] & _ & Hfr); [contradiction|]. subst o id'.
    destruct (Hfr _ _ _ H1 eq_refl) as [-> _].
    pose proof (HC _ _ _ _ Ht0 H1) as Hc. rewrite H in Hc.
    apply cover_install; [exact HC|now right|rewrite H|intros _]; destruct b; cbn; auto.
  - (* c_tadd *)
    apply cover_nolk; [exact HC|]. rewrite H. intros n0 id c _ Hc. cbn in Hc. rewrite <- in_add_name in Hc.
    now destruct b.
  - (* c_ucas_dec: t still holds the name *)
    pose proof (r_thr _ _ HR t) as Ht. rewrite H in Ht. cbn in Ht.
    destruct Ht as (Ht0 & _ & _ & _ & Hfr). subst id'.
    destruct (Hfr _ _ _ H1 eq_refl) as [-> _].
    pose proof (HC _ _ _ _ Ht0 H1) as Hc. rewrite H in Hc.
    apply cover_install; [exact HC|now right|rewrite H; auto|auto].
  - (* c_ucas_free: the name is not held any more, DelLock may drop it *)
    apply cover_install; [exact HC|now left|rewrite H; cbn; auto|easy].
  - (* c_udel *)
    apply cover_nolk; [exact HC|]. rewrite H. intros n0 id c _ Hc. cbn in Hc. now rewrite <- in_del_name in Hc.
  - (* c_riter_done: nothing left to visit, so nothing held *)
    apply cover_set_pc; [exact HC|]. rewrite H. auto.
  - (* c_riter_none *)
    apply cover_set_pc; [exact HC|]. rewrite H. intros n0 id c Hl [->|Hc]; [congruence|exact Hc].
  - (* c_riter_some *)
    apply cover_set_pc; [exact HC|]. rewrite H. intros n0 id c Hl [->|Hc]; cbn; auto.
  - (* c_rload_other: the name skipped is somebody else's *)
    apply cover_set_pc; [exact HC|]. rewrite H. intros n0 id0 c0 Hl [->|Hc]; [congruence|exact Hc].
  - (* c_rload_mine *)
    apply cover_set_pc; [exact HC|]. rewrite H. auto.
  - (* c_rcas_ok *)
    apply cover_install; [exact HC|now left|rewrite H; cbn; tauto|easy].
  - (* c_rcas_fail *)
    apply cover_set_pc; [exact HC|]. rewrite H. auto.
  - (* c_sload *)
    destruct (N.eqb o 0); (eapply cover_plain; [exact HC|eassumption|reflexivity|reflexivity]).
Qed.

Lemma cover_exec s a tr s' : R s a -> Cover s -> cexec s tr s' -> exists a', R s' a' /\ Cover s'.
Proof.
  intros HR HC He. revert a HR HC. induction He as [s|s l s1 tr s2 Hs He IH]; intros a HR HC.
  - exists a. split; assumption.
  - destruct (sim_step _ _ _ _ HR Hs) as (a1 & _ & HR1).
    apply (IH a1 HR1). exact (cover_step _ _ _ _ HR HC Hs).
Qed.

Theorem cover_reachable tr s : cexec cinit tr s -> Cover s.
Proof. intros He. destruct (cover_exec _ _ _ _ R_init cover_init He) as (a & _ & HC). exact HC. Qed.

(* when a session is idle — in particular at the moment it calls ReleaseAll, whose loop runs over exactly
   [sset s t] (start_pc) — every lock it holds is in its lock set *)
Theorem idle_session_set_covers_held_locks tr s t n id c :
  cexec cinit tr s -> t <> 0 -> pcs s t = PIdle -> lk s n = Some (id, t, c) -> In n (sset s t).
Proof. intros He Ht Hp Hl. pose proof (cover_reachable _ _ He _ _ _ _ Ht Hl) as H. now rewrite Hp in H. Qed.

(* while ReleaseAll runs, every lock the session still holds is still to be visited *)
Theorem release_all_todo_covers_held_locks tr s t todo k n id c :
  cexec cinit tr s -> t <> 0 -> pcs s t = PRIter todo k -> lk s n = Some (id, t, c) -> In n todo.
Proof. intros He Ht Hp Hl. pose proof (cover_reachable _ _ He _ _ _ _ Ht Hl) as H. now rewrite Hp in H. Qed.

(* when ReleaseAll is about to return its count, the session holds no lock at all — under every interleaving *)
Theorem release_all_leaves_nothing_held tr s t k n id c :
  cexec cinit tr s -> t <> 0 -> pcs s t = PRet (RCount k) -> lk s n <> Some (id, t, c).
Proof. intros He Ht Hp Hl. pose proof (cover_reachable _ _ He _ _ _ _ Ht Hl) as H. now rewrite Hp in H. Qed.
