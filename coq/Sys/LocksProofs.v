(* C38 — forward simulation from the CAS protocol of lock_subsystem.go to the atomic lock specification. *)
From Coq Require Import List NArith Bool Lia.
Import ListNotations.
From GMS Require Import Sys.Locks.
Open Scope N_scope.

Lemma fupd_same {A} (f : N -> A) k v : fupd f k v k = v.
Proof. unfold fupd. now rewrite N.eqb_refl. Qed.

Lemma fupd_other {A} (f : N -> A) k v x : x <> k -> fupd f k v x = f x.
Proof. unfold fupd. intros H. destruct (N.eqb_spec x k); [contradiction|reflexivity]. Qed.

Definition abs_cell (x : option (N * N * N)) : lstate :=
  match x with
  | None => LNone
  | Some (_, o, c) => if N.eqb o 0 then LFree else LHeld o c
  end.

(* the cell a thread loaded is still what the pointer refers to whenever the ids agree *)
Definition fresh_ok (lk : N -> option (N * N * N)) (n id o c : N) : Prop :=
  forall id' o' c', lk n = Some (id', o', c') -> id' = id -> o' = o /\ c' = c.

Definition trel (lk : N -> option (N * N * N)) (nid : N) (t : N) (p : pc) (ap : apc) : Prop :=
  match p with
  | PIdle => ap = AIdle
  | PGet b n | PCreate b n => t <> 0 /\ ap = APend (if b then OLock n else OTry n)
  | PTLoad b n => t <> 0 /\ wants_lock ap n b /\ lk n <> None
  | PTCas b n id o c =>
      t <> 0 /\ wants_lock ap n b /\ lk n <> None /\ (o = 0 \/ o = t) /\ id < nid /\ fresh_ok lk n id o c
  | PTAdd b n => ap = ADone (acquired b)
  | PTFail n => t <> 0 /\ ap = ABusy n /\ lk n <> None
  | PUGet n => t <> 0 /\ ap = APend (OUnlock n)
  | PULoad n => t <> 0 /\ ap = APend (OUnlock n) /\ lk n <> None
  | PUCas n id c => t <> 0 /\ ap = APend (OUnlock n) /\ lk n <> None /\ id < nid /\ fresh_ok lk n id t c
  | PUDel n => ap = ADone ROk
  | PRIter todo k => t <> 0 /\ ap = ARel todo k
  | PRLoad n todo k => t <> 0 /\ ap = ARel (n :: todo) k /\ lk n <> None
  | PRCas n id todo k =>
      t <> 0 /\ ap = ARel (n :: todo) k /\ lk n <> None /\ id < nid /\
      (forall id' o' c', lk n = Some (id', o', c') -> id' = id -> o' = t)
  | PSGet n => ap = APend (OState n)
  | PSLoad n => ap = APend (OState n) /\ lk n <> None
  | PRet r => ap = ADone r
  end.

Record R (s : cstate) (a : astate) : Prop := {
  r_abs : forall n, abs_cell (lk s n) = al a n;
  r_ids : forall n id o c, lk s n = Some (id, o, c) -> id < nid s;
  r_thr : forall t, trel (lk s) (nid s) t (pcs s t) (apcs a t)
}.

Lemma R_init : R cinit ainit.
Proof. split; cbn; intros; try discriminate; reflexivity. Qed.

(* other threads are not disturbed by the installation of a freshly allocated cell *)
Lemma trel_stable lk nid lk' nid' t p ap :
  (forall n, lk' n = lk n \/ exists o c, lk' n = Some (nid, o, c)) -> nid <= nid' ->
  trel lk nid t p ap -> trel lk' nid' t p ap.
Proof.
  intros Hlk Hle.
  assert (Hne : forall n, lk n <> None -> lk' n <> None).
  { intros n H. destruct (Hlk n) as [E|(o & c & E)]; rewrite E; [exact H|discriminate]. }
  (* a cell with an id allocated before is the cell that was there before *)
  assert (Hold : forall n id o c, lk' n = Some (id, o, c) -> id < nid -> lk n = Some (id, o, c)).
  { intros n id o c E Hid. destruct (Hlk n) as [<-|(o0 & c0 & E')]; [exact E|].
    rewrite E' in E. injection E as <- _ _. lia. }
  assert (Hfr : forall n id o c, id < nid -> fresh_ok lk n id o c -> fresh_ok lk' n id o c).
  { intros n id o c Hid Hf id' o' c' E ->. eapply Hf; eauto. }
  destruct p; cbn; intros H; try exact H; decompose [and] H; repeat apply conj; auto;
    try (eapply N.lt_le_trans; eassumption).
  intros id' o' c' E ->. eauto.
Qed.

(* a step of thread t that leaves the pointers alone *)
Lemma R_nolk s a t p sset' a' :
  R s a -> (forall m, al a' m = al a m) -> (forall t', t' <> t -> apcs a' t' = apcs a t') ->
  trel (lk s) (nid s) t p (apcs a' t) ->
  R (mkC (lk s) (nid s) sset' (fupd (pcs s) t p)) a'.
Proof.
  intros [Ha Hi Ht] Hal Hoth Hp. split; cbn.
  - intros n. now rewrite Hal.
  - exact Hi.
  - intros t0. unfold fupd. destruct (N.eqb_spec t0 t) as [->|Hne]; [exact Hp|].
    rewrite Hoth by assumption. apply Ht.
Qed.

(* a step of thread t that installs a new cell {o, c} at name n *)
Lemma R_install s a t n o c p a' :
  R s a -> al a' n = abs_cell (Some (nid s, o, c)) -> (forall m, m <> n -> al a' m = al a m) ->
  (forall t', t' <> t -> apcs a' t' = apcs a t') ->
  trel (fupd (lk s) n (Some (nid s, o, c))) (nid s + 1) t p (apcs a' t) ->
  R (install s n o c t p) a'.
Proof.
  intros [Ha Hi Ht] Hn Hm Hoth Hp. split; cbn.
  - intros m. unfold fupd. destruct (N.eqb_spec m n) as [->|Hne]; [now rewrite Hn|].
    rewrite Hm by assumption. apply Ha.
  - intros m id o0 c0. unfold fupd. destruct (N.eqb_spec m n).
    + intros [= <- <- <-]. lia.
    + intros H. specialize (Hi _ _ _ _ H). lia.
  - intros t0. unfold fupd at 2. destruct (N.eqb_spec t0 t) as [->|Hne]; [exact Hp|].
    rewrite Hoth by assumption.
    eapply trel_stable; [| |apply Ht]; [|lia].
    intros m. unfold fupd. destruct (N.eqb_spec m n); eauto.
Qed.

Lemma aexec_tau1 a a' : astep a LTau a' -> aexec a [] a'.
Proof. intros H. change (@nil label) with (obs LTau ++ []). econstructor; [exact H|constructor]. Qed.

Lemma aexec_obs1 a l a' : astep a l a' -> aexec a (obs l) a'.
Proof. intros H. rewrite <- (app_nil_r (obs l)). econstructor; [exact H|constructor]. Qed.

Lemma aexec_app a tr1 a1 tr2 a2 : aexec a tr1 a1 -> aexec a1 tr2 a2 -> aexec a (tr1 ++ tr2) a2.
Proof.
  induction 1 as [|a l a1' tr a2' Hs He IH]; cbn; [auto|].
  intros H2. rewrite <- app_assoc. econstructor; [exact Hs|now apply IH].
Qed.

Lemma abs_cell_held id o c : o <> 0 -> abs_cell (Some (id, o, c)) = LHeld o c.
Proof. intros H. cbn. destruct (N.eqb_spec o 0); [contradiction|reflexivity]. Qed.

Lemma wants_lock_start ap (b : bool) (n : N) : ap = APend (if b then OLock n else OTry n) -> wants_lock ap n b.
Proof. intros ->. destruct b; cbn; auto. Qed.

(* a cell owned by somebody else (or by nobody) is not t's to release *)
Lemma release_not_owner t id o c (x := abs_cell (Some (id, o, c))) :
  o <> t -> release t x = (x, RNotOwned) /\ release_all1 t x = (x, 0).
Proof.
  intros H. subst x. cbn. destruct (N.eqb_spec o 0); [now split|]. cbn.
  destruct (N.eqb_spec o t); [contradiction|now split].
Qed.

Lemma fresh_ok_read lk n id o c : lk n = Some (id, o, c) -> fresh_ok lk n id o c.
Proof. intros E id' o' c' E' _. rewrite E in E'. now injection E' as _ <- <-. Qed.

Lemma R_abs_none s a n : R s a -> lk s n = None -> al a n = LNone.
Proof. intros HR E. rewrite <- (r_abs _ _ HR n), E. reflexivity. Qed.

Lemma R_abs_some s a n x : R s a -> lk s n = Some x -> al a n = abs_cell (Some x).
Proof. intros HR E. rewrite <- (r_abs _ _ HR n), E. reflexivity. Qed.

Lemma R_abs_held s a n id o c : R s a -> lk s n = Some (id, o, c) -> o <> 0 -> al a n = LHeld o c.
Proof. intros HR E Ho. rewrite (R_abs_some _ _ _ _ HR E). now apply abs_cell_held. Qed.

#[local] Hint Resolve wants_lock_start fresh_ok_read r_ids : core.

Arguments R_abs_none {s a n}.
Arguments R_abs_some {s a n x}.
Arguments R_abs_held {s a n id o c}.

Lemma some_not_none {A} (x : option A) y : x = Some y -> x <> None.
Proof. congruence. Qed.

(* side conditions about function updates *)
Ltac fu :=
  unfold set_apc, set_al, fupd; cbn; intros;
  repeat match goal with
  | |- context [N.eqb ?x ?y] => destruct (N.eqb_spec x y); subst
  end; try congruence; auto.

(* thread t moves, the specification stands still *)
Lemma sim_stutter s a t p ss :
  R s a -> trel (lk s) (nid s) t p (apcs a t) ->
  exists a', aexec a [] a' /\ R (mkC (lk s) (nid s) ss (fupd (pcs s) t p)) a'.
Proof. intros HR Hp. exists a. split; [constructor|]. now apply R_nolk with (a := a). Qed.

(* thread t moves without touching the pointers, the specification takes the step of t that leaves the locks alone *)
Lemma sim_tau s a t p ss a' :
  R s a -> astep a LTau a' -> (forall m, al a' m = al a m) -> (forall t', t' <> t -> apcs a' t' = apcs a t') ->
  trel (lk s) (nid s) t p (apcs a' t) ->
  exists a', aexec a [] a' /\ R (mkC (lk s) (nid s) ss (fupd (pcs s) t p)) a'.
Proof. intros HR Hst H1 H2 Hp. exists a'. split; [now apply aexec_tau1|]. now apply R_nolk with (a := a). Qed.

(* thread t installs a cell at n, the specification takes the step of t that sets the lock n to its abstraction *)
Lemma sim_install s a t n o c p l ap :
  R s a -> astep a LTau (set_al a n l t ap) -> l = abs_cell (Some (nid s, o, c)) ->
  trel (fupd (lk s) n (Some (nid s, o, c))) (nid s + 1) t p ap ->
  exists a', aexec a [] a' /\ R (install s n o c t p) a'.
Proof.
  intros HR Hst -> Hp. eexists. split; [apply aexec_tau1; exact Hst|].
  apply R_install with (a := a); cbn; try exact HR; intros; rewrite ?fupd_same, ?fupd_other by assumption; auto.
Qed.

Theorem sim_step s a l s' :
  R s a -> cstep s l s' -> exists a', aexec a (obs l) a' /\ R s' a'.
Proof.
  intros HR Hstep. destruct Hstep;
    match goal with H : pcs s ?t = _ |- _ => pose proof (r_thr _ _ HR t) as Hthr; rewrite H in Hthr; cbn in Hthr end.
  (* The rules that only move the program counter (c_get_some, c_get_none, c_create_old, c_tload_mine, c_tcas_fail,
     c_tadd, c_lock_retry, c_uget_some, c_uload_mine, c_ucas_fail, c_udel, c_riter_some, c_rload_mine, c_rcas_fail,
     c_sget_some): the specification stands still, and every conjunct of the relation at the new program counter
     is one at the old, or says what the thread has just read. *)
  3-4, 6-7, 11-13, 16, 18, 21-22, 25, 27, 29, 31:
    (apply sim_stutter; [exact HR|]; cbn; try exact Hthr; decompose [and] Hthr; repeat apply conj;
     try assumption; try congruence; eauto).
  - (* c_inv; ReleaseAll reads the session's lock set at once *)
    assert (Hinv : astep a (LInv t o) (set_apc a t (APend o))) by now apply a_inv.
    destruct o as [n|n|n| |n]; cbn [start_pc].
    1-3, 5: (eexists; split; [apply aexec_obs1; exact Hinv|]; eapply R_nolk; [exact HR|fu|fu|fu]).
    exists (set_apc (set_apc a t (APend ORelAll)) t (ARel (sset s t) 0)). split.
    + change (obs (LInv t ORelAll)) with (obs (LInv t ORelAll) ++ []).
      econstructor; [exact Hinv|]. apply aexec_tau1. apply a_rel_start. fu.
    + eapply R_nolk; [exact HR|fu|fu|fu].
  - (* c_resp *)
    eexists; split; [apply aexec_obs1; apply a_resp; exact Hthr|]. eapply R_nolk; [exact HR|fu|fu|fu].
  - (* c_create_new *)
    destruct Hthr as [Ht0 Hap]. apply wants_lock_start in Hap.
    eapply sim_install; [exact HR|eapply a_create; [exact Hap|exact (R_abs_none HR H0)]|reflexivity|].
    cbn. rewrite fupd_same. repeat split; auto. discriminate.
  - (* c_tload_other *)
    destruct Hthr as (Ht0 & Hw & Hne).
    assert (Hho : held_by_other t (al a n) = true).
    { rewrite (R_abs_held HR H0 H1). cbn. destruct (N.eqb_spec o t); [contradiction|reflexivity]. }
    destruct b; cbn in Hw.
    + apply sim_tau with (a' := set_apc a t (ABusy n)); [exact HR|now apply a_lock_busy|fu..].
    + apply sim_tau with (a' := set_apc a t (ADone (RBool false))); [exact HR|now apply a_try_fail with (n := n)|fu..].
  - (* c_tcas_free *)
    destruct Hthr as (Ht0 & Hw & Hne & Ho & Hid & Hfr). subst id'. destruct (Hfr _ _ _ H0 eq_refl) as [-> ->].
    eapply sim_install; [exact HR|eapply a_acquire; [exact Hw|]|symmetry; now apply abs_cell_held|fu].
    now rewrite (R_abs_some HR H0).
  - (* c_tcas_own *)
    destruct Hthr as (Ht0 & Hw & Hne & [Ho|Ho] & Hid & Hfr); [contradiction|]. subst id' o.
    destruct (Hfr _ _ _ H1 eq_refl) as [-> ->].
    eapply sim_install; [exact HR|eapply a_acquire; [exact Hw|]|symmetry; now apply abs_cell_held|fu].
    rewrite (R_abs_held HR H1 Ht0). cbn. now rewrite N.eqb_refl.
  - (* c_lock_timeout *)
    destruct Hthr as (Ht0 & Hap & Hne).
    apply sim_tau with (a' := set_apc a t (ADone RTimeout)); [exact HR|now apply a_lock_timeout with (n := n)|fu..].
  - (* c_uget_none *)
    destruct Hthr as (Ht0 & Hap). pose proof (a_unlock a t n Hap) as Hst. rewrite (R_abs_none HR H0) in Hst.
    eapply sim_tau; [exact HR|exact Hst|fu..]. symmetry. exact (R_abs_none HR H0).
  - (* c_uload_other *)
    destruct Hthr as (Ht0 & Hap & Hne). pose proof (a_unlock a t n Hap) as Hst.
    rewrite (R_abs_some HR H0), (proj1 (release_not_owner t id o c H1)), <- (R_abs_some HR H0) in Hst.
    eapply sim_tau; [exact HR|exact Hst|fu..].
  - (* c_ucas_dec *)
    destruct Hthr as (Ht0 & Hap & Hne & Hid & Hfr). subst id'. destruct (Hfr _ _ _ H1 eq_refl) as [-> ->].
    pose proof (a_unlock a t n Hap) as Hst. rewrite (R_abs_held HR H1 Ht0) in Hst. cbn in Hst.
    rewrite N.eqb_refl, (proj2 (N.ltb_lt 1 c) H0) in Hst.
    eapply sim_install; [exact HR|exact Hst|symmetry; now apply abs_cell_held|fu].
  - (* c_ucas_free *)
    destruct Hthr as (Ht0 & Hap & Hne & Hid & Hfr). subst id'. destruct (Hfr _ _ _ H1 eq_refl) as [-> ->].
    pose proof (a_unlock a t n Hap) as Hst. rewrite (R_abs_held HR H1 Ht0) in Hst. cbn in Hst.
    rewrite N.eqb_refl, (proj2 (N.ltb_ge 1 c) H0) in Hst.
    eapply sim_install; [exact HR|exact Hst|reflexivity|fu].
  - (* c_riter_done *)
    destruct Hthr as (Ht0 & Hap).
    apply sim_tau with (a' := set_apc a t (ADone (RCount k))); [exact HR|now apply a_rel_done|fu..].
  - (* c_riter_none *)
    destruct Hthr as (Ht0 & Hap). pose proof (a_rel1 a t n todo k Hap) as Hst.
    rewrite (R_abs_none HR H0) in Hst. cbn in Hst. rewrite N.add_0_r in Hst.
    eapply sim_tau; [exact HR|exact Hst|fu..]. symmetry. exact (R_abs_none HR H0).
  - (* c_rload_other *)
    destruct Hthr as (Ht0 & Hap & Hne). pose proof (a_rel1 a t n todo k Hap) as Hst.
    rewrite (R_abs_some HR H0), (proj2 (release_not_owner t id o c H1)), <- (R_abs_some HR H0) in Hst.
    cbn in Hst. rewrite N.add_0_r in Hst.
    eapply sim_tau; [exact HR|exact Hst|fu..].
  - (* c_rcas_ok *)
    destruct Hthr as (Ht0 & Hap & Hne & Hid & Hown). subst id'. pose proof (Hown _ _ _ H0 eq_refl) as ->.
    pose proof (a_rel1 a t n todo k Hap) as Hst. rewrite (R_abs_held HR H0 Ht0) in Hst. cbn in Hst.
    rewrite N.eqb_refl in Hst.
    eapply sim_install; [exact HR|exact Hst|reflexivity|fu].
  - (* c_sget_none *)
    pose proof (a_state a t n Hthr) as Hst. rewrite (R_abs_none HR H0) in Hst.
    eapply sim_tau; [exact HR|exact Hst|fu..].
  - (* c_sload *)
    destruct Hthr as (Hap & Hne). pose proof (a_state a t n Hap) as Hst. rewrite (R_abs_some HR H0) in Hst.
    eapply sim_tau; [exact HR|exact Hst|fu..].
Qed.

(* every execution of the CAS protocol, with any number of threads and any interleaving, has the same
   invocation/response history as an execution of the atomic specification *)
Theorem simulation_from s a tr s' :
  R s a -> cexec s tr s' -> exists a', aexec a tr a' /\ R s' a'.
Proof.
  intros HR He. revert a HR. induction He as [s|s l s1 tr s2 Hs He IH]; intros a HR.
  - exists a. split; [constructor|exact HR].
  - destruct (sim_step _ _ _ _ HR Hs) as (a1 & He1 & HR1).
    destruct (IH _ HR1) as (a2 & He2 & HR2). exists a2. split; [|exact HR2].
    eapply aexec_app; eauto.
Qed.

Theorem linearizable tr s :
  cexec cinit tr s ->
  exists a, aexec ainit tr a /\ (forall n, abs_cell (lk s n) = al a n).
Proof.
  intros He. destruct (simulation_from _ _ _ _ R_init He) as (a & Ha & HR).
  exists a. split; [exact Ha|]. exact (r_abs _ _ HR).
Qed.

(* concrete: at every moment of every execution a name has one cell, hence at most one owner; a thread that
   has just won the CAS (and is about to report success) is that owner *)
Definition owner_of (s : cstate) (n : N) : option N :=
  match lk s n with Some (_, o, _) => if N.eqb o 0 then None else Some o | None => None end.

Lemma holder_unique tr s a n t1 t2 c1 c2 :
  cexec cinit tr s -> aexec ainit tr a -> al a n = LHeld t1 c1 -> al a n = LHeld t2 c2 -> t1 = t2.
Proof. intros _ _ H1 H2. congruence. Qed.

(* abstract: while t1 holds n, another session can neither acquire nor release it, and sees it in use *)
Lemma spec_exclusion t1 t2 c : t1 <> t2 ->
  acquire t2 (LHeld t1 c) = None /\ held_by_other t2 (LHeld t1 c) = true /\
  release t2 (LHeld t1 c) = (LHeld t1 c, RNotOwned) /\
  release_all1 t2 (LHeld t1 c) = (LHeld t1 c, 0) /\
  state_of (LHeld t1 c) = RState 1 t1.
Proof.
  intros H. cbn. destruct (N.eqb_spec t1 t2); [contradiction|]. cbn. repeat split; reflexivity.
Qed.

(* every step of the specification is a step of one thread: no other thread's program counter moves, and a lock
   held by another thread stays as it is *)
Lemma astep_actor a l a' :
  astep a l a' ->
  exists t, (forall t2, t2 <> t -> apcs a' t2 = apcs a t2) /\
            (forall n t1 c, t1 <> t -> al a n = LHeld t1 c -> al a' n = LHeld t1 c).
Proof.
  intros Hs. destruct Hs; exists t; (split; [intros t2 Ht2; now apply fupd_other|]); cbn; auto;
    intros m t1 c Ht1 Hh; unfold fupd; (destruct (N.eqb_spec m n) as [->|]; [|exact Hh]);
    destruct (spec_exclusion t1 t c Ht1) as (Eacq & _ & Erel & Erel1 & _).
  - congruence.
  - rewrite Hh, Eacq in H0. discriminate.
  - now rewrite Hh, Erel.
  - now rewrite Hh, Erel1.
Qed.

Lemma held_lock_changed_only_by_holder a l a' n t1 c :
  astep a l a' -> al a n = LHeld t1 c ->
  al a' n = LHeld t1 c \/ (forall t2, t2 <> t1 -> apcs a' t2 = apcs a t2).
Proof.
  intros Hs Hh. destruct (astep_actor _ _ _ Hs) as (t & Hpc & Hal).
  destruct (N.eq_dec t1 t) as [->|Hne]; [right; exact Hpc|left; exact (Hal n t1 c Hne Hh)].
Qed.

(* re-entrancy: k+1 acquisitions need k+1 releases *)
Fixpoint acquire_n (t : N) (k : nat) (l : lstate) : option lstate :=
  match k with O => Some l | S k' => match acquire t l with Some l' => acquire_n t k' l' | None => None end end.
Fixpoint release_n (t : N) (k : nat) (l : lstate) : lstate :=
  match k with O => l | S k' => release_n t k' (fst (release t l)) end.

Lemma acquire_n_held t j : forall c, acquire_n t j (LHeld t c) = Some (LHeld t (c + N.of_nat j)).
Proof.
  induction j as [|j IH]; intros c; cbn [acquire_n acquire]; [|rewrite N.eqb_refl, IH]; do 2 f_equal; lia.
Qed.

Lemma release_n_add t a : forall b l, release_n t (a + b) l = release_n t b (release_n t a l).
Proof. induction a as [|a IH]; intros b l; cbn [release_n Nat.add]; [reflexivity|apply IH]. Qed.

Lemma release_n_held t j c : (N.of_nat j < c) -> release_n t j (LHeld t c) = LHeld t (c - N.of_nat j).
Proof.
  revert c. induction j as [|j IH]; intros c Hc; cbn [release_n].
  - f_equal. lia.
  - cbn [release fst]. rewrite N.eqb_refl. destruct (N.ltb_spec 1 c); [|lia]. cbn [fst].
    rewrite IH by lia. f_equal. lia.
Qed.

Lemma reentrant_count t k :
  exists l, acquire_n t (S k) LFree = Some l /\
            release_n t (S k) l = LFree /\
            forall j, (j <= k)%nat -> exists c, release_n t j l = LHeld t c /\ 0 < c.
Proof.
  exists (LHeld t (N.of_nat (S k))). split; [|split].
  - cbn [acquire_n acquire]. rewrite acquire_n_held. do 2 f_equal. lia.
  - (* k releases leave the count at 1, the last one frees the lock *)
    replace (S k) with (k + 1)%nat at 1 by lia.
    rewrite release_n_add, release_n_held by lia. cbn [release_n release fst]. rewrite N.eqb_refl.
    destruct (N.ltb_spec 1 (N.of_nat (S k) - N.of_nat k)); [lia|reflexivity].
  - intros j Hj. exists (N.of_nat (S k) - N.of_nat j). split; [apply release_n_held; lia|lia].
Qed.

(* a waiting Lock either acquires or times out, and it can time out only after it saw the lock busy:
   in the specification ADone RTimeout is reachable only from ABusy *)
Lemma timeout_only_after_busy a l a' t :
  astep a l a' -> apcs a' t = ADone RTimeout -> apcs a t <> ADone RTimeout -> exists n, apcs a t = ABusy n.
Proof.
  intros Hs Hd Hn. destruct Hs; cbn in Hd; unfold fupd in Hd;
    (destruct (N.eqb_spec t t0) as [->|]; [|contradiction]);
    try discriminate; try contradiction; eauto.
  - destruct b; discriminate.
  - exfalso. destruct (al a n) as [| |t1 c]; cbn in Hd; try discriminate.
    destruct (N.eqb t1 t0); [destruct (N.ltb 1 c)|]; discriminate.
  - destruct (al a n); discriminate.
Qed.

(* a concrete contended execution (non-vacuity of the semantics) *)
Lemma ce_tau s s1 tr s2 : cstep s LTau s1 -> cexec s1 tr s2 -> cexec s tr s2.
Proof. intros H1 H2. change tr with (obs LTau ++ tr). econstructor; eauto. Qed.

Lemma ce_inv s t o s1 tr s2 : cstep s (LInv t o) s1 -> cexec s1 tr s2 -> cexec s (LInv t o :: tr) s2.
Proof. intros H1 H2. change (LInv t o :: tr) with (obs (LInv t o) ++ tr). econstructor; eauto. Qed.

Lemma ce_resp s t r s1 tr s2 : cstep s (LResp t r) s1 -> cexec s1 tr s2 -> cexec s (LResp t r :: tr) s2.
Proof. intros H1 H2. change (LResp t r :: tr) with (obs (LResp t r) ++ tr). econstructor; eauto. Qed.

Definition contended_history : list label :=
  [LInv 1 (OTry 5); LInv 2 (OTry 5); LResp 1 (RBool true); LResp 2 (RBool false)].

Lemma contended_execution :
  exists s, cexec cinit contended_history s /\ owner_of s 5 = Some 1 /\ sset s 1 = [5] /\ sset s 2 = [].
Proof.
  eexists. split.
  - unfold contended_history.
    eapply ce_inv; [apply c_inv; [discriminate|reflexivity]|]. cbn [start_pc].
    eapply ce_tau; [eapply (c_get_none _ 1); reflexivity|].
    eapply ce_tau; [eapply (c_create_new _ 1); reflexivity|].
    eapply ce_tau; [eapply (c_tload_mine _ 1); [reflexivity|reflexivity|now left]|].
    eapply ce_inv; [apply c_inv; [discriminate|reflexivity]|]. cbn [start_pc].
    eapply ce_tau; [eapply (c_get_some _ 2); reflexivity|].
    eapply ce_tau; [eapply (c_tload_mine _ 2); [reflexivity|reflexivity|now left]|].
    eapply ce_tau; [eapply (c_tcas_free _ 1); reflexivity|].
    eapply ce_tau; [eapply (c_tcas_fail _ 2); [reflexivity|reflexivity|discriminate]|].
    eapply ce_tau; [eapply (c_tload_other _ 2); [reflexivity|reflexivity|discriminate|discriminate]|].
    eapply ce_tau; [eapply (c_tadd _ 1); reflexivity|].
    eapply ce_resp; [eapply (c_resp _ 1); reflexivity|].
    eapply ce_resp; [eapply (c_resp _ 2); reflexivity|].
    apply ce_nil.
  - vm_compute. repeat split.
Qed.

(* the executable sequential specification is a run of the atomic specification *)
Lemma sget_sput s n l m : sget (sput s n l) m = if N.eqb m n then l else sget s m.
Proof. reflexivity. Qed.

Definition agrees (s : seq_state) (a : astate) : Prop := forall n, sget s n = al a n.

Lemma agrees_set_al s a n l t p :
  (forall m, m <> n -> sget s m = al a m) -> agrees (sput s n l) (set_al a n l t p).
Proof. intros H m. rewrite sget_sput. cbn. unfold fupd. destruct (N.eqb_spec m n); [reflexivity|now apply H]. Qed.

Lemma agrees_set_apc s a n t p :
  (forall m, m <> n -> sget s m = al a m) -> agrees (sput s n (al a n)) (set_apc a t p).
Proof. intros H m. rewrite sget_sput. cbn. destruct (N.eqb_spec m n); [now subst|now apply H]. Qed.

(* by internal steps only, thread t gets from a to "done with result r", the locks then being those of the
   sequential state s', and no other thread moves *)
Definition completes (a : astate) (t : N) (r : ret) (s' : seq_state) : Prop :=
  exists a', aexec a [] a' /\ apcs a' t = ADone r /\ agrees s' a' /\ (forall t', t' <> t -> apcs a' t' = apcs a t').

Lemma completes_done a t r s : apcs a t = ADone r -> agrees s a -> completes a t r s.
Proof. intros H1 H2. exists a. repeat split; auto. constructor. Qed.

Lemma completes_tau a a1 t p r s' :
  astep a LTau a1 -> apcs a1 = fupd (apcs a) t p -> completes a1 t r s' -> completes a t r s'.
Proof.
  intros Hs Hp (a' & He & Hd & Hag & Hoth). exists a'. repeat split; auto.
  - change (@nil label) with (obs LTau ++ []). econstructor; eauto.
  - intros t' Ht'. rewrite Hoth, Hp by assumption. now apply fupd_other.
Qed.

(* TryLock / Lock on an entry that exists (l is Free or Held) *)
Lemma try_existing t b s n a l :
  wants_lock (apcs a t) n b -> al a n = l -> l <> LNone -> (forall m, m <> n -> sget s m = al a m) ->
  let res := match acquire t l with
             | Some l' => (sput s n l', acquired b)
             | None => (sput s n l, if b then RTimeout else RBool false)
             end in
  completes a t (snd res) (fst res).
Proof.
  intros Hw Hl Hne Hag. destruct (acquire t l) as [l'|] eqn:Eacq; cbn.
  - eapply completes_tau; [eapply a_acquire; [exact Hw|rewrite Hl; exact Eacq]|reflexivity|].
    apply completes_done; [apply fupd_same|now apply agrees_set_al].
  - assert (Hho : held_by_other t (al a n) = true).
    { rewrite Hl. destruct l as [| |t0 c]; cbn in *; [congruence|discriminate|]. now destruct (N.eqb t0 t). }
    assert (Hag' : forall ap, agrees (sput s n l) (set_apc a t ap)) by (intros ap; rewrite <- Hl; now apply agrees_set_apc).
    destruct b; cbn in Hw.
    + eapply completes_tau; [exact (a_lock_busy a t n Hw Hho)|reflexivity|].
      eapply completes_tau; [apply (a_lock_timeout _ t n), fupd_same|reflexivity|].
      apply completes_done; [apply fupd_same|apply Hag'].
    + eapply completes_tau; [exact (a_try_fail a t n Hw Hho)|reflexivity|].
      apply completes_done; [apply fupd_same|apply Hag'].
Qed.

Lemma seq_try_refines t b s n a :
  wants_lock (apcs a t) n b -> agrees s a -> completes a t (snd (seq_try t b s n)) (fst (seq_try t b s n)).
Proof.
  intros Hw Hag. unfold seq_try. rewrite (Hag n). destruct (al a n) eqn:E.
  - (* no entry: it is created first *)
    eapply completes_tau; [now apply (a_create _ t n b)|reflexivity|].
    apply (try_existing t b s n _ LFree); cbn; rewrite ?fupd_same; auto; [discriminate|].
    intros m Hm. rewrite fupd_other by assumption. apply Hag.
  - apply (try_existing t b s n a LFree); auto. discriminate.
  - apply (try_existing t b s n a (LHeld t0 c)); auto. discriminate.
Qed.

Lemma seq_relall_refines t names : forall s a k,
  apcs a t = ARel names k -> agrees s a ->
  completes a t (RCount (snd (seq_relall t s names k))) (fst (seq_relall t s names k)).
Proof.
  induction names as [|n r IH]; intros s a k Hap Hag; cbn [seq_relall].
  - eapply completes_tau; [exact (a_rel_done a t k Hap)|reflexivity|]. apply completes_done; [apply fupd_same|exact Hag].
  - rewrite (Hag n). destruct (release_all1 t (al a n)) as [l d] eqn:E.
    pose proof (a_rel1 a t n r k Hap) as Hst. rewrite E in Hst.
    eapply completes_tau; [exact Hst|reflexivity|]. apply IH; [apply fupd_same|now apply agrees_set_al].
Qed.

Theorem seq_step_refines t o names s a :
  apcs a t = APend o -> agrees s a ->
  exists a', aexec a [] a' /\ apcs a' t = ADone (snd (seq_step t o names s)) /\
             agrees (fst (seq_step t o names s)) a' /\ (forall t', t' <> t -> apcs a' t' = apcs a t').
Proof.
  intros Hap Hag. change (completes a t (snd (seq_step t o names s)) (fst (seq_step t o names s))).
  destruct o as [n|n|n| |n]; cbn [seq_step].
  - apply seq_try_refines; [exact Hap|exact Hag].
  - apply seq_try_refines; [left; exact Hap|exact Hag].
  - rewrite (Hag n). destruct (release t (al a n)) as [l r] eqn:E.
    pose proof (a_unlock a t n Hap) as Hst. rewrite E in Hst.
    eapply completes_tau; [exact Hst|reflexivity|]. apply completes_done; [apply fupd_same|now apply agrees_set_al].
  - destruct (seq_relall t s names 0) as [s' k] eqn:E.
    eapply completes_tau; [exact (a_rel_start a t names Hap)|reflexivity|].
    pose proof (seq_relall_refines t names s (set_apc a t (ARel names 0)) 0 (fupd_same _ _ _) Hag) as H.
    now rewrite E in H.
  - eapply completes_tau; [exact (a_state a t n Hap)|reflexivity|]. rewrite (Hag n).
    apply completes_done; [apply fupd_same|exact Hag].
Qed.
