(* C44 -- facts decided by computation on the generated registry gen/C44Vars.v, witnesses of the defects the faithful
   model has, and a non-vacuity example. *)
From Coq Require Import String ZArith List Bool.
Import ListNotations.
From GMS Require Import Sys.C44SysVarsBase gen.C44Vars Sys.C44SysVars Sys.C44SysVarsProofs Sys.C44SysVarsStmt.
Open Scope Z_scope.

Definition default_known_bad : list string := ["ft_max_word_len"%string].

Lemma defaults_valid_vars :
  forallb (fun sv => negb (checkable sv) || existsb (String.eqb (v_name sv)) default_known_bad || default_same_value sv) vars = true.
Proof. vm_compute. reflexivity. Qed.

Theorem defaults_valid : forall sv, In sv vars -> checkable sv = true -> ~ In (v_name sv) default_known_bad ->
  exists d, convert (v_type sv) (v_default sv) = Ok d /\
            gval_same_value (shown_t (v_type sv) d) (v_default sv) = true.
Proof.
  intros sv Hin Hc Hn. pose proof (proj1 (forallb_forall _ _) defaults_valid_vars sv Hin) as H.
  cbv beta in H. rewrite Hc in H. simpl negb in H. rewrite orb_false_l in H.
  destruct (existsb (String.eqb (v_name sv)) default_known_bad) eqn:E.
  - exfalso. apply Hn. apply existsb_exists in E as [k [Hk Hq]]. apply String.eqb_eq in Hq. subst. auto.
  - unfold default_same_value in H.
    destruct (convert (v_type sv) (v_default sv)) as [d| |]; try discriminate. eauto.
Qed.

Lemma lookup_In : forall reg x sv, lookup reg x = Some sv -> In sv reg.
Proof. intros reg x sv H. exact (proj1 (find_some _ _ H)). Qed.

Lemma defaults_refuted : exists sv, In sv vars /\ checkable sv = true /\ convert (v_type sv) (v_default sv) = Err.
Proof.
  eexists. split; [apply (lookup_In vars "ft_max_word_len"); vm_compute; reflexivity|].
  split; vm_compute; reflexivity.
Qed.

(* the Go kind of some defaults is not the kind Convert produces (int / int64 where the type stores int64 / uint64) *)
Lemma defaults_exact_type_refuted :
  exists sv d, In sv vars /\ convert (v_type sv) (v_default sv) = Ok d /\ d <> v_default sv /\
               gval_same_value d (v_default sv) = true.
Proof.
  eexists. exists (GI KInt64 8). split; [apply (lookup_In vars "validate_password.length"); vm_compute; reflexivity|].
  split; [vm_compute; reflexivity|]. split; [discriminate | reflexivity].
Qed.

Definition enum_names_fixed (sv : sysvar) : bool :=
  match v_type sv with
  | TEnum vals => forallb (fun s => match convert (TEnum vals) (GS s) with Ok (GS s') => String.eqb s s' | _ => false end) vals
  | _ => true
  end.

(* every member name of a SET-typed variable converts to one bit that is shown back as that name; all members together
   are shown as the full list *)
Definition set_names_fixed (sv : sysvar) : bool :=
  match v_type sv with
  | TSet c vals =>
      forallb (fun s => match convert (TSet c vals) (GS s) with
                        | Ok d => gval_eqb (shown_t (TSet c vals) d) (GS s)
                        | _ => false end) vals
      && gval_eqb (shown_t (TSet c vals) (GI KUint64 (set_all vals))) (GS (String.concat "," vals))
  | _ => true
  end.

Lemma set_names_fixed_vars : forallb set_names_fixed vars = true.
Proof. vm_compute. reflexivity. Qed.

Theorem set_names_fixed_all : forall sv, In sv vars -> set_names_fixed sv = true.
Proof. intros sv Hin. exact (proj1 (forallb_forall _ _) set_names_fixed_vars sv Hin). Qed.

Lemma registry_wellformed_vars :
  keys_unique vars = true /\
  forallb (fun sv => name_ok sv && bounds_ok (v_type sv) && enum_ok (v_type sv) && enum_names_fixed sv) vars = true.
Proof. split; vm_compute; reflexivity. Qed.

Theorem registry_wellformed :
  keys_unique vars = true /\
  forall sv, In sv vars -> name_ok sv = true /\ bounds_ok (v_type sv) = true /\ enum_ok (v_type sv) = true /\
                            enum_names_fixed sv = true.
Proof.
  destruct registry_wellformed_vars as [Hk H]. split; [exact Hk|]. intros sv Hin.
  pose proof (proj1 (forallb_forall _ _) H sv Hin) as Hsv. cbv beta in Hsv.
  apply andb_true_iff in Hsv as [Hsv H4]. apply andb_true_iff in Hsv as [Hsv H3]. apply andb_true_iff in Hsv as [H1 H2].
  exact (conj H1 (conj H2 (conj H3 H4))).
Qed.

(* an unsigned variable accepts -1 as 2^64-1 *)
Lemma uint_negative_accepted :
  exists sv, lookup vars "group_concat_max_len" = Some sv /\
    convert (v_type sv) (GI KInt8 (-1)) = Ok (GI KUint64 18446744073709551615).
Proof. eexists. split; [vm_compute; reflexivity | vm_compute; reflexivity]. Qed.

(* a signed variable accepts 2^64-1 as -1 *)
Lemma int_wraps_uint64 :
  exists sv, lookup vars "immediate_server_version" = Some sv /\
    convert (v_type sv) (GI KUint64 18446744073709551615) = Ok (GI KInt64 (-1)).
Proof. eexists. split; [vm_compute; reflexivity | vm_compute; reflexivity]. Qed.

(* a decimal loses its sign on the unsigned path *)
Lemma uint_decimal_sign_dropped :
  exists sv, lookup vars "group_concat_max_len" = Some sv /\
    convert (v_type sv) (GD (-5) 1) = Ok (GI KUint64 5).
Proof. eexists. split; [vm_compute; reflexivity | vm_compute; reflexivity]. Qed.

(* a fractional decimal is rounded half up on the unsigned path (a conversion to the variable's type), while the
   signed type rejects every fraction *)
Lemma uint_decimal_rounded :
  exists sv, lookup vars "group_concat_max_len" = Some sv /\
    convert (v_type sv) (GD 9 2) = Ok (GI KUint64 5).
Proof. eexists. split; [vm_compute; reflexivity | vm_compute; reflexivity]. Qed.

(* In the witnesses below the whole conjunction is evaluated at once, so that the history under [let] runs once
   and not once per conjunct. *)

(* SET GLOBAL of a GLOBAL-only variable is not what the bare @@x of an existing session (even the one that issued
   it) returns *)
Lemma bare_read_of_global_only_stale :
  let st := run vars (init vars) [NewSession; SetGlobal 0 "max_connections" (GI KUint8 200)] in
  (exists sv, lookup vars "max_connections" = Some sv /\ v_scope sv = ScGlobal) /\
  get_global st "max_connections" = GI KInt64 200 /\
  read_bare st 0 "max_connections" = RVal (GI KInt64 151).
Proof. vm_compute. split; [eexists|]; split; reflexivity. Qed.

(* non-vacuity: a three-session history in which everything the theorems talk about happens *)
Definition demo_ops : list op :=
  [NewSession; NewSession;
   SetSession 0 "wait_timeout" (GI KInt8 5);
   SetGlobal 1 "WAIT_TIMEOUT" (GI KInt8 77);
   SetSession 1 "wait_timeout" (GS "abc");
   SetUser 1 "u" (GS "x");
   NewSession].

Lemma demo :
  let st := run vars (init vars) demo_ops in
  read_bare st 0 "wait_timeout" = RVal (GI KInt64 5) /\
  read_bare st 1 "wait_timeout" = RVal (GI KInt64 28800) /\
  read_bare st 2 "wait_timeout" = RVal (GI KInt64 77) /\
  get_global st "wait_timeout" = GI KInt64 77 /\
  get_user st 1 "U" = RVal (GS "x") /\ get_user st 0 "u" = RVal GNil /\
  snd (step vars st (SetSession 1 "wait_timeout" (GS "abc"))) = Rejected /\
  snd (step vars st (SetSession 1 "version" (GS "9"))) = Rejected /\
  snd (step vars st (SetSession 1 "max_connections" (GI KInt8 9))) = Rejected /\
  snd (step vars st (SetGlobal 1 "insert_id" (GI KInt8 9))) = Rejected.
Proof. vm_compute. repeat split. Qed.

Definition x1 : xstate := fst (exec_stmt vars (xinit vars) SNew).

(* several assignments are NOT atomic when the failure is found while running: the first assignment stays *)
Lemma multi_set_not_atomic :
  let r := exec_stmt vars x1 (SSet 0 [(TgSession false "wait_timeout", SrcVal (GI KInt8 5));
                                      (TgSession false "auto_increment_increment", SrcVal (GI KInt8 0));
                                      (TgSession false "sql_log_bin", SrcVal (GI KInt8 1))]) in
  snd r = Rejected /\
  read_bare (base (fst r)) 0 "wait_timeout" = RVal (GI KInt64 5) /\
  read_bare (base (fst r)) 0 "auto_increment_increment" = RVal (GI KInt64 1) /\
  read_bare (base (fst r)) 0 "sql_log_bin" = RVal (GI KInt8 0).
Proof. vm_compute. repeat split. Qed.

(* ... but atomic when the planbuilder finds it (an invalid string literal, an unknown name): nothing runs *)
Lemma multi_set_build_failure_atomic :
  let r := exec_stmt vars x1 (SSet 0 [(TgSession false "wait_timeout", SrcVal (GI KInt8 5));
                                      (TgSession false "wait_timeout", SrcVal (GS "abc"))]) in
  snd r = Rejected /\ read_bare (base (fst r)) 0 "wait_timeout" = RVal (GI KInt64 28800).
Proof. vm_compute. repeat split. Qed.

(* SET PERSIST of a read-only variable fails, yet the value has been persisted *)
Lemma persist_rejected_but_persisted :
  let r := exec_stmt vars x1 (SSet 0 [(TgPersist false "version", SrcVal (GS "y"))]) in
  snd r = Rejected /\ pers (fst r) 0 "version" = GS "y" /\ get_global (base (fst r)) "version" = GS "8.0.31".
Proof. vm_compute. repeat split. Qed.

(* SET SESSION x = DEFAULT gives the compiled default, not the current global value *)
Lemma session_default_is_compiled_default :
  let xs := xrun vars x1 [SSet 0 [(TgGlobal "wait_timeout", SrcVal (GI KInt8 77))];
                          SSet 0 [(TgSession false "wait_timeout", SrcVal (GI KInt8 5))];
                          SSet 0 [(TgSession false "wait_timeout", SrcDefault)]] in
  read_bare (base xs) 0 "wait_timeout" = RVal (GI KInt64 28800) /\ get_global (base xs) "wait_timeout" = GI KInt64 77.
Proof. vm_compute. repeat split. Qed.

(* a SET-typed variable: names in any case and order, shown back in declaration order; copied to a user variable as text *)
Lemma sql_mode_roundtrip :
  let xs := xrun vars x1 [SSet 0 [(TgSession false "sql_mode", SrcVal (GS "ansi_quotes,,ANSI ,"));
                                  (TgUser "m", SrcBare "sql_mode")]] in
  shown vars "sql_mode" (match read_bare (base xs) 0 "sql_mode" with RVal v => v | _ => GNil end) = GS "ANSI_QUOTES,ANSI" /\
  get_user (base xs) 0 "m" = RVal (GS "ANSI_QUOTES,ANSI").
Proof. vm_compute. repeat split. Qed.
