(* Proofs about the model of sql/sqlredact (C45). *)
From Coq Require Import List NArith Arith Bool Ascii String DecimalString Decimal DecimalNat Lia FinFun.
Import ListNotations.
From GMS Require Import Base.ListFacts Sys.Redact.

(* each stage of the printing has a left inverse in the library *)
Lemma itoa_inj a b : itoa a = itoa b -> a = b.
Proof.
  unfold itoa. intros H. apply (map_inj _ N_of_ascii_inj) in H.
  apply (f_equal string_of_list_ascii) in H. rewrite !string_of_list_ascii_of_string in H.
  apply (f_equal NilEmpty.uint_of_string) in H. rewrite !NilEmpty.usu in H. injection H as H.
  apply (f_equal Nat.of_uint) in H. rewrite !Unsigned.of_to in H. exact H.
Qed.

Lemma ntok_inj a b : ntok a = ntok b -> a = b.
Proof. unfold ntok. intros H. injection H as H. now apply itoa_inj. Qed.
Lemma vtok_inj a b : vtok a = vtok b -> a = b.
Proof. unfold vtok. intros H. injection H as H. now apply itoa_inj. Qed.

Lemma bytes_eqb_spec a b : bytes_eqb a b = true <-> a = b.
Proof.
  revert b. induction a as [|x a IH]; intros [|y b]; cbn; split; intros H; try reflexivity; try discriminate.
  - apply andb_prop in H. destruct H as [H1 H2]. apply N.eqb_eq in H1. apply IH in H2. congruence.
  - injection H as -> ->. rewrite N.eqb_refl. now apply IH.
Qed.
Lemma bytes_eqb_refl a : bytes_eqb a a = true.
Proof. now apply bytes_eqb_spec. Qed.

Lemma lookup_in l k t : lookup l k = Some t -> In (k, t) l.
Proof.
  induction l as [|[k' t'] l IH]; cbn; [discriminate|]. destruct (bytes_eqb k' k) eqn:E.
  - apply bytes_eqb_spec in E. intros H. injection H as <-. subst. now left.
  - intros H. right. now apply IH.
Qed.

Lemma lookup_none l k : lookup l k = None -> ~ In k (map fst l).
Proof.
  induction l as [|[k' t'] l IH]; cbn; [tauto|]. destruct (bytes_eqb k' k) eqn:E; [discriminate|].
  intros H [->|Hin]; [rewrite bytes_eqb_refl in E; discriminate | now apply IH].
Qed.

Lemma lookup_app l k t k' :
  lookup (l ++ [(k, t)]) k' = match lookup l k' with Some x => Some x | None => if bytes_eqb k k' then Some t else None end.
Proof. induction l as [|[a b] l IH]; cbn; [reflexivity|]. destruct (bytes_eqb a k'); [reflexivity | exact IH]. Qed.

Lemma snd_inj_in {A B} (l : list (A * B)) a b t : NoDup (map snd l) -> In (a, t) l -> In (b, t) l -> a = b.
Proof.
  induction l as [|[x y] l IH]; cbn; [tauto|]. intros Hnd. inversion Hnd as [|? ? Hn Hd]; subst.
  intros [E1|H1] [E2|H2].
  - congruence.
  - injection E1 as -> ->. exfalso. apply Hn. apply in_map_iff. exists (b, t). auto.
  - injection E2 as -> ->. exfalso. apply Hn. apply in_map_iff. exists (a, t). auto.
  - now apply IH.
Qed.

(* one namespace of the Mapping: distinct keys, placeholders tk 1 .. tk n in minting order *)
Section Namespace.
  Variable tk : nat -> bytes.
  Hypothesis tk_inj : forall a b, tk a = tk b -> a = b.

  Definition NS (l : list (bytes * bytes)) (n : nat) : Prop := NoDup (map fst l) /\ map snd l = map tk (seq 1 n).

  Lemma ns_mint l n k : NS l n -> lookup l k = None -> NS (l ++ [(k, tk (S n))]) (S n).
  Proof.
    intros [Hk Ht] L. split; rewrite map_app.
    - apply (NoDup_Add (Add_app k (map fst l) [])). rewrite app_nil_r. split; [exact Hk|apply lookup_none, L].
    - rewrite Ht, seq_S, map_app. reflexivity.
  Qed.

  Lemma ns_tok l n o t : NS l n -> In (o, t) l -> exists k, t = tk k.
  Proof.
    intros [_ Ht] Hin. apply (in_map snd) in Hin. cbn [snd] in Hin. rewrite Ht in Hin. apply in_map_iff in Hin.
    destruct Hin as [k [<- _]]. exists k. reflexivity.
  Qed.

  Lemma ns_inj l n a b t : NS l n -> In (a, t) l -> In (b, t) l -> a = b.
  Proof.
    intros [_ Ht]. apply snd_inj_in. rewrite Ht. apply Injective_map_NoDup; [exact tk_inj|apply seq_NoDup].
  Qed.
End Namespace.

Definition WFm (m : mapping) : Prop :=
  NoDup (map fst (idents m)) /\ map snd (idents m) = map ntok (seq 1 (ncount m)) /\
  NoDup (map fst (values m)) /\ map snd (values m) = map vtok (seq 1 (vcount m)).

Lemma wf_ns m : WFm m <-> NS ntok (idents m) (ncount m) /\ NS vtok (values m) (vcount m).
Proof. unfold WFm, NS. tauto. Qed.

Lemma wf_empty : WFm empty_mapping.
Proof. repeat split; constructor. Qed.

Lemma wf_do_call m c : WFm m -> WFm (fst (do_call m c)).
Proof.
  intros W. pose proof W as W0. apply wf_ns in W. destruct W as [Wi Wv]. destruct c as [o|o]; cbn.
  - unfold redact_ident. destruct o as [|x o]; [exact W0|].
    destruct (lookup (idents m) (x :: o)) eqn:L; [exact W0|]. apply wf_ns. split; [exact (ns_mint ntok _ _ _ Wi L)|exact Wv].
  - unfold redact_value. destruct (lookup (values m) o) eqn:L; [exact W0|].
    apply wf_ns. split; [exact Wi|exact (ns_mint vtok _ _ _ Wv L)].
Qed.

(* the placeholder a call gets from a mapping that already knows the lexeme *)
Definition tok_of (m : mapping) (c : call) : option bytes :=
  match c with
  | CIdent [] => Some []
  | CIdent o => lookup (idents m) o
  | CValue o => lookup (values m) o
  end.

Lemma step_stable m c : tok_of (fst (do_call m c)) c = Some (snd (do_call m c)) /\
  forall c' t', tok_of m c' = Some t' -> tok_of (fst (do_call m c)) c' = Some t'.
Proof.
  destruct c as [o|o]; cbn.
  - unfold redact_ident. destruct o as [|x o]; [split; [reflexivity | auto]|].
    destruct (lookup (idents m) (x :: o)) eqn:L; cbn; [split; [exact L | auto]|]. split.
    + rewrite lookup_app, L, bytes_eqb_refl. reflexivity.
    + intros [[|y o']|o'] t' H; cbn in *; try exact H. rewrite lookup_app, H. reflexivity.
  - unfold redact_value. destruct (lookup (values m) o) eqn:L; cbn; [split; [exact L | auto]|]. split.
    + rewrite lookup_app, L, bytes_eqb_refl. reflexivity.
    + intros [[|y o']|o'] t' H; cbn in *; try exact H. rewrite lookup_app, H. reflexivity.
Qed.

Lemma tok_of_shape m c t : WFm m -> tok_of m c = Some t ->
  match c with
  | CIdent [] => t = []
  | CIdent o => In (o, t) (idents m) /\ exists k, t = ntok k
  | CValue o => In (o, t) (values m) /\ exists k, t = vtok k
  end.
Proof.
  intros W H. apply wf_ns in W. destruct W as [Wi Wv]. destruct c as [[|x o]|o]; cbn in H.
  - congruence.
  - apply lookup_in in H. split; [exact H|exact (ns_tok ntok _ _ _ _ Wi H)].
  - apply lookup_in in H. split; [exact H|exact (ns_tok vtok _ _ _ _ Wv H)].
Qed.

(* every placeholder is n<k> / v<k> (or the empty identifier passed through) *)
Lemma do_call_shape m c : WFm m ->
  match c with
  | CIdent [] => snd (do_call m c) = []
  | CIdent _ => exists k, snd (do_call m c) = ntok k
  | CValue _ => exists k, snd (do_call m c) = vtok k
  end.
Proof.
  intros W. pose proof (tok_of_shape _ c _ (wf_do_call m c W) (proj1 (step_stable m c))) as S.
  destruct c as [[|x o]|o]; [exact S|exact (proj2 S)|exact (proj2 S)].
Qed.

(* the first byte of a placeholder tells the kind of call it answers ... *)
Lemma tok_kind m c t : WFm m -> tok_of m c = Some t ->
  hd_error t = match c with CIdent [] => None | CIdent _ => Some 110%N | CValue _ => Some 118%N end.
Proof.
  intros W H. apply (tok_of_shape m c t W) in H.
  destruct c as [[|x o]|o]; [subst t|destruct H as [_ [k ->]]|destruct H as [_ [k ->]]]; reflexivity.
Qed.

(* ... and within a namespace the placeholders of different lexemes differ *)
Lemma tok_of_inj m c c' t : WFm m -> tok_of m c = Some t -> tok_of m c' = Some t -> c = c'.
Proof.
  intros W H H'. pose proof (tok_kind m c t W H) as K. rewrite (tok_kind m c' t W H') in K.
  apply (tok_of_shape m _ t W) in H, H'. apply wf_ns in W. destruct W as [Wi Wv].
  destruct c as [[|x o]|o], c' as [[|x' o']|o']; try discriminate K; [reflexivity| |]; f_equal.
  - exact (ns_inj ntok ntok_inj _ _ _ _ _ Wi (proj1 H) (proj1 H')).
  - exact (ns_inj vtok vtok_inj _ _ _ _ _ Wv (proj1 H) (proj1 H')).
Qed.

Lemma tok_of_iff m c c' t t' : WFm m -> tok_of m c = Some t -> tok_of m c' = Some t' -> (c = c' <-> t = t').
Proof. intros W H H'. split; intros <-; [congruence|exact (tok_of_inj m c c' t W H H')]. Qed.

Lemma run_calls_cons m c cs :
  run_calls m (c :: cs) =
    (fst (run_calls (fst (do_call m c)) cs), snd (do_call m c) :: snd (run_calls (fst (do_call m c)) cs)).
Proof. cbn. destruct (do_call m c) as [m' t]. cbn. destruct (run_calls m' cs). reflexivity. Qed.

Lemma wf_run cs : forall m, WFm m -> WFm (fst (run_calls m cs)).
Proof. induction cs as [|c cs IH]; intros m W; [exact W|]. rewrite run_calls_cons. apply IH, wf_do_call, W. Qed.

Lemma run_stable cs : forall m,
  (forall c t, tok_of m c = Some t -> tok_of (fst (run_calls m cs)) c = Some t) /\
  Forall2 (fun c t => tok_of (fst (run_calls m cs)) c = Some t) cs (snd (run_calls m cs)).
Proof.
  induction cs as [|c cs IH]; intros m; [split; [auto | constructor]|].
  rewrite run_calls_cons. cbn [fst snd]. destruct (step_stable m c) as [S1 S2]. destruct (IH (fst (do_call m c))) as [I1 I2].
  split; [intros c' t' H; apply I1, S2, H|]. constructor; [apply I1, S1|exact I2].
Qed.

Lemma Forall2_nth_error {A B} (P : A -> B -> Prop) l l' : Forall2 P l l' ->
  forall i a b, nth_error l i = Some a -> nth_error l' i = Some b -> P a b.
Proof.
  induction 1 as [|x y l l' Hxy H IH]; intros [|i] a b Ha Hb; cbn in *; try discriminate.
  - injection Ha as <-. injection Hb as <-. exact Hxy.
  - eapply IH; eassumption.
Qed.

(* over ALL call sequences on one well-formed Mapping: equal lexemes (same namespace) <-> equal placeholders *)
Theorem run_calls_functional_injective m cs i j ci cj ti tj : WFm m ->
  nth_error cs i = Some ci -> nth_error cs j = Some cj ->
  nth_error (snd (run_calls m cs)) i = Some ti -> nth_error (snd (run_calls m cs)) j = Some tj ->
  (ci = cj <-> ti = tj).
Proof.
  intros W Hi Hj Hti Htj. destruct (run_stable cs m) as [_ F].
  exact (tok_of_iff _ ci cj ti tj (wf_run cs m W) (Forall2_nth_error _ _ _ F i ci ti Hi Hti)
                                                  (Forall2_nth_error _ _ _ F j cj tj Hj Htj)).
Qed.

Theorem mapping_functional_injective cs i j ci cj ti tj :
  nth_error cs i = Some ci -> nth_error cs j = Some cj ->
  nth_error (snd (run_calls empty_mapping cs)) i = Some ti ->
  nth_error (snd (run_calls empty_mapping cs)) j = Some tj ->
  (ci = cj <-> ti = tj).
Proof. exact (run_calls_functional_injective empty_mapping cs i j ci cj ti tj wf_empty). Qed.

Definition piece_ok (ids : list bytes) (tk : token) (p : bytes) : Prop :=
  (sensitive ids tk = true /\ placeholder_piece p) \/
  (fst tk = CArg /\ p = snd tk) \/
  (sensitive ids tk = false /\ fst tk <> CArg /\ p = emit_structural (fst tk) (snd tk)).

Lemma emit_ident_piece m val : WFm m -> WFm (fst (emit_ident m val)) /\ placeholder_piece (snd (emit_ident m val)).
Proof.
  intros W. unfold emit_ident. pose proof (wf_do_call m (CIdent val) W) as W'. pose proof (do_call_shape m (CIdent val) W) as S.
  cbn in W', S. destruct (redact_ident m val) as [m' t]. cbn in *. split; [exact W'|].
  destruct val; [right; left; subst; reflexivity | left; destruct S as [k ->]; exists k; reflexivity].
Qed.

(* emitToken by cases: bind arguments verbatim, literals through RedactValue, anything identifier-like through
   RedactIdent, the rest structurally; [sensitive] is the union of the two redacted cases *)
Lemma emit_token_eq m ids cls val : cls <> CArg ->
  emit_token m ids (cls, val) =
    if is_value_class cls then let '(m', t) := redact_value m val in (m', dress cls t)
    else if ident_like ids (cls, val) then emit_ident m val else (m, emit_structural cls val).
Proof. intros N. destruct cls; try (contradiction N; reflexivity); destruct val; reflexivity. Qed.

Lemma sensitive_eq ids cls val : sensitive ids (cls, val) = is_value_class cls || ident_like ids (cls, val).
Proof. destruct cls; reflexivity. Qed.

Lemma emit_token_ok m ids tk : WFm m -> WFm (fst (emit_token m ids tk)) /\ piece_ok ids tk (snd (emit_token m ids tk)).
Proof.
  intros W. destruct tk as [cls val]. unfold piece_ok. cbn [fst snd].
  assert (D : cls = CArg \/ cls <> CArg) by (destruct cls; (left; reflexivity) || (right; discriminate)).
  destruct D as [->|N]; [split; [exact W|]; right; left; split; reflexivity|].
  rewrite (emit_token_eq m ids cls val N), sensitive_eq. destruct (is_value_class cls) eqn:V; cbn [orb].
  - pose proof (wf_do_call m (CValue val) W) as W'. destruct (do_call_shape m (CValue val) W) as [k S].
    cbn [do_call] in W', S. destruct (redact_value m val) as [m' t]. cbn [fst snd] in *. subst t.
    split; [exact W'|]. left. split; [reflexivity|]. right. right. exists cls, k. split; [exact V|reflexivity].
  - destruct (ident_like ids (cls, val)).
    + destruct (emit_ident_piece m val W) as [W' P]. split; [exact W'|]. left. split; [reflexivity|exact P].
    + split; [exact W|]. right. right. repeat split. exact N.
Qed.

Definition visible (tk : token) : bool := match fst tk with CComment => false | _ => true end.

Lemma emit_all_cons m ids tk rest :
  emit_all m ids (tk :: rest) =
    match fst tk with
    | CLexErr => (m, None)
    | CComment => emit_all m ids rest
    | _ => let r := emit_all (fst (emit_token m ids tk)) ids rest in
           (fst r, option_map (cons (snd (emit_token m ids tk))) (snd r))
    end.
Proof.
  destruct tk as [[] val]; cbn [emit_all fst]; try reflexivity;
    destruct (emit_token _ _ _) as [m' p]; cbn [fst snd]; destruct (emit_all m' ids rest) as [m'' [ps|]]; reflexivity.
Qed.

(* the whole statement: the mapping stays well formed (also when a LEX_ERROR cuts the loop short), and a completed loop
   gives one piece per non-comment token, in order, each of the permitted shape *)
Lemma emit_all_ok ids toks : forall m, WFm m ->
  WFm (fst (emit_all m ids toks)) /\
  forall ps, snd (emit_all m ids toks) = Some ps -> Forall2 (piece_ok ids) (filter visible toks) ps.
Proof.
  induction toks as [|tk toks IH]; intros m W.
  - split; [exact W|]. intros ps H. injection H as <-. constructor.
  - destruct (emit_token_ok m ids tk W) as [W1 P1]. destruct (IH _ W1) as [W2 F].
    rewrite emit_all_cons. destruct tk as [[] val]; cbn [fst snd filter visible];
      try (split; [exact W2|]; intros ps H; destruct (snd (emit_all _ ids toks)) as [ps'|]; [|discriminate];
           injection H as <-; constructor; [exact P1|exact (F _ eq_refl)]).
    + exact (IH m W).
    + split; [exact W|discriminate].
Qed.

Theorem output_shape parse_ok ids toks m m' out : WFm m ->
  redact_into m parse_ok ids toks = (m', out) ->
  WFm m' /\
  (out = marker \/ exists ps, out = join_sp ps /\ Forall2 (piece_ok ids) (filter visible toks) ps).
Proof.
  intros W. unfold redact_into. destruct parse_ok; [|intros H; injection H as <- <-; auto].
  destruct (emit_all_ok ids toks m W) as [W1 F].
  destruct (emit_all m ids toks) as [m1 [ps|]]; intros H; injection H as <- <-; (split; [exact W1|]).
  - right. exists ps. split; [reflexivity|exact (F ps eq_refl)].
  - left. reflexivity.
Qed.

Lemma emit_all_lexerr ids v toks : forall m, In (CLexErr, v) toks -> snd (emit_all m ids toks) = None.
Proof.
  induction toks as [|tk toks IH]; intros m Hi; [destruct Hi|]. destruct Hi as [->|Hi]; [reflexivity|].
  rewrite emit_all_cons. destruct tk as [[] val]; cbn [fst snd]; rewrite ?(IH _ Hi); reflexivity.
Qed.

(* unparseable input (parser rejects, or the lexer reports an error) yields only the marker *)
Theorem unparseable_yields_marker_only m ids toks :
  snd (redact_into m false ids toks) = marker /\ fst (redact_into m false ids toks) = m /\
  (forall pre v rest, toks = pre ++ (CLexErr, v) :: rest -> Forall (fun tk => fst tk <> CLexErr) pre ->
     snd (redact_into m true ids toks) = marker).
Proof.
  split; [reflexivity|]. split; [reflexivity|]. intros pre v rest -> _. unfold redact_into.
  pose proof (emit_all_lexerr ids v (pre ++ (CLexErr, v) :: rest) m (in_elt _ _ _)) as H.
  destruct (emit_all m ids _) as [m1 [ps|]]; [discriminate H|reflexivity].
Qed.

(* the piece emitted for a sensitive token is `n<k>`, `` or a dressed v<k>: nothing of the token's own text *)
Theorem no_lexeme_copied m ids cls val : WFm m -> sensitive ids (cls, val) = true -> cls <> CComment -> cls <> CLexErr ->
  placeholder_piece (snd (emit_token m ids (cls, val))).
Proof.
  intros W S _ _. destruct (emit_token_ok m ids (cls, val) W) as [_ [[_ P]|[[E _]|[S' _]]]]; [exact P| |congruence].
  cbn in E. subst cls. discriminate.
Qed.

(* THE LEAK MECHANISM: a keyword-typed token whose text the AST walk did not report is copied verbatim *)
Theorem keyword_outside_ident_set_is_copied m ids val :
  val <> [] -> in_set ids val = false -> emit_token m ids (COther, val) = (m, val).
Proof. intros Hv Hi. destruct val; [congruence|]. cbn. rewrite Hi. reflexivity. Qed.

(* what the real parser/tokenizer report for   CREATE TABLE zqi1a (password INT)   : the column name is not in the
   identifier set of the AST walk, and survives *)
Example leak_witness :
  snd (redact_into empty_mapping true [[122;113;105;49;97]%N]
         [(COther, [67;82;69;65;84;69]); (COther, [84;65;66;76;69]); (CId, [122;113;105;49;97]); (CChar 40, []);
          (COther, [112;97;115;115;119;111;114;100]); (COther, [73;78;84]); (CChar 41, [])]%N)
  = [67;82;69;65;84;69;32;84;65;66;76;69;32;96;110;49;96;32;40;32;112;97;115;115;119;111;114;100;32;73;78;84;32;41]%N.
Proof. vm_compute. reflexivity. Qed.

Example nonvacuous :
  redact_seq empty_mapping
    [(true, [[116]; [97]]%N, [(COther, [83;69;76]); (CId, [97]); (CChar 44, []); (COther, [97]); (COther, [70;82;79;77]); (CId, [116]);
                            (CComment, [47;42]); (COther, [87]); (CId, [97]); (CChar 61, []); (CStr, [97]); (CSym SAND, []);
                            (CNum, [49]); (CSym SLE, []); (CArg, [58;118;49])]);
     (false, [], [(CId, [120])])]%N
  = ({| idents := [([97], ntok 1); ([116], ntok 2)]; values := [([97], vtok 1); ([49], vtok 2)]; ncount := 2; vcount := 2 |},
     [[83;69;76;32;96;110;49;96;32;44;32;96;110;49;96;32;70;82;79;77;32;96;110;50;96;32;87;32;96;110;49;96;32;61;32;39;118;49;39;32;38;38;32;58;118;50;32;60;61;32;58;118;49];
      marker])%N.
Proof. vm_compute. reflexivity. Qed.
