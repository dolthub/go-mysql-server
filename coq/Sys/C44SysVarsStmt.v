(* C44 -- whole SET statements on top of the single assignments of Sys/C44SysVars.v:
   several assignments in one statement, right-hand sides DEFAULT / @@y / @@GLOBAL.y / @@SESSION.y / @u, and the
   PERSIST / PERSIST_ONLY scopes.

   Mirrors: sql/planbuilder/set.go (setExprsToExpressions, buildSysVar, simplifySetExpr: everything that fails there
   fails BEFORE any assignment runs), sql/rowexec/rel.go buildSet (the assignments run one after the other; the first
   error stops the statement and nothing is undone), sql/core.go MysqlScope.SetValue (PERSIST = PersistGlobal then
   SetGlobal, PERSIST_ONLY = PersistGlobal), memory/session.go PersistGlobal (Convert only -- no scope / dynamic test --
   into a per-session map keyed by the name as typed), GetSessionVariableDefault (DEFAULT = the compiled default). *)
From Coq Require Import String Ascii ZArith NArith List Bool Lia Arith.
Import ListNotations.
From GMS Require Import Sys.C44SysVarsBase Sys.C44SysVars Sys.C44SysVarsProofs.
Open Scope Z_scope.

Inductive target : Type :=
| TgGlobal (x : string)                       (* SET GLOBAL x / SET @@GLOBAL.x *)
| TgSession (explicit : bool) (x : string)    (* explicit: SET @@SESSION.x;  otherwise SET SESSION x / SET x / SET @@x (same behaviour) *)
| TgUser (u : string)                         (* SET @u *)
| TgPersist (only : bool) (x : string).       (* SET PERSIST x / SET PERSIST_ONLY x *)

Inductive source : Type :=
| SrcVal (v : gval)        (* a literal; GS s is a string literal (or the bare keywords ON / OFF) *)
| SrcDefault               (* DEFAULT *)
| SrcBare (y : string)     (* @@y *)
| SrcGlobal (y : string)   (* @@GLOBAL.y *)
| SrcSession (y : string)  (* @@SESSION.y *)
| SrcUser (u : string).    (* @u *)

Definition assign : Type := (target * source)%type.

Inductive stmt : Type :=
| SNew                                   (* a new session *)
| SSet (s : nat) (l : list assign).      (* session s runs  SET a1, a2, ... *)

(* pers s name: what session s has persisted under that name (spelled as typed); GNil = nothing *)
Record xstate : Type := mkX { base : state; pers : nat -> string -> gval }.

Definition xinit (reg : list sysvar) : xstate := mkX (init reg) (fun _ _ => GNil).

Definition upd_pers (p : nat -> string -> gval) (s : nat) (x : string) (v : gval) : nat -> string -> gval :=
  fun s' x' => if Nat.eqb s s' && String.eqb x x' then v else p s' x'.

Definition is_system_type (t : vtype) : bool := match t with TOther _ => false | _ => true end.

Definition target_var (tg : target) : option string :=
  match tg with TgGlobal x | TgSession _ x | TgPersist _ x => Some x | TgUser _ => None end.

(* what the planbuilder rejects before anything runs *)
Definition build_target (reg : list sysvar) (tg : target) : outcome :=
  match tg with
  | TgGlobal x => match lookup reg x with Some _ => Accepted | None => Rejected end
  | TgSession _ x =>
      (* the parser strips the scope prefix of a target, so even SET @@SESSION.x of a GLOBAL-only x is refused only
         when the assignment runs (unlike a READ of @@SESSION.x, see build_source) *)
      match lookup reg x with Some _ => Accepted | None => Rejected end    (* ErrUnknownSystemVariable *)
  | TgUser _ | TgPersist _ _ => Accepted
  end.

Definition build_source (reg : list sysvar) (tg : target) (src : source) : outcome :=
  match src with
  | SrcVal (GS str) =>
      (* simplifySetExpr converts a string literal with the variable's system type while building *)
      match target_var tg with
      | None => Accepted
      | Some x =>
          match lookup reg x with
          | None => Accepted
          | Some sv =>
              if is_system_type (v_type sv)
              then match convert (v_type sv) (GS str) with Ok _ => Accepted | Err => Rejected | Unm => Unmodelled end
              else Accepted
          end
      end
  | SrcVal _ => Accepted
  | SrcDefault =>
      match tg with
      | TgUser _ => Rejected              (* ErrUserVariableNoDefault *)
      | TgPersist _ _ => Rejected         (* unsupported feature *)
      | _ => Accepted
      end
  | SrcBare y | SrcGlobal y => match lookup reg y with Some _ => Accepted | None => Unmodelled end
  | SrcSession y =>
      match lookup reg y with
      | None => Unmodelled
      | Some sv => if scope_eqb (v_scope sv) ScGlobal then Rejected else Accepted
      end
  | SrcUser _ => Accepted
  end.

Definition build_assign (reg : list sysvar) (a : assign) : outcome :=
  match build_target reg (fst a) with
  | Accepted => build_source reg (fst a) (snd a)
  | o => o
  end.

Fixpoint build_all (reg : list sysvar) (l : list assign) : outcome :=
  match l with
  | [] => Accepted
  | a :: r => match build_assign reg a with Accepted => build_all reg r | o => o end
  end.

(* the value a right-hand side evaluates to, when its assignment runs *)
Definition rd_res (r : rd) : res := match r with RVal v => Ok v | _ => Err end.

Definition shown_rd (reg : list sysvar) (y : string) (r : rd) : rd :=
  match r with RVal v => RVal (shown reg y v) | o => o end.

Definition resolve (reg : list sysvar) (st : state) (s : nat) (tg : target) (src : source) : res :=
  match src with
  | SrcVal v => Ok v
  | SrcDefault =>
      match target_var tg with
      | Some x => match lookup reg x with Some sv => Ok (v_default sv) | None => Err end
      | None => Err
      end
  | SrcBare y => rd_res (shown_rd reg y (read_bare st s y))
  | SrcGlobal y => Ok (shown reg y (get_global st y))
  | SrcSession y => rd_res (shown_rd reg y (read_session reg st s y))
  | SrcUser u => rd_res (get_user st s u)
  end.

Definition lift (p : nat -> string -> gval) (r : state * outcome) : xstate * outcome := (mkX (fst r) p, snd r).

Definition exec_assign (reg : list sysvar) (xs : xstate) (s : nat) (a : assign) : xstate * outcome :=
  match resolve reg (base xs) s (fst a) (snd a) with
  | Err => (xs, Rejected)
  | Unm => (xs, Unmodelled)
  | Ok v =>
      match fst a with
      | TgGlobal x => lift (pers xs) (step reg (base xs) (SetGlobal s x v))
      | TgSession _ x => lift (pers xs) (step reg (base xs) (SetSession s x v))
      | TgUser u => lift (pers xs) (step reg (base xs) (SetUser s u v))
      | TgPersist only x =>
          match lookup reg x with
          | None => (xs, Rejected)
          | Some sv =>
              match convert (v_type sv) v with
              | Ok v' =>
                  let p' := upd_pers (pers xs) s x v' in
                  if only then (mkX (base xs) p', Accepted)
                  else lift p' (step reg (base xs) (SetGlobal s x v))   (* persisted even when SET GLOBAL then fails *)
              | Err => (xs, Rejected)
              | Unm => (xs, Unmodelled)
              end
          end
      end
  end.

Fixpoint exec_list (reg : list sysvar) (xs : xstate) (s : nat) (l : list assign) : xstate * outcome :=
  match l with
  | [] => (xs, Accepted)
  | a :: r =>
      match exec_assign reg xs s a with
      | (xs', Accepted) => exec_list reg xs' s r
      | other => other                       (* the statement stops; what ran before stays *)
      end
  end.

Definition exec_stmt (reg : list sysvar) (xs : xstate) (c : stmt) : xstate * outcome :=
  match c with
  | SNew => lift (pers xs) (step reg (base xs) NewSession)
  | SSet s l =>
      if negb (valid_session (base xs) s) then (xs, Unmodelled) else
      match build_all reg l with
      | Accepted => exec_list reg xs s l
      | o => (xs, o)
      end
  end.

Fixpoint xrun (reg : list sysvar) (xs : xstate) (cs : list stmt) : xstate :=
  match cs with
  | [] => xs
  | c :: r => xrun reg (fst (exec_stmt reg xs c)) r
  end.

Section StmtProofs.
Variable reg : list sysvar.
Opaque step.

(* a statement the planbuilder refuses changes nothing, wherever the offending assignment stands *)
Theorem build_failure_no_effect : forall xs s l o,
  build_all reg l = o -> o <> Accepted -> exec_stmt reg xs (SSet s l) = (xs, o) \/ exec_stmt reg xs (SSet s l) = (xs, Unmodelled).
Proof.
  intros xs s l o Hb Hn. simpl. destruct (negb (valid_session (base xs) s)); [right; reflexivity|].
  left. rewrite Hb. destruct o; auto. contradiction.
Qed.

(* the assignments run in order; the statement is exactly the run of its prefix up to the first failing one *)
Theorem exec_list_cons : forall xs s a l,
  exec_list reg xs s (a :: l) =
  match exec_assign reg xs s a with
  | (xs', Accepted) => exec_list reg xs' s l
  | other => other
  end.
Proof. reflexivity. Qed.

Theorem exec_list_app_ok : forall l1 xs s l2 xs1,
  exec_list reg xs s l1 = (xs1, Accepted) -> exec_list reg xs s (l1 ++ l2) = exec_list reg xs1 s l2.
Proof.
  induction l1 as [|b r IH]; intros xs s l2 xs1 H1; simpl in *.
  - inversion H1. reflexivity.
  - destruct (exec_assign reg xs s b) as [xb ob]. destruct ob; try discriminate. eapply IH; eauto.
Qed.

Theorem exec_list_app_fail : forall l1 xs s a l2 xs1 xs2 o,
  exec_list reg xs s l1 = (xs1, Accepted) -> exec_assign reg xs1 s a = (xs2, o) -> o <> Accepted ->
  exec_list reg xs s (l1 ++ a :: l2) = (xs2, o).
Proof.
  intros l1 xs s a l2 xs1 xs2 o H1 H2 Hn. rewrite (exec_list_app_ok _ _ _ (a :: l2) _ H1). simpl. rewrite H2.
  destruct o; [contradiction | reflexivity | reflexivity].
Qed.

Lemma lift_inv : forall p r xs' o, lift p r = (xs', o) -> r = (base xs', o) /\ pers xs' = p.
Proof. intros p [st o'] xs' o H. inversion H. auto. Qed.

Lemma lift_same : forall xs o, lift (pers xs) (base xs, o) = (xs, o).
Proof. intros [b p] o. reflexivity. Qed.

(* a failing assignment itself has no effect -- except SET PERSIST, which has persisted before SET GLOBAL refuses *)
Theorem failing_assign_no_effect : forall xs s tg src xs',
  exec_assign reg xs s (tg, src) = (xs', Rejected) ->
  (forall x, tg <> TgPersist false x) -> xs' = xs.
Proof.
  intros xs s tg src xs' H Hp. unfold exec_assign in H. cbn [fst snd] in H.
  destruct (resolve reg (base xs) s tg src) as [v| |]; [|inversion H; auto|inversion H].
  destruct tg as [x|e x|u|only x].
  1-3: apply lift_inv in H as [E Hq]; apply rejected_no_effect in E; destruct xs, xs'; simpl in *; congruence.
  destruct only; [|exfalso; eapply Hp; reflexivity].
  destruct (lookup reg x) as [sv|]; [|inversion H; auto].
  destruct (convert (v_type sv) v); inversion H; auto.
Qed.

(* SET PERSIST_ONLY never touches the running values *)
Theorem persist_only_keeps_values : forall xs s x src xs' o,
  exec_assign reg xs s (TgPersist true x, src) = (xs', o) -> base xs' = base xs.
Proof.
  intros xs s x src xs' o H. unfold exec_assign in H. cbn [fst snd] in H.
  destruct (resolve reg (base xs) s (TgPersist true x) src); try (inversion H; reflexivity).
  destruct (lookup reg x) as [sv|]; [|inversion H; reflexivity].
  destruct (convert (v_type sv) v); inversion H; reflexivity.
Qed.

(* SET PERSIST x = v: the persisted value is convert(v) whatever SET GLOBAL then says; when the statement succeeds the
   global value is convert(v) too *)
Theorem persist_semantics : forall xs s x v xs' o sv v',
  lookup reg x = Some sv -> convert (v_type sv) v = Ok v' ->
  exec_assign reg xs s (TgPersist false x, SrcVal v) = (xs', o) ->
  pers xs' s x = v' /\ (o = Accepted -> get_global (base xs') x = v').
Proof.
  intros xs s x v xs' o sv v' Hl Hc H. unfold exec_assign in H. simpl in H. rewrite Hl, Hc in H.
  apply lift_inv in H as [E Hq]. split.
  - rewrite Hq. unfold upd_pers. rewrite Nat.eqb_refl, String.eqb_refl. reflexivity.
  - intros ->. destruct (set_global_roundtrip reg _ _ _ _ _ E) as [sv2 [v2 [Hl2 [Hc2 [_ [Hg _]]]]]]. congruence.
Qed.

Lemma exec_list_single : forall xs s a, exec_list reg xs s [a] = exec_assign reg xs s a.
Proof. intros xs s a. simpl. destruct (exec_assign reg xs s a) as [x o]. destruct o; reflexivity. Qed.

(* one literal assignment is the single-assignment step of Sys/C44SysVars.v (so every theorem about [step] applies):
   what the planbuilder refuses -- an unknown name, a string literal that does not convert -- [step] rejects too *)
Theorem single_literal_is_step : forall xs s e x v,
  valid_session (base xs) s = true ->
  (forall sv, lookup reg x = Some sv -> convert (v_type sv) v <> Unm) ->
  exec_stmt reg xs (SSet s [(TgGlobal x, SrcVal v)]) = lift (pers xs) (step reg (base xs) (SetGlobal s x v)) /\
  exec_stmt reg xs (SSet s [(TgSession e x, SrcVal v)]) = lift (pers xs) (step reg (base xs) (SetSession s x v)).
Proof.
  intros xs s e x v Hs Hu. unfold exec_stmt. rewrite Hs. cbn [negb build_all]. unfold build_assign, build_target. cbn [fst snd].
  destruct (lookup reg x) as [sv|] eqn:Hl; cbv iota.
  - specialize (Hu sv eq_refl).
    assert (Hrun : forall tg o, exec_assign reg xs s (tg, SrcVal v) = lift (pers xs) (step reg (base xs) o) ->
                   exec_list reg xs s [(tg, SrcVal v)] = lift (pers xs) (step reg (base xs) o))
      by (intros tg o <-; apply exec_list_single).
    destruct v as [|b|k z|n d|n d|str|str]; cbn [build_source target_var]; cbv iota;
      try (split; apply Hrun; reflexivity).
    rewrite Hl. cbv iota. destruct (is_system_type (v_type sv)); cbv iota; [|split; apply Hrun; reflexivity].
    destruct (convert (v_type sv) (GS str)) eqn:Hc; cbv iota; [split; apply Hrun; reflexivity| |contradiction].
    destruct (invalid_rejected reg (base xs) s x (GS str) sv Hs Hl Hc) as [-> ->]. rewrite lift_same. auto.
  - destruct (unknown_rejected reg (base xs) s x v Hs Hl) as [-> ->]. rewrite lift_same. auto.
Qed.

(* SET SESSION x = DEFAULT assigns the compiled default of x (not the current global value) *)
Theorem set_default_assigns_compiled_default : forall xs s x sv xs',
  lookup reg x = Some sv ->
  exec_assign reg xs s (TgSession false x, SrcDefault) = (xs', Accepted) ->
  exists v', convert (v_type sv) (v_default sv) = Ok v' /\ read_bare (base xs') s x = RVal v'.
Proof.
  intros xs s x sv xs' Hl H. unfold exec_assign in H. simpl in H. rewrite Hl in H. apply lift_inv in H as [E _].
  destruct (set_session_roundtrip reg _ _ _ _ _ E) as [sv2 [v2 [Hl2 [Hc2 [_ [Hr _]]]]]].
  rewrite Hl in Hl2. inversion Hl2. subst sv2. exists v2. auto.
Qed.

(* SET @@SESSION.x = @@GLOBAL.x: the session value becomes convert(what @@GLOBAL.x shows) *)
Theorem copy_global_to_session : forall xs s e x xs',
  exec_assign reg xs s (TgSession e x, SrcGlobal x) = (xs', Accepted) ->
  exists sv v', lookup reg x = Some sv /\
    convert (v_type sv) (shown reg x (get_global (base xs) x)) = Ok v' /\
    read_bare (base xs') s x = RVal v' /\
    (forall y, get_global (base xs') y = get_global (base xs) y).
Proof.
  intros xs s e x xs' H. unfold exec_assign in H. simpl in H. apply lift_inv in H as [E _].
  destruct (set_session_roundtrip reg _ _ _ _ _ E) as [sv [v' [Hl [Hc [_ [Hr _]]]]]].
  exists sv, v'. repeat split; auto.
  exact (proj1 (set_session_isolation reg _ _ _ _ _ _ E)).
Qed.

(* ... and that is the global value itself for the numeric and string types (Convert is the identity on them) *)
Theorem copy_global_to_session_same : forall xs s e x xs' sv,
  lookup reg x = Some sv ->
  match v_type sv with TBool | TInt _ _ _ | TUint _ _ | TDouble _ _ | TString => True | _ => False end ->
  bounds_ok (v_type sv) = true -> has_type (v_type sv) (get_global (base xs) x) ->
  exec_assign reg xs s (TgSession e x, SrcGlobal x) = (xs', Accepted) ->
  read_bare (base xs') s x = RVal (get_global (base xs) x).
Proof.
  intros xs s e x xs' sv Hl Hk Hb Ht H.
  destruct (copy_global_to_session xs s e x xs' H) as [sv2 [v' [Hl2 [Hc [Hr _]]]]].
  rewrite Hl in Hl2. inversion Hl2. subst sv2.
  assert (Hs : shown reg x (get_global (base xs) x) = get_global (base xs) x).
  { unfold shown. rewrite Hl. destruct (v_type sv); try contradiction; reflexivity. }
  rewrite Hs in Hc. rewrite (convert_idempotent_num (v_type sv) _ Hk Hb Ht) in Hc. inversion Hc. subst. exact Hr.
Qed.

Theorem user_assign_accepted : forall xs s u src v,
  valid_session (base xs) s = true -> resolve reg (base xs) s (TgUser u) src = Ok v ->
  exec_assign reg xs s (TgUser u, src) = (mkX (fst (step reg (base xs) (SetUser s u v))) (pers xs), Accepted).
Proof.
  intros xs s u src v Hs Hr. unfold exec_assign. simpl fst. simpl snd. rewrite Hr. unfold lift.
  destruct (set_user_roundtrip reg (base xs) s u v Hs) as [Ha _]. rewrite Ha. reflexivity.
Qed.

(* SET @u = <literal | @@y | @@GLOBAL.y | @v>: SELECT @u is exactly the value the right-hand side had, whatever its
   Go type (integer kinds, decimal, float, string, NULL) *)
Theorem user_assign_returns_value : forall xs s u src v,
  valid_session (base xs) s = true -> resolve reg (base xs) s (TgUser u) src = Ok v ->
  let r := exec_assign reg xs s (TgUser u, src) in
  snd r = Accepted /\ get_user (base (fst r)) s u = RVal v.
Proof.
  intros xs s u src v Hs Hr. cbv zeta. rewrite (user_assign_accepted xs s u src v Hs Hr). simpl.
  split; [reflexivity|]. destruct (set_user_roundtrip reg (base xs) s u v Hs) as [_ [Hg _]]. exact Hg.
Qed.

Transparent step.
End StmtProofs.
