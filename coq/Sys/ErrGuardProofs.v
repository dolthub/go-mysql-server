(* Proofs about the model of errguard.Go (C48). *)
From Coq Require Import List NArith Arith PeanoNat Bool Permutation Lia.
Import ListNotations.
From GMS Require Import Sys.ErrGuard.

Lemma wrapper_never_crashes r t : wrapper r <> Crashed t.
Proof. destruct r as [e| |]; cbn; discriminate. Qed.

Lemma goroutines_never_crash b g t : In g (goroutines b) -> guard_end g <> Crashed t.
Proof. intros _. apply wrapper_never_crashes. Qed.

(* without the wrapper a panicking function kills the process *)
Lemma unguarded_crashes b t : run_fn b = RPanic t -> unguarded (run_fn b) = Crashed t.
Proof. intros ->. reflexivity. Qed.

Lemma error_unchanged b e : run_fn b = RRet e -> guard_end b = Normal e /\ guard b = e.
Proof. unfold guard, guard_end. intros ->. split; reflexivity. Qed.

Lemma returned_error_same_value id : guard (Ret (Some id)) = Some (EId id) /\ guard (Ret None) = None.
Proof. split; reflexivity. Qed.

Lemma panic_becomes_error b t : run_fn b = RPanic t ->
  guard_end b = Normal (Some (ERec t)) /\ guard b = Some (ERec t) /\
  forall stack, message stack (ERec t) = Some (s_prefix ++ t ++ [10%N] ++ stack).
Proof. unfold guard, guard_end. intros ->. repeat split; reflexivity. Qed.

Lemma goexit_records_nothing b : run_fn b = RGoexit -> guard_end b = Exited /\ guard b = None.
Proof. unfold guard, guard_end. intros ->. split; reflexivity. Qed.

(* the wrapper is total and has exactly these three outcomes *)
Lemma guard_cases b :
  (exists e, run_fn b = RRet e /\ guard b = e) \/
  (exists t, run_fn b = RPanic t /\ guard b = Some (ERec t)) \/
  (run_fn b = RGoexit /\ guard b = None).
Proof.
  unfold guard, guard_end. destruct (run_fn b) as [e|t|]; cbn; [left|right; left|right; right]; eauto.
Qed.

(* members that ended with nil are skipped *)
Lemma first_err_app l1 l2 outs : (forall j, In j l1 -> nth j outs None = None) ->
  first_err (l1 ++ l2) outs = first_err l2 outs.
Proof.
  induction l1 as [|i l1 IH]; cbn; intros H; [reflexivity|].
  rewrite (H i (or_introl eq_refl)). apply IH. intros j Hj. apply H. now right.
Qed.

Lemma first_err_none order outs :
  first_err order outs = None <-> forall i, In i order -> nth i outs None = None.
Proof.
  split.
  - induction order as [|i rest IH]; cbn; [intros _ ? []|].
    destruct (nth i outs None) eqn:E; [discriminate|]. intros H j [<-|Hj]; auto.
  - intros H. rewrite <- (app_nil_r order). now apply first_err_app.
Qed.

(* the first non-nil error in completion order, spelled out *)
Lemma first_err_spec order outs e :
  first_err order outs = Some e <->
  exists l1 i l2, order = l1 ++ i :: l2 /\ nth i outs None = Some e /\ forall j, In j l1 -> nth j outs None = None.
Proof.
  split.
  - induction order as [|i rest IH]; cbn; [discriminate|].
    destruct (nth i outs None) as [e'|] eqn:E.
    + intros H. injection H as <-. exists [], i, rest. repeat split; [exact E | intros ? []].
    + intros H. destruct (IH H) as (l1 & j & l2 & -> & Hj & Hl). exists (i :: l1), j, l2.
      repeat split; [exact Hj|]. intros k [<-|Hk]; auto.
  - intros (l1 & i & l2 & -> & Hi & Hl). rewrite (first_err_app _ _ _ Hl). cbn. now rewrite Hi.
Qed.

Lemma first_err_in order outs e : first_err order outs = Some e -> In (Some e) outs.
Proof.
  intros H. apply first_err_spec in H. destruct H as (_ & i & _ & _ & Hi & _).
  destruct (nth_in_or_default i outs None) as [Hin|Hd]; congruence.
Qed.

(* a schedule reaches every member; an index past the end reads as nil anyway *)
Lemma wait_nil_iff_all_nil order outs : is_schedule order (length outs) ->
  (first_err order outs = None <-> Forall (fun o => o = None) outs).
Proof.
  intros S. rewrite first_err_none, Forall_forall. split.
  - intros H o Ho. destruct (In_nth outs o None Ho) as (i & Hi & <-). apply H.
    apply (Permutation_in _ (Permutation_sym S)), in_seq. lia.
  - intros H i _. destruct (nth_in_or_default i outs None) as [Hin| ->]; [now apply H | reflexivity].
Qed.

Lemma wait_some_iff_some_error order outs : is_schedule order (length outs) ->
  ((exists e, first_err order outs = Some e) <-> exists e, In (Some e) outs).
Proof.
  intros S. split.
  - intros [e H]. exists e. now apply first_err_in in H.
  - intros [e He]. destruct (first_err order outs) as [e'|] eqn:F; [eauto|].
    apply (wait_nil_iff_all_nil order outs S) in F. rewrite Forall_forall in F. specialize (F _ He). discriminate.
Qed.

(* whether Wait fails does not depend on the schedule *)
Lemma nil_schedule_independent o1 o2 outs : is_schedule o1 (length outs) -> is_schedule o2 (length outs) ->
  (first_err o1 outs = None <-> first_err o2 outs = None).
Proof. intros S1 S2. now rewrite (wait_nil_iff_all_nil o1 outs S1), (wait_nil_iff_all_nil o2 outs S2). Qed.

(* every member's error can be the one Wait returns: the schedule that completes it first *)
Lemma any_error_can_win outs i e : i < length outs -> nth i outs None = Some e ->
  exists order, is_schedule order (length outs) /\ first_err order outs = Some e.
Proof.
  intros Hi He. exists (i :: seq 0 i ++ seq (S i) (length outs - S i)). split; [|cbn; now rewrite He].
  unfold is_schedule. replace (length outs) with (i + S (length outs - S i)) at 2 by lia.
  rewrite seq_app. apply Permutation_middle.
Qed.

Lemma group_wait_nil_iff order children : is_schedule order (length children) ->
  (group_wait order children = None <-> forall c, In c children -> guard c = None).
Proof.
  intros S. unfold group_wait. rewrite wait_nil_iff_all_nil by now rewrite map_length.
  rewrite Forall_map, Forall_forall. reflexivity.
Qed.

(* a member's own returned error reaches Wait as the SAME value; a panic as the minted error *)
Lemma group_wait_provenance order children e : group_wait order children = Some e ->
  exists c, In c children /\
    ((run_fn c = RRet (Some e)) \/ (exists t, run_fn c = RPanic t /\ e = ERec t)).
Proof.
  intros H. apply first_err_in, in_map_iff in H. destruct H as (c & Hg & Hin). exists c. split; [exact Hin|].
  destruct (guard_cases c) as [(e' & Hr & He)|[(t & Hr & He)|[Hr He]]]; rewrite Hg in He.
  - left. now rewrite Hr, He.
  - right. exists t. split; [exact Hr | congruence].
  - discriminate.
Qed.

Example nonvacuous :
  group_wait [2; 0; 1] [Ret (Some 7%N); Pan [98;111;111;109]%N; Nest [1; 0] [Ret None; Pan [120]%N] PReturnInner]
    = Some (ERec [120]%N)
  /\ group_wait [1; 2; 0] [Ret (Some 7%N); Pan [98;111;111;109]%N; Goexit] = Some (ERec [98;111;111;109]%N)
  /\ group_wait [0; 1; 2] [Ret (Some 7%N); Pan [98;111;111;109]%N; Goexit] = Some (EId 7%N)
  /\ group_wait [0; 1] [Ret None; Goexit] = None
  /\ unguarded (run_fn (Pan [120]%N)) = Crashed [120]%N
  /\ is_schedule [2; 0; 1] 3.
Proof.
  repeat split; try (vm_compute; reflexivity).
  unfold is_schedule. cbn. apply (Permutation_cons_app [0; 1] [] 2). rewrite app_nil_r. apply Permutation_refl.
Qed.
