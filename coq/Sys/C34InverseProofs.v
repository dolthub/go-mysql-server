(* C34 -- inverse-pair theorems: FROM_BASE64 o TO_BASE64, positional numbers (CONV), INET_ATON / INET_NTOA. *)
From Coq Require Import List NArith ZArith Bool Lia Arith.
Import ListNotations.
From GMS Require Import Sys.C34Funcs Sys.C34FuncsProofs.
Open Scope Z_scope.

Lemma div_mod_pack q r d : (r < d -> (q * d + r) / d = q /\ (q * d + r) mod d = r)%N.
Proof.
  intros H. split.
  - rewrite N.div_add_l, N.div_small by lia. apply N.add_0_r.
  - rewrite N.add_comm, N.mod_add, N.mod_small by lia. reflexivity.
Qed.

(* three bytes make four sextets, and the decoder's arithmetic on the sextets gives the bytes back: with
   a = 4 a1 + a0, b = 16 b1 + b0, c = 64 c1 + c0 the sextets are a1, 16 a0 + b1, 4 b0 + c1, c0 *)
Lemma b64_arith : forall a b c : N, (a < 256 -> b < 256 -> c < 256 ->
  a / 4 < 64 /\ (a mod 4) * 16 + b / 16 < 64 /\ (b mod 16) * 4 + c / 64 < 64 /\ c mod 64 < 64 /\
  (a / 4 * 4 + ((a mod 4) * 16 + b / 16) / 16) mod 256 = a /\
  ((((a mod 4) * 16 + b / 16) mod 16) * 16 + ((b mod 16) * 4 + c / 64) / 4) mod 256 = b /\
  ((((b mod 16) * 4 + c / 64) mod 4) * 64 + c mod 64) mod 256 = c)%N.
Proof.
  intros a b c Ha Hb Hc.
  pose proof (N.div_mod' a 4). pose proof (N.div_mod' b 16). pose proof (N.div_mod' c 64).
  pose proof (N.mod_lt a 4). pose proof (N.mod_lt b 16). pose proof (N.mod_lt c 64).
  assert (a / 4 < 64 /\ b / 16 < 16 /\ c / 64 < 4)%N as (? & ? & ?) by (repeat split; apply N.div_lt_upper_bound; lia).
  destruct (div_mod_pack (a mod 4) (b / 16) 16) as [-> ->]; [assumption|].
  destruct (div_mod_pack (b mod 16) (c / 64) 4) as [-> ->]; [assumption|].
  repeat split; [assumption | lia | lia | now apply N.mod_lt | ..];
    rewrite N.mul_comm, <- N.div_mod'; now apply N.mod_small.
Qed.

Lemma b64_char_neq61 i : (b64_char i =? 61)%N = false.
Proof. apply N.eqb_neq, b64_char_not_special. Qed.

Lemma list_ind3 {A} (P : list A -> Prop) :
  P [] -> (forall a, P [a]) -> (forall a b, P [a; b]) -> (forall a b c r, P r -> P (a :: b :: c :: r)) ->
  forall l, P l.
Proof.
  intros H0 H1 H2 H3 l. enough (P l /\ (forall a, P (a :: l)) /\ (forall a b, P (a :: b :: l))) by tauto.
  induction l as [|x l IH]; [auto|]. destruct IH as (IH0 & IH1 & IH2). repeat split; auto.
Qed.

(* a final group of one or two bytes is encoded like the group filled up with zero bytes, cut short *)
Lemma b64_decode_encode bs : is_bytes bs -> b64_decode_q (b64_encode bs) = Some bs.
Proof.
  unfold is_bytes. induction bs as [|a|a b|a b c r IH] using list_ind3.
  - reflexivity.
  - intros (Ha & _)%Forall_cons_iff. destruct (b64_arith a 0 0 Ha) as (H1 & H2 & _ & _ & E1 & _); [lia..|].
    rewrite N.div_0_l, N.add_0_r in * by lia. cbn [b64_encode b64_decode_q N.eqb Pos.eqb].
    rewrite (b64_val_char _ H1), (b64_val_char _ H2), E1. reflexivity.
  - intros (Ha & (Hb & _)%Forall_cons_iff)%Forall_cons_iff. destruct (b64_arith a b 0 Ha Hb) as (H1 & H2 & H3 & _ & E1 & E2 & _); [lia|].
    rewrite N.div_0_l, N.add_0_r in * by lia. cbn [b64_encode b64_decode_q N.eqb Pos.eqb].
    rewrite b64_char_neq61, (b64_val_char _ H1), (b64_val_char _ H2), (b64_val_char _ H3), E1, E2. reflexivity.
  - intros (Ha & (Hb & (Hc & Hr)%Forall_cons_iff)%Forall_cons_iff)%Forall_cons_iff.
    destruct (b64_arith a b c Ha Hb Hc) as (H1 & H2 & H3 & H4 & E1 & E2 & E3).
    cbn [b64_encode b64_decode_q].
    rewrite b64_char_neq61, (b64_val_char _ H1), (b64_val_char _ H2), (b64_val_char _ H3), (b64_val_char _ H4), (IH Hr).
    rewrite E1, E2, E3. reflexivity.
Qed.

Definition no_nl (s : list N) : Prop := Forall (fun c => c <> 10%N /\ c <> 13%N) s.
Lemma no_nl_61 : (61 <> 10 /\ 61 <> 13)%N.
Proof. split; discriminate. Qed.

Lemma b64_encode_no_nl bs : no_nl (b64_encode bs).
Proof.
  induction bs as [|a|a b|a b c r IH] using list_ind3; cbn [b64_encode];
    repeat constructor; try discriminate; try apply b64_char_not_special. exact IH.
Qed.

Lemma strip_nl_id s : no_nl s -> strip_nl s = s.
Proof.
  induction 1 as [|c s [H1 H2] _ IH]; [reflexivity|]. unfold strip_nl in *. cbn [filter].
  destruct (N.eqb_spec c 10); [contradiction|]. destruct (N.eqb_spec c 13); [contradiction|]. cbn [orb negb]. now rewrite IH.
Qed.
Lemma strip_nl_app a b : strip_nl (a ++ b) = strip_nl a ++ strip_nl b.
Proof. apply filter_app. Qed.

(* inserting a newline after every 76 characters is undone by the decoder's skipping *)
Lemma strip_wrap76 fuel : forall s, no_nl s -> strip_nl (wrap76 fuel s) = s.
Proof.
  induction fuel as [|k IH]; intros s Hs; cbn [wrap76]; [apply strip_nl_id; exact Hs|].
  destruct (len s <=? 76); [apply strip_nl_id; exact Hs|].
  rewrite <- (take_drop 76 s) in Hs. apply Forall_app in Hs. destruct Hs as [H1 H2].
  rewrite (strip_nl_app _ (10%N :: _)), (strip_nl_id _ H1). change (strip_nl (10%N :: ?t)) with (strip_nl t).
  rewrite (IH _ H2). apply take_drop.
Qed.

Theorem from_to_base64 bs : is_bytes bs -> from_base64_bytes (to_base64_bytes bs) = Some bs.
Proof.
  intros Hb. unfold from_base64_bytes, to_base64_bytes. rewrite strip_wrap76 by apply b64_encode_no_nl.
  apply b64_decode_encode. exact Hb.
Qed.

Fixpoint le_val (b : Z) (ds : list Z) : Z := match ds with [] => 0 | d :: r => d + b * le_val b r end.

Lemma le_digits_val fuel : forall b n, 2 <= b -> 0 <= n < 2 ^ Z.of_nat fuel -> le_val b (le_digits fuel b n) = n.
Proof.
  induction fuel as [|k IH]; intros b n Hb Hn.
  - cbn in Hn. assert (n = 0) by lia. subst. reflexivity.
  - cbn [le_digits le_val]. pose proof (Z.div_mod n b ltac:(lia)) as Hdm.
    pose proof (Z.mod_pos_bound n b ltac:(lia)) as Hm.
    destruct (Z.eqb_spec (n / b) 0) as [E|E].
    + cbn [le_val]. lia.
    + rewrite IH; [lia|lia|].
      rewrite Nat2Z.inj_succ, Z.pow_succ_r in Hn by lia.
      split; [apply Z.div_pos; lia|]. apply Z.div_lt_upper_bound; [lia|]. nia.
Qed.

Lemma le_digits_range fuel : forall b n d, 2 <= b -> 0 <= n -> In d (le_digits fuel b n) -> 0 <= d < b.
Proof.
  induction fuel as [|k IH]; intros b n d Hb Hn Hin; [destruct Hin|].
  cbn [le_digits] in Hin. destruct Hin as [<-|Hin]; [apply Z.mod_pos_bound; lia|].
  destruct (n / b =? 0); [destruct Hin|]. apply (IH b (n / b)); auto. apply Z.div_pos; lia.
Qed.

Lemma le_digits_len_mono fuel : forall b n m, 2 <= b -> 0 <= n <= m ->
  (length (le_digits fuel b n) <= length (le_digits fuel b m))%nat.
Proof.
  induction fuel as [|k IH]; intros b n m Hb Hnm; [reflexivity|]. cbn [le_digits length].
  assert (Hdiv : 0 <= n / b <= m / b) by (split; [apply Z.div_pos; lia|apply Z.div_le_mono; lia]).
  apply le_n_S. destruct (Z.eqb_spec (n / b) 0); [apply Nat.le_0_l|].
  destruct (Z.eqb_spec (m / b) 0); [lia|]. apply IH; lia.
Qed.

Lemma digit_val_char d : 0 <= d < 36 -> digit_val (digit_char d) = Some d.
Proof. exact (all_below_inverse_Z digit_char digit_val 36 eq_refl d). Qed.

(* digits are printed as '0'..'9', 'A'..: never a sign or a dot *)
Lemma digit_char_ge d : 0 <= d -> (48 <= digit_char d)%N.
Proof. intros H. unfold digit_char. destruct (d <? 10); lia. Qed.

Definition be_val (b : Z) (ds : list Z) : Z := fold_left (fun a d => a * b + d) ds 0.
Lemma be_val_rev b ds : be_val b (rev ds) = le_val b ds.
Proof.
  unfold be_val. induction ds as [|d r IH]; [reflexivity|].
  cbn [rev le_val]. rewrite fold_left_app. cbn [fold_left]. rewrite IH. ring.
Qed.

Lemma fold_digits_ge b ds : 1 <= b -> (forall d, In d ds -> 0 <= d) ->
  forall acc, 0 <= acc -> acc <= fold_left (fun a d => a * b + d) ds acc.
Proof.
  intros Hb. induction ds as [|d r IH]; intros Hd acc Ha; [reflexivity|]. cbn [fold_left].
  pose proof (Hd d (or_introl eq_refl)). etransitivity; [|apply IH; [intros; apply Hd; now right|]]; nia.
Qed.

(* the prefix loop reads a whole digit string when its value stays below 2^64: the accumulator only grows, so
   every intermediate value passes the overflow test too *)
Lemma parse_prefix_digits b : 2 <= b <= 36 -> forall ds acc,
  (forall d, In d ds -> 0 <= d < b) -> 0 <= acc ->
  fold_left (fun a d => a * b + d) ds acc < 2 ^ 64 ->
  parse_prefix b (map digit_char ds) acc = fold_left (fun a d => a * b + d) ds acc.
Proof.
  intros Hb ds. induction ds as [|d r IH]; intros acc Hd Hacc Hlt; [reflexivity|].
  pose proof (Hd d (or_introl eq_refl)) as Hdr.
  assert (Hr : forall x, In x r -> 0 <= x < b) by (intros; apply Hd; now right).
  cbn [map parse_prefix fold_left] in *. rewrite digit_val_char by lia.
  pose proof (fold_digits_ge b r ltac:(lia) (fun x Hx => proj1 (Hr x Hx)) (acc * b + d) ltac:(nia)).
  rewrite !(proj2 (Z.ltb_lt _ _)) by lia. apply IH; [exact Hr|nia|exact Hlt].
Qed.

Lemma fmt_uint_parse b n : 2 <= b <= 36 -> 0 <= n < 2 ^ 64 -> parse_prefix b (fmt_uint b n) 0 = n.
Proof.
  intros Hb Hn.
  assert (Hv : be_val b (rev (le_digits 64 b n)) = n) by (rewrite be_val_rev; apply le_digits_val; [lia|exact Hn]).
  unfold fmt_uint, be_val in *. rewrite parse_prefix_digits; rewrite ?Hv; try lia.
  intros d Hd. apply in_rev in Hd. apply (le_digits_range 64 b n); [lia..|assumption].
Qed.

Lemma fmt_uint_len_mono b n m : 2 <= b -> 0 <= n <= m -> len (fmt_uint b n) <= len (fmt_uint b m).
Proof.
  intros Hb H. unfold fmt_uint. rewrite !len_map, !len_rev. unfold len.
  apply inj_le. apply le_digits_len_mono; assumption.
Qed.

Lemma fmt_uint_chars b n : 2 <= b -> 0 <= n -> Forall (fun c => (48 <= c)%N) (fmt_uint b n).
Proof.
  intros Hb Hn. apply Forall_forall. intros c Hc. apply in_map_iff in Hc. destruct Hc as (d & <- & Hd).
  apply in_rev in Hd. apply digit_char_ge. now apply (le_digits_range 64 b n).
Qed.

Lemma fmt_uint_head b n : 2 <= b -> 0 <= n ->
  exists c r, fmt_uint b n = c :: r /\ c <> 45%N /\ c <> 43%N.
Proof.
  intros Hb Hn. pose proof (fmt_uint_chars b n Hb Hn) as H. destruct (fmt_uint b n) as [|c r] eqn:E.
  - apply map_eq_nil, (f_equal (@rev Z)) in E. rewrite rev_involutive in E. discriminate E.
  - exists c, r. apply Forall_inv in H. split; [reflexivity|lia].
Qed.

(* CONV(str_a(n), a, b) = str_b(n), for every 64-bit n and all bases 2..36 ... *)
Theorem conv_correct a b n : 2 <= a <= 36 -> 2 <= b <= 36 -> 0 <= n < 2 ^ 64 ->
  conv (Some (fmt_uint a n)) (Some a) (Some b) = Val (fmt_uint b n).
Proof.
  intros Ha Hb Hn. unfold conv, conv_from.
  destruct (fmt_uint_head a n ltac:(lia) ltac:(lia)) as (c & r & E & Hc1 & Hc2).
  rewrite E, Z.abs_eq by lia. destruct (Z.ltb_spec a 2); [lia|]. destruct (Z.ltb_spec 36 a); [lia|].
  destruct (N.eqb_spec c 45); [contradiction|]. destruct (N.eqb_spec c 43); [contradiction|]. cbn [orb andb].
  rewrite <- E, (proj2 (Z.ltb_ge _ _)) by (apply fmt_uint_len_mono; lia).
  rewrite fmt_uint_parse by assumption.
  unfold conv_to, to_u64. rewrite Z.abs_eq, Z.mod_small by lia.
  destruct (Z.ltb_spec b 2); [lia|]. destruct (Z.ltb_spec 36 b); [lia|]. destruct (Z.ltb_spec b 0); [lia|reflexivity].
Qed.

(* ... hence converting there and back is the identity on canonical digit strings *)
Theorem conv_roundtrip a b n : 2 <= a <= 36 -> 2 <= b <= 36 -> 0 <= n < 2 ^ 64 ->
  exists x, conv (Some (fmt_uint a n)) (Some a) (Some b) = Val x /\
            conv (Some x) (Some b) (Some a) = Val (fmt_uint a n).
Proof.
  intros Ha Hb Hn. exists (fmt_uint b n). split; apply conv_correct; assumption.
Qed.

Lemma field_spec v : 0 <= v < 256 ->
  ip_field (fmt_uint 10 v) 0 0 = Some v /\ Forall (fun c => c <> 46%N) (fmt_uint 10 v).
Proof.
  intros H. split.
  - exact (all_below_inverse_Z (fmt_uint 10) (fun s => ip_field s 0 0) 256 ltac:(vm_compute; reflexivity) v H).
  - apply (Forall_impl _ (P := fun c => (48 <= c)%N)); [lia|]. apply fmt_uint_chars; lia.
Qed.

Lemma split_dot_nodot a : Forall (fun c => c <> 46%N) a -> forall r cur,
  split_dot (a ++ r) cur = split_dot r (rev a ++ cur).
Proof.
  induction 1 as [|c a Hc _ IH]; intros r cur; [reflexivity|].
  cbn [app split_dot]. destruct (N.eqb_spec c 46); [contradiction|].
  rewrite IH. cbn [rev]. rewrite <- app_assoc. reflexivity.
Qed.

Lemma split_dot_field a r : Forall (fun c => c <> 46%N) a ->
  split_dot (a ++ 46%N :: r) [] = a :: split_dot r [].
Proof.
  intros H. rewrite split_dot_nodot by exact H. cbn [split_dot N.eqb Pos.eqb].
  rewrite app_nil_r, rev_involutive. reflexivity.
Qed.
Lemma split_dot_last a : Forall (fun c => c <> 46%N) a -> split_dot a [] = [a].
Proof.
  intros H. rewrite <- (app_nil_r a) at 1. rewrite split_dot_nodot by exact H. cbn [split_dot].
  rewrite app_nil_r, rev_involutive. reflexivity.
Qed.

Lemma u32_bytes u : 0 <= u < 2 ^ 32 ->
  0 <= u / 16777216 < 256 /\
  u = ((u / 16777216 * 256 + (u / 65536) mod 256) * 256 + (u / 256) mod 256) * 256 + u mod 256.
Proof.
  intros H. split; [split; [apply Z.div_pos|apply Z.div_lt_upper_bound]; lia|].
  pose proof (Z.div_mod u 256 ltac:(lia)) as E1. pose proof (Z.div_mod (u / 256) 256 ltac:(lia)) as E2.
  pose proof (Z.div_mod (u / 65536) 256 ltac:(lia)) as E3. rewrite Z.div_div in E2, E3 by lia.
  change (256 * 256) with 65536 in E2. change (65536 * 256) with 16777216 in E3. lia.
Qed.

(* INET_ATON reads back every dotted quad that INET_NTOA can print *)
Theorem inet_aton_dotted u : 0 <= u < 2 ^ 32 -> inet_aton_str (dotted u) = Some u.
Proof.
  intros Hu. unfold inet_aton_str, dotted. destruct (u32_bytes u Hu) as [Ha E].
  set (a := u / 16777216) in *. set (b := (u / 65536) mod 256) in *. set (c := (u / 256) mod 256) in *. set (d := u mod 256) in *.
  assert (Hb : 0 <= b < 256) by (apply Z.mod_pos_bound; lia).
  assert (Hc : 0 <= c < 256) by (apply Z.mod_pos_bound; lia).
  assert (Hd : 0 <= d < 256) by (apply Z.mod_pos_bound; lia).
  destruct (field_spec a Ha) as [Fa Na]. destruct (field_spec b Hb) as [Fb Nb].
  destruct (field_spec c Hc) as [Fc Nc]. destruct (field_spec d Hd) as [Fd Nd].
  rewrite (split_dot_field _ _ Na), (split_dot_field _ _ Nb), (split_dot_field _ _ Nc), (split_dot_last _ Nd).
  cbn [map]. rewrite Fa, Fb, Fc, Fd, E. reflexivity.
Qed.

(* below 2^31 INET_NTOA does not saturate *)
Lemma inet_ntoa_small n : 0 <= n < 2 ^ 31 -> inet_ntoa (Some n) = Val (dotted n).
Proof. intros H. unfold inet_ntoa, clamp32. rewrite !(proj2 (Z.ltb_ge _ _)), Z.mod_small by lia. reflexivity. Qed.

(* both directions, under the guard n < 2^31 that excludes the saturation of INET_NTOA *)
Theorem inet_roundtrip n : 0 <= n < 2 ^ 31 ->
  exists s, inet_ntoa (Some n) = Val s /\ inet_aton (Some s) = Val n.
Proof.
  intros Hn. exists (dotted n). split; [now apply inet_ntoa_small|].
  unfold inet_aton. now rewrite inet_aton_dotted by lia.
Qed.

(* canonical dotted quads are the strings [dotted u]; INET_NTOA o INET_ATON is the identity on them below 2^31 *)
Theorem inet_ntoa_aton u : 0 <= u < 2 ^ 31 ->
  exists n, inet_aton (Some (dotted u)) = Val n /\ inet_ntoa (Some n) = Val (dotted u).
Proof.
  intros Hu. exists u. split; [|now apply inet_ntoa_small].
  unfold inet_aton. now rewrite inet_aton_dotted by lia.
Qed.
