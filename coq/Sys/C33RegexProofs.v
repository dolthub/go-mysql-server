(* C33 - agreement laws between REGEXP_LIKE / REGEXP_INSTR / REGEXP_SUBSTR / REGEXP_REPLACE, for ANY match oracle. *)
From Coq Require Import List Arith Bool Lia.
Import ListNotations.
From GMS Require Import Base.ListFacts Sys.C33Regex.

Section Laws.
  Variable U : Type.
  Variable find_all : list U -> list (nat * nat).
  (* the only assumption about the engine: successive matches are ascending, non-overlapping, within the subject *)
  Hypothesis find_wf : forall t, wf_locs 0 (length t) (find_all t).

  Notation locs := (locs U find_all).
  Notation instr := (instr U find_all).
  Notation like := (like U find_all).
  Notation substr := (substr U find_all).
  Notation replace := (replace U find_all).

  Lemma firstn_plus : forall (s : list U) i k, firstn (i + k) s = firstn i s ++ firstn k (skipn i s).
  Proof.
    intros s i. revert s. induction i as [|i IH]; intros s k; [reflexivity|].
    destruct s as [|x s]; [cbn; rewrite firstn_nil; reflexivity|]. cbn. rewrite IH. reflexivity.
  Qed.

  Lemma sub_skip : forall (t : list U) a b, a <= b -> sub U t a b ++ skipn b t = skipn a t.
  Proof.
    intros t a b H. unfold sub. replace (skipn b t) with (skipn (b - a) (skipn a t)).
    - apply firstn_skipn.
    - rewrite skipn_skipn. f_equal. lia.
  Qed.

  Lemma sub_shift : forall (s : list U) offs i j, sub U s (i + offs) (j + offs) = sub U (skipn offs s) i j.
  Proof.
    intros s offs i j. unfold sub. rewrite skipn_skipn, (Nat.add_comm offs). f_equal. lia.
  Qed.

  Lemma length_sub : forall (t : list U) a b, a <= b -> b <= length t -> length (sub U t a b) = b - a.
  Proof. intros t a b H1 H2. unfold sub. rewrite firstn_length, skipn_length. lia. Qed.

  Lemma wf_nth : forall l from n k a b, wf_locs from n l -> nth_error l k = Some (a, b) -> from <= a /\ a <= b /\ b <= n.
  Proof.
    induction l as [|[a0 b0] l IH]; intros from n k a b H E; [destruct k; discriminate|].
    cbn [wf_locs] in H. destruct H as (H1 & H2 & H3 & H4). destruct k as [|k].
    - injection E as <- <-. lia.
    - cbn in E. destruct (IH b0 n k a b H4 E) as (? & ? & ?). lia.
  Qed.

  Lemma norm_ge1 : forall p, 1 <= norm p.
  Proof. intros p. unfold norm. destruct (Nat.ltb_spec p 1); lia. Qed.

  Lemma loc_bounds : forall s pos occ a b, location (locs s pos) occ = Some (a, b) ->
    a <= b /\ b <= length (skipn (norm pos - 1) s).
  Proof. intros s pos occ a b E. exact (proj2 (wf_nth _ _ _ _ _ _ (find_wf _) E)). Qed.

  (* REGEXP_INSTR > 0 <-> REGEXP_SUBSTR is not NULL, for every position and occurrence *)
  Theorem instr_pos_iff_substr_some : forall s pos occ, 0 < instr s pos occ false <-> substr s pos occ <> None.
  Proof.
    intros s pos occ. unfold C33Regex.instr, C33Regex.substr. pose proof (norm_ge1 pos).
    destruct (location (locs s pos) occ) as [[a b]|]; split; intros H0; try discriminate; try lia; congruence.
  Qed.

  (* REGEXP_LIKE is the same question at the default position 1, occurrence 1 *)
  Theorem like_iff_substr_some : forall s, like s = true <-> substr s 1 1 <> None.
  Proof.
    intros s. unfold C33Regex.like, C33Regex.substr, location. cbn [Nat.sub].
    destruct (nth_error (locs s 1) 0) as [[a b]|]; split; intros H; try reflexivity; try discriminate; congruence.
  Qed.

  Theorem like_iff_instr_pos : forall s, like s = true <-> 0 < instr s 1 1 false.
  Proof.
    intros s. etransitivity; [apply like_iff_substr_some|symmetry; apply instr_pos_iff_substr_some].
  Qed.

  (* the substring returned is the text between the reported start and the reported end *)
  Theorem substr_at_instr : forall s pos occ m, substr s pos occ = Some m ->
    m = sub U s (instr s pos occ false - 1) (instr s pos occ true - 1) /\
    length m = instr s pos occ true - instr s pos occ false /\
    firstn (length m) (skipn (instr s pos occ false - 1) s) = m.
  Proof.
    intros s pos occ m E. unfold C33Regex.substr in E. unfold C33Regex.instr.
    destruct (location (locs s pos) occ) as [[a b]|] eqn:El; [|discriminate].
    injection E as <-. destruct (loc_bounds _ _ _ _ _ El) as (Hab & Hb). pose proof (norm_ge1 pos) as Hn.
    split; [reflexivity|]. rewrite <- !(Nat.add_sub_assoc _ _ 1) by exact Hn.
    rewrite sub_shift, length_sub by assumption.
    split; [lia|]. unfold sub. rewrite skipn_skipn, Nat.add_comm. reflexivity.
  Qed.

  (* REGEXP_REPLACE of the k-th occurrence (k >= 1) rewrites exactly the span REGEXP_INSTR reports *)
  Theorem replace_kth_at_instr : forall s repl pos occ, 1 <= occ ->
    replace s repl pos occ =
      if instr s pos occ false =? 0 then s
      else firstn (instr s pos occ false - 1) s ++ repl ++ skipn (instr s pos occ true - 1) s.
  Proof.
    intros s repl pos occ Ho. unfold C33Regex.replace, C33Regex.instr.
    destruct occ as [|occ']; [inversion Ho|]. cbn [Nat.eqb]. pose proof (norm_ge1 pos) as Hn.
    destruct (location (locs s pos) (S occ')) as [[a b]|]; [|apply firstn_skipn].
    destruct (Nat.eqb_spec (a + norm pos) 0); [lia|].
    rewrite <- !(Nat.add_sub_assoc _ _ 1) by exact Hn. cbn [replace_loop]. unfold sub.
    rewrite Nat.add_sub, app_assoc, <- firstn_plus, (Nat.add_comm _ a). reflexivity.
  Qed.

  (* REGEXP_REPLACE of every occurrence: the subject is tiled by gaps and matches; the gaps are kept verbatim and
     every reported match, and nothing else, is replaced *)
  Fixpoint rebuild (t : list U) (p : nat) (l : list (nat * nat)) (f : list U -> list U) : list U :=
    match l with
    | [] => skipn p t
    | (a, b) :: l' => sub U t p a ++ f (sub U t a b) ++ rebuild t b l' f
    end.

  Theorem matches_tile_subject : forall t l p, wf_locs p (length t) l -> rebuild t p l (fun m => m) = skipn p t.
  Proof.
    intros t l. induction l as [|[a b] l IH]; intros p H; [reflexivity|].
    cbn [wf_locs] in H. destruct H as (H1 & H2 & H3 & H4). cbn [rebuild].
    rewrite (IH b H4). rewrite (sub_skip t a b H2). apply sub_skip. exact H1.
  Qed.

  Lemma replace_loop_rebuild : forall s offs repl l p,
    replace_loop U s offs (p + offs) l repl = rebuild (skipn offs s) p l (fun _ => repl).
  Proof.
    intros s offs repl l. induction l as [|[a b] l IH]; intros p.
    - cbn. rewrite skipn_skipn, (Nat.add_comm offs). reflexivity.
    - cbn [replace_loop rebuild]. rewrite sub_shift, IH. reflexivity.
  Qed.

  Theorem replace_all_substitutes_exactly_the_matches : forall s repl pos,
    let t := skipn (norm pos - 1) s in
    replace s repl pos 0 = firstn (norm pos - 1) s ++ rebuild t 0 (find_all t) (fun _ => repl)
    /\ rebuild t 0 (find_all t) (fun m => m) = t.
  Proof.
    intros s repl pos t. split.
    - unfold C33Regex.replace. cbn [Nat.eqb]. f_equal.
      change (norm pos - 1) with (0 + (norm pos - 1)) at 2. rewrite replace_loop_rebuild. reflexivity.
    - apply (matches_tile_subject t (find_all t) 0). apply find_wf.
  Qed.

  Theorem replace_no_match : forall s repl pos occ, locs s pos = [] -> replace s repl pos occ = s.
  Proof.
    intros s repl pos occ E. unfold C33Regex.replace. rewrite E. unfold location.
    destruct (occ =? 0); [|destruct (occ - 1); cbn [nth_error]]; cbn [replace_loop]; apply firstn_skipn.
  Qed.
End Laws.

(* the cgo variant agrees with the wrapper on every non-empty subject ... *)
Lemma replace_cgo_nonempty : forall (U : Type) (find_all : list U -> list (nat * nat)) (s repl : list U) pos occ,
  s <> [] -> replace_cgo U find_all s repl pos occ = replace U find_all s repl pos occ.
Proof. intros U f s repl pos occ H. destruct s; [congruence|reflexivity]. Qed.

(* ... and breaks the REPLACE/INSTR law on the empty subject: oracle of a pattern that matches the empty string *)
Definition empty_oracle (t : list nat) : list (nat * nat) := [(0, 0)].
Lemma replace_cgo_empty_subject_refuted :
  wf_locs 0 (length (@nil nat)) (empty_oracle []) /\ instr nat empty_oracle [] 1 1 false = 1 /\
  substr nat empty_oracle [] 1 1 = Some [] /\ like nat empty_oracle [] = true /\
  replace nat empty_oracle [] [88] 1 1 = [88] /\ replace_cgo nat empty_oracle [] [88] 1 1 = [].
Proof. vm_compute. repeat split; lia. Qed.

(* non-vacuity: the oracle of the pattern "." anchored at the search start (one match: the first unit) meets the
   hypothesis, and the wrapper computes the expected answers with it *)
Definition dot_oracle (t : list nat) : list (nat * nat) := match t with [] => [] | _ => [(0, 1)] end.

Lemma dot_oracle_wf : forall t, wf_locs 0 (length t) (dot_oracle t).
Proof. intros [|x t]; cbn; [exact I|]. repeat split; lia. Qed.

Lemma laws_nonvacuous :
  like nat dot_oracle [7; 8; 9] = true /\ instr nat dot_oracle [7; 8; 9] 2 1 false = 2 /\
  instr nat dot_oracle [7; 8; 9] 2 1 true = 3 /\ substr nat dot_oracle [7; 8; 9] 2 1 = Some [8] /\
  replace nat dot_oracle [7; 8; 9] [0; 0] 2 1 = [7; 0; 0; 9] /\ replace nat dot_oracle [7; 8; 9] [0; 0] 2 0 = [7; 0; 0; 9] /\
  instr nat dot_oracle [7; 8; 9] 1 2 false = 0 /\ replace nat dot_oracle [7; 8; 9] [0] 1 2 = [7; 8; 9].
Proof. vm_compute. repeat split. Qed.
