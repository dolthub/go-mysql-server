(* C34 -- proofs about the function models of Sys/C34Funcs.v. *)
From Coq Require Import List NArith ZArith Bool Lia Arith.
Import ListNotations.
From GMS Require Import Base.ListFacts Sys.C34Funcs.
Open Scope Z_scope.

Lemma len_nonneg {A} (l : list A) : 0 <= len l.
Proof. unfold len. lia. Qed.
Lemma len_app {A} (a b : list A) : len (a ++ b) = len a + len b.
Proof. unfold len. rewrite app_length. lia. Qed.
Lemma len_nil {A} : len (@nil A) = 0.
Proof. reflexivity. Qed.
Lemma len_cons {A} (x : A) l : len (x :: l) = 1 + len l.
Proof. unfold len. cbn [length]. lia. Qed.
Lemma len_rev {A} (l : list A) : len (rev l) = len l.
Proof. unfold len. now rewrite rev_length. Qed.
Lemma len_map {A B} (f : A -> B) l : len (map f l) = len l.
Proof. unfold len. now rewrite map_length. Qed.
Lemma len_nil_inv {A} (l : list A) : len l <= 0 -> l = [].
Proof. destruct l; [reflexivity|]. rewrite len_cons. pose proof (len_nonneg l). lia. Qed.
Lemma len_pos {A} (l : list A) : l <> [] -> 0 < len l.
Proof. intros H. destruct (Z.ltb_spec 0 (len l)); [assumption|]. destruct H. now apply len_nil_inv. Qed.

Lemma len_take {A} n (l : list A) : 0 <= n <= len l -> len (take n l) = n.
Proof. unfold len, take. intros H. rewrite firstn_length. lia. Qed.
Lemma len_drop {A} n (l : list A) : 0 <= n <= len l -> len (drop n l) = len l - n.
Proof. unfold len, drop. intros H. rewrite skipn_length. lia. Qed.
Lemma take_drop {A} n (l : list A) : take n l ++ drop n l = l.
Proof. apply firstn_skipn. Qed.
Lemma take_all {A} n (l : list A) : len l <= n -> take n l = l.
Proof. unfold len, take. intros H. apply firstn_all2. lia. Qed.
Lemma take_nonpos {A} n (l : list A) : n <= 0 -> take n l = [].
Proof. intros H. unfold take. now replace (Z.to_nat n) with 0%nat by lia. Qed.
Lemma take_nil {A} n : take n (@nil A) = [].
Proof. apply firstn_nil. Qed.
Lemma drop_0 {A} (l : list A) : drop 0 l = l.
Proof. reflexivity. Qed.
Lemma drop_all {A} n (l : list A) : len l <= n -> drop n l = [].
Proof. unfold len, drop. intros H. apply skipn_all2. lia. Qed.
Lemma drop_cons {A} n (x : A) l : 0 < n -> drop n (x :: l) = drop (n - 1) l.
Proof. intros H. unfold drop. now replace (Z.to_nat n) with (S (Z.to_nat (n - 1))) by lia. Qed.
Lemma take_app_l {A} (a b : list A) : take (len a) (a ++ b) = a.
Proof.
  unfold take, len. rewrite Nat2Z.id. apply firstn_app_length.
Qed.
Lemma drop_app_l {A} (a b : list A) : drop (len a) (a ++ b) = b.
Proof.
  unfold drop, len. rewrite Nat2Z.id. apply skipn_app_length.
Qed.

Lemma drop_drop {A} i j (l : list A) : 0 <= i -> 0 <= j -> drop j (drop i l) = drop (i + j) l.
Proof. intros Hi Hj. unfold drop. rewrite skipn_skipn. f_equal. lia. Qed.

Lemma wrap64_id z : in64 z -> wrap64 z = z.
Proof. unfold in64, wrap64. intros H. rewrite Z.mod_small; lia. Qed.

Lemma slice_ok {A} (l : list A) a b :
  0 <= a <= b -> b <= len l -> slice l a b = Val (take (b - a) (drop a l)).
Proof. intros H1 H2. unfold slice. rewrite !(proj2 (Z.leb_le _ _)) by lia. reflexivity. Qed.

(* a finite table is checked entry by entry: [f] holds of every index below [k] once the conjunction evaluates to
   [true]; the indices are counted in binary, which keeps the evaluation linear in [k] *)
Definition all_below (f : N -> bool) (k : N) : bool := N.recursion true (fun i acc => f i && acc) k.

Lemma all_below_spec f k : all_below f k = true -> forall i, (i < k)%N -> f i = true.
Proof.
  unfold all_below. induction k as [|k IH] using N.peano_ind; intros H i Hi; [lia|].
  rewrite (N.recursion_succ eq) in H by (reflexivity || now intros ? ? -> ? ? ->).
  apply andb_prop in H. destruct H as [Hk Hr]. destruct (N.eq_dec i k) as [->|]; [exact Hk|]. apply IH; [exact Hr|lia].
Qed.
Lemma all_below_Z (g : Z -> bool) k : all_below (fun i => g (Z.of_N i)) k = true -> forall d, 0 <= d < Z.of_N k -> g d = true.
Proof. intros H d Hd. rewrite <- (Z2N.id d) by lia. apply (all_below_spec _ k H). lia. Qed.

Lemma all_below_inverse {A} (enc : N -> A) (dec : A -> option N) k :
  all_below (fun i => match dec (enc i) with Some x => (x =? i)%N | None => false end) k = true ->
  forall i, (i < k)%N -> dec (enc i) = Some i.
Proof.
  intros H i Hi. apply (all_below_spec _ k H) in Hi.
  destruct (dec (enc i)); [|discriminate]. apply N.eqb_eq in Hi. now subst.
Qed.
Lemma all_below_inverse_Z {A} (enc : Z -> A) (dec : A -> option Z) k :
  all_below (fun i => match dec (enc (Z.of_N i)) with Some x => x =? Z.of_N i | None => false end) k = true ->
  forall d, 0 <= d < Z.of_N k -> dec (enc d) = Some d.
Proof.
  intros H d Hd. apply (all_below_Z (fun d => match dec (enc d) with Some x => x =? d | None => false end) k H) in Hd.
  destruct (dec (enc d)); [|discriminate]. apply Z.eqb_eq in Hd. now subst.
Qed.

Lemma concat2 {A} (a b : option (list A)) :
  match concat [a; b] with
  | Val c => exists x y, a = Some x /\ b = Some y /\ c = x ++ y /\ len c = len x + len y
  | Null => a = None \/ b = None
  | _ => False
  end.
Proof.
  destruct a as [x|], b as [y|]; cbn; auto.
  exists x, y. rewrite app_nil_r. repeat split; auto. apply len_app.
Qed.

Lemma char_length_concat (a b : list N) :
  exists c, concat [Some a; Some b] = Val c /\
            char_length (Some c) = Val (len a + len b) /\
            byte_length (Some c) = Val (len (utf8 a) + len (utf8 b)).
Proof.
  exists (a ++ b). cbn. rewrite app_nil_r. repeat split.
  - now rewrite len_app.
  - unfold utf8. rewrite flat_map_app, len_app. reflexivity.
Qed.

Lemma concat_null {A} (args : list (option (list A))) : In None args -> concat args = Null.
Proof.
  induction args as [|[x|] r IH]; cbn; intros H; try tauto.
  - destruct H as [H|H]; [discriminate|]. rewrite (IH H). reflexivity.
Qed.

Lemma reverse_involutive {A} (s : list A) :
  exists r, reverse (Some s) = Val r /\ reverse (Some r) = Val s /\ len r = len s.
Proof. exists (rev s). cbn. rewrite rev_involutive, len_rev. auto. Qed.

Lemma len_repeat_list {A} (t : list A) n : len (repeat_list t n) = Z.of_nat n * len t.
Proof.
  induction n as [|n IH]; cbn [repeat_list]; [reflexivity|]. rewrite len_app, IH. lia.
Qed.

Lemma repeat_length {A} (t : list A) n :
  0 <= n -> exists r, repeat (Some t) (Some n) = Val r /\ len r = n * len t.
Proof.
  intros H. unfold repeat. destruct (Z.ltb_spec n 0); [lia|].
  eexists; split; [reflexivity|]. rewrite len_repeat_list, Z2Nat.id by lia. reflexivity.
Qed.

Definition fits {A} (t : list A) : Prop := len t < 2^62.   (* every real Go slice *)

(* What SUBSTRING computes: the [l] elements from the start index on ([take] and [drop] saturate, so the three
   early exits of the code need no cases of their own), nothing for a start index before the string.  The sum
   start index + length is only formed, and so must only stay below 2^63, once the early exits are passed. *)
Lemma substring_core_val {A} (t : list A) start l :
  fits t ->
  let idx := if start <? 0 then len t + start else start - 1 in
  (0 <= idx < len t -> 0 < l -> idx + l < 2^63) ->
  substring_core t start (Some l) = Val (if idx <? 0 then [] else take l (drop idx t)).
Proof.
  intros Hf idx Hsum. unfold fits in Hf. unfold substring_core. fold idx.
  destruct (Z.ltb_spec idx 0) as [|H0]; [reflexivity|]. cbn [orb].
  destruct (Z.leb_spec (len t) idx) as [|H1]; [now rewrite drop_all, take_nil|]. cbn [orb].
  destruct (Z.leb_spec l 0) as [|H2]; [now rewrite take_nonpos|].
  specialize (Hsum (conj H0 H1) H2). rewrite (wrap64_id (idx + l)) by (unfold in64; lia).
  destruct (Z.ltb_spec (len t) (idx + l)).
  - rewrite Zplus_minus, wrap64_id, slice_ok by (unfold in64; lia).
    rewrite !take_all by (rewrite len_drop; lia). reflexivity.
  - rewrite wrap64_id, slice_ok, Z.add_simpl_l by (unfold in64; lia). reflexivity.
Qed.

(* no panic and the expected piece whenever start+length does not overflow *)
Lemma substring_spec {A} (t : list A) start l :
  fits t ->
  let idx := if start <? 0 then len t + start else start - 1 in
  idx + l < 2^63 ->
  substring_core t start (Some l) =
    if (idx <? 0) || (len t <=? idx) || (l <=? 0) then Val []
    else Val (take (Z.min l (len t - idx)) (drop idx t)).
Proof.
  intros Hf idx Hsum. rewrite substring_core_val by (intros; assumption). fold idx.
  destruct (Z.ltb_spec idx 0); [reflexivity|]. cbn [orb].
  destruct (Z.leb_spec (len t) idx); [now rewrite drop_all, take_nil|]. cbn [orb].
  destruct (Z.leb_spec l 0); [now rewrite take_nonpos|].
  destruct (Z.min_spec l (len t - idx)) as [[_ ->]|[? ->]]; [reflexivity|].
  rewrite !take_all by (rewrite len_drop; lia). reflexivity.
Qed.

Lemma left_core_take {A} (t : list A) n : left_core t n = take n t.
Proof.
  unfold left_core. destruct (Z.ltb_spec (len t) n).
  - rewrite (take_all n) by lia.
    destruct (Z.leb_spec (len t) 0); [symmetry; now apply len_nil_inv|apply take_all; lia].
  - destruct (Z.leb_spec n 0); [symmetry; now apply take_nonpos|reflexivity].
Qed.

Lemma left_is_substring {A} (t : list A) n :
  fits t -> in64 n -> substring_core t 1 (Some n) = Val (left_core t n).
Proof.
  intros Hf Hn. rewrite left_core_take, substring_core_val; [reflexivity|exact Hf|].
  unfold in64 in Hn. cbn [Z.ltb Z.compare Z.sub Z.add Z.opp Z.pos_sub]. lia.
Qed.

(* LEFT(s,n) || SUBSTRING(s,n+1) = s *)
Lemma left_split {A} (t : list A) n :
  fits t -> 0 <= n < 2^63 - 1 ->
  exists r, substring_core t (n + 1) None = Val r /\ left_core t n ++ r = t.
Proof.
  intros Hf Hn. exists (drop n t). rewrite left_core_take, take_drop. split; [|reflexivity].
  change (substring_core t (n + 1) None) with (substring_core t (n + 1) (Some (len t))).
  unfold fits in Hf. rewrite substring_core_val by (try assumption; destruct (n + 1 <? 0); lia).
  destruct (Z.ltb_spec (n + 1) 0); [lia|]. rewrite Z.add_simpl_r. destruct (Z.ltb_spec n 0); [lia|].
  f_equal. apply take_all. unfold len, drop. rewrite skipn_length. lia.
Qed.

Lemma right_is_substring {A} (t : list A) n :
  fits t -> 0 < n <= len t -> substring_core t (- n) None = Val (right_core t n).
Proof.
  intros Hf Hn.
  change (substring_core t (- n) None) with (substring_core t (- n) (Some (len t))).
  unfold fits in Hf. rewrite substring_core_val by (try assumption; destruct (- n <? 0); lia).
  unfold right_core. destruct (Z.ltb_spec (- n) 0); [|lia]. rewrite Z.add_opp_r.
  destruct (Z.ltb_spec (len t - n) 0); [lia|]. destruct (Z.ltb_spec (len t) n); [lia|].
  destruct (Z.leb_spec n 0); [lia|]. f_equal. apply take_all. rewrite len_drop; lia.
Qed.

(* the unguarded statement is false of the code: start+length wraps and the slice panics *)
Lemma substring_overflow_panics :
  exists (t : list N) start l, in64 start /\ in64 l /\ substring_core t start (Some l) = Panic.
Proof. exists [97; 98; 99]%N, 2, (2^63 - 1). unfold in64. repeat split; try lia. Qed.

(* [o] is the offset of the first occurrence, or one past the last offset when there is none *)
Lemma index_from_spec p t base :
  exists o, 0 <= o /\ (forall j, 0 <= j < o -> is_prefix N.eqb p (drop j t) = false) /\
    ((index_from p t base = -1 /\ o = len t + 1) \/
     (index_from p t base = base + o /\ o <= len t /\ is_prefix N.eqb p (drop o t) = true)).
Proof.
  revert base. induction t as [|x t IH]; intros base; cbn [index_from]; destruct (is_prefix N.eqb p _) eqn:E.
  - exists 0. split; [lia|]. split; [intros; lia|]. right. rewrite Z.add_0_r. auto using Z.le_refl.
  - exists 1. split; [lia|]. split; [|left; split; reflexivity]. intros j Hj. now replace j with 0 by lia.
  - exists 0. split; [lia|]. split; [intros; lia|]. right. rewrite Z.add_0_r. auto using len_nonneg.
  - destruct (IH (base + 1)) as (o & Ho & Hnone & Hor). exists (o + 1). split; [lia|]. split.
    + intros j Hj. destruct (Z.eq_dec j 0) as [->|]; [exact E|]. rewrite drop_cons by lia. apply Hnone. lia.
    + rewrite len_cons, drop_cons, Z.add_simpl_r by lia.
      destruct Hor as [[-> ->]|(-> & Hl & Hy)]; [left; split; [reflexivity|lia]|right]. repeat split; [lia|lia|exact Hy].
Qed.

(* searching from position [pos] (1-based) on: 0 when there is no occurrence at or after it, otherwise the
   position of the first one.  This is the shape of the answers of INSTR and LOCATE. *)
Lemma first_occurrence p s pos : 1 <= pos <= len s + 1 ->
  let r := index_of p (drop (pos - 1) s) in
  let q := if r =? -1 then 0 else r + pos in
  (q = 0 /\ forall j, pos - 1 <= j <= len s -> is_prefix N.eqb p (drop j s) = false) \/
  (pos <= q <= len s + 1 /\ is_prefix N.eqb p (drop (q - 1) s) = true /\
   forall j, pos - 1 <= j < q - 1 -> is_prefix N.eqb p (drop j s) = false).
Proof.
  intros Hpos. cbv zeta. unfold index_of.
  destruct (index_from_spec p (drop (pos - 1) s) 0) as (o & Ho & Hnone & Hor). rewrite len_drop in Hor by lia.
  assert (Hd : forall j, pos - 1 <= j -> drop j s = drop (j - (pos - 1)) (drop (pos - 1) s))
    by (intros; rewrite drop_drop by lia; f_equal; lia).
  destruct Hor as [[-> ->]|(-> & Hl & Hy)]; [left|right; destruct (Z.eqb_spec (0 + o) (-1)); [lia|]]; repeat split; try lia.
  - intros j Hj. rewrite Hd by lia. apply Hnone. lia.
  - rewrite Hd by lia. now replace (0 + o + pos - 1 - (pos - 1)) with o by lia.
  - intros j Hj. rewrite Hd by lia. apply Hnone. lia.
Qed.

(* INSTR: 0 iff there is no occurrence, otherwise the 1-based position of the first occurrence *)
Lemma instr_finds_first (s sub : list N) :
  exists p, instr (Some s) (Some sub) = Val p /\
    ((p = 0 /\ forall j, 0 <= j <= len s -> is_prefix N.eqb sub (drop j s) = false) \/
     (1 <= p <= len s + 1 /\ is_prefix N.eqb sub (drop (p - 1) s) = true /\
      forall j, 0 <= j < p - 1 -> is_prefix N.eqb sub (drop j s) = false)).
Proof.
  eexists; split; [reflexivity|].
  pose proof (first_occurrence sub s 1 ltac:(pose proof (len_nonneg s); lia)) as H. cbv zeta in H.
  change (drop (1 - 1) s) with s in H. destruct (Z.eqb_spec (index_of sub s) (-1)) as [->|]; exact H.
Qed.

Definition ascii (s : list N) : Prop := Forall (fun c => (c < 128)%N) s.
Lemma utf8_ascii s : ascii s -> utf8 s = s.
Proof.
  induction 1 as [|c s Hc _ IH]; [reflexivity|]. cbn [utf8 flat_map]. fold (utf8 s). rewrite IH.
  unfold utf8_1. apply N.ltb_lt in Hc. rewrite Hc. reflexivity.
Qed.
Lemma lower_ascii s : ascii s -> ascii (to_lower s).
Proof.
  induction 1 as [|c s Hc _ IH]; constructor; [|exact IH]. unfold lower_cp.
  destruct ((65 <=? c) && (c <=? 90))%N eqn:E.
  - apply andb_prop in E. destruct E as [_ E]. apply N.leb_le in E. lia.
  - destruct (N.leb_spec 192 c); [lia|exact Hc].
Qed.
Lemma lower_suffix_0 s : lower_suffix s 0 = utf8 (to_lower s).
Proof. destruct s; reflexivity. Qed.
Lemma lower_suffix_ascii s off :
  ascii s -> 0 <= off <= len s -> lower_suffix s off = drop off (to_lower s).
Proof.
  intros Ha. revert off. induction Ha as [|c s Hc Ha IH]; intros off Ho; [symmetry; apply skipn_nil|].
  cbn [lower_suffix]. replace (utf8_1 c) with [c] by (unfold utf8_1; apply N.ltb_lt in Hc; now rewrite Hc).
  change (len [c]) with 1. rewrite len_cons in Ho. destruct (Z.leb_spec off 0).
  - replace off with 0 by lia. apply utf8_ascii, lower_ascii. now constructor.
  - destruct (Z.ltb_spec off 1); [lia|]. rewrite IH by lia. symmetry. now apply (drop_cons off (lower_cp c)).
Qed.

(* away from its early exits and its panic, LOCATE is strings.Index on the lower-cased byte suffix *)
Lemma locate_core_eq sub s pos : 1 <= pos <= len (utf8 s) ->
  locate_core sub s pos =
    let res := index_of (utf8 (to_lower sub)) (lower_suffix s (pos - 1)) in
    if res =? -1 then Val 0 else Val (res + pos).
Proof.
  intros H. unfold locate_core. destruct (Z.leb_spec pos 0); [lia|].
  destruct (Z.ltb_spec (len (utf8 s)) pos); [lia|]. destruct (Z.eqb_spec (len (utf8 s)) 0); [lia|].
  destruct (Z.ltb_spec (len (utf8 s)) (pos - 1)); [lia|]. rewrite !andb_false_r. reflexivity.
Qed.

(* LOCATE on ASCII strings: 0 iff the (case-folded) substring does not occur at or after pos, otherwise the
   position of the first such occurrence *)
Lemma locate_finds_first_ascii (sub s : list N) pos :
  ascii sub -> ascii s -> 1 <= pos <= len s ->
  let ls := to_lower s in let lsub := to_lower sub in
  exists p, locate_core sub s pos = Val p /\
    ((p = 0 /\ forall j, pos - 1 <= j <= len s -> is_prefix N.eqb lsub (drop j ls) = false) \/
     (pos <= p <= len s + 1 /\ is_prefix N.eqb lsub (drop (p - 1) ls) = true /\
      forall j, pos - 1 <= j < p - 1 -> is_prefix N.eqb lsub (drop j ls) = false)).
Proof.
  intros Hsub Hs Hpos ls lsub. rewrite locate_core_eq by now rewrite utf8_ascii. cbv zeta.
  rewrite (utf8_ascii _ (lower_ascii _ Hsub)), lower_suffix_ascii by (auto; lia). fold ls lsub.
  pose proof (first_occurrence lsub ls pos) as H. cbv zeta in H.
  replace (len ls) with (len s) in H by (symmetry; apply len_map).
  destruct (_ =? -1); eexists; (split; [reflexivity|apply H; lia]).
Qed.

(* two-argument LOCATE, any strings: the answer is the first BYTE offset (plus one) at which the lower-cased
   substring occurs in the lower-cased string -- a character position only when everything before it is ASCII *)
Theorem locate_first_byte_occurrence (sub s : list N) :
  utf8 s <> [] ->
  let bs := utf8 (to_lower s) in let bsub := utf8 (to_lower sub) in
  exists p, locate_core sub s 1 = Val p /\
    ((p = 0 /\ forall j, 0 <= j <= len bs -> is_prefix N.eqb bsub (drop j bs) = false) \/
     (1 <= p <= len bs + 1 /\ is_prefix N.eqb bsub (drop (p - 1) bs) = true /\
      forall j, 0 <= j < p - 1 -> is_prefix N.eqb bsub (drop j bs) = false)).
Proof.
  intros Hne bs bsub. rewrite locate_core_eq by (apply len_pos in Hne; lia). cbv zeta.
  change (1 - 1) with 0. rewrite lower_suffix_0. fold bs bsub.
  pose proof (first_occurrence bsub bs 1 ltac:(pose proof (len_nonneg bs); lia)) as H. cbv zeta in H.
  change (drop (1 - 1) bs) with bs in H. destruct (_ =? -1); eexists; (split; [reflexivity|exact H]).
Qed.

(* on multi-byte strings LOCATE answers in bytes: it disagrees with INSTR and with SUBSTRING's positions *)
Lemma locate_multibyte_byte_position :
  exists sub s, locate_core sub s 1 = Val 3 /\ instr (Some s) (Some sub) = Val 2.
Proof. exists [98]%N, [233; 98]%N. split; reflexivity. Qed.

Lemma locate_panics : exists sub s pos, 1 <= pos < 2^31 /\ locate_core sub s pos = Panic.
Proof. exists [97]%N, [], 5. split; [lia|reflexivity]. Qed.

Lemma insert_spec {A} (s n : list A) p l :
  fits s -> 1 <= p <= len s -> 0 <= l -> p - 1 + l < 2^63 ->
  insert_core s p l n = Val (take (p - 1) s ++ n ++ drop (p - 1 + l) s).
Proof.
  intros Hf Hp Hl Hsum. unfold fits in *. unfold insert_core.
  destruct (Z.ltb_spec p 1); [lia|]. destruct (Z.leb_spec (len s) (p - 1)); [lia|]. destruct (Z.ltb_spec l 0); [lia|].
  rewrite wrap64_id by (unfold in64; lia).
  destruct (Z.ltb_spec (len s) (p - 1 + l)); rewrite slice_ok by lia.
  - rewrite Z.sub_diag, !drop_all by lia. reflexivity.
  - do 3 f_equal. apply take_all. rewrite len_drop; lia.
Qed.

Lemma insert_outside_is_identity {A} (s n : list A) p l :
  p < 1 \/ len s < p -> insert_core s p l n = Val s.
Proof.
  intros H. unfold insert_core. destruct (Z.ltb_spec p 1); [reflexivity|].
  destruct (Z.leb_spec (len s) (p - 1)); [reflexivity|lia].
Qed.

(* characters vs bytes: INSERT('héllo',3,1,'X') cuts the two-byte character *)
Lemma insert_multibyte_byte_offsets :
  exists s p l n, insert (Some s) (Some p) (Some l) (Some n) <> Val (utf8 (take (p - 1) s ++ n ++ drop (p - 1 + l) s)).
Proof. exists [104; 233; 108; 108; 111]%N, 3, 1, [88]%N. vm_compute. discriminate. Qed.

Lemma insert_panics : exists (s n : list N) p l, in64 p /\ in64 l /\ insert_core s p l n = Panic.
Proof. exists [104; 101]%N, [88]%N, 2, (2^63 - 1). unfold in64. repeat split; lia. Qed.

Lemma pad_core_short {A} lp (s p : list A) n : n <= len s -> pad_core lp s n p = take n s.
Proof.
  intros H. unfold pad_core. destruct (Z.leb_spec n 0); [symmetry; now apply take_nonpos|].
  destruct (Z.leb_spec n (len s)); [reflexivity|lia].
Qed.

(* a longer target: the string with a filler of the missing length before (LPAD) or after it (RPAD); the filler is
   whole copies of the pad string and a prefix of one more *)
Lemma pad_core_spec {A} lp (s p : list A) n :
  len s <= n -> p <> [] ->
  exists q, pad_core lp s n p = (if lp then q ++ s else s ++ q) /\ len q = n - len s.
Proof.
  intros Hn Hp. destruct (Z.leb_spec n (len s)).
  { exists []. rewrite pad_core_short, take_all, app_nil_r, len_nil by lia. split; [now destruct lp|lia]. }
  pose proof (len_nonneg s). apply len_pos in Hp. unfold pad_core.
  destruct (Z.leb_spec n 0); [lia|]. destruct (Z.leb_spec n (len s)); [lia|]. destruct (Z.eqb_spec (len p) 0); [lia|].
  set (k := n - len s). set (q := repeat_list p (Z.to_nat (k / len p)) ++ take (k mod len p) p).
  assert (Hq : len q = k).
  { pose proof (Z.div_mod k (len p) ltac:(lia)). pose proof (Z.mod_pos_bound k (len p) Hp).
    assert (0 <= k / len p) by (apply Z.div_pos; lia).
    unfold q. rewrite len_app, len_repeat_list, len_take, Z2Nat.id by lia. lia. }
  exists q. split; [|exact Hq]. destruct lp.
  - rewrite app_assoc. apply take_all. rewrite len_app. lia.
  - rewrite len_app, Hq. replace (len s + k - n) with 0 by lia. reflexivity.
Qed.

Lemma pad_length {A} lp (s p : list A) n :
  0 <= n -> (n <= len s \/ p <> []) -> len (pad_core lp s n p) = n.
Proof.
  intros Hn Hp. destruct (Z.leb_spec n (len s)).
  - rewrite pad_core_short by assumption. apply len_take. lia.
  - destruct Hp as [|Hp]; [lia|]. destruct (pad_core_spec lp s p n ltac:(lia) Hp) as (q & -> & Hq).
    destruct lp; rewrite len_app; lia.
Qed.

(* in characters the length identity fails: LPAD('é',1,'x') is one byte, not one character *)
Lemma pad_multibyte_byte_length :
  exists s n p, pad true (Some s) (Some n) (Some p) = Val [195]%N /\ n = 1 /\ char_length (Some s) = Val 1.
Proof. exists [233]%N, 1, [120]%N. repeat split. Qed.

Definition is_bytes (bs : list N) : Prop := Forall (fun c => (c < 256)%N) bs.

Lemma hex_nibble_roundtrip h : (h < 16)%N -> hex_val (upper_byte (hex_char h)) = Some h.
Proof. exact (all_below_inverse (fun h => upper_byte (hex_char h)) hex_val 16 eq_refl h). Qed.

Lemma len_hex_even bs : Z.odd (len (hex_bytes bs)) = false.
Proof.
  induction bs as [|b bs IH]; [reflexivity|]. cbn [hex_bytes flat_map app]. fold (hex_bytes bs).
  rewrite !len_cons, Z.add_assoc, Z.add_comm, Z.odd_add, IH. reflexivity.
Qed.

Lemma unhex_hex bs : is_bytes bs -> unhex_bytes (hex_bytes bs) = Some bs.
Proof.
  intros Hb. unfold unhex_bytes. rewrite len_hex_even.
  induction Hb as [|b bs Hc _ IH]; [reflexivity|].
  cbn [hex_bytes flat_map app map unhex_pairs]. fold (hex_bytes bs).
  assert (H1 : (b / 16 < 16)%N) by (apply N.div_lt_upper_bound; lia).
  assert (H2 : (b mod 16 < 16)%N) by (apply N.mod_lt; lia).
  rewrite (hex_nibble_roundtrip _ H1), (hex_nibble_roundtrip _ H2), IH.
  f_equal. f_equal. pose proof (N.div_mod b 16 ltac:(lia)). lia.
Qed.

Lemma b64_val_char i : (i < 64)%N -> b64_val (b64_char i) = Some i.
Proof. exact (all_below_inverse b64_char b64_val 64 eq_refl i). Qed.

(* the alphabet lies in '+' .. 'z' and misses '=': no line break and no padding character, for any index *)
Lemma b64_char_not_special i : b64_char i <> 61%N /\ b64_char i <> 10%N /\ b64_char i <> 13%N.
Proof.
  unfold b64_char. destruct (N.ltb_spec i 26); [lia|]. destruct (N.ltb_spec i 52); [lia|].
  destruct (N.ltb_spec i 62); [lia|]. destruct (i =? 62)%N; lia.
Qed.

Lemma half_away_close m P : 0 < P -> 2 * Z.abs (div_half_away m P * P - m) <= P.
Proof.
  intros HP. unfold div_half_away.
  pose proof (Z.div_mod (Z.abs m) P ltac:(lia)) as Hdm.
  pose proof (Z.mod_pos_bound (Z.abs m) P HP) as Hmb.
  set (q := Z.abs m / P) in *. set (r := Z.abs m mod P) in *.
  destruct (P <=? 2 * r) eqn:E; [apply Z.leb_le in E|apply Z.leb_gt in E];
    destruct (Z.sgn_spec m) as [[Hm Hs]|[[Hm Hs]|[Hm Hs]]]; rewrite Hs; lia.
Qed.

Lemma half_away_exact m P : 0 < P -> div_half_away (m * P) P = m.
Proof.
  intros HP. unfold div_half_away. rewrite Z.abs_mul, (Z.abs_eq P) by lia.
  rewrite Z.div_mul, Z.mod_mul by lia. destruct (Z.leb_spec P (2 * 0)); [lia|].
  rewrite Z.sgn_mul, (Z.sgn_pos P), Z.mul_1_r, Z.mul_comm by lia. apply Z.abs_sgn.
Qed.

(* ROUND(x, d) on a decimal x = m * 10^-s, d >= 0: the result m' * 10^-d is within half a unit 10^-d of x
   (both sides multiplied by 10^(s+d)) *)
Lemma round_within_half_unit_pos m s prec :
  0 <= s -> 0 <= prec ->
  let '(m', s') := quantize div_half_away m s prec in
  s' = prec /\ 2 * Z.abs (m' * 10 ^ s - m * 10 ^ prec) <= 10 ^ s.
Proof.
  intros Hs Hp. unfold quantize. destruct (Z.leb_spec s prec) as [E|E].
  - split; [reflexivity|].
    replace (m * 10 ^ (prec - s) * 10 ^ s) with (m * 10 ^ prec)
      by (rewrite <- Z.mul_assoc, <- Z.pow_add_r by lia; do 2 f_equal; lia).
    rewrite Z.sub_diag. cbn [Z.abs Z.mul]. apply Z.pow_nonneg. lia.
  - destruct (Z.ltb_spec prec 0); [lia|].
    split; [reflexivity|]. set (P := 10 ^ (s - prec)).
    assert (HP : 0 < P) by (apply Z.pow_pos_nonneg; lia).
    assert (H10 : 10 ^ s = 10 ^ prec * P) by (unfold P; rewrite <- Z.pow_add_r by lia; f_equal; lia).
    assert (Hpp : 0 < 10 ^ prec) by (apply Z.pow_pos_nonneg; lia).
    pose proof (half_away_close m P HP) as Hc. rewrite H10.
    replace (div_half_away m P * (10 ^ prec * P) - m * 10 ^ prec) with (10 ^ prec * (div_half_away m P * P - m)) by ring.
    rewrite Z.abs_mul, (Z.abs_eq (10 ^ prec)), Z.mul_shuffle3 by lia. apply Z.mul_le_mono_nonneg_l; [lia|exact Hc].
Qed.

(* d < 0: the result is an integer m' (a multiple of 10^-d) within half of 10^-d of x *)
Lemma round_within_half_unit_neg m s prec :
  0 <= s -> prec < 0 ->
  let '(m', s') := quantize div_half_away m s prec in
  s' = 0 /\ 2 * Z.abs (m' * 10 ^ s - m) <= 10 ^ (s - prec) /\ m' mod 10 ^ (- prec) = 0.
Proof.
  intros Hs Hp. unfold quantize. destruct (Z.leb_spec s prec); [lia|]. destruct (Z.ltb_spec prec 0); [|lia].
  split; [reflexivity|]. set (P := 10 ^ (s - prec)).
  assert (HP : 0 < P) by (apply Z.pow_pos_nonneg; lia).
  assert (H10 : P = 10 ^ (- prec) * 10 ^ s) by (unfold P; rewrite <- Z.pow_add_r by lia; f_equal; lia).
  split.
  - rewrite <- Z.mul_assoc, <- H10. apply half_away_close. exact HP.
  - apply Z.mod_mul. apply Z.pow_nonzero; lia.
Qed.

(* integer arguments: ROUND(n, d) = n for d >= 0 *)
Lemma round_int_identity k n d :
  k <> KDecimal -> 0 <= d -> clamp_kind k n = n ->
  round_num k (Some (n, 0)) (Some (Some d)) = Val (n, 0).
Proof.
  intros Hk Hd Hc. unfold round_num, finish, quantize.
  assert (Hr : 0 <= round_prec d) by (unfold round_prec; destruct (65 <? d); [lia|]; destruct (Z.ltb_spec d (-30)); lia).
  destruct (Z.leb_spec 0 (round_prec d)); [|lia]. rewrite Z.sub_0_r. cbn [fst snd].
  rewrite half_away_exact by (apply Z.pow_pos_nonneg; lia). destruct k; try congruence; now rewrite Hc.
Qed.

Lemma truncate_toward_zero m P :
  0 < P -> let q := Z.quot m P in
  Z.abs (m - q * P) < P /\ Z.abs (q * P) <= Z.abs m /\ (0 <= m -> 0 <= q) /\ (m <= 0 -> q <= 0).
Proof.
  intros HP q. unfold q. assert (HP0 : P <> 0) by lia.
  pose proof (Z.quot_rem m P HP0) as Hqr. pose proof (Z.rem_bound_abs m P HP0) as Hr.
  assert (Hpos : 0 <= m -> 0 <= m ÷ P) by (intros Hm; now apply Z.quot_pos).
  assert (Hneg : m <= 0 -> m ÷ P <= 0).
  { intros Hm. pose proof (Z.quot_pos (- m) P ltac:(lia) HP) as Hx. rewrite Z.quot_opp_l in Hx by exact HP0. lia. }
  split; [lia|]. split; [|split; assumption].
  (* the multiple q * P lies between 0 and m *)
  destruct (Z.le_ge_cases 0 m) as [Hm|Hm]; [pose proof (Z.mul_quot_le m P Hm HP0)|pose proof (Z.mul_quot_ge m P Hm HP0)]; lia.
Qed.

Lemma floor_ceil_bracket m P :
  0 < P ->
  floor_div m P * P <= m < (floor_div m P + 1) * P /\ (ceil_div m P - 1) * P < m <= ceil_div m P * P.
Proof.
  intros HP. unfold floor_div, ceil_div.
  pose proof (Z.div_mod m P ltac:(lia)). pose proof (Z.mod_pos_bound m P HP).
  pose proof (Z.div_mod (- m) P ltac:(lia)). pose proof (Z.mod_pos_bound (- m) P HP). lia.
Qed.

(* CEIL / FLOOR of a decimal m * 10^-s: correct when the coefficient has at least s digits and the result
   fits BIGINT *)
Lemma ceil_floor_decimal m s :
  0 <= s -> 10 ^ (s - 1) <= Z.abs m ->
  - 2^63 <= floor_div m (10 ^ s) -> ceil_div m (10 ^ s) < 2^63 ->
  exists c f, ceil_num KDecimal (Some (m, s)) = Val c /\ floor_num KDecimal (Some (m, s)) = Val f /\
              f * 10 ^ s <= m < (f + 1) * 10 ^ s /\ (c - 1) * 10 ^ s < m <= c * 10 ^ s.
Proof.
  intros Hs Hd Hf Hc. assert (HP : 0 < 10 ^ s) by (apply Z.pow_pos_nonneg; lia).
  pose proof (floor_ceil_bracket m (10 ^ s) HP) as [[H1 H2] [H3 H4]].
  assert (Hfc : floor_div m (10 ^ s) <= ceil_div m (10 ^ s)) by (apply (Z.mul_le_mono_pos_r _ _ _ HP); lia).
  exists (ceil_div m (10 ^ s)), (floor_div m (10 ^ s)). unfold ceil_num, floor_num, clamp_kind.
  rewrite !(proj2 (Z.ltb_ge _ _)) by lia. repeat split; assumption.
Qed.

(* the two ways the unguarded statement fails in the code *)
Lemma ceil_small_fraction_is_zero :
  ceil_num KDecimal (Some (75, 3)) = Val 0 /\ floor_num KDecimal (Some (-15, 3)) = Val 0.
Proof. split; reflexivity. Qed.
Lemma ceil_saturates :
  ceil_num KDecimal (Some (123456789012345678905, 1)) = Val (2^63 - 1).
Proof. reflexivity. Qed.

Lemma inet_ntoa_saturates : inet_ntoa (Some 3232235777) = inet_ntoa (Some 2147483647).
Proof. reflexivity. Qed.
