(* C34 -- identities of the functions modelled in Sys/C34More.v. *)
From Coq Require Import List NArith ZArith Bool Lia Arith.
Import ListNotations.
From GMS Require Import Sys.C34Funcs Sys.C34FuncsProofs Sys.C34InverseProofs Sys.C34More.
Open Scope Z_scope.

Lemma is_prefix_split p : forall s, is_prefix N.eqb p s = true -> s = p ++ drop (len p) s.
Proof.
  induction p as [|x p IH]; intros s H; [reflexivity|].
  destruct s as [|y s]; [discriminate|]. cbn [is_prefix] in H. apply andb_prop in H. destruct H as [H1 H2].
  apply N.eqb_eq in H1. subst y. pose proof (len_nonneg p).
  rewrite len_cons, drop_cons, Z.add_simpl_l by lia. cbn [app]. f_equal. apply IH. exact H2.
Qed.
Lemma is_prefix_refl p s : is_prefix N.eqb p (p ++ s) = true.
Proof. induction p as [|x p IH]; [reflexivity|]. cbn [app is_prefix]. now rewrite N.eqb_refl, IH. Qed.

(* cutting a non-empty prefix off shortens the string: what the fuelled loops of TRIM, REPLACE and split run on *)
Lemma drop_prefix_shorter p s : p <> [] -> is_prefix N.eqb p s = true ->
  (length (drop (len p) s) < length s)%nat.
Proof.
  intros Hp E. apply len_pos in Hp. apply is_prefix_split, (f_equal (@length N)) in E.
  rewrite app_length in E. unfold len in Hp. lia.
Qed.

Lemma ltrim_rtrim_commute s : ltrim_sp (rtrim_sp s) = rtrim_sp (ltrim_sp s).
Proof.
  induction s as [|c r IH]; [reflexivity|]. cbn [rtrim_sp ltrim_sp].
  destruct (c =? 32)%N eqn:E.
  - rewrite <- IH. cbn [andb]. destruct (rtrim_sp r) eqn:Er; [reflexivity|].
    cbn [ltrim_sp]. rewrite E. reflexivity.
  - cbn [andb ltrim_sp rtrim_sp]. rewrite E. cbn [andb]. reflexivity.
Qed.

Lemma ltrim_idem s : ltrim_sp (ltrim_sp s) = ltrim_sp s.
Proof. induction s as [|c r IH]; [reflexivity|]. cbn [ltrim_sp]. destruct (c =? 32)%N eqn:E; [exact IH|]. cbn [ltrim_sp]. now rewrite E. Qed.

Lemma strip_lead_space fuel : forall s, (length s <= fuel)%nat -> strip_lead fuel [32%N] s = ltrim_sp s.
Proof.
  induction fuel as [|k IH]; intros s Hl.
  - destruct s; [reflexivity|cbn in Hl; lia].
  - destruct s as [|c r]; [reflexivity|]. cbn [strip_lead is_prefix ltrim_sp]. rewrite N.eqb_sym.
    destruct (c =? 32)%N eqn:E; cbn [andb]; [|reflexivity].
    change (drop (len [32%N]) (c :: r)) with r. apply IH. cbn in Hl. lia.
Qed.

Lemma ltrim_snoc l c : ltrim_sp (l ++ [c]) =
  match ltrim_sp l with [] => if (c =? 32)%N then [] else [c] | t => t ++ [c] end.
Proof.
  induction l as [|x l IH]; [cbn; destruct (c =? 32)%N; reflexivity|].
  cbn [app ltrim_sp]. destruct (x =? 32)%N; [exact IH|reflexivity].
Qed.
Lemma rev_ltrim_rev s : rev (ltrim_sp (rev s)) = rtrim_sp s.
Proof.
  induction s as [|c r IH]; [reflexivity|]. cbn [rev rtrim_sp]. rewrite ltrim_snoc. rewrite <- IH.
  destruct (ltrim_sp (rev r)) as [|y t] eqn:E.
  - cbn [rev]. destruct (c =? 32)%N; reflexivity.
  - rewrite rev_app_distr. cbn [rev app]. rewrite andb_comm.
    destruct (rev t ++ [y]) eqn:E2; [destruct (rev t); discriminate|]. cbn [andb]. reflexivity.
Qed.

(* TRIM(s) = TRIM(BOTH ' ' FROM s) = RTRIM(LTRIM(s)) = LTRIM(RTRIM(s)) *)
Theorem trim_is_ltrim_rtrim s :
  trim_core 0 [32%N] s = rtrim_sp (ltrim_sp s) /\ trim_core 0 [32%N] s = ltrim_sp (rtrim_sp s) /\
  trim_core 1 [32%N] s = ltrim_sp s /\ trim_core 2 [32%N] s = rtrim_sp s.
Proof.
  unfold trim_core. cbn [Z.eqb Pos.eqb orb]. change (rev [32%N]) with [32%N].
  repeat rewrite strip_lead_space by (try rewrite rev_length; lia).
  rewrite !rev_ltrim_rev. repeat split. symmetry. apply ltrim_rtrim_commute.
Qed.

(* the result of a LEADING trim does not start with the pattern, and the pattern occurrences removed are a prefix *)
Lemma strip_lead_spec fuel : forall pat s, pat <> [] -> (length s <= fuel)%nat ->
  exists k, s = repeat_list pat k ++ strip_lead fuel pat s /\ is_prefix N.eqb pat (strip_lead fuel pat s) = false.
Proof.
  induction fuel as [|f IH]; intros pat s Hp Hl.
  - destruct s; [|cbn in Hl; lia]. exists 0%nat. split; [reflexivity|]. destruct pat; [congruence|reflexivity].
  - cbn [strip_lead]. destruct (is_prefix N.eqb pat s) eqn:E; [|exists 0%nat; split; [reflexivity|exact E]].
    pose proof (drop_prefix_shorter pat s Hp E).
    destruct (IH pat (drop (len pat) s) Hp ltac:(lia)) as (k & E1 & E2). exists (S k). split; [|exact E2].
    cbn [repeat_list]. rewrite <- app_assoc, <- E1. apply is_prefix_split, E.
Qed.

Theorem trim_leading_spec pat s : pat <> [] ->
  exists k, s = repeat_list pat k ++ trim_core 1 pat s /\ is_prefix N.eqb pat (trim_core 1 pat s) = false.
Proof.
  intros Hp. unfold trim_core. destruct pat as [|x p]; [congruence|]. cbn [Z.eqb Pos.eqb orb].
  apply strip_lead_spec; [discriminate|lia].
Qed.

Theorem trim_null_propagation dir (pat s : option (list N)) :
  trim dir pat s = Null <-> pat = None \/ s = None.
Proof. destruct pat, s; cbn; split; intros H; try tauto; try discriminate; destruct H; discriminate. Qed.

Lemma replace_same fuel : forall a s, a <> [] -> replace_fuel fuel a a s = s.
Proof.
  induction fuel as [|k IH]; intros a s Ha; [reflexivity|]. cbn [replace_fuel].
  destruct (is_prefix N.eqb a s) eqn:E.
  - rewrite IH by exact Ha. symmetry. apply is_prefix_split. exact E.
  - destruct s; [reflexivity|]. now rewrite IH.
Qed.

(* REPLACE(s, a, a) = s and REPLACE(s, '', b) = s *)
Theorem replace_identity s a b : replace_core s a a = s /\ replace_core s [] b = s.
Proof. split; [|reflexivity]. unfold replace_core. destruct a; [reflexivity|]. apply replace_same. discriminate. Qed.

(* LENGTH(REPLACE(s,a,b)) = LENGTH(s) + occurrences * (LENGTH(b) - LENGTH(a)) *)
Lemma replace_length fuel : forall a b s, a <> [] -> (length s < fuel)%nat ->
  len (replace_fuel fuel a b s) = len s + count_fuel fuel a s * (len b - len a).
Proof.
  induction fuel as [|k IH]; intros a b s Ha Hl; [lia|]. cbn [replace_fuel count_fuel].
  destruct (is_prefix N.eqb a s) eqn:E.
  - pose proof (drop_prefix_shorter a s Ha E). rewrite (is_prefix_split a s E) at 2.
    rewrite !len_app, IH by (assumption || lia). lia.
  - destruct s as [|c r]; [rewrite len_nil; lia|]. rewrite !len_cons, IH by (assumption || (cbn in Hl; lia)). lia.
Qed.
Theorem replace_length_law s a b : a <> [] ->
  len (replace_core s a b) = len s + count_fuel (S (length s)) a s * (len b - len a).
Proof. intros Ha. unfold replace_core. destruct a; [congruence|]. apply replace_length; [discriminate|lia]. Qed.

Theorem replace_null_propagation (s a b : option (list N)) :
  replace s a b = Null <-> s = None \/ a = None \/ b = None.
Proof. destruct s, a, b; cbn; split; intros H; try tauto; try discriminate; intuition discriminate. Qed.

Definition in_alphabet (c : N) : Prop := (c < 128 \/ (192 <= c <= 255 /\ c <> 223) \/ c = 376 \/ 256 < c /\ c <> 376 /\ (c < 65 \/ 1000 < c))%N.

Lemma lower2_idem_all : all_below (fun c => (lower2 (lower2 c) =? lower2 c)%N && (lower2 (upper2 c) =? lower2 c)%N) 400 = true.
Proof. vm_compute. reflexivity. Qed.

(* the case maps only move code points below 400 *)
Lemma case_maps_fix_high c : (400 <= c)%N -> lower2 c = c /\ upper2 c = c.
Proof.
  intros H. unfold lower2, upper2, lower_cp.
  destruct (N.eqb_spec c 376); [lia|]. destruct (N.eqb_spec c 255); [lia|].
  rewrite (proj2 (N.leb_gt c 90)), (proj2 (N.leb_gt c 222)), (proj2 (N.leb_gt c 122)), (proj2 (N.leb_gt c 254)) by lia.
  rewrite !andb_false_r. split; reflexivity.
Qed.

(* LOWER is idempotent and absorbs UPPER, on every code point: by the table below 400, trivially from 400 on *)
Lemma lower2_laws c : lower2 (lower2 c) = lower2 c /\ lower2 (upper2 c) = lower2 c.
Proof.
  destruct (N.lt_ge_cases c 400) as [H|H].
  - apply (all_below_spec _ 400 lower2_idem_all), andb_prop in H. destruct H. split; now apply N.eqb_eq.
  - destruct (case_maps_fix_high c H) as [E1 E2]. now rewrite E2, !E1.
Qed.

(* LOWER(LOWER(s)) = LOWER(s) and LOWER(UPPER(s)) = LOWER(s); both keep CHAR_LENGTH.  The case maps of the model satisfy
   this on every code point; they mirror strings.ToLower / ToUpper only on ASCII and the Latin-1 letters *)
Theorem lower_upper_laws (s : list N) :
  map lower2 (map lower2 s) = map lower2 s /\ map lower2 (map upper2 s) = map lower2 s /\
  len (map lower2 s) = len s /\ len (map upper2 s) = len s.
Proof. rewrite !map_map, !len_map. repeat split; apply map_ext; intros c; apply lower2_laws. Qed.

(* CONV(HEX(n), 16, 10) = n, CONV(BIN(n), 2, 10) = n for 0 <= n < 2^63 (and any base for the unsigned forms) *)
Theorem hex_bin_of_nonneg_number n : 0 <= n < 2 ^ 63 ->
  conv (Some (hex_num n)) (Some 16) (Some 10) = Val (fmt_uint 10 n) /\
  conv (Some (bin_num n)) (Some 2) (Some 10) = Val (fmt_uint 10 n).
Proof.
  intros H. unfold hex_num, bin_num. rewrite (proj2 (Z.ltb_ge n 0)) by lia.
  split; apply conv_correct; lia.
Qed.
(* negative numbers: HEX is the 64-bit two's complement, BIN is not *)
Theorem hex_of_negative_number n : - 2 ^ 63 <= n < 0 ->
  conv (Some (hex_num n)) (Some 16) (Some 10) = Val (fmt_uint 10 (n + 2 ^ 64)).
Proof.
  intros H. unfold hex_num. rewrite (proj2 (Z.ltb_lt n 0)) by lia. apply conv_correct; lia.
Qed.
Lemma bin_negative_unpadded : len (bin_num (-256)) = 57 /\ len (fmt_uint 2 (-256 + 2 ^ 64)) = 64.
Proof. split; vm_compute; reflexivity. Qed.

Theorem abs_sign_laws n : - 2 ^ 63 < n < 2 ^ 63 -> 0 <= abs_int n /\ sign_num n * abs_int n = n /\ abs_int n = Z.abs n.
Proof.
  intros H. unfold abs_int, sign_num. rewrite wrap64_id by (unfold in64; lia).
  split; [lia|]. split; [|reflexivity]. rewrite Z.mul_comm. apply Z.abs_sgn.
Qed.
(* SIGN of a DECIMAL is the sign of the value rounded to an integer *)
Lemma sign_small_fraction : sign_dec 471 3 = 0 /\ sign_dec (-283) 3 = 0 /\ sign_dec 5 1 = 1.
Proof. repeat split. Qed.
Lemma abs_min_int64 : abs_int (- 2 ^ 63) = - 2 ^ 63.
Proof. reflexivity. Qed.

Theorem mod_law a b : b <> 0 ->
  exists r, mod_int a b = Some r /\ a = b * Z.quot a b + r /\ Z.abs r < Z.abs b /\ (r = 0 \/ Z.sgn r = Z.sgn a).
Proof.
  intros Hb. unfold mod_int. destruct (Z.eqb_spec b 0); [contradiction|].
  exists (Z.rem a b). split; [reflexivity|]. split; [apply Z.quot_rem; exact Hb|]. split; [apply Z.rem_bound_abs; exact Hb|].
  destruct (Z.eq_dec (Z.rem a b) 0) as [E|E]; [left; exact E|right; apply Z.rem_sign_nz; assumption].
Qed.
Lemma mod_zero a : mod_int a 0 = None.
Proof. reflexivity. Qed.

Theorem ascii_of_char n : 0 <= n < 256 ->
  char_fn [Some n] = [Z.to_N n] /\ (match char_fn [Some n] with b :: _ => Z.of_N b | [] => 0 end) = n.
Proof.
  intros H.
  pose proof (all_below_Z (fun n => bytes_eq (char_fn [Some n]) [Z.to_N n]) 256 ltac:(vm_compute; reflexivity) n H) as E.
  cbv beta in E. destruct (char_fn [Some n]) as [|b [|x l]]; cbn in E.
  - discriminate.
  - rewrite andb_true_r in E. apply N.eqb_eq in E. subst b. split; [reflexivity|]. lia.
  - rewrite andb_false_r in E. discriminate.
Qed.
Lemma char_skips_null a b : char_fn [a; None; b] = char_fn [a; b].
Proof. unfold char_fn. cbn [flat_map app]. reflexivity. Qed.

Theorem strcmp_antisym a : forall b, strcmp_core a b = - strcmp_core b a.
Proof.
  induction a as [|x a IH]; intros [|y b]; cbn [strcmp_core]; try reflexivity.
  destruct (N.ltb_spec x y); destruct (N.ltb_spec y x); try reflexivity; [lia|apply IH].
Qed.
Theorem strcmp_refl a : strcmp_core a a = 0.
Proof. induction a as [|x a IH]; [reflexivity|]. cbn [strcmp_core]. rewrite N.ltb_irrefl. exact IH. Qed.
Theorem strcmp_zero_iff a : forall b, strcmp_core a b = 0 <-> a = b.
Proof.
  intros b. split; [|intros <-; apply strcmp_refl].
  revert b. induction a as [|x a IH]; intros [|y b]; cbn [strcmp_core]; try reflexivity; try discriminate.
  destruct (N.ltb_spec x y); [discriminate|]. destruct (N.ltb_spec y x); [discriminate|].
  intros E. f_equal; [lia|apply IH, E].
Qed.

Lemma field_from_spec key : forall vals i, 1 <= i ->
  let r := field_from key vals i in
  r = 0 \/ (i <= r < i + len vals /\ exists v, nth (Z.to_nat (r - i)) vals None = Some v /\ fold_eq key v = true).
Proof.
  induction vals as [|o vals IH]; intros i Hi; cbn [field_from]; [left; reflexivity|].
  rewrite len_cons. pose proof (len_nonneg vals) as Hl.
  (* an entry that is passed over shifts the answer for the rest by one *)
  assert (Hskip : let r := field_from key vals (i + 1) in
    r = 0 \/ (i <= r < i + (1 + len vals) /\ exists v, nth (Z.to_nat (r - i)) (o :: vals) None = Some v /\ fold_eq key v = true)).
  { destruct (IH (i + 1) ltac:(lia)) as [H|[H (w & Hw & Ew)]]; [left; exact H|right].
    split; [lia|]. exists w. split; [|exact Ew].
    now replace (Z.to_nat (field_from key vals (i + 1) - i)) with (S (Z.to_nat (field_from key vals (i + 1) - (i + 1)))) by lia. }
  destruct o as [v|]; [|exact Hskip]. destruct (fold_eq key v) eqn:E; [|exact Hskip].
  right. split; [lia|]. exists v. rewrite Z.sub_diag. split; [reflexivity|exact E].
Qed.

(* ELT(FIELD(x, l), l) is an element of l that equals x up to case, whenever FIELD finds one *)
Theorem elt_field key vals : 0 < field_fn (Some key) vals ->
  exists v, elt_fn (Some (field_fn (Some key) vals)) vals = Some v /\ fold_eq key v = true.
Proof.
  unfold field_fn. intros H. destruct (field_from_spec key vals 1 ltac:(lia)) as [E|[Hr (v & Hv & Ev)]]; [lia|].
  exists v. split; [|exact Ev]. unfold elt_fn.
  destruct (Z.leb_spec (field_from key vals 1) 0); [lia|]. destruct (Z.ltb_spec (len vals) (field_from key vals 1)); [lia|exact Hv].
Qed.
Lemma field_null vals : field_fn None vals = 0.
Proof. reflexivity. Qed.

Theorem concat_ws_two sep a b :
  concat_ws (Some sep) [Some a; Some b] = Val (a ++ sep ++ b) /\
  concat_ws (Some sep) [Some a; None; Some b] = Val (a ++ sep ++ b) /\
  concat_ws None [Some a; Some b] = Null.
Proof. repeat split. Qed.

Lemma join_cons d p r : r <> [] -> join d (p :: r) = p ++ d ++ join d r.
Proof. destruct r; [congruence|reflexivity]. Qed.

Lemma split_fuel_join fuel : forall d s cur, d <> [] -> (length s < fuel)%nat ->
  join d (split_fuel fuel d s cur) = rev cur ++ s /\ split_fuel fuel d s cur <> [].
Proof.
  induction fuel as [|k IH]; intros d s cur Hd Hl; [lia|]. cbn [split_fuel].
  destruct (is_prefix N.eqb d s) eqn:E.
  - pose proof (drop_prefix_shorter d s Hd E).
    destruct (IH d (drop (len d) s) [] Hd ltac:(lia)) as [J N]. split; [|discriminate].
    rewrite join_cons, J by exact N. cbn [rev app]. now rewrite <- is_prefix_split.
  - destruct s as [|c r].
    + split; [cbn; now rewrite app_nil_r|discriminate].
    + destruct (IH d r (c :: cur) Hd ltac:(cbn in Hl; lia)) as [J N]. split; [|exact N].
      rewrite J. cbn [rev]. rewrite <- app_assoc. reflexivity.
Qed.

Theorem join_split d s : d <> [] -> join d (split d s) = s.
Proof. intros Hd. apply (split_fuel_join (S (length s)) d s [] Hd). lia. Qed.

Lemma join_app d a b : a <> [] -> b <> [] -> join d (a ++ b) = join d a ++ d ++ join d b.
Proof.
  induction a as [|p a IH]; intros Ha Hb; [congruence|]. destruct a as [|q a].
  - cbn [app]. rewrite join_cons by exact Hb. reflexivity.
  - change ((p :: q :: a) ++ b) with (p :: ((q :: a) ++ b)). rewrite join_cons by discriminate.
    rewrite IH by (discriminate || exact Hb). rewrite (join_cons d p (q :: a)) by discriminate.
    rewrite <- !app_assoc. reflexivity.
Qed.

(* the k leftmost fields, the delimiter, and the n-k rightmost fields give the string back *)
Theorem substring_index_halves s d k :
  d <> [] -> 0 < k < len (split d s) -> len (split d s) < 2 ^ 62 ->
  substring_index_core s d k ++ d ++ substring_index_core s d (- (len (split d s) - k)) = s.
Proof.
  intros Hd Hk Hn. unfold substring_index_core.
  set (parts := split d s) in *. set (n := len parts) in *.
  destruct (Z.ltb_spec 0 k); [|lia]. destruct (Z.ltb_spec k n); [|lia]. destruct (Z.ltb_spec 0 (- (n - k))); [lia|].
  rewrite Z.opp_involutive, wrap64_id by (unfold in64; lia).
  destruct (Z.ltb_spec (n - k) 0); [lia|]. destruct (Z.ltb_spec (n - k) n); [|lia].
  replace (n - (n - k)) with k by lia.
  transitivity (join d (take k parts ++ drop k parts)); [|rewrite take_drop; apply join_split, Hd].
  symmetry. apply join_app; intros E; apply (f_equal len) in E; rewrite len_nil in E.
  - rewrite len_take in E; lia.
  - rewrite len_drop in E; lia.
Qed.

Theorem substring_index_all s d k : d <> [] -> len (split d s) <= k -> substring_index_core s d k = s.
Proof.
  intros Hd Hk. unfold substring_index_core.
  assert (0 < len (split d s)) by (apply len_pos, (split_fuel_join (S (length s)) d s [] Hd); lia).
  destruct (Z.ltb_spec 0 k); [|lia]. destruct (Z.ltb_spec k (len (split d s))); [lia|].
  rewrite take_all by lia. apply join_split. exact Hd.
Qed.

Lemma le32_val_le32 n : 0 <= n < 2 ^ 32 -> le32_val (le32 n) = n.
Proof.
  intros H. destruct (u32_bytes n H) as [Ha E]. unfold le32_val, le32, byte_of.
  rewrite !Z2N.id by (apply Z.mod_pos_bound; lia).
  change (2 ^ (8 * 0)) with 1. change (2 ^ (8 * 1)) with 256. change (2 ^ (8 * 2)) with 65536. change (2 ^ (8 * 3)) with 16777216.
  rewrite Z.div_1_r, (Z.mod_small (n / 16777216)) by exact Ha. lia.
Qed.

Section CompressLaws.
  Variable deflate : list N -> list N.
  Variable read1 : list N -> Z -> list N * bool.
  Hypothesis read1_deflate : forall b, 0 < len b < 32768 -> read1 (deflate b) (len b) = (b, true).

  (* a zlib stream is never empty (two header bytes and an Adler-32 trailer) *)
  Hypothesis deflate_nonempty : forall b, deflate b <> [].

  (* UNCOMPRESS(COMPRESS(b)) = b and UNCOMPRESSED_LENGTH(COMPRESS(b)) = LENGTH(b), below the 32 KiB window *)
  Theorem uncompress_compress b : len b < 32768 ->
    uncompress read1 (compress deflate b) = Some b /\ uncompressed_length (compress deflate b) = Some (len b).
  Proof.
    intros H. destruct b as [|x b]; [split; reflexivity|]. unfold compress, uncompress, uncompressed_length.
    set (p := x :: b) in *. assert (Hp : 0 < len p) by (apply len_pos; discriminate).
    pose proof (len_pos _ (deflate_nonempty p)) as Hd.
    assert (Hl : 4 < len (le32 (len p) ++ deflate p)) by (rewrite len_app; change (len (le32 (len p))) with 4; lia).
    destruct (le32 (len p) ++ deflate p) as [|y c] eqn:E; [rewrite len_nil in Hl; lia|].
    rewrite <- E in *. rewrite (proj2 (Z.leb_gt _ 4) Hl).
    change (drop 4 (le32 (len p) ++ deflate p)) with (deflate p).
    change (take 4 (le32 (len p) ++ deflate p)) with (le32 (len p)).
    rewrite le32_val_le32, read1_deflate by lia. split; reflexivity.
  Qed.
End CompressLaws.
