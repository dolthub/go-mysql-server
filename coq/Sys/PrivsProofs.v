(* Proofs about the privilege model (C39): the nested maps refine a set of (level, object, privilege) facts. *)
From Coq Require Import List NArith Bool Lia.
Import ListNotations.
From GMS Require Import Base.ListFacts Sys.Privs.
Open Scope N_scope.

Lemma seqb_eq a b : seqb a b = true <-> a = b.
Proof.
  revert b. induction a as [|x a IH]; intros [|y b]; cbn [seqb]; split; intros E;
    try reflexivity; try discriminate.
  - apply andb_prop in E. destruct E as [E1 E2]. apply N.eqb_eq in E1. apply IH in E2. congruence.
  - injection E as -> ->. rewrite N.eqb_refl. cbn. apply IH. reflexivity.
Qed.
Lemma seqb_spec a b : reflect (a = b) (seqb a b).
Proof. apply iff_reflect. symmetry. apply seqb_eq. Qed.
Lemma seqb_refl a : seqb a a = true.
Proof. apply seqb_eq. reflexivity. Qed.
Lemma seqb_sym a b : seqb a b = seqb b a.
Proof. destruct (seqb_spec a b), (seqb_spec b a); congruence. Qed.
Lemma seqb_trans_false a b c : seqb a b = true -> seqb c a = seqb c b.
Proof. intros E. apply seqb_eq in E. subst. reflexivity. Qed.

Section AssocLemmas.
  Context {V : Type}.
  Implicit Types m : list (str * V).

  Lemma aget_aput m k k' v : aget k (aput k' v m) = if seqb k k' then Some v else aget k m.
  Proof.
    induction m as [|[k0 v0] m IH]; cbn [aput aget]; [reflexivity|].
    destruct (seqb_spec k' k0) as [<-|N]; cbn [aget].
    - destruct (seqb k k'); reflexivity.
    - rewrite IH. destruct (seqb_spec k k0) as [->|]; [|reflexivity].
      rewrite seqb_sym. destruct (seqb_spec k' k0); [contradiction|reflexivity].
  Qed.

  Lemma aget_adel m k k' : aget k (adel k' m) = if seqb k k' then None else aget k m.
  Proof.
    induction m as [|[k0 v0] m IH]; cbn [adel aget]; [destruct (seqb k k'); reflexivity|].
    destruct (seqb_spec k' k0) as [<-|N]; cbn [aget]; rewrite IH.
    - destruct (seqb k k'); reflexivity.
    - destruct (seqb_spec k k0) as [->|]; [|reflexivity].
      rewrite seqb_sym. destruct (seqb_spec k' k0); [contradiction|reflexivity].
  Qed.

  (* "k is a key of m", as the uniqueness predicates spell it *)
  Lemma key_aget m k : existsb (fun kv => seqb k (fst kv)) m = if aget k m then true else false.
  Proof. induction m as [|[k0 v0] m IH]; cbn; [reflexivity|]. rewrite IH. destruct (seqb k k0); reflexivity. Qed.
End AssocLemmas.

Lemma pmem_padd p q s : pmem p (padd q s) = (p =? q) || pmem p s.
Proof.
  unfold padd. destruct (pmem q s) eqn:E; [|reflexivity].
  destruct (N.eqb_spec p q) as [->|]; [|reflexivity]. rewrite E. reflexivity.
Qed.

Lemma pmem_prem p q s : pmem p (prem q s) = negb (p =? q) && pmem p s.
Proof.
  unfold prem, pmem. induction s as [|x s IH]; cbn [filter existsb]; [symmetry; apply andb_false_r|].
  destruct (N.eqb_spec x q) as [->|N]; cbn [negb existsb]; rewrite IH.
  - destruct (p =? q); reflexivity.
  - destruct (N.eqb_spec p x) as [->|]; [|reflexivity]. destruct (N.eqb_spec x q); [contradiction|reflexivity].
Qed.

Lemma pmem_punion p a b : pmem p (punion a b) = pmem p a || pmem p b.
Proof.
  unfold punion. induction b as [|x b IH]; cbn [fold_right]; [rewrite orb_false_r; reflexivity|].
  rewrite pmem_padd, IH. cbn [pmem existsb]. destruct (p =? x), (pmem p a); reflexivity.
Qed.

Lemma nonempty_pmem s : negb (pempty s) = true <-> exists q, pmem q s = true.
Proof.
  destruct s as [|x s]; cbn; split; try reflexivity; try discriminate.
  - intros [q H]. discriminate.
  - intros _. exists x. rewrite N.eqb_refl. reflexivity.
Qed.

(* the decision as a function of which facts are held *)
Definition grants (h : fact -> bool) (ops : list op) : bool :=
  h (FG SUPER) || forallb (fun o => let '(d, t, p) := o in h (FG p) || h (FD d p) || h (FT d t p)) ops.

Lemma set_has_grants ps ops : set_has ps ops = grants (holds ps) ops.
Proof. reflexivity. Qed.

Lemma grants_ext h h' ops : (forall f, h f = h' f) -> grants h ops = grants h' ops.
Proof. intros E. unfold grants. rewrite E. f_equal. apply forallb_ext. intros [[d t] p]. rewrite !E. reflexivity. Qed.

Lemma fact_eqb_spec f g : reflect (f = g) (fact_eqb f g).
Proof.
  destruct f as [p|d p|d t p], g as [q|e q|e u q]; cbn [fact_eqb]; try (right; discriminate).
  - destruct (N.eqb_spec p q) as [->|]; [left; reflexivity|right; congruence].
  - destruct (seqb_spec d e) as [->|]; [|right; congruence].
    destruct (N.eqb_spec p q) as [->|]; [left; reflexivity|right; congruence].
  - destruct (seqb_spec d e) as [->|]; [|right; congruence]. destruct (seqb_spec t u) as [->|]; [|right; congruence].
    destruct (N.eqb_spec p q) as [->|]; [left; reflexivity|right; congruence].
Qed.

Lemma fact_eqb_refl f : fact_eqb f f = true.
Proof. destruct (fact_eqb_spec f f); congruence. Qed.

Lemma grants_iff h ops :
  grants h ops = true <-> h (FG SUPER) = true \/ forall o, In o ops -> exists f, h f = true /\ covers f o = true.
Proof.
  unfold grants. rewrite orb_true_iff, forallb_forall. apply or_iff_compat_l.
  split; intros E [[d t] p] Hi; specialize (E _ Hi).
  - rewrite !orb_true_iff in E.
    destruct E as [[E|E]|E]; [exists (FG p)|exists (FD d p)|exists (FT d t p)]; (split; [exact E|]); cbn;
      rewrite ?seqb_refl, N.eqb_refl; reflexivity.
  - destruct E as [[q|e q|e u q] [Hf Hc]]; cbn in Hc; rewrite ?andb_true_iff, ?seqb_eq, N.eqb_eq in Hc.
    + subst q. rewrite Hf. reflexivity.
    + destruct Hc as [-> ->]. rewrite Hf, orb_true_r. reflexivity.
    + destruct Hc as [[-> ->] ->]. rewrite Hf, !orb_true_r. reflexivity.
Qed.

Theorem set_has_iff ps ops :
  set_has ps ops = true <->
  holds ps (FG SUPER) = true \/ forall o, In o ops -> exists f, holds ps f = true /\ covers f o = true.
Proof. exact (grants_iff (holds ps) ops). Qed.

Lemma db_of_aput ps d e ds g : db_of (mkP g (aput e ds (dbs ps))) d = if seqb d e then ds else db_of ps d.
Proof. unfold db_of. cbn [dbs]. rewrite aget_aput. destruct (seqb d e); reflexivity. Qed.

Lemma db_of_adel ps d e g : db_of (mkP g (adel e (dbs ps))) d = if seqb d e then empty_d else db_of ps d.
Proof. unfold db_of. cbn [dbs]. rewrite aget_adel. destruct (seqb d e); reflexivity. Qed.

Lemma tbl_of_aput ds t u s p : tbl_of (mkD p (aput u s (d_tbls ds))) t = if seqb t u then s else tbl_of ds t.
Proof. unfold tbl_of. cbn [d_tbls]. rewrite aget_aput. destruct (seqb t u); reflexivity. Qed.

(* Every mutation below the global level replaces the entry of one database, or deletes it.  Replacing the entry of d
   by one that differs from the old one (or from the empty one, if there was none) in its privileges only, or in
   the set of one table only, changes the facts of that one slot: *)
Lemma holds_put_privs ps d s f :
  holds (mkP (g_privs ps) (aput d (mkD s (d_tbls (db_of ps d))) (dbs ps))) f =
    match f with FD e q => if seqb e d then pmem q s else holds ps f | _ => holds ps f end.
Proof.
  destruct f as [q|e q|e u q]; cbn [holds]; unfold has_d, has_t; rewrite ?db_of_aput; [reflexivity| |];
    destruct (seqb_spec e d) as [->|]; reflexivity.
Qed.

Lemma holds_put_tbl ps d t s f :
  holds (mkP (g_privs ps) (aput d (mkD (d_privs (db_of ps d)) (aput t s (d_tbls (db_of ps d)))) (dbs ps))) f =
    match f with FT e u q => if seqb e d && seqb u t then pmem q s else holds ps f | _ => holds ps f end.
Proof.
  destruct f as [q|e q|e u q]; cbn [holds]; unfold has_d, has_t; rewrite ?db_of_aput; [reflexivity| |];
    destruct (seqb_spec e d) as [->|]; try reflexivity.
  rewrite tbl_of_aput. destruct (seqb u t); reflexivity.
Qed.

Lemma db_of_some ps d ds : aget d (dbs ps) = Some ds -> db_of ps d = ds.
Proof. intros A. unfold db_of. rewrite A. reflexivity. Qed.

Lemma holds_none_on_db ps d f : aget d (dbs ps) = None -> on_db d f = true -> holds ps f = false.
Proof.
  intros A O. destruct f as [q|e q|e u q]; cbn in O; [discriminate| |]; apply seqb_eq in O; subst e; cbn [holds];
    unfold has_d, has_t, db_of; rewrite A; reflexivity.
Qed.

Lemma holds_minus_absent ps f g : holds ps g = false -> holds ps f = negb (fact_eqb f g) && holds ps f.
Proof. intros H. destruct (fact_eqb_spec f g) as [->|]; [exact H|reflexivity]. Qed.

(* GRANT adds exactly the named fact *)
Theorem add_global_facts p ps f : holds (add_global p ps) f = fact_eqb f (FG p) || holds ps f.
Proof. destruct f; [apply pmem_padd|reflexivity|reflexivity]. Qed.

Theorem add_db_facts d p ps f : holds (add_db d p ps) f = fact_eqb f (FD d p) || holds ps f.
Proof.
  unfold add_db. rewrite holds_put_privs. destruct f as [q|e q|e u q]; try reflexivity.
  cbn [fact_eqb]. destruct (seqb_spec e d) as [->|]; [apply pmem_padd|reflexivity].
Qed.

Theorem add_tbl_facts d t p ps f : holds (add_tbl d t p ps) f = fact_eqb f (FT d t p) || holds ps f.
Proof.
  unfold add_tbl. rewrite holds_put_tbl. destruct f as [q|e q|e u q]; try reflexivity.
  cbn [fact_eqb]. destruct (seqb_spec e d) as [->|]; [|reflexivity].
  destruct (seqb_spec u t) as [->|]; [apply pmem_padd|reflexivity].
Qed.

Theorem add_at_facts l p ps f :
  holds (add_at l p ps) f = fact_eqb f (match l with LG => FG p | LD d => FD d p | LT d t => FT d t p end) || holds ps f.
Proof. destruct l; [apply add_global_facts|apply add_db_facts|apply add_tbl_facts]. Qed.

(* REVOKE at the global and table levels removes exactly the named fact *)
Theorem rem_global_facts p ps f : holds (rem_global p ps) f = negb (fact_eqb f (FG p)) && holds ps f.
Proof. destruct f; [apply pmem_prem|reflexivity|reflexivity]. Qed.

Theorem rem_tbl_facts d t p ps f : holds (rem_tbl d t p ps) f = negb (fact_eqb f (FT d t p)) && holds ps f.
Proof.
  unfold rem_tbl. destruct (aget d (dbs ps)) as [ds|] eqn:A; [destruct (aget t (d_tbls ds)) as [s|] eqn:B|].
  - rewrite <- (db_of_some ps d ds A), holds_put_tbl. destruct f as [q|e q|e u q]; try reflexivity.
    cbn [fact_eqb]. destruct (seqb_spec e d) as [->|]; [|reflexivity]. destruct (seqb_spec u t) as [->|]; [|reflexivity].
    rewrite pmem_prem. cbn [holds andb]. unfold has_t, tbl_of. rewrite (db_of_some ps d ds A), B. reflexivity.
  - apply holds_minus_absent. cbn [holds]. unfold has_t, tbl_of. rewrite (db_of_some ps d ds A), B. reflexivity.
  - apply holds_minus_absent, (holds_none_on_db ps d); [exact A|apply seqb_refl].
Qed.

(* REVOKE ALL: global clears the global facts only; database deletes every fact of the database; table clears the table *)
Theorem clear_global_facts ps f : holds (clear_global ps) f = match f with FG _ => false | _ => holds ps f end.
Proof. destruct f; reflexivity. Qed.

Theorem clear_db_facts d ps f : holds (clear_db d ps) f = negb (on_db d f) && holds ps f.
Proof.
  destruct f as [q|e q|e u q]; cbn [holds on_db fact_db negb andb]; unfold clear_db, has_d, has_t;
    rewrite ?db_of_adel; [reflexivity| |]; destruct (seqb e d); reflexivity.
Qed.

Theorem clear_tbl_facts d t ps f :
  holds (clear_tbl d t ps) f = match f with FT e u _ => negb (seqb e d && seqb u t) && holds ps f | _ => holds ps f end.
Proof.
  unfold clear_tbl. rewrite holds_put_tbl. destruct f as [q|e q|e u q]; try reflexivity.
  destruct (seqb e d && seqb u t); reflexivity.
Qed.

(* REVOKE at the database level: exact only while another database-level privilege remains; otherwise every fact
   of that database (table grants included) disappears *)
Definition db_keeps_entry (ps : privset) (d : str) (p : N) : bool :=
  match aget d (dbs ps) with Some ds => negb (pempty (prem p (d_privs ds))) | None => true end.

Theorem rem_db_facts d p ps f :
  holds (rem_db d p ps) f =
    if db_keeps_entry ps d p then negb (fact_eqb f (FD d p)) && holds ps f
    else negb (on_db d f) && holds ps f.
Proof.
  unfold rem_db, db_keeps_entry. destruct (aget d (dbs ps)) as [ds|] eqn:A.
  - destruct (pempty (prem p (d_privs ds))); cbn [negb]; [apply clear_db_facts|].
    rewrite <- (db_of_some ps d ds A), holds_put_privs. destruct f as [q|e q|e u q]; try reflexivity.
    cbn [fact_eqb]. destruct (seqb_spec e d) as [->|]; [apply pmem_prem|reflexivity].
  - apply holds_minus_absent, (holds_none_on_db ps d); [exact A|apply seqb_refl].
Qed.

Corollary rem_db_exact_when_guarded d p ps f :
  db_keeps_entry ps d p = true -> holds (rem_db d p ps) f = negb (fact_eqb f (FD d p)) && holds ps f.
Proof. intros G. rewrite rem_db_facts, G. reflexivity. Qed.

(* the unguarded statement is false: revoking a database-level privilege can remove a table-level fact *)
Theorem rem_db_removes_exactly_refuted :
  exists ps d p f, fact_eqb f (FD d p) = false /\ holds ps f = true /\ holds (rem_db d p ps) f = false.
Proof.
  exists (add_tbl [100;98] [116] 0 empty_ps), [100;98], 1, (FT [100;98] [116] 0).
  vm_compute. auto.
Qed.

Lemma rem_at_facts_exact l p ps f :
  (match l with LD _ => False | _ => True end) ->
  holds (rem_at l p ps) f = negb (fact_eqb f (match l with LG => FG p | LD d => FD d p | LT d t => FT d t p end)) && holds ps f.
Proof. destruct l; [intros _; apply rem_global_facts|intros []|intros _; apply rem_tbl_facts]. Qed.

Definition privs_of (s : state) (u : str) : privset := match aget u (users s) with Some ps => ps | None => empty_ps end.

Lemma holds_privs_of s u f : holds (privs_of s u) f = match aget u (users s) with Some ps => holds ps f | None => false end.
Proof. unfold privs_of. destruct (aget u (users s)); [reflexivity|destruct f; reflexivity]. Qed.

Lemma has_user_upd s u f v : has_user (upd_user s u f) v = has_user s v.
Proof.
  unfold upd_user, has_user. destruct (aget u (users s)) as [ps|] eqn:A; [|reflexivity].
  cbn [users]. rewrite aget_aput. destruct (seqb_spec v u) as [->|]; [|reflexivity]. rewrite A. reflexivity.
Qed.

Lemma privs_of_upd s u f v :
  privs_of (upd_user s u f) v = if seqb v u && has_user s u then f (privs_of s u) else privs_of s v.
Proof.
  unfold upd_user, privs_of, has_user. destruct (aget u (users s)) as [ps|] eqn:A.
  - cbn [users]. rewrite aget_aput, andb_true_r. destruct (seqb v u); reflexivity.
  - rewrite andb_false_r. reflexivity.
Qed.

(* GRANT p.. ON l TO u (one Add call per listed privilege) adds the named facts to u and changes nobody else *)
Theorem exec_grant_facts s u l qs v f :
  holds (privs_of (exec s (SGrant u l qs)) v) f =
    (seqb v u && has_user s u &&
     existsb (fun p => fact_eqb f (match l with LG => FG p | LD d => FD d p | LT d t => FT d t p end)) qs)
    || holds (privs_of s v) f.
Proof.
  cbn [exec]. rewrite privs_of_upd. destruct (seqb_spec v u) as [->|]; [|reflexivity].
  destruct (has_user s u); [cbn [andb]|reflexivity]. generalize (privs_of s u).
  induction qs as [|q qs IH]; intros ps; cbn [fold_left existsb]; [reflexivity|].
  rewrite IH, add_at_facts. destruct (fact_eqb f _), (existsb _ qs); reflexivity.
Qed.

(* REVOKE p.. ON l FROM u at the global or table level removes exactly the named facts from u *)
Theorem exec_revoke_facts_exact s u l qs v f :
  (match l with LD _ => False | _ => True end) ->
  holds (privs_of (exec s (SRevoke u l qs)) v) f =
    negb (seqb v u && has_user s u &&
          existsb (fun p => fact_eqb f (match l with LG => FG p | LD d => FD d p | LT d t => FT d t p end)) qs)
    && holds (privs_of s v) f.
Proof.
  intros Hl. cbn [exec]. rewrite privs_of_upd. destruct (seqb_spec v u) as [->|]; [|reflexivity].
  destruct (has_user s u); [cbn [andb]|reflexivity]. generalize (privs_of s u).
  induction qs as [|q qs IH]; intros ps; cbn [fold_left existsb]; [reflexivity|].
  rewrite IH, (rem_at_facts_exact l q ps f Hl). destruct (fact_eqb f _), (existsb _ qs); reflexivity.
Qed.

(* the database-level REVOKE of the faithful model is not exact: end-to-end witness on a two-statement history *)
Theorem revoke_removes_exactly_refuted :
  exists h u ops,
    allowed (run init h) u ops = true /\
    allowed (run init (h ++ [SRevoke u (LD [100;98]) [1]])) u ops = false /\
    (forall o, In o ops -> covers (FD [100;98] 1) o = false).
Proof.
  exists [SCreate [117]; SGrant [117] (LT [100;98] [116]) [0]], [117], [([100;98], [116], 0)].
  split; [vm_compute; reflexivity|]. split; [vm_compute; reflexivity|].
  intros o [<-|[]]. vm_compute. reflexivity.
Qed.

(* an account that does not exist (never created, or dropped) is denied everything *)
Theorem unknown_account_denied s u ops : has_user s u = false -> allowed s u ops = false.
Proof. intros E. unfold allowed. rewrite E. reflexivity. Qed.

Theorem dropped_account_denied s u ops : allowed (exec s (SDrop u)) u ops = false.
Proof.
  apply unknown_account_denied. cbn [exec]. destruct (has_user s u) eqn:E; [|exact E].
  unfold has_user. cbn [users]. rewrite aget_adel, seqb_refl. reflexivity.
Qed.

(* the decision is a function of the active set only, and the active set of an account without roles is its own set *)
Theorem active_no_roles s u :
  (forall e, In e (edges s) -> seqb (snd e) u = false) -> active s u = privs_of s u.
Proof.
  intros He. unfold active, privs_of. destruct (aget u (users s)) as [ps|]; [|reflexivity].
  revert ps. induction (edges s) as [|e es IH]; intros ps; [reflexivity|].
  cbn [fold_left]. rewrite (He e (or_introl eq_refl)). apply IH. intros e' Hi. apply He. right. exact Hi.
Qed.

Theorem allowed_iff_no_roles s u ops :
  (forall e, In e (edges s) -> seqb (snd e) u = false) ->
  (allowed s u ops = true <->
   has_user s u = true /\
   (holds (privs_of s u) (FG SUPER) = true \/
    forall o, In o ops -> exists f, holds (privs_of s u) f = true /\ covers f o = true)).
Proof.
  intros He. unfold allowed. rewrite andb_true_iff, (active_no_roles s u He), set_has_iff. reflexivity.
Qed.
