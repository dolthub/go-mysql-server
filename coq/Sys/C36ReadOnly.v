(* C36 — concurrent read-only sessions: model and proofs.
   A concurrent execution is an interleaving (any list of (session, action) pairs) of
     ALocal     one micro-step of the session's query evaluation: it READS the shared database value and
                updates only the session's private state (results are part of that state),
     AReg e     one atomic step of the process list (the C37 model, Sys/ProcessList.v),
     AIncr d    one atomic increment of a global status counter (Questions, Com_select, ...).
   The database type, the private-state type and the evaluation step are arbitrary (Section variables):
   the theorems hold for every pure evaluator.  That evaluation steps do not write the database and that
   registry steps are atomic is the model's premise; its implementation-side observer is the race detector. *)
From Coq Require Import List NArith ZArith Lia Permutation.
Import ListNotations.
From GMS Require Import Sys.ProcessList Sys.ProcessListProofs.
Open Scope N_scope.

Section ReadOnly.
  Variable DB : Type.
  Variable loc : Type.
  Variable lstep : DB -> N -> loc -> loc.   (* session i's next evaluation micro-step *)

  Inductive action := ALocal | AReg (e : event) | AIncr (d : Z).

  Record gstate := mkG { gdb : DB; gloc : N -> loc; greg : state; gctr : Z }.

  Definition gstep (g : gstate) (ia : N * action) : gstate :=
    let '(i, a) := ia in
    match a with
    | ALocal => mkG (gdb g) (fun j => if N.eqb j i then lstep (gdb g) i (gloc g i) else gloc g j) (greg g) (gctr g)
    | AReg e => mkG (gdb g) (gloc g) (fst (step (greg g) e)) (gctr g)
    | AIncr d => mkG (gdb g) (gloc g) (greg g) (gctr g + d)
    end.

  Definition exec (g : gstate) (l : list (N * action)) : gstate := fold_left gstep l g.

  (* the actions of session i only / the registry events / the counter increments of a schedule *)
  Definition mine (i : N) (l : list (N * action)) : list (N * action) := filter (fun ia => N.eqb (fst ia) i) l.
  Fixpoint events (l : list (N * action)) : list event :=
    match l with [] => [] | (_, AReg e) :: r => e :: events r | _ :: r => events r end.
  Fixpoint total (l : list (N * action)) : Z :=
    match l with [] => 0%Z | (_, AIncr d) :: r => (d + total r)%Z | _ :: r => total r end.

  Lemma exec_app g l1 l2 : exec g (l1 ++ l2) = exec (exec g l1) l2.
  Proof. unfold exec. apply fold_left_app. Qed.

  Lemma exec_cons g x r : exec g (x :: r) = exec (gstep g x) r.
  Proof. reflexivity. Qed.

  Lemma db_never_written g l : gdb (exec g l) = gdb g.
  Proof.
    revert g. induction l as [|[i a] r IH]; intros g; [reflexivity|].
    rewrite exec_cons, IH. destruct a; reflexivity.
  Qed.

  (* two executions that start with the same database and the same private state of session i, one running a schedule
     and the other only i's part of it, end with the same private state of i: a step of another session changes
     neither the database nor i's state *)
  Lemma own_actions_suffice l i : forall g1 g2,
    gdb g1 = gdb g2 -> gloc g1 i = gloc g2 i -> gloc (exec g1 l) i = gloc (exec g2 (mine i l)) i.
  Proof.
    induction l as [|[j a] r IH]; intros g1 g2 Hd Hl; [exact Hl|].
    rewrite exec_cons. unfold mine. cbn [filter fst]. fold (mine i r).
    destruct (N.eqb_spec j i) as [->|Hne].
    - rewrite exec_cons. apply IH; destruct a; cbn; auto. now rewrite N.eqb_refl, Hd, Hl.
    - apply IH; destruct a; cbn; auto. destruct (N.eqb_spec i j); [congruence|exact Hl].
  Qed.

  (* non-interference: what session i computes under ANY interleaving with any other sessions is what it
     computes when its own actions run alone *)
  Theorem readonly_noninterference g l i :
    gloc (exec g l) i = gloc (exec g (mine i l)) i.
  Proof. now apply own_actions_suffice. Qed.

  Theorem registry_is_run_of_events g l : greg (exec g l) = run (greg g) (events l).
  Proof.
    revert g. induction l as [|[i a] r IH]; intros g; [reflexivity|].
    rewrite exec_cons, IH. destruct a; reflexivity.
  Qed.

  Theorem counter_is_sum g l : gctr (exec g l) = (gctr g + total l)%Z.
  Proof.
    revert g. induction l as [|[i a] r IH]; intros g; [cbn; lia|].
    rewrite exec_cons, IH. destruct a; cbn; lia.
  Qed.

  Lemma total_perm l l' : Permutation l l' -> total l = total l'.
  Proof.
    induction 1 as [|[i a] l l' _ IH|[i a] [j b] l|l l' l'' _ IH1 _ IH2]; cbn [total]; try lia.
    - destruct a; lia.
    - destruct a, b; lia.
  Qed.

  (* the counters do not depend on the schedule: any reordering of the same actions gives the same value *)
  Theorem counter_schedule_independent g l l' :
    Permutation l l' -> gctr (exec g l) = gctr (exec g l').
  Proof. intros H. rewrite !counter_is_sum, (total_perm _ _ H). reflexivity. Qed.

  (* registries at quiescence: if the merged process-list history follows the call discipline (C37) then
     both thread counters agree with the history, and when every session has disconnected the list is
     empty and both counters are back to zero — for every interleaving *)
  Theorem registry_consistent g l sp :
    greg g = init -> srun sinit (events l) = Some sp ->
    let s := greg (exec g l) in
    tc s = cnt anyv (sess sp) /\ tr s = cnt is_squery (sess sp) /\
    (sess sp = [] -> processes s = [] /\ tc s = 0%Z /\ tr s = 0%Z).
  Proof.
    intros Hg Hs s. subst s. rewrite registry_is_run_of_events, Hg.
    destruct (threads_connected_eq _ _ Hs) as [Htc Htc2]. destruct (threads_running_eq _ _ Hs) as [Htr _].
    split; [exact Htc|]. split; [exact Htr|]. intros He. rewrite He in *. cbn in Htc, Htc2, Htr.
    split; [|split; assumption].
    assert (length (processes (run init (events l))) = 0%nat) as Hl by lia.
    destruct (processes (run init (events l))); [reflexivity|discriminate].
  Qed.
End ReadOnly.

(* the canonical (sequential) schedule of the registry events of n sessions, used by the
   correspondence: session c runs k queries: AddConnection, ConnectionReady, k x (BeginQuery, EndQuery,
   EndQuery), RemoveConnection; query pids are c * 1000 + j *)
Fixpoint session_queries (c : N) (k : nat) : list event :=
  match k with
  | O => []
  | S k' => session_queries c k' ++ [EBeginQ c (c * 1000 + N.of_nat k) 1; EEndQ c (c * 1000 + N.of_nat k); EEndQ c (c * 1000 + N.of_nat k)]
  end.

Definition session_events (c : N) (k : nat) : list event :=
  [EAddInc c; EAddIns c 0; EReady c 0 0 0] ++ session_queries c k ++ [ERemove c].

Fixpoint all_events (c : N) (ks : list nat) : list event :=
  match ks with [] => [] | k :: r => session_events c k ++ all_events (c + 1) r end.
