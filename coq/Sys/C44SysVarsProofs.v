(* C44 -- proofs about the model of Sys/C44SysVars.v.  Everything here holds for every registry [reg]; the facts
   about the generated table gen/C44Vars.v are in Sys/C44SysVarsRegistry.v. *)
From Coq Require Import String Ascii ZArith NArith List Bool Lia Arith.
Import ListNotations.
From GMS Require Import Sys.C44SysVarsBase Sys.C44SysVars.
Open Scope Z_scope.

Lemma upd_nth_length : forall A (f : A -> A) l i, length (upd_nth l i f) = length l.
Proof. intros A f l; induction l as [|a r IH]; intros [|j]; simpl; auto. Qed.

Lemma nth_error_upd_nth_eq : forall A (f : A -> A) l i,
  nth_error (upd_nth l i f) i = option_map f (nth_error l i).
Proof. intros A f l; induction l as [|a r IH]; intros [|j]; simpl; auto. Qed.

Lemma nth_error_upd_nth_neq : forall A (f : A -> A) l i j, i <> j ->
  nth_error (upd_nth l i f) j = nth_error l j.
Proof.
  intros A f l; induction l as [|a r IH]; intros [|i] [|j] H; simpl; auto; try congruence.
Qed.

Lemma between_iff : forall lo hi z, (lo <=? z) && (z <=? hi) = true <-> lo <= z <= hi.
Proof. intros. rewrite andb_true_iff, !Z.leb_le. reflexivity. Qed.

Lemma in_i64_iff : forall z, in_i64 z = true <-> - two63 <= z < two63.
Proof. intros. unfold in_i64. rewrite andb_true_iff, Z.leb_le, Z.ltb_lt. reflexivity. Qed.

Lemma in_u64_iff : forall z, in_u64 z = true <-> 0 <= z < two64.
Proof. intros. unfold in_u64. rewrite andb_true_iff, Z.leb_le, Z.ltb_lt. reflexivity. Qed.

Lemma wrap_s_id : forall z, in_i64 z = true -> wrap_s z = z.
Proof.
  intros z H. apply in_i64_iff in H. unfold wrap_s, two63, two64 in *. rewrite Z.mod_small by lia. lia.
Qed.

Lemma wrap_u_id : forall z, in_u64 z = true -> wrap_u z = z.
Proof. intros z H. apply in_u64_iff in H. apply Z.mod_small. exact H. Qed.

(* first the function each Convert funnels its argument into, then Convert itself *)
Lemma conv_bool_i64_type : forall z v, conv_bool_i64 z = Ok v -> has_type TBool v.
Proof.
  intros z v H. unfold conv_bool_i64 in H. destruct (z =? 0) eqn:E0; [|destruct (z =? 1) eqn:E1]; inversion H.
  - apply Z.eqb_eq in E0. subst. left. reflexivity.
  - apply Z.eqb_eq in E1. subst. right. reflexivity.
Qed.

Lemma conv_int_i64_type : forall lo hi n1 z v, conv_int_i64 lo hi n1 z = Ok v -> has_type (TInt lo hi n1) v.
Proof.
  intros lo hi n1 z v H. unfold conv_int_i64 in H.
  destruct ((lo <=? z) && (z <=? hi)) eqn:E; [|destruct (n1 && (z =? -1)) eqn:F]; inversion H; exists z; split; auto.
  - left. apply between_iff. exact E.
  - right. apply andb_true_iff in F as [A B]. apply Z.eqb_eq in B. auto.
Qed.

Lemma conv_uint_u64_type : forall lo hi z v, conv_uint_u64 lo hi z = Ok v -> has_type (TUint lo hi) v.
Proof.
  intros lo hi z v H. unfold conv_uint_u64 in H. destruct ((lo <=? z) && (z <=? hi)) eqn:E; inversion H.
  exists z. split; [reflexivity | apply between_iff; exact E].
Qed.

Lemma conv_double_q_type : forall lo hi n d v, conv_double_q lo hi n d = Ok v -> has_type (TDouble lo hi) v.
Proof.
  intros lo hi n d v H. unfold conv_double_q in H.
  destruct ((lo * Zpos d <=? n) && (n <=? hi * Zpos d)) eqn:E; inversion H.
  exists n, d. split; [reflexivity | apply between_iff; exact E].
Qed.

Lemma conv_enum_idx_type : forall vals z v, conv_enum_idx vals z = Ok v -> has_type (TEnum vals) v.
Proof.
  intros vals z v H. unfold conv_enum_idx in H.
  destruct ((0 <=? z) && (z <? Z.of_nat (length vals))); [|discriminate].
  destruct (nth_error vals (Z.to_nat z)) eqn:E; inversion H.
  exists s. split; [reflexivity | eapply nth_error_In; eauto].
Qed.

Lemma conv_set_u64_type : forall c vals u v, conv_set_u64 vals u = Ok v -> has_type (TSet c vals) v.
Proof.
  intros c vals u v H. unfold conv_set_u64 in H.
  destruct (u <=? set_all vals) eqn:E; inversion H. exists u. split; [reflexivity | apply Z.leb_le; exact E].
Qed.

(* OR-ing member bits stays inside the bit field of all members: shifting right by n clears both operands *)
Lemma lor_lt_pow2 : forall n a b, 0 <= n -> 0 <= a < 2 ^ n -> 0 <= b < 2 ^ n -> 0 <= Z.lor a b < 2 ^ n.
Proof.
  intros n a b Hn Ha Hb. split; [apply Z.lor_nonneg; lia|].
  assert (E : Z.lor a b / 2 ^ n = 0).
  { rewrite <- Z.shiftr_div_pow2, Z.shiftr_lor, !Z.shiftr_div_pow2 by exact Hn.
    rewrite (Z.div_small a), (Z.div_small b) by assumption. reflexivity. }
  apply Z.div_small_iff in E; lia.
Qed.

Lemma pow2_lt : forall n k, (k < n)%nat -> 0 <= 2 ^ Z.of_nat k < 2 ^ Z.of_nat n.
Proof. intros n k H. split; [apply Z.pow_nonneg | apply Z.pow_lt_mono_r]; lia. Qed.

Lemma member_index_lt : forall vals l i k, member_index vals l i = Some k -> (k < i + length vals)%nat.
Proof.
  induction vals as [|x r IH]; intros l i k H; simpl in H; [discriminate|].
  destruct (String.eqb (lower (trim_right x)) l).
  - inversion H. subst. simpl. lia.
  - apply IH in H. simpl. lia.
Qed.

Lemma is_member_bit_lt : forall n u, is_member_bit n u = true -> 0 <= u < 2 ^ Z.of_nat n.
Proof.
  induction n as [|m IH]; intros u H; simpl in H; [discriminate|].
  apply orb_true_iff in H as [H|H].
  - apply Z.eqb_eq in H. subst. apply pow2_lt. lia.
  - apply IH in H. pose proof (pow2_lt (S m) m). lia.
Qed.

Lemma set_elem_lt : forall vals e b, set_elem vals e = Some b -> 0 <= b < 2 ^ Z.of_nat (length vals).
Proof.
  intros vals e b H. unfold set_elem in H.
  destruct (member_index vals (lower (trim_right e)) 0) as [i|] eqn:E.
  - inversion H. subst. apply member_index_lt in E. apply pow2_lt. exact E.
  - destruct (parse_uint e) as [u|]; [|discriminate].
    destruct (u =? 0); [|destruct (is_member_bit (length vals) u) eqn:M; [|discriminate]]; inversion H; subst.
    + split; [lia | apply Z.pow_pos_nonneg; lia].
    + apply is_member_bit_lt. exact M.
Qed.

Lemma set_elems_lt : forall vals es acc b, 0 <= acc < 2 ^ Z.of_nat (length vals) -> set_elems vals es acc = Some b ->
  0 <= b < 2 ^ Z.of_nat (length vals).
Proof.
  intros vals es. induction es as [|e r IH]; intros acc b Ha H; simpl in H.
  - inversion H. subst. exact Ha.
  - destruct e as [|c e']; [exact (IH _ _ Ha H)|].
    destruct (set_elem vals (String c e')) as [x|] eqn:E; [|discriminate].
    apply set_elem_lt in E. eapply IH; [|exact H]. apply lor_lt_pow2; auto. lia.
Qed.

(* the float and decimal arguments go through float_i64 first *)
Lemma via_float_i64 : forall (f : Z -> res) n d v',
  match float_i64 n d with Some z => f z | None => Err end = Ok v' -> exists z, f z = Ok v'.
Proof. intros f n d v' H. destruct (float_i64 n d) as [z|]; [eauto | discriminate]. Qed.

Lemma conv_bool_type : forall v v', conv_bool v = Ok v' -> has_type TBool v'.
Proof.
  intros [|b|k z|n d|n d|s|s] v' H; simpl in H; try discriminate.
  - inversion H. destruct b; simpl; auto.
  - exact (conv_bool_i64_type _ _ H).
  - apply via_float_i64 in H as [z H]. exact (conv_bool_i64_type _ _ H).
  - apply via_float_i64 in H as [z H]. exact (conv_bool_i64_type _ _ H).
  - destruct (String.eqb (lower s) "on" || String.eqb (lower s) "true")%bool; [inversion H; simpl; auto|].
    destruct (String.eqb (lower s) "off" || String.eqb (lower s) "false")%bool; inversion H; simpl; auto.
Qed.

Lemma conv_int_type : forall lo hi n1 v v', conv_int lo hi n1 v = Ok v' -> has_type (TInt lo hi n1) v'.
Proof.
  intros lo hi n1 [|b|k z|n d|n d|s|s] v' H; simpl in H; try discriminate.
  - exact (conv_int_i64_type _ _ _ _ _ H).
  - apply via_float_i64 in H as [z H]. exact (conv_int_i64_type _ _ _ _ _ H).
  - apply via_float_i64 in H as [z H]. exact (conv_int_i64_type _ _ _ _ _ H).
  - destruct (parse_int s); [|discriminate]. exact (conv_int_i64_type _ _ _ _ _ H).
Qed.

Lemma conv_uint_type : forall lo hi v v', conv_uint lo hi v = Ok v' -> has_type (TUint lo hi) v'.
Proof.
  intros lo hi [|b|k z|n d|n d|s|s] v' H; simpl in H; try discriminate.
  - exact (conv_uint_u64_type _ _ _ _ H).
  - destruct (float_u64 n d); [|discriminate]. exact (conv_uint_u64_type _ _ _ _ H).
  - exact (conv_uint_u64_type _ _ _ _ H).
Qed.

Lemma conv_double_type : forall lo hi v v', conv_double lo hi v = Ok v' -> has_type (TDouble lo hi) v'.
Proof.
  intros lo hi [|b|k z|n d|n d|s|s] v' H; simpl in H; try discriminate.
  - destruct (Z.abs z <=? two53); [|discriminate]. exact (conv_double_q_type _ _ _ _ _ H).
  - exact (conv_double_q_type _ _ _ _ _ H).
  - exact (conv_double_q_type _ _ _ _ _ H).
Qed.

Lemma conv_enum_type : forall vals v v', conv_enum vals v = Ok v' -> has_type (TEnum vals) v'.
Proof.
  intros vals [|b|k z|n d|n d|s|s] v' H; simpl in H; try discriminate.
  - exact (conv_enum_idx_type _ _ _ H).
  - apply via_float_i64 in H as [z H]. exact (conv_enum_idx_type _ _ _ H).
  - apply via_float_i64 in H as [z H]. exact (conv_enum_idx_type _ _ _ H).
  - destruct (enum_index vals (lower s) 0 None) as [i|]; [|discriminate].
    destruct (nth_error vals i) eqn:E; inversion H. exists s0. split; [reflexivity | eapply nth_error_In; eauto].
Qed.

Lemma conv_string_type : forall v v', conv_string v = Ok v' -> has_type TString v'.
Proof. intros [|b|k z|n d|n d|s|s] v' H; simpl in H; try discriminate; inversion H; simpl; eauto. Qed.

Lemma conv_set_type : forall c vals v v', conv_set vals v = Ok v' -> has_type (TSet c vals) v'.
Proof.
  intros c vals [|b|k z|n d|n d|s|s] v' H; simpl in H; try discriminate.
  - exact (conv_set_u64_type _ _ _ _ H).
  - apply via_float_i64 in H as [z H]. exact (conv_set_u64_type _ _ _ _ H).
  - apply via_float_i64 in H as [z H]. exact (conv_set_u64_type _ _ _ _ H).
  - destruct (set_elems vals (split_comma s) 0) as [b|] eqn:E; inversion H. exists b. split; [reflexivity|].
    apply set_elems_lt in E; unfold set_all; [lia|]. split; [lia | apply Z.pow_pos_nonneg; lia].
Qed.

Lemma conv_u32_type : forall v v', conv_u32 v = Ok v' -> has_type (TOther "types.Uint32") v'.
Proof.
  intros [|b|k z|n d|n d|s|s] v' H; cbn [conv_u32] in H; try discriminate; cbn.
  - inversion H. auto.
  - inversion H. right. exists (if b then 1 else 0). split; [reflexivity | unfold two32; destruct b; lia].
  - right. set (n := if two63 <=? z then two63 - 1 else z) in *.
    destruct (two32 <=? n) eqn:A; [|destruct (n <? 0) eqn:B]; inversion H; eexists; (split; [reflexivity|]).
    + unfold two32; lia.
    + apply Z.mod_pos_bound. unfold two32; lia.
    + apply Z.leb_gt in A. apply Z.ltb_ge in B. lia.
Qed.

Lemma conv_text_type : forall v v', conv_text v = Ok v' -> has_type (TOther "types.Text") v'.
Proof. intros [|b|k z|n d|n d|s|s] v' H; simpl in H; try discriminate; inversion H; cbn; eauto. Qed.

Theorem convert_has_type : forall t v v', convert t v = Ok v' -> has_type t v'.
Proof.
  intros t v v' H.
  assert (Hc : conv t v = Ok v') by (destruct v; try exact H; discriminate).
  clear H. destruct t as [|lo hi n1|lo hi|lo hi|vals|c vals| |o]; simpl in Hc.
  - exact (conv_bool_type _ _ Hc).
  - exact (conv_int_type _ _ _ _ _ Hc).
  - exact (conv_uint_type _ _ _ _ Hc).
  - exact (conv_double_type _ _ _ _ Hc).
  - exact (conv_enum_type _ _ _ Hc).
  - exact (conv_set_type _ _ _ _ Hc).
  - exact (conv_string_type _ _ Hc).
  - simpl. destruct (String.eqb o "types.Uint32") eqn:E32; [|destruct (String.eqb o "types.Text") eqn:Et; [|discriminate]].
    + apply conv_u32_type in Hc. exact Hc.
    + apply conv_text_type in Hc. exact Hc.
Qed.

Definition int_valid (lo hi : Z) (n1 : bool) (z : Z) : bool :=
  ((lo <=? z) && (z <=? hi)) || (n1 && (z =? -1)).

Theorem conv_int_exact : forall lo hi n1 k z, in_i64 z = true ->
  convert (TInt lo hi n1) (GI k z) = if int_valid lo hi n1 z then Ok (GI KInt64 z) else Err.
Proof.
  intros lo hi n1 k z H. simpl. rewrite (wrap_s_id z H). unfold conv_int_i64, int_valid.
  destruct ((lo <=? z) && (z <=? hi)); reflexivity.
Qed.

Theorem conv_int_rejects_fraction : forall lo hi n1 n d, Z.rem n (Zpos d) <> 0 ->
  convert (TInt lo hi n1) (GF n d) = Err /\ convert (TInt lo hi n1) (GD n d) = Err.
Proof.
  intros lo hi n1 n d H. simpl. unfold float_i64, frac_int.
  destruct (Z.rem n (Zpos d) =? 0) eqn:E; [apply Z.eqb_eq in E; contradiction|]. auto.
Qed.

Theorem conv_uint_exact : forall lo hi k z, in_u64 z = true ->
  convert (TUint lo hi) (GI k z) = if (lo <=? z) && (z <=? hi) then Ok (GI KUint64 z) else Err.
Proof. intros lo hi k z H. simpl. rewrite (wrap_u_id z H). reflexivity. Qed.

Theorem conv_bool_exact : forall k z, in_i64 z = true ->
  convert TBool (GI k z) = if (z =? 0) || (z =? 1) then Ok (GI KInt8 z) else Err.
Proof. intros k z H. simpl. rewrite (wrap_s_id z H). reflexivity. Qed.

Definition bounds_ok (t : vtype) : bool :=
  match t with
  | TInt lo hi _ => in_i64 lo && in_i64 hi
  | TUint lo hi => in_u64 lo && in_u64 hi
  | _ => true
  end.

Theorem convert_idempotent_num : forall t v,
  match t with TBool | TInt _ _ _ | TUint _ _ | TDouble _ _ | TString => True | _ => False end ->
  bounds_ok t = true -> has_type t v -> convert t v = Ok v.
Proof.
  intros t v Hk Hb Ht. destruct t as [|lo hi n1|lo hi|lo hi|vals|c vals| |o]; try contradiction; simpl in Hb, Ht.
  - destruct Ht as [-> | ->]; reflexivity.
  - (* a value between bounds that fit int64 fits int64, so validation is exact on it *)
    destruct Ht as [z [-> Hz]]. apply andb_true_iff in Hb as [B1 B2]. apply in_i64_iff in B1, B2.
    rewrite conv_int_exact by (apply in_i64_iff; unfold two63 in *; lia).
    unfold int_valid. destruct Hz as [Hz|[-> ->]].
    + apply between_iff in Hz. rewrite Hz. reflexivity.
    + rewrite orb_true_r. reflexivity.
  - destruct Ht as [z [-> Hz]]. apply andb_true_iff in Hb as [B1 B2]. apply in_u64_iff in B1, B2.
    rewrite conv_uint_exact by (apply in_u64_iff; lia). apply between_iff in Hz. rewrite Hz. reflexivity.
  - destruct Ht as [n [d [-> Hz]]]. apply between_iff in Hz. simpl. unfold conv_double_q. rewrite Hz. reflexivity.
  - destruct Ht as [s ->]. reflexivity.
Qed.

Section Steps.
Variable reg : list sysvar.

(* a step changes the state only when it is accepted, and then in one of four ways *)
Lemma step_effect : forall st o,
  (fst (step reg st o) = st /\ snd (step reg st o) <> Accepted) \/
  (snd (step reg st o) = Accepted /\
   match o with
   | NewSession => fst (step reg st o) = mkState (glob st) (sessions st ++ [mkSess (glob st) (fun _ => GNil)])
   | SetGlobal s x v =>
       exists sv v', valid_session st s = true /\ lookup reg x = Some sv /\ set_value sv true v = Ok v' /\
         fst (step reg st o) = mkState (upd (glob st) (key x) v') (sessions st)
   | SetSession s x v =>
       exists sv v', valid_session st s = true /\ lookup reg x = Some sv /\ set_value sv false v = Ok v' /\
         fst (step reg st o) =
         mkState (glob st) (upd_nth (sessions st) s (fun ss => mkSess (upd (s_sys ss) (key x) v') (s_user ss)))
   | SetUser s u v =>
       valid_session st s = true /\
       fst (step reg st o) =
       mkState (glob st) (upd_nth (sessions st) s (fun ss => mkSess (s_sys ss) (upd (s_user ss) (key u) v)))
   end).
Proof.
  intros st [|s x v|s x v|s u v]; simpl; [right; auto| | |];
    (destruct (valid_session st s); simpl; [|left; split; [reflexivity|discriminate]]).
  - destruct (lookup reg x) as [sv|]; [destruct (set_value sv true v) as [v'| |] eqn:E|]; simpl;
      [right; split; [reflexivity | exists sv, v'; auto] | left; split; [reflexivity|discriminate] ..].
  - destruct (lookup reg x) as [sv|]; [destruct (set_value sv false v) as [v'| |] eqn:E|]; simpl;
      [right; split; [reflexivity | exists sv, v'; auto] | left; split; [reflexivity|discriminate] ..].
  - right. auto.
Qed.

Lemma not_accepted_no_effect : forall st o st' r, step reg st o = (st', r) -> r <> Accepted -> st' = st.
Proof.
  intros st o st' r H Hr. destruct (step_effect st o) as [[E _]|[E _]]; rewrite H in E; simpl in E; congruence.
Qed.

Theorem rejected_no_effect : forall st o st', step reg st o = (st', Rejected) -> st' = st.
Proof. intros st o st' H. apply (not_accepted_no_effect _ _ _ _ H). discriminate. Qed.

Theorem unmodelled_no_effect : forall st o st', step reg st o = (st', Unmodelled) -> st' = st.
Proof. intros st o st' H. apply (not_accepted_no_effect _ _ _ _ H). discriminate. Qed.

Lemma set_value_invalid : forall sv g v, convert (v_type sv) v = Err -> set_value sv g v = Err.
Proof.
  intros sv g v H. unfold set_value. rewrite H.
  destruct (g && scope_eqb (v_scope sv) ScSession); auto.
  destruct (negb g && scope_eqb (v_scope sv) ScGlobal); auto.
  destruct (read_only sv); auto.
Qed.

(* an invalid value is rejected, with either scope keyword, and nothing changes *)
Theorem invalid_rejected : forall st s x v sv,
  valid_session st s = true -> lookup reg x = Some sv -> convert (v_type sv) v = Err ->
  step reg st (SetSession s x v) = (st, Rejected) /\ step reg st (SetGlobal s x v) = (st, Rejected).
Proof.
  intros st s x v sv Hs Hl Hc. simpl. rewrite Hs, Hl. simpl.
  rewrite (set_value_invalid sv false v Hc), (set_value_invalid sv true v Hc). auto.
Qed.

Theorem unknown_rejected : forall st s x v, valid_session st s = true -> lookup reg x = None ->
  step reg st (SetSession s x v) = (st, Rejected) /\ step reg st (SetGlobal s x v) = (st, Rejected).
Proof. intros st s x v Hs Hl. simpl. rewrite Hs, Hl. auto. Qed.

Theorem scope_rules : forall st s x v sv,
  valid_session st s = true -> lookup reg x = Some sv ->
  (read_only sv = true ->
     step reg st (SetSession s x v) = (st, Rejected) /\ step reg st (SetGlobal s x v) = (st, Rejected)) /\
  (v_scope sv = ScGlobal -> step reg st (SetSession s x v) = (st, Rejected)) /\
  (v_scope sv = ScSession -> step reg st (SetGlobal s x v) = (st, Rejected)).
Proof.
  intros st s x v sv Hs Hl. simpl. rewrite Hs, Hl. simpl. unfold set_value.
  split; [|split].
  - intros Hr. rewrite Hr. simpl.
    destruct (scope_eqb (v_scope sv) ScGlobal); destruct (scope_eqb (v_scope sv) ScSession); auto.
  - intros Hsc. rewrite Hsc. reflexivity.
  - intros Hsc. rewrite Hsc. reflexivity.
Qed.

Lemma set_value_ok : forall sv g v v', set_value sv g v = Ok v' ->
  convert (v_type sv) v = Ok v' /\ read_only sv = false /\
  (g = true -> v_scope sv <> ScSession) /\ (g = false -> v_scope sv <> ScGlobal).
Proof.
  intros sv g v v' H. unfold set_value in H.
  destruct (g && scope_eqb (v_scope sv) ScSession) eqn:A; [discriminate|].
  destruct (negb g && scope_eqb (v_scope sv) ScGlobal) eqn:B; [discriminate|].
  destruct (read_only sv) eqn:C; [discriminate|].
  destruct (convert (v_type sv) v) eqn:D; try discriminate.
  destruct (v_notify sv); [discriminate|]. inversion H; subst.
  split; [reflexivity|]. split; [reflexivity|]. split.
  - intros Hg E. rewrite Hg, E in A. discriminate.
  - intros Hg E. rewrite Hg, E in B. discriminate.
Qed.

Lemma upd_same : forall m k v, upd m k v k = v.
Proof. intros. unfold upd. rewrite String.eqb_refl. reflexivity. Qed.

Lemma upd_other : forall m k v k', k <> k' -> upd m k v k' = m k'.
Proof. intros m k v k' H. unfold upd. destruct (String.eqb k k') eqn:E; auto. apply String.eqb_eq in E. contradiction. Qed.

Lemma valid_nth : forall st s, valid_session st s = true -> exists ss, nth_error (sessions st) s = Some ss.
Proof.
  intros st s H. unfold valid_session in H. apply Nat.ltb_lt in H.
  destruct (nth_error (sessions st) s) eqn:E; eauto. apply nth_error_None in E. lia.
Qed.

(* SET SESSION: what the session reads back is the converted value, of the variable's type *)
Theorem set_session_roundtrip : forall st s x v st',
  step reg st (SetSession s x v) = (st', Accepted) ->
  exists sv v', lookup reg x = Some sv /\ convert (v_type sv) v = Ok v' /\ has_type (v_type sv) v' /\
                read_bare st' s x = RVal v' /\ read_session reg st' s x = RVal v'.
Proof.
  intros st s x v st' H.
  destruct (step_effect st (SetSession s x v)) as [[_ E]|[_ [sv [v' [Hs [Hl [Hv E]]]]]]]; rewrite H in E;
    [contradiction|]. simpl in E. subst st'.
  apply set_value_ok in Hv as [Hc [_ [_ Hg]]].
  assert (Hr : read_bare (mkState (glob st) (upd_nth (sessions st) s (fun ss => mkSess (upd (s_sys ss) (key x) v') (s_user ss)))) s x
               = RVal v').
  { unfold read_bare. simpl. rewrite nth_error_upd_nth_eq.
    destruct (valid_nth st s Hs) as [ss ->]. simpl. rewrite upd_same. reflexivity. }
  exists sv, v'. repeat split; auto.
  - eapply convert_has_type; eauto.
  - unfold read_session. rewrite Hl.
    destruct (scope_eqb (v_scope sv) ScGlobal) eqn:E; [|exact Hr].
    destruct (v_scope sv); try discriminate. exfalso. apply Hg; auto.
Qed.

(* SET SESSION in s: the globals, every other session, and every other variable of s are untouched *)
Theorem set_session_isolation : forall st s x v st' o,
  step reg st (SetSession s x v) = (st', o) ->
  (forall y, get_global st' y = get_global st y) /\
  (forall s', s' <> s -> nth_error (sessions st') s' = nth_error (sessions st) s') /\
  (forall y, key y <> key x -> read_bare st' s y = read_bare st s y) /\
  (forall u, get_user st' s u = get_user st s u).
Proof.
  intros st s x v st' o H.
  destruct (step_effect st (SetSession s x v)) as [[E _]|[_ [sv [v' [_ [_ [_ E]]]]]]]; rewrite H in E; simpl in E;
    subst st'; [auto|].
  repeat split; auto.
  - intros s' Hn. simpl. apply nth_error_upd_nth_neq. auto.
  - intros y Hy. unfold read_bare. simpl. rewrite nth_error_upd_nth_eq.
    destruct (nth_error (sessions st) s); simpl; auto. rewrite upd_other; auto.
  - intros u. unfold get_user. simpl. rewrite nth_error_upd_nth_eq.
    destruct (nth_error (sessions st) s); simpl; auto.
Qed.

(* SET GLOBAL: the global value is the converted value; no existing session's own value changes *)
Theorem set_global_roundtrip : forall st s x v st',
  step reg st (SetGlobal s x v) = (st', Accepted) ->
  exists sv v', lookup reg x = Some sv /\ convert (v_type sv) v = Ok v' /\ has_type (v_type sv) v' /\
                get_global st' x = v' /\ sessions st' = sessions st /\
                (forall y, key y <> key x -> get_global st' y = get_global st y).
Proof.
  intros st s x v st' H.
  destruct (step_effect st (SetGlobal s x v)) as [[_ E]|[_ [sv [v' [_ [Hl [Hv E]]]]]]]; rewrite H in E;
    [contradiction|]. simpl in E. subst st'.
  apply set_value_ok in Hv as [Hc _].
  exists sv, v'. repeat split; auto.
  - eapply convert_has_type; eauto.
  - unfold get_global. simpl. apply upd_same.
  - intros y Hy. unfold get_global. simpl. apply upd_other. auto.
Qed.

(* a new session starts from the current global values *)
Theorem new_session_sees_global : forall st y,
  read_bare (fst (step reg st NewSession)) (length (sessions st)) y = RVal (get_global st y).
Proof.
  intros st y. simpl. unfold read_bare. simpl. rewrite nth_error_app2, Nat.sub_diag by lia. reflexivity.
Qed.

Theorem set_user_roundtrip : forall st s u v, valid_session st s = true ->
  let st' := fst (step reg st (SetUser s u v)) in
  snd (step reg st (SetUser s u v)) = Accepted /\
  get_user st' s u = RVal v /\
  (forall u', key u' <> key u -> get_user st' s u' = get_user st s u') /\
  (forall s' u', s' <> s -> get_user st' s' u' = get_user st s' u') /\
  (forall s' y, read_bare st' s' y = read_bare st s' y) /\
  (forall y, get_global st' y = get_global st y).
Proof.
  intros st s u v Hs. simpl. rewrite Hs. simpl. repeat split; auto.
  - unfold get_user. simpl. rewrite nth_error_upd_nth_eq.
    destruct (valid_nth st s Hs) as [ss ->]. simpl. rewrite upd_same. reflexivity.
  - intros u' Hu. unfold get_user. simpl. rewrite nth_error_upd_nth_eq.
    destruct (nth_error (sessions st) s); simpl; auto. rewrite upd_other; auto.
  - intros s' u' Hn. unfold get_user. simpl. rewrite nth_error_upd_nth_neq; auto.
  - intros s' y. unfold read_bare. simpl. destruct (Nat.eq_dec s s') as [->|Hn].
    + rewrite nth_error_upd_nth_eq. destruct (nth_error (sessions st) s'); auto.
    + rewrite nth_error_upd_nth_neq; auto.
Qed.

Definition sets_session_of (s' : nat) (o : op) : bool :=
  match o with SetSession s _ _ => Nat.eqb s s' | _ => false end.

Definition sets_global_key (k : string) (o : op) : bool :=
  match o with SetGlobal _ x _ => String.eqb (key x) k | _ => false end.

Lemma step_length : forall st o, (length (sessions st) <= length (sessions (fst (step reg st o))))%nat.
Proof.
  intros st o. destruct (step_effect st o) as [[-> _]|[_ E]]; [lia|].
  destruct o as [|s x v|s x v|s u v]; [|destruct E as [sv [v' [_ [_ [_ E]]]]] ..|destruct E as [_ E]]; rewrite E; simpl;
    rewrite ?app_length, ?upd_nth_length; lia.
Qed.

Lemma step_keeps_session_value : forall st o s' y,
  (s' < length (sessions st))%nat -> sets_session_of s' o = false ->
  read_bare (fst (step reg st o)) s' y = read_bare st s' y.
Proof.
  intros st o s' y Hlt Ho. destruct (step_effect st o) as [[-> _]|[_ E]]; [reflexivity|].
  destruct o as [|s x v|s x v|s u v]; [|destruct E as [sv [v' [_ [_ [_ E]]]]] ..|destruct E as [_ E]]; rewrite E;
    unfold read_bare; simpl.
  - rewrite nth_error_app1; auto.
  - reflexivity.
  - apply Nat.eqb_neq in Ho. rewrite nth_error_upd_nth_neq; auto.
  - destruct (Nat.eq_dec s s') as [->|Hn].
    + rewrite nth_error_upd_nth_eq. destruct (nth_error (sessions st) s'); auto.
    + rewrite nth_error_upd_nth_neq; auto.
Qed.

(* whatever the other sessions do -- SET SESSION, SET GLOBAL, user variables, new sessions -- and whatever s' itself
   does except SET SESSION, the session values of s' stay what they were *)
Theorem session_value_changed_only_by_own_set : forall ops st s' y,
  (s' < length (sessions st))%nat -> forallb (fun o => negb (sets_session_of s' o)) ops = true ->
  read_bare (run reg st ops) s' y = read_bare st s' y.
Proof.
  induction ops as [|o r IH]; intros st s' y Hlt Hall; simpl; auto.
  simpl in Hall. apply andb_true_iff in Hall as [Ho Hr]. apply negb_true_iff in Ho.
  rewrite IH; auto.
  - apply step_keeps_session_value; auto.
  - pose proof (step_length st o). lia.
Qed.

Lemma step_keeps_global : forall st o y,
  sets_global_key (key y) o = false -> get_global (fst (step reg st o)) y = get_global st y.
Proof.
  intros st o y Ho. destruct (step_effect st o) as [[-> _]|[_ E]]; [reflexivity|].
  destruct o as [|s x v|s x v|s u v]; [|destruct E as [sv [v' [_ [_ [_ E]]]]] ..|destruct E as [_ E]]; rewrite E;
    try reflexivity.
  unfold get_global. simpl. apply upd_other. intro E'. simpl in Ho. rewrite E', String.eqb_refl in Ho. discriminate.
Qed.

Lemma run_keeps_global : forall ops st y,
  forallb (fun o => negb (sets_global_key (key y) o)) ops = true ->
  get_global (run reg st ops) y = get_global st y.
Proof.
  induction ops as [|o r IH]; intros st y Hall; simpl; auto.
  simpl in Hall. apply andb_true_iff in Hall as [Ho Hr]. apply negb_true_iff in Ho.
  rewrite IH; auto. apply step_keeps_global; auto.
Qed.

(* an accepted SET GLOBAL x = v is what every session opened later starts with, after any further history that
   does not assign the global x again *)
Theorem global_seen_by_new_sessions : forall st s x v st1 ops,
  step reg st (SetGlobal s x v) = (st1, Accepted) ->
  forallb (fun o => negb (sets_global_key (key x) o)) ops = true ->
  exists sv v', lookup reg x = Some sv /\ convert (v_type sv) v = Ok v' /\
    let st2 := run reg st1 ops in
    get_global st2 x = v' /\
    read_bare (fst (step reg st2 NewSession)) (length (sessions st2)) x = RVal v'.
Proof.
  intros st s x v st1 ops H Hall.
  destruct (set_global_roundtrip st s x v st1 H) as [sv [v' [Hl [Hc [_ [Hg _]]]]]].
  exists sv, v'. repeat split; auto; cbv zeta.
  - rewrite run_keeps_global; auto.
  - rewrite new_session_sees_global. rewrite run_keeps_global; auto. rewrite Hg. reflexivity.
Qed.

End Steps.
