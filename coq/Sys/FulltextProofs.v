(* C51 — proofs about the full-text model (Sys/Fulltext.v). *)
From Coq Require Import List NArith Bool Lia QArith Permutation.
Import ListNotations.
From GMS Require Import Base.ListFacts Sys.Fulltext.
Open Scope N_scope.

Lemma leqb_spec a : forall b, leqb a b = true <-> a = b.
Proof.
  induction a as [|x a IH]; intros [|y b]; cbn; split; intros H; try reflexivity; try discriminate.
  - apply andb_true_iff in H. destruct H as [H1 H2]. apply N.eqb_eq in H1. apply IH in H2. congruence.
  - injection H as -> ->. rewrite N.eqb_refl. cbn. now apply IH.
Qed.

Lemma leqb_refl a : leqb a a = true.
Proof. now apply leqb_spec. Qed.

Lemma dkeqb_spec a b : dkeqb a b = true <-> a = b.
Proof.
  destruct a as [a1 a2], b as [b1 b2]. unfold dkeqb. cbn. rewrite andb_true_iff, leqb_spec, N.eqb_eq.
  split; [intros [-> ->]; reflexivity|intros H; injection H; auto].
Qed.

Section MapFacts.
  Context {K V : Type}.
  Variable keqb : K -> K -> bool.
  Hypothesis keqb_spec : forall a b, keqb a b = true <-> a = b.

  Lemma get_app (a b : list (K * V)) k :
    get keqb (a ++ b) k = match get keqb a k with Some v => Some v | None => get keqb b k end.
  Proof.
    induction a as [|[k' v] a IH]; cbn; [reflexivity|]. destruct (keqb k k'); [reflexivity|exact IH].
  Qed.

  Lemma get_remove (m : list (K * V)) k k' :
    get keqb (remove keqb m k) k' = if keqb k' k then None else get keqb m k'.
  Proof.
    unfold remove. induction m as [|[k0 v] m IH]; cbn; [now destruct (keqb k' k)|].
    destruct (keqb k k0) eqn:E; cbn; rewrite IH.
    - apply keqb_spec in E. subst k0. now destruct (keqb k' k).
    - destruct (keqb k' k) eqn:E'; [|reflexivity]. apply keqb_spec in E'. subst k'. now rewrite E.
  Qed.

  Lemma get_set (m : list (K * V)) k v k' :
    get keqb (set keqb m k v) k' = if keqb k' k then Some v else get keqb m k'.
  Proof.
    unfold set. rewrite get_app, get_remove. cbn. destruct (keqb k' k); [reflexivity|]. now destruct (get keqb m k').
  Qed.
End MapFacts.

(* a count table holds no entry for 0 *)
Definition some_pos (n : N) : option N := if n =? 0 then None else Some n.

Section FTP.
  Variable is_char : N -> bool.
  Variable rlen : N -> N.
  Variable ckey : list N -> list N.

  Notation uwords := (uwords is_char rlen ckey).
  Notation ukeys := (ukeys is_char rlen ckey).
  Notation ft_insert := (ft_insert is_char rlen ckey).

  Definition ekey (e : list N * list N * N) : list N := snd (fst e).
  Definition kin (k : list N) (u : list (list N * list N * N)) : bool := existsb (fun e => leqb k (ekey e)) u.
  Definition ucnt (k : list N) (u : list (list N * list N * N)) : option N :=
    match find (fun e => leqb k (ekey e)) u with Some e => Some (snd e) | None => None end.

  Definition nodupk (u : list (list N * list N * N)) : Prop := NoDup (map ekey u).
  Definition pos_counts (u : list (list N * list N * N)) : Prop := Forall (fun e => 1 <= snd e) u.

  Lemma kin_existsb k u : kin k u = existsb (leqb k) (map ekey u).
  Proof. unfold kin. induction u as [|e u IH]; cbn; [reflexivity|]. now rewrite IH. Qed.

  Lemma kin_in k u : kin k u = true <-> In k (map ekey u).
  Proof.
    rewrite kin_existsb, existsb_exists. split.
    - intros (k' & Hi & Hk). apply leqb_spec in Hk. now subst k'.
    - intros Hi. exists k. split; [assumption|apply leqb_refl].
  Qed.

  Lemma kin_notin k u : ~ In k (map ekey u) -> kin k u = false.
  Proof. intros H. apply not_true_is_false. now rewrite kin_in. Qed.

  Lemma kin_ucnt k u : kin k u = match ucnt k u with Some _ => true | None => false end.
  Proof. unfold kin, ucnt. induction u as [|e u IH]; cbn; [reflexivity|]. now destruct (leqb k (ekey e)). Qed.

  Lemma ucnt_pos k u d : pos_counts u -> ucnt k u = Some d -> d <> 0.
  Proof.
    unfold ucnt. intros Hp H. destruct (find _ u) as [e|] eqn:F; [|discriminate]. injection H as <-.
    apply find_some, proj1 in F. apply (proj1 (Forall_forall _ _) Hp) in F. lia.
  Qed.

  Lemma uadd_keys w k u :
    map ekey (uadd w k u) = if kin k u then map ekey u else map ekey u ++ [k].
  Proof.
    induction u as [|[[w' k'] c] u IH]; [reflexivity|].
    cbn [uadd kin existsb]. change (ekey (w', k', c)) with k'.
    destruct (leqb k k') eqn:E; cbn [orb map]; [reflexivity|].
    change (ekey (w', k', c)) with k'. rewrite IH. fold (kin k u). destruct (kin k u); reflexivity.
  Qed.

  Lemma uadd_nodup w k u : nodupk u -> nodupk (uadd w k u).
  Proof.
    unfold nodupk. intros H. rewrite uadd_keys. destruct (kin k u) eqn:E; [assumption|].
    apply NoDup_snoc. split; [exact H|]. intros Hin. apply kin_in in Hin. congruence.
  Qed.

  Lemma uadd_pos w k u : pos_counts u -> pos_counts (uadd w k u).
  Proof.
    induction 1 as [|[[w' k'] c] u Hc Hu IH]; cbn in *.
    - constructor; [cbn; lia|constructor].
    - destruct (leqb k k'); constructor; cbn; try assumption; lia.
  Qed.

  (* whatever holds of the empty list and is kept by uadd holds of the unique words of a document *)
  Lemma uwords_ind (P : list (list N * list N * N) -> Prop) :
    P [] -> (forall w k u, P u -> P (uadd w k u)) -> forall doc, P (uwords doc).
  Proof.
    intros H0 Hs doc. unfold Fulltext.uwords, uniq. revert H0. generalize (@nil (list N * list N * N)).
    induction (tokenize is_char rlen doc) as [|wp ws IH]; cbn; auto.
  Qed.

  Lemma uwords_nodup doc : nodupk (uwords doc).
  Proof. apply uwords_ind; [constructor | apply uadd_nodup]. Qed.

  Lemma uwords_pos doc : pos_counts (uwords doc).
  Proof. apply uwords_ind; [constructor | apply uadd_pos]. Qed.

  Definition find_h (h : N) (rows : list row) := find (fun r => rh r =? h) rows.
  Definition find_k (k : N) (rows : list row) := find (fun r => rk r =? k) rows.
  Definition nrows_with (k : list N) (rows : list row) : N :=
    N.of_nat (length (filter (fun r => kin k (uwords (rdoc r))) rows)).

  (* the index is in sync with a bag of rows *)
  Record Inv (rows : list row) (s : ftst) : Prop := mkInv {
    I_rc : forall h, get N.eqb (rc s) h =
                     option_map (fun r => (1, N.of_nat (length (uwords (rdoc r))))) (find_h h rows);
    I_dc : forall k key, get dkeqb (dc s) (k, key) =
                         match find_k key rows with Some r => ucnt k (uwords (rdoc r)) | None => None end;
    I_gc : forall k, get leqb (gc s) k =
                     if nrows_with k rows =? 0 then None else Some (nrows_with k rows) }.

  Lemma find_k_in rows r : NoDup (map rk rows) -> In r rows -> find_k (rk r) rows = Some r.
  Proof.
    unfold find_k. induction rows as [|x rows IH]; intros Hnd Hin; [destruct Hin|].
    cbn. inversion Hnd as [|? ? Hx Hr]; subst. destruct Hin as [->|Hin].
    - now rewrite N.eqb_refl.
    - destruct (rk x =? rk r) eqn:E.
      + apply N.eqb_eq in E. exfalso. apply Hx. rewrite E. now apply in_map.
      + now apply IH.
  Qed.

  Lemma find_h_some rows r : In r rows -> exists r', find_h (rh r) rows = Some r'.
  Proof.
    unfold find_h. induction rows as [|x rows IH]; intros Hin; [destruct Hin|]. cbn.
    destruct (rh x =? rh r) eqn:E; [eexists; reflexivity|].
    destruct Hin as [->|Hin]; [rewrite N.eqb_refl in E; discriminate|now apply IH].
  Qed.

  Lemma nrows_with_pos k rows r : In r rows -> kin k (uwords (rdoc r)) = true -> nrows_with k rows <> 0.
  Proof.
    unfold nrows_with. intros Hin Hk.
    assert (In r (filter (fun r => kin k (uwords (rdoc r))) rows)) as H by (apply filter_In; split; assumption).
    destruct (filter _ rows); [destruct H|cbn; lia].
  Qed.

  Lemma nrows_with_le k rows : nrows_with k rows <= N.of_nat (length rows).
  Proof.
    unfold nrows_with. induction rows as [|x rows IH]; cbn; [lia|].
    destruct (kin k (uwords (rdoc x))); cbn [length]; lia.
  Qed.

  (* what MATCH finds for a row r of the table: per unique query word its count in r's document, the unique-word count
     stored for r's hash and the number of rows holding the word *)
  Definition synced_contributions (rows : list row) (r : row) (uw : N) (q : list N) : list (N * N * N) :=
    flat_map (fun k => match ucnt k (uwords (rdoc r)) with
                       | Some d => [(d, uw, nrows_with k rows)]
                       | None => []
                       end) (ukeys q).

  (* the three lookups hit together: a word counted in r's document occurs in a row, and counts are never 0 *)
  Lemma contributions_synced rows s q r n uw :
    In r rows ->
    (forall k, get dkeqb (dc s) (k, rk r) = ucnt k (uwords (rdoc r))) ->
    (forall k, get leqb (gc s) k = some_pos (nrows_with k rows)) ->
    get N.eqb (rc s) (rh r) = Some (n, uw) ->
    contributions is_char rlen ckey s q r = synced_contributions rows r uw q.
  Proof.
    intros Hin Hd Hg Hr. apply flat_map_ext. intros k. rewrite Hd, Hg, Hr.
    destruct (ucnt k (uwords (rdoc r))) as [d|] eqn:U; [|reflexivity].
    rewrite (proj2 (N.eqb_neq d 0) (ucnt_pos _ _ _ (uwords_pos _) U)).
    unfold some_pos. rewrite (proj2 (N.eqb_neq _ 0)); [reflexivity|].
    apply (nrows_with_pos k rows r Hin). now rewrite kin_ucnt, U.
  Qed.

  Lemma synced_matches rows r uw q :
    match synced_contributions rows r uw q with [] => false | _ :: _ => true end = shares_word is_char rlen ckey q r.
  Proof.
    unfold synced_contributions, shares_word. induction (ukeys q) as [|k ks IH]; cbn; [reflexivity|].
    change (ukeys (rdoc r)) with (map ekey (uwords (rdoc r))). rewrite <- kin_existsb, kin_ucnt.
    destruct (ucnt k (uwords (rdoc r))); [reflexivity|exact IH].
  Qed.

  Lemma synced_in_range rows r uw q : In r rows ->
    Forall (fun c => let '(d, uw, g) := c in 1 <= d /\ 1 <= g <= N.of_nat (length rows))
           (synced_contributions rows r uw q).
  Proof.
    intros Hin. apply Forall_flat_map, Forall_forall. intros k _.
    destruct (ucnt k (uwords (rdoc r))) as [d|] eqn:U; repeat constructor.
    - pose proof (ucnt_pos _ _ _ (uwords_pos _) U). lia.
    - assert (nrows_with k rows <> 0) by (apply (nrows_with_pos k rows r Hin); now rewrite kin_ucnt, U). lia.
    - apply nrows_with_le.
  Qed.

  Lemma Inv_contributions rows s q r : Inv rows s -> NoDup (map rk rows) -> In r rows ->
    exists uw, contributions is_char rlen ckey s q r = synced_contributions rows r uw q.
  Proof.
    intros HI Hnd Hin. destruct (find_h_some rows r Hin) as [r' Hr'].
    eexists. apply contributions_synced with (n := 1); [exact Hin| |exact (I_gc _ _ HI)|].
    - intros k. now rewrite (I_dc _ _ HI), (find_k_in _ _ Hnd Hin).
    - rewrite (I_rc _ _ HI), Hr'. reflexivity.
  Qed.

  Theorem matches_iff_shares_word rows s q r :
    Inv rows s -> NoDup (map rk rows) -> In r rows ->
    matches is_char rlen ckey s q r = shares_word is_char rlen ckey q r.
  Proof.
    intros HI Hnd Hin. unfold matches. destruct (Inv_contributions rows s q r HI Hnd Hin) as [uw ->].
    apply synced_matches.
  Qed.

  Theorem contributions_in_range rows s q r :
    Inv rows s -> NoDup (map rk rows) -> NoDup (map rh rows) -> In r rows ->
    Forall (fun c => let '(d, uw, g) := c in 1 <= d /\ 1 <= g <= N.of_nat (length rows))
           (contributions is_char rlen ckey s q r).
  Proof.
    intros HI Hnd _ Hin. destruct (Inv_contributions rows s q r HI Hnd Hin) as [uw ->].
    now apply synced_in_range.
  Qed.

  Definition all_short (u : list (list N * list N * N)) : Prop := forall e, In e u -> short rlen e = true.

  Lemma get_upd_glob_inc g k k' :
    get leqb (upd_glob g k true) k' =
    if leqb k' k then Some (match get leqb g k with Some c => c + 1 | None => 1 end) else get leqb g k'.
  Proof. unfold Fulltext.upd_glob. destruct (get leqb g k); apply (get_set leqb leqb_spec). Qed.

  Lemma fold_inc u : nodupk u -> all_short u -> forall g k,
    get leqb (fold_left (fun g e => if short rlen e then upd_glob g (snd (fst e)) true else g) u g) k =
    if kin k u then Some (match get leqb g k with Some c => c + 1 | None => 1 end) else get leqb g k.
  Proof.
    induction u as [|e u IH]; intros Hnd Hs g k; [reflexivity|].
    cbn [fold_left]. rewrite (Hs e (or_introl eq_refl)).
    inversion Hnd as [|? ? Hne Hnd']; subst.
    rewrite IH; [|assumption|intros x Hx; apply Hs; now right].
    cbn [kin existsb]. fold (kin k u). rewrite get_upd_glob_inc. change (snd (fst e)) with (ekey e).
    destruct (leqb k (ekey e)) eqn:E; cbn [orb]; [|reflexivity].
    apply leqb_spec in E. subst k. now rewrite (kin_notin _ _ Hne).
  Qed.

  (* the global counts after indexing the unique words u of one more row *)
  Lemma gc_inc u g k n : nodupk u -> all_short u -> get leqb g k = some_pos n ->
    get leqb (fold_left (fun g e => if short rlen e then upd_glob g (snd (fst e)) true else g) u g) k =
    some_pos (n + if kin k u then 1 else 0).
  Proof.
    intros Hnd Hs Hg. rewrite fold_inc, Hg by assumption. destruct (kin k u); [|now rewrite N.add_0_r].
    unfold some_pos. rewrite (proj2 (N.eqb_neq (n + 1) 0)) by lia. destruct (N.eqb_spec n 0) as [->|_]; reflexivity.
  Qed.

  Lemma fold_doc_ins key u : nodupk u -> all_short u -> forall d,
    (forall e, In e u -> get dkeqb d (ekey e, key) = None) ->
    forall k key',
    get dkeqb (fold_left (fun d e => if short rlen e then
                                      match get dkeqb d (snd (fst e), key) with
                                      | None => set dkeqb d (snd (fst e), key) (snd e)
                                      | Some _ => d
                                      end else d) u d) (k, key') =
    if (key' =? key) && kin k u then ucnt k u else get dkeqb d (k, key').
  Proof.
    induction u as [|e u IH]; intros Hnd Hs d Hfresh k key'; [cbn; now rewrite andb_false_r|].
    cbn [fold_left]. rewrite (Hs e (or_introl eq_refl)).
    inversion Hnd as [|? ? Hne Hnd']; subst.
    change (snd (fst e)) with (ekey e). rewrite (Hfresh e (or_introl eq_refl)).
    rewrite IH; [|assumption|intros x Hx; apply Hs; now right|].
    - rewrite (get_set dkeqb dkeqb_spec). unfold dkeqb, ucnt. cbn [fst snd kin existsb find].
      destruct (leqb k (ekey e)) eqn:E; cbn [orb andb]; [|reflexivity].
      apply leqb_spec in E. subst k. rewrite (kin_notin _ _ Hne), andb_false_r, andb_true_r. reflexivity.
    - intros x Hx. rewrite (get_set dkeqb dkeqb_spec). unfold dkeqb. cbn [fst snd].
      destruct (leqb (ekey x) (ekey e)) eqn:E; [|apply Hfresh; now right].
      apply leqb_spec in E. destruct Hne. rewrite <- E. now apply in_map.
  Qed.

  Lemma find_none_notin (g : row -> N) h rows : ~ In h (map g rows) -> find (fun r => g r =? h) rows = None.
  Proof.
    induction rows as [|x rows IH]; intros H; cbn; [reflexivity|].
    destruct (g x =? h) eqn:E; [apply N.eqb_eq in E; exfalso; apply H; left; assumption|].
    apply IH. intros Hi. apply H. now right.
  Qed.

  (* looking a row up by hash or by key after a row with a new one was appended *)
  Lemma find_snoc_fresh (g : row -> N) h rows r : ~ In (g r) (map g rows) ->
    find (fun x => g x =? h) (rows ++ [r]) = if h =? g r then Some r else find (fun x => g x =? h) rows.
  Proof.
    intros Hn. rewrite (N.eqb_sym h). induction rows as [|x rows IH]; cbn; [reflexivity|].
    destruct (g x =? h) eqn:E.
    - destruct (g r =? h) eqn:E'; [|reflexivity].
      apply N.eqb_eq in E, E'. destruct Hn. left. congruence.
    - apply IH. intros Hi. apply Hn. now right.
  Qed.

  Lemma nrows_with_app k rows r :
    nrows_with k (rows ++ [r]) = nrows_with k rows + (if kin k (uwords (rdoc r)) then 1 else 0).
  Proof.
    unfold nrows_with. rewrite filter_app, app_length. cbn [filter].
    destruct (kin k (uwords (rdoc r))); cbn [length]; lia.
  Qed.

  Theorem insert_keeps_sync rows s r :
    Inv rows s -> ~ In (rh r) (map rh rows) -> ~ In (rk r) (map rk rows) -> all_short (uwords (rdoc r)) ->
    Inv (rows ++ [r]) (ft_insert s r).
  Proof.
    intros HI Hh Hk Hs. unfold Fulltext.ft_insert.
    rewrite (I_rc _ _ HI). unfold find_h, find_k. rewrite (find_none_notin rh _ _ Hh).
    constructor; cbn [option_map rc dc gc]; unfold find_h, find_k.
    - intros h. rewrite (get_set N.eqb N.eqb_eq), (find_snoc_fresh rh) by assumption.
      destruct (h =? rh r); [reflexivity|apply (I_rc _ _ HI)].
    - assert (forall k, get dkeqb (dc s) (k, rk r) = None) as Hfresh
        by (intros k; rewrite (I_dc _ _ HI); unfold find_k; now rewrite (find_none_notin rk _ _ Hk)).
      intros k key. rewrite fold_doc_ins by (auto using uwords_nodup).
      rewrite (find_snoc_fresh rk) by assumption.
      destruct (N.eqb_spec key (rk r)) as [->|_]; cbn [andb]; [|apply (I_dc _ _ HI)].
      rewrite kin_ucnt, Hfresh. now destruct (ucnt k (uwords (rdoc r))).
    - intros k. rewrite nrows_with_app. apply gc_inc; [apply uwords_nodup|assumption|apply (I_gc _ _ HI)].
  Qed.

  Lemma Inv_empty : Inv [] (empty_st).
  Proof. constructor; intros; reflexivity. Qed.

  (* a freshly built index (the rows inserted one by one) is in sync *)
  Theorem build_sync rows :
    NoDup (map rh rows) -> NoDup (map rk rows) -> (forall r, In r rows -> all_short (uwords (rdoc r))) ->
    Inv rows (fold_left ft_insert rows empty_st).
  Proof.
    induction rows as [|r rows IH] using rev_ind; intros Hh Hk Hs; [apply Inv_empty|].
    rewrite fold_left_app. cbn [fold_left]. rewrite map_app in Hh, Hk. apply NoDup_snoc in Hh, Hk.
    apply insert_keeps_sync; try tauto.
    - apply IH; try tauto. intros x Hx. apply Hs, in_or_app. now left.
    - apply Hs, in_or_app. right. now left.
  Qed.
End FTP.

Definition w_alpha_beta : list N := [97;108;112;104;97;32;98;101;116;97].       (* "alpha beta" *)
Definition w_r1 : row := mkrow 1 1 w_alpha_beta.

(* the indexed path returns a row once per matching query word *)
Lemma indexed_match_duplicates :
  match_result ascii_is_char ascii_rlen key_bin true
    (run_ops ascii_is_char ascii_rlen key_bin [OIns w_r1]) w_alpha_beta [w_r1] = [w_r1; w_r1].
Proof. vm_compute. reflexivity. Qed.

(* two rows whose hashed bytes coincide ("a"+"bcdef hello" = "ab"+"cdef hello"): the second row is never indexed *)
Definition w_c1 : row := mkrow 1 1 [98;99;100;101;102;32;104;101;108;108;111].  (* pk "a",  doc "bcdef hello" *)
Definition w_c2 : row := mkrow 1 2 [99;100;101;102;32;104;101;108;108;111].     (* pk "ab", doc "cdef hello" *)
Lemma hash_collision_breaks_match :
  let s := run_ops ascii_is_char ascii_rlen key_bin [OIns w_c1; OIns w_c2] in
  let q := [99;100;101;102] in
  shares_word ascii_is_char ascii_rlen key_bin q w_c2 = true /\
  matches ascii_is_char ascii_rlen key_bin s q w_c2 = false.
Proof. vm_compute. split; reflexivity. Qed.

Lemma fulltext_nonvacuous :
  map fst (tokenize ascii_is_char ascii_rlen [68;111;110;39;116;32;97;98;32;115;116;111;112;39;39;120;95;49])
    = [[68;111;110;39;116]; [115;116;111;112]; [120;95;49]]              (* "Don't ab stop''x_1" *)
  /\ ukeys ascii_is_char ascii_rlen key_ci [72;105;32;116;104;101;32;84;72;69] = [[84;72;69]]   (* "Hi the THE" *)
  /\ matches ascii_is_char ascii_rlen key_bin (run_ops ascii_is_char ascii_rlen key_bin [OIns w_r1]) [98;101;116;97] w_r1 = true.
Proof. vm_compute. repeat split; reflexivity. Qed.

(* the sign of the relevance, for any positive contribution function *)
Section Relevance.
  Variable cf : N -> N -> N -> N -> Q.      (* (ln dc + 1) * (u / (1 + 0.115 u)) * (ln (n / gc) + 1) *)
  Hypothesis cf_pos : forall d u g n, 1 <= d -> 1 <= g <= n -> (0 < cf d u g n)%Q.

  Definition relevance (n : N) (cs : list (N * N * N)) : Q :=
    fold_right (fun c a => let '(d, u, g) := c in (cf d u g n + a)%Q) 0%Q cs.

  Lemma relevance_nonneg n cs :
    Forall (fun c => let '(d, uw, g) := c in 1 <= d /\ 1 <= g <= n) cs -> (0 <= relevance n cs)%Q.
  Proof.
    induction 1 as [|[[d u] g] cs [Hd Hg] _ IH]; cbn; [apply Qle_refl|].
    exact (Qplus_le_compat 0 _ 0 _ (Qlt_le_weak _ _ (cf_pos d u g n Hd Hg)) IH).
  Qed.

  Lemma relevance_pos n cs :
    Forall (fun c => let '(d, uw, g) := c in 1 <= d /\ 1 <= g <= n) cs ->
    ((0 < relevance n cs)%Q <-> cs <> []).
  Proof.
    intros H. destruct H as [|[[d u] g] cs [Hd Hg] H]; cbn.
    - split; [intros Hp; now apply Qlt_irrefl in Hp|congruence].
    - split; [discriminate|intros _].
      exact (Qplus_lt_le_compat 0 _ 0 _ (cf_pos d u g n Hd Hg) (relevance_nonneg n cs H)).
  Qed.
End Relevance.
