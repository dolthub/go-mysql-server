(* C51 — index maintenance over arbitrary DML histories (insert, delete, update), including identical rows in
   keyless tables.  Continues Sys/FulltextProofs.v. *)
From Coq Require Import List NArith Arith Bool Lia Permutation.
Import ListNotations.
From GMS Require Import Base.ListFacts Sys.Fulltext Sys.FulltextProofs.
Open Scope N_scope.

Section Sync.
  Variable is_char : N -> bool.
  Variable rlen : N -> N.
  Variable ckey : list N -> list N.

  Notation uwords := (uwords is_char rlen ckey).
  Notation ft_insert := (ft_insert is_char rlen ckey).
  Notation ft_delete := (ft_delete is_char rlen ckey).
  Notation apply_op := (apply_op is_char rlen ckey).
  Notation run_ops := (run_ops is_char rlen ckey).
  Notation nrows_with := (nrows_with is_char rlen ckey).
  Notation all_short := (all_short rlen).

  (* a row hash or a key identifies the whole row: PRIMARY KEY uniqueness for keyed tables (key = hash for keyless
     ones), and no two different rows with the same hash (HashRow assumed injective on the rows of the history) *)
  Definition wfb (rows : list row) : Prop :=
    forall x y, In x rows -> In y rows -> rh x = rh y \/ rk x = rk y -> x = y.

  Definition count_h (h : N) (rows : list row) : nat := length (filter (fun r => rh r =? h) rows).

  Definition req (x r : row) : bool := (rh x =? rh r) && (rk x =? rk r) && leqb (rdoc x) (rdoc r).

  Lemma req_spec x r : req x r = true <-> x = r.
  Proof.
    unfold req. rewrite !andb_true_iff, !N.eqb_eq, leqb_spec. destruct x, r; cbn. split.
    - intros [[-> ->] ->]. reflexivity.
    - intros H. injection H as -> -> ->. auto.
  Qed.

  Lemma remove_row_perm r rows : In r rows -> Permutation rows (r :: remove_row r rows).
  Proof.
    induction rows as [|x rows IH]; intros H; [destruct H|]. cbn [remove_row]. fold (req x r).
    destruct (req x r) eqn:E.
    - apply req_spec in E. subst x. apply Permutation_refl.
    - destruct H as [->|H]; [assert (req r r = true) as E' by (now apply req_spec); congruence|].
      eapply Permutation_trans; [apply perm_skip, (IH H)|apply perm_swap].
  Qed.

  Lemma wfb_sub rows rows' : (forall x, In x rows' -> In x rows) -> wfb rows -> wfb rows'.
  Proof. intros Hs Hw x y Hx Hy. apply Hw; auto. Qed.

  Lemma wfb_perm rows rows' : Permutation rows rows' -> wfb rows -> wfb rows'.
  Proof. intros P. apply wfb_sub. intros x. apply Permutation_in. now symmetry. Qed.

  Lemma count_cons h r rows : count_h h (r :: rows) = ((if N.eqb (rh r) h then 1 else 0) + count_h h rows)%nat.
  Proof. unfold count_h. cbn [filter]. now destruct (rh r =? h). Qed.

  Lemma count_pos_exists h rows : (1 <= count_h h rows)%nat -> exists x, In x rows /\ rh x = h.
  Proof.
    unfold count_h. induction rows as [|y rows IH]; cbn; [lia|].
    destruct (rh y =? h) eqn:E; [intros _; exists y; split; [now left|now apply N.eqb_eq]|].
    intros H. destruct (IH H) as (x & Hx & Hh). exists x. split; [now right|assumption].
  Qed.

  Lemma count_zero_notin h rows x : count_h h rows = 0%nat -> In x rows -> rh x <> h.
  Proof.
    unfold count_h. intros H Hx Hh.
    assert (In x (filter (fun r => rh r =? h) rows)) as Hf by (apply filter_In; split; [assumption|now apply N.eqb_eq]).
    destruct (filter _ rows); [destruct Hf|discriminate].
  Qed.

  Lemma nrows_with_cons k r rows :
    nrows_with k (r :: rows) = nrows_with k rows + (if kin k (uwords (rdoc r)) then 1 else 0).
  Proof.
    unfold FulltextProofs.nrows_with. cbn [filter]. destruct (kin k (uwords (rdoc r))); cbn [length]; lia.
  Qed.

  (* the index is in sync with the bag (relational form, independent of the order of the rows) *)
  Record Inv2 (rows : list row) (s : ftst) : Prop := mkInv2 {
    J_rc : forall h, match get N.eqb (rc s) h with
                     | None => count_h h rows = 0%nat
                     | Some (n, u) => n = N.of_nat (count_h h rows) /\ (1 <= count_h h rows)%nat /\
                                      exists r, In r rows /\ rh r = h /\ u = N.of_nat (length (uwords (rdoc r)))
                     end;
    J_dc : forall k key, match get dkeqb (dc s) (k, key) with
                         | None => forall r, In r rows -> rk r = key -> kin k (uwords (rdoc r)) = false
                         | Some c => exists r, In r rows /\ rk r = key /\ ucnt k (uwords (rdoc r)) = Some c
                         end;
    J_gc : forall k, get leqb (gc s) k = if nrows_with k rows =? 0 then None else Some (nrows_with k rows) }.

  Lemma Inv2_empty : Inv2 [] empty_st.
  Proof. constructor; intros; cbn; try reflexivity. intros r []. Qed.

  (* what Inv2 asks of the row-count entry of a hash and of the doc-count entry of a word and a key *)
  Definition rc_ok (rows : list row) (h : N) (o : option (N * N)) : Prop :=
    match o with
    | None => count_h h rows = 0%nat
    | Some (n, u) => n = N.of_nat (count_h h rows) /\ (1 <= count_h h rows)%nat /\
                     exists r, In r rows /\ rh r = h /\ u = N.of_nat (length (uwords (rdoc r)))
    end.
  Definition dc_ok (rows : list row) (k : list N) (key : N) (o : option N) : Prop :=
    match o with
    | None => forall r, In r rows -> rk r = key -> kin k (uwords (rdoc r)) = false
    | Some c => exists r, In r rows /\ rk r = key /\ ucnt k (uwords (rdoc r)) = Some c
    end.

  (* both see the table only through the rows with that hash, that key *)
  Lemma rc_ok_transfer rows rows' h o :
    count_h h rows = count_h h rows' -> (forall y, rh y = h -> In y rows -> In y rows') ->
    rc_ok rows h o -> rc_ok rows' h o.
  Proof.
    intros Hc Hi. destruct o as [[n u]|]; cbn; rewrite Hc; [|auto].
    intros (Hn & Hp & y & Hy & Hh & Hu). eauto 8.
  Qed.

  Lemma dc_ok_transfer rows rows' k key o :
    (forall y, rk y = key -> (In y rows <-> In y rows')) -> dc_ok rows k key o -> dc_ok rows' k key o.
  Proof.
    intros Hi. destruct o as [c|]; cbn.
    - intros (y & Hy & Hk & Hu). exists y. rewrite <- (Hi y Hk). auto.
    - intros H y Hy Hk. apply H; [now apply (Hi y Hk)|assumption].
  Qed.

  Lemma rc_ok_cons r rows h o : rh r <> h -> (rc_ok (r :: rows) h o <-> rc_ok rows h o).
  Proof.
    intros Hne. assert (count_h h (r :: rows) = count_h h rows) as Hc
      by (rewrite count_cons; now rewrite (proj2 (N.eqb_neq _ _) Hne)).
    split; apply rc_ok_transfer; auto; [intros y Hy [<-|H]|intros y _ H]; [contradiction|assumption|now right].
  Qed.

  Lemma dc_ok_cons r rows k key o : rk r <> key -> (dc_ok (r :: rows) k key o <-> dc_ok rows k key o).
  Proof. intros Hne. split; apply dc_ok_transfer; intros y Hy; split; cbn; intuition congruence. Qed.

  (* one more copy of a row that is there *)
  Lemma dc_ok_copy r rows k key o : In r rows -> (dc_ok (r :: rows) k key o <-> dc_ok rows k key o).
  Proof. intros Hr. split; apply dc_ok_transfer; intros y _; split; cbn; intuition congruence. Qed.

  (* in a table where hash and key identify the row, the entries of a row that is there are determined *)
  Lemma rc_ok_at rows r o : wfb rows -> In r rows -> rc_ok rows (rh r) o ->
    o = Some (N.of_nat (count_h (rh r) rows), N.of_nat (length (uwords (rdoc r)))).
  Proof.
    intros Hw Hin. destruct o as [[n u]|]; cbn.
    - intros (-> & _ & y & Hy & Hh & ->). now rewrite (Hw y r Hy Hin (or_introl Hh)).
    - intros Hz. now destruct (count_zero_notin _ _ _ Hz Hin).
  Qed.

  Lemma dc_ok_at rows r k o : wfb rows -> In r rows ->
    (dc_ok rows k (rk r) o <-> o = ucnt k (uwords (rdoc r))).
  Proof.
    intros Hw Hin. split.
    - destruct o as [c|]; cbn.
      + intros (y & Hy & Hk & Hu). now rewrite <- (Hw y r Hy Hin (or_intror Hk)).
      + intros H. specialize (H r Hin eq_refl). rewrite kin_ucnt in H.
        now destruct (ucnt k (uwords (rdoc r))).
    - intros ->. destruct (ucnt k (uwords (rdoc r))) eqn:U; cbn; [eauto|].
      intros y Hy Hk. now rewrite (Hw y r Hy Hin (or_intror Hk)), kin_ucnt, U.
  Qed.

  (* a row with the hash of the head is a copy of it; with no such row, no row has its key either *)
  Lemma wfb_head_copy r rows : wfb (r :: rows) -> (1 <= count_h (rh r) rows)%nat -> In r rows.
  Proof.
    intros Hw Hc. destruct (count_pos_exists _ _ Hc) as (y & Hy & Hh).
    now rewrite <- (Hw y r (or_intror Hy) (or_introl eq_refl) (or_introl Hh)).
  Qed.

  Lemma wfb_head_key r rows : wfb (r :: rows) -> count_h (rh r) rows = 0%nat -> forall y, In y rows -> rk y <> rk r.
  Proof.
    intros Hw Hc y Hy Hk. apply (count_zero_notin _ _ _ Hc Hy).
    now rewrite (Hw y r (or_intror Hy) (or_introl eq_refl) (or_intror Hk)).
  Qed.

  (* the invariant speaks of the bag, not of the order of the rows *)
  Lemma Inv2_perm rows rows' s : Permutation rows rows' -> Inv2 rows s -> Inv2 rows' s.
  Proof.
    intros P HI. constructor.
    - intros h. apply (rc_ok_transfer rows); [apply Permutation_length, filter_perm, P| |apply (J_rc _ _ HI)].
      intros y _. apply Permutation_in, P.
    - intros k key. apply (dc_ok_transfer rows); [|apply (J_dc _ _ HI)].
      intros y _. split; apply Permutation_in; [|symmetry]; exact P.
    - intros k. unfold FulltextProofs.nrows_with. rewrite <- (Permutation_length (filter_perm _ _ _ P)). apply (J_gc _ _ HI).
  Qed.

  Definition dec (o : option N) : option N :=
    match o with Some c => if 1 <? c then Some (c - 1) else None | None => None end.

  Lemma get_upd_glob_dec g k k' :
    get leqb (upd_glob g k false) k' = if leqb k' k then dec (get leqb g k) else get leqb g k'.
  Proof.
    unfold upd_glob, dec. destruct (get leqb g k) as [c|] eqn:G.
    - destruct (1 <? c); [apply (get_set leqb leqb_spec)|apply (get_remove leqb leqb_spec)].
    - destruct (leqb k' k) eqn:E; [|reflexivity]. apply leqb_spec in E. now subst k'.
  Qed.

  Lemma fold_dec u : nodupk u -> forall g k,
    get leqb (fold_left (fun g e => upd_glob g (snd (fst e)) false) u g) k =
    if kin k u then dec (get leqb g k) else get leqb g k.
  Proof.
    induction u as [|e u IH]; intros Hnd g k; [reflexivity|].
    cbn [fold_left]. inversion Hnd as [|? ? Hne Hnd']; subst.
    rewrite IH by assumption. cbn [kin existsb]. fold (kin k u). rewrite get_upd_glob_dec.
    change (snd (fst e)) with (ekey e).
    destruct (leqb k (ekey e)) eqn:E; cbn [orb]; [|reflexivity].
    apply leqb_spec in E. subst k. now rewrite (kin_notin _ _ Hne).
  Qed.

  (* the global counts after un-indexing the unique words u of a row *)
  Lemma gc_dec u g k n : nodupk u -> get leqb g k = some_pos (n + if kin k u then 1 else 0) ->
    get leqb (fold_left (fun g e => upd_glob g (snd (fst e)) false) u g) k = some_pos n.
  Proof.
    intros Hnd Hg. rewrite fold_dec, Hg by assumption. destruct (kin k u); [|now rewrite N.add_0_r].
    unfold some_pos, dec. rewrite (proj2 (N.eqb_neq (n + 1) 0)) by lia.
    destruct (N.eqb_spec n 0) as [->|Hn]; [reflexivity|].
    rewrite (proj2 (N.ltb_lt 1 (n + 1))) by lia. f_equal. lia.
  Qed.

  Lemma fold_doc_del key u : forall (d : list ((list N * N) * N)) k key',
    get dkeqb (fold_left (fun d (e : list N * list N * N) => remove dkeqb d (snd (fst e), key)) u d) (k, key') =
    if (key' =? key) && kin k u then None else get dkeqb d (k, key').
  Proof.
    induction u as [|e u IH]; intros d k key'; [cbn; now rewrite andb_false_r|].
    cbn [fold_left]. rewrite IH, (get_remove dkeqb dkeqb_spec). unfold dkeqb.
    cbn [fst snd kin existsb]. fold (kin k u). change (snd (fst e)) with (ekey e).
    destruct (key' =? key), (kin k u), (leqb k (ekey e)); reflexivity.
  Qed.

  (* one row more, one row less: at the head of the list *)
  Lemma insert_head rows s r :
    Inv2 rows s -> wfb (r :: rows) -> all_short (uwords (rdoc r)) -> Inv2 (r :: rows) (ft_insert s r).
  Proof.
    intros HI Hw Hs. unfold Fulltext.ft_insert.
    assert (In r (r :: rows)) as Hr by now left.
    assert (forall h, h <> rh r -> rc_ok (r :: rows) h (get N.eqb (rc s) h)) as Hother
      by (intros h Hne; apply rc_ok_cons; [congruence|apply (J_rc _ _ HI)]).
    assert (forall k, get leqb (fold_left (fun g e => if short rlen e then upd_glob g (snd (fst e)) true else g)
                                          (uwords (rdoc r)) (gc s)) k = some_pos (nrows_with k (r :: rows))) as Hgc.
    { intros k. rewrite nrows_with_cons. apply gc_inc; [apply uwords_nodup|assumption|apply (J_gc _ _ HI)]. }
    pose proof (J_rc _ _ HI (rh r)) as Hrc.
    destruct (get N.eqb (rc s) (rh r)) as [[n uw]|].
    - (* a row with this hash is present: it is r itself *)
      destruct Hrc as (Hn & Hp & x & Hx & Hhx & Hu).
      assert (x = r) as -> by (apply Hw; [now right|exact Hr|now left]).
      constructor; cbn [rc dc gc]; [| |exact Hgc].
      + intros h. rewrite (get_set N.eqb N.eqb_eq). destruct (N.eqb_spec h (rh r)) as [->|Hne]; [|now apply Hother].
        rewrite count_cons, N.eqb_refl. repeat split; [lia|lia|eauto].
      + intros k key. apply dc_ok_copy; [exact Hx|apply (J_dc _ _ HI)].
    - (* no row with this hash, hence none with this key *)
      pose proof (wfb_head_key r rows Hw Hrc) as Hkey.
      assert (forall k, get dkeqb (dc s) (k, rk r) = None) as Hfresh.
      { intros k. pose proof (J_dc _ _ HI k (rk r)) as Hd. destruct (get dkeqb (dc s) (k, rk r)); [|reflexivity].
        destruct Hd as (y & Hy & Hk & _). now destruct (Hkey y Hy Hk). }
      constructor; cbn [rc dc gc]; [| |exact Hgc].
      + intros h. rewrite (get_set N.eqb N.eqb_eq). destruct (N.eqb_spec h (rh r)) as [->|Hne]; [|now apply Hother].
        rewrite count_cons, N.eqb_refl, Hrc. repeat split; [lia|eauto].
      + intros k key. rewrite fold_doc_ins by (auto using uwords_nodup).
        destruct (N.eqb_spec key (rk r)) as [->|Hne]; cbn [andb].
        * apply (proj2 (dc_ok_at (r :: rows) r k _ Hw Hr)). rewrite kin_ucnt, Hfresh.
          now destruct (ucnt k (uwords (rdoc r))).
        * apply dc_ok_cons; [congruence|apply (J_dc _ _ HI)].
  Qed.

  Lemma delete_head rows s r : Inv2 (r :: rows) s -> wfb (r :: rows) -> Inv2 rows (ft_delete s r).
  Proof.
    intros HI Hw. unfold Fulltext.ft_delete.
    assert (In r (r :: rows)) as Hr by now left.
    assert (forall h, h <> rh r -> rc_ok rows h (get N.eqb (rc s) h)) as Hother
      by (intros h Hne; apply (rc_ok_cons r); [congruence|apply (J_rc _ _ HI)]).
    assert (forall k, get leqb (fold_left (fun g e => upd_glob g (snd (fst e)) false) (uwords (rdoc r)) (gc s)) k =
                      some_pos (nrows_with k rows)) as Hgc.
    { intros k. apply gc_dec; [apply uwords_nodup|]. rewrite <- nrows_with_cons. apply (J_gc _ _ HI). }
    rewrite (rc_ok_at _ _ _ Hw Hr (J_rc _ _ HI (rh r))), count_cons, N.eqb_refl.
    destruct (N.ltb_spec 1 (N.of_nat (1 + count_h (rh r) rows))) as [Hc|Hc].
    - (* other copies of the row remain *)
      assert (In r rows) as Hr' by (apply (wfb_head_copy r rows Hw); lia).
      constructor; cbn [rc dc gc]; [| |exact Hgc].
      + intros h. rewrite (get_set N.eqb N.eqb_eq). destruct (N.eqb_spec h (rh r)) as [->|Hne]; [|now apply Hother].
        repeat split; [lia|lia|eauto].
      + intros k key. apply (dc_ok_copy r); [exact Hr'|apply (J_dc _ _ HI)].
    - (* the last copy goes away, and with it the only row with this key *)
      assert (count_h (rh r) rows = 0%nat) as C by lia.
      constructor; cbn [rc dc gc]; [| |exact Hgc].
      + intros h. rewrite (get_remove N.eqb N.eqb_eq). destruct (N.eqb_spec h (rh r)) as [->|Hne]; [exact C|now apply Hother].
      + intros k key. rewrite fold_doc_del. destruct (N.eqb_spec key (rk r)) as [->|Hne]; cbn [andb].
        * rewrite (proj1 (dc_ok_at _ _ _ _ Hw Hr) (J_dc _ _ HI k (rk r))), kin_ucnt.
          destruct (ucnt k (uwords (rdoc r))); intros y Hy Hk; now destruct (wfb_head_key r rows Hw C y Hy Hk).
        * apply (dc_ok_cons r); [congruence|apply (J_dc _ _ HI)].
  Qed.

  Theorem insert_keeps_sync2 rows s r :
    Inv2 rows s -> wfb (rows ++ [r]) -> all_short (uwords (rdoc r)) -> Inv2 (rows ++ [r]) (ft_insert s r).
  Proof.
    intros HI Hw Hs. pose proof (Permutation_cons_append rows r) as P.
    apply (Inv2_perm _ _ _ P), insert_head; [assumption| |assumption]. now apply (wfb_perm _ _ (Permutation_sym P)).
  Qed.

  Theorem delete_keeps_sync2 rows s r :
    Inv2 rows s -> wfb rows -> In r rows -> Inv2 (remove_row r rows) (ft_delete s r).
  Proof.
    intros HI Hw Hr. pose proof (remove_row_perm r rows Hr) as P.
    apply delete_head; [now apply (Inv2_perm rows)|now apply (wfb_perm rows)].
  Qed.

  Notation apply_rows := Fulltext.apply_rows.

  Definition ok_op (rows : list row) (o : op) : Prop :=
    match o with
    | OIns r => wfb (rows ++ [r]) /\ all_short (uwords (rdoc r))
    | ODel r => In r rows
    | OUpd a b => In a rows /\ wfb (remove_row a rows ++ [b]) /\ all_short (uwords (rdoc b))
    end.

  Fixpoint valid_hist (rows : list row) (ops : list op) : Prop :=
    match ops with
    | [] => True
    | o :: t => ok_op rows o /\ valid_hist (apply_rows rows o) t
    end.

  Lemma wfb_app_l rows r : wfb (rows ++ [r]) -> wfb rows.
  Proof. apply wfb_sub. intros x Hx. apply in_or_app. now left. Qed.

  Lemma step_sync rows s o : wfb rows -> Inv2 rows s -> ok_op rows o ->
    wfb (apply_rows rows o) /\ Inv2 (apply_rows rows o) (apply_op s o).
  Proof.
    intros Hw HI Hok. destruct o as [r|r|a b]; cbn [ok_op Fulltext.apply_rows Fulltext.apply_op] in *.
    - destruct Hok as [Hw' Hs]. split; [assumption|now apply insert_keeps_sync2].
    - split; [|now apply delete_keeps_sync2].
      apply (wfb_sub rows); [|assumption]. intros x Hx. apply (Permutation_in _ (Permutation_sym (remove_row_perm r rows Hok))). now right.
    - destruct Hok as (Ha & Hw' & Hs). split; [assumption|]. unfold Fulltext.ft_update.
      apply insert_keeps_sync2; [now apply delete_keeps_sync2|assumption|assumption].
  Qed.

  Lemma hist_sync ops : forall rows s, wfb rows -> Inv2 rows s -> valid_hist rows ops ->
    wfb (fold_left apply_rows ops rows) /\ Inv2 (fold_left apply_rows ops rows) (fold_left apply_op ops s).
  Proof.
    induction ops as [|o ops IH]; intros rows s Hw HI Hv; [split; assumption|].
    cbn [fold_left]. destruct Hv as [Hok Hv]. destruct (step_sync rows s o Hw HI Hok) as [Hw' HI'].
    now apply IH.
  Qed.

  (* index_sync: after ANY valid history of inserts, deletes and updates the index tables are exactly those
     determined by the current rows *)
  Theorem index_sync ops : valid_hist [] ops ->
    wfb (fold_left apply_rows ops []) /\ Inv2 (fold_left apply_rows ops []) (run_ops ops).
  Proof.
    intros Hv. apply hist_sync; [intros x y []|apply Inv2_empty|assumption].
  Qed.

  (* MATCH over a synced index, duplicate rows allowed *)
  Lemma Inv2_contributions rows s q r : Inv2 rows s -> wfb rows -> In r rows ->
    exists uw, contributions is_char rlen ckey s q r = synced_contributions is_char rlen ckey rows r uw q.
  Proof.
    intros HI Hw Hin. eexists. eapply contributions_synced; [exact Hin| |exact (J_gc _ _ HI)|].
    - intros k. exact (proj1 (dc_ok_at rows r k _ Hw Hin) (J_dc _ _ HI k (rk r))).
    - exact (rc_ok_at rows r _ Hw Hin (J_rc _ _ HI (rh r))).
  Qed.

  Theorem matches_iff_shares_word2 rows s q r :
    Inv2 rows s -> wfb rows -> In r rows ->
    matches is_char rlen ckey s q r = shares_word is_char rlen ckey q r.
  Proof.
    intros HI Hw Hin. unfold matches. destruct (Inv2_contributions rows s q r HI Hw Hin) as [uw ->].
    apply synced_matches.
  Qed.

  Theorem contributions_in_range2 rows s q r :
    Inv2 rows s -> wfb rows -> In r rows ->
    Forall (fun c => let '(d, uw, g) := c in 1 <= d /\ 1 <= g <= N.of_nat (length rows))
           (contributions is_char rlen ckey s q r).
  Proof.
    intros HI Hw Hin. destruct (Inv2_contributions rows s q r HI Hw Hin) as [uw ->]. now apply synced_in_range.
  Qed.

  (* the two halves together: after any valid history MATCH is true of exactly the rows sharing a word *)
  Theorem match_after_history ops q r :
    valid_hist [] ops -> In r (fold_left apply_rows ops []) ->
    matches is_char rlen ckey (run_ops ops) q r = shares_word is_char rlen ckey q r.
  Proof.
    intros Hv Hin. destruct (index_sync ops Hv) as [Hw HI]. now apply (matches_iff_shares_word2 _ _ q r HI Hw).
  Qed.
End Sync.

(* a concrete valid history with a duplicate row, a delete and an update (ASCII instance, keyless table: key = hash) *)
Definition w_r2 : row := mkrow 2 2 [98;101;116;97;32;103;97;109;109;97].       (* "beta gamma" *)

Lemma all_short_dec rlen u : forallb (short rlen) u = true -> all_short rlen u.
Proof. intros H e He. rewrite forallb_forall in H. now apply H. Qed.

Lemma wfb_copies r n : wfb (repeat r n).
Proof. intros x y Hx Hy _. apply repeat_spec in Hx, Hy. congruence. Qed.

Lemma sync_nonvacuous :
  valid_hist ascii_is_char ascii_rlen key_bin [] [OIns w_r1; OIns w_r1; ODel w_r1; OUpd w_r1 w_r2]
  /\ fold_left apply_rows [OIns w_r1; OIns w_r1; ODel w_r1; OUpd w_r1 w_r2] [] = [w_r2]
  /\ matches ascii_is_char ascii_rlen key_bin
       (run_ops ascii_is_char ascii_rlen key_bin [OIns w_r1; OIns w_r1; ODel w_r1; OUpd w_r1 w_r2]) [103;97;109;109;97] w_r2 = true.
Proof.
  split; [|split; vm_compute; reflexivity].
  cbn [valid_hist ok_op apply_rows app].
  repeat split; try (apply all_short_dec; vm_compute; reflexivity).
  - exact (wfb_copies w_r1 1).
  - exact (wfb_copies w_r1 2).
  - left. reflexivity.
  - vm_compute. left. reflexivity.
  - exact (wfb_copies w_r2 1).
Qed.
