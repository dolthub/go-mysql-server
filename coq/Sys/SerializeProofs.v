(* Proofs about persisting and reloading (C41). *)
From Coq Require Import List NArith Bool Lia.
Import ListNotations.
From GMS Require Import Sys.Privs Sys.PrivsProofs Sys.Serialize.
Open Scope N_scope.

(* rebuilding a map from the vector stored for it *)
Section Rebuild.
  Context {V S W : Type}.
  Variable ser : V -> S.      (* what is stored for a live value *)
  Variable nm : S -> str.     (* the name it is stored under *)
  Variable ld : S -> W.       (* the value loaded from it *)

  Definition pick (k : str) (r : option W) (x : S) : option W := if seqb k (nm x) then Some (ld x) else r.

  (* the last element stored under the name wins *)
  Lemma rebuild_get l : forall acc k,
    aget k (fold_left (fun acc x => aput (nm x) (ld x) acc) l acc) = fold_left (pick k) l (aget k acc).
  Proof. induction l as [|x l IH]; intros acc k; [reflexivity|]. cbn [fold_left]. rewrite IH, aget_aput. reflexivity. Qed.

  (* a live map whose keys are unique and equal to the stored names, filtered by P, stored and rebuilt *)
  Lemma rebuild_filtered (P : V -> bool) (m : list (str * V)) k :
    keys_unique m = true -> (forall kv, In kv m -> fst kv = nm (ser (snd kv))) ->
    aget k (fold_left (fun acc x => aput (nm x) (ld x) acc) (map (fun kv => ser (snd kv)) (filter (fun kv => P (snd kv)) m)) []) =
      match aget k m with Some v => if P v then Some (ld (ser v)) else None | None => None end.
  Proof.
    rewrite rebuild_get. cbn [aget]. generalize (@None W).
    induction m as [|[k0 v0] m IH]; intros r Hu Hk; [reflexivity|].
    cbn [keys_unique] in Hu. apply andb_prop in Hu. destruct Hu as [Hn Hu]. rewrite key_aget in Hn.
    pose proof (Hk _ (or_introl eq_refl)) as Hk0. cbn [fst snd] in Hk0.
    pose proof (fun r => IH r Hu (fun kv Hi => Hk kv (or_intror Hi))) as IH'.
    cbn [filter snd aget]. destruct (seqb_spec k k0) as [->|N].
    - (* k0 itself: its entry answers, since no later entry has that key *)
      destruct (aget k0 m); [discriminate|].
      destruct (P v0); cbn [map fold_left snd]; rewrite IH'; [|reflexivity].
      unfold pick. rewrite <- Hk0, seqb_refl. reflexivity.
    - (* another key skips the entry *)
      destruct (P v0); cbn [map fold_left snd]; rewrite IH'; [|reflexivity].
      unfold pick. rewrite <- Hk0. destruct (seqb_spec k k0); [contradiction|reflexivity].
  Qed.
End Rebuild.

Lemma lower_c_idem c : lower_c (lower_c c) = lower_c c.
Proof.
  unfold lower_c. destruct ((65 <=? c) && (c <=? 90)) eqn:E.
  - apply andb_prop in E. destruct E as [A B]. apply N.leb_le in A, B.
    destruct ((65 <=? c + 32) && (c + 32 <=? 90)) eqn:F; [|reflexivity].
    apply andb_prop in F. destruct F as [_ F]. apply N.leb_le in F. lia.
  - rewrite E. reflexivity.
Qed.
Lemma lower_idem s : lower (lower s) = lower s.
Proof. unfold lower. rewrite map_map. apply map_ext. exact lower_c_idem. Qed.

Lemma load_ser_dbs_get ps k :
  ps_wf ps = true -> ps_lc ps = true ->
  aget k (ps_dbs (load_ps (ser_ps ps))) =
    match aget k (ps_dbs ps) with Some e => if db_has_privs e then Some (load_db (ser_db e)) else None | None => None end.
Proof.
  intros Hw Hl. apply andb_prop in Hw. destruct Hw as [Hu Hw].
  apply (rebuild_filtered ser_db ds_name load_db db_has_privs (ps_dbs ps) k Hu).
  (* the key is the lower-cased name, and the name is lower case already *)
  intros kv Hi. unfold ps_lc in Hl. rewrite forallb_forall in Hw, Hl. specialize (Hw kv Hi). specialize (Hl kv Hi).
  apply andb_prop in Hw, Hl. destruct Hw as [A _], Hl as [B _]. apply seqb_eq in A, B. cbn [ser_db ds_name]. congruence.
Qed.

Theorem reload_preserves_global ps p : e_has_g (load_ps (ser_ps ps)) p = e_has_g ps p.
Proof. reflexivity. Qed.

Theorem reload_preserves_database_guarded ps d p :
  ps_wf ps = true -> ps_lc ps = true -> e_has_d (load_ps (ser_ps ps)) d p = e_has_d ps d p.
Proof.
  intros Hw Hl. unfold e_has_d. rewrite (load_ser_dbs_get ps (lower d) Hw Hl).
  destruct (aget (lower d) (ps_dbs ps)) as [e|]; [|reflexivity].
  destruct (db_has_privs e) eqn:Hp; [reflexivity|].
  unfold db_has_privs in Hp. apply orb_false_iff in Hp. destruct Hp as [Hp _].
  apply negb_false_iff in Hp. destruct (db_privs e); [reflexivity|discriminate].
Qed.

(* the unguarded statements are false *)
Theorem reload_preserves_database_refuted :
  exists ps d p, ps_wf ps = true /\ e_has_d ps d p = true /\ e_has_d (load_ps (ser_ps ps)) d p = false.
Proof.
  exists (mkPS [] [([100;98], mkDB [68;98] [0] [])]), [68;98], 0. vm_compute. auto.
Qed.

Theorem reload_preserves_table_refuted :
  exists ps d t p, ps_wf ps = true /\ e_has_t ps d t p = true /\ e_has_t (load_ps (ser_ps ps)) d t p = false.
Proof.
  exists (mkPS [] [([100;98], mkDB [100;98] [] [([116], mkT [84] [0])])]), [100;98], [84], 0. vm_compute. auto.
Qed.

(* the lower-cased-key witness: an account holding a privilege on database "Db" (live key "db") *)
Theorem reload_identity_refuted : exists m, reload m <> m.
Proof.
  exists (mkM [mkU [117] [37] [] [] false None (mkPS [] [([100;98], mkDB [68;98] [0] [])])] []).
  vm_compute. discriminate.
Qed.

(* account attributes other than the privilege maps survive *)
Theorem reload_preserves_account_fields m :
  map (fun u => (us_name u, us_host u, us_plugin u, us_auth u, us_locked u, us_attrs u)) (m_users (reload m)) =
  map (fun u => (us_name u, us_host u, us_plugin u, us_auth u, us_locked u, us_attrs u)) (m_users m).
Proof.
  unfold reload, load, serialize. cbn [m_users ms_users]. rewrite !map_map. apply map_ext. intros u. reflexivity.
Qed.

(* role edges survive a reload, WITH ADMIN OPTION included, for every state *)
Theorem reload_preserves_edges m : m_edges (reload m) = m_edges m.
Proof.
  unfold reload, load, serialize. cbn [m_edges ms_edges]. rewrite map_map.
  induction (m_edges m) as [|e es IH]; [reflexivity|]. cbn [map]. rewrite IH. f_equal.
  destruct e; reflexivity.
Qed.
