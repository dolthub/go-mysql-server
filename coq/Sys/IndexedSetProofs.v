(* Proofs about the model of sql/in_mem_table (C47): the indexed representation refines one bag. *)
From Coq Require Import List Bool Arith Permutation.
Import ListNotations.
From GMS Require Import Base.ListFacts Sys.IndexedSet.

Section Lists.
  Context {A : Type}.

  Lemma filter_comm (p q : A -> bool) l : filter p (filter q l) = filter q (filter p l).
  Proof. rewrite !filter_filter. apply filter_ext. intros x. apply andb_comm. Qed.

  Lemma filter_absorb (p q : A -> bool) l :
    (forall x, In x l -> q x = true -> p x = true) -> filter q (filter p l) = filter q l.
  Proof.
    intros H. rewrite filter_filter. apply filter_ext_in. intros x Hx.
    destruct (q x) eqn:Q; [now rewrite (H x Hx Q) | apply andb_false_r].
  Qed.

  Lemma existsb_filter_nil (p : A -> bool) l : existsb p l = match filter p l with [] => false | _ :: _ => true end.
  Proof. induction l as [|a l IH]; cbn; [reflexivity|]. now destruct (p a). Qed.

  Lemma partition_perm (p : A -> bool) l : Permutation l (filter p l ++ filter (fun x => negb (p x)) l).
  Proof.
    induction l as [|a l IH]; cbn; [constructor|].
    destruct (p a); cbn; [now constructor | now apply Permutation_cons_app].
  Qed.

  Lemma find_filter (p q : A -> bool) l : (forall x, In x l -> p x = true -> q x = true) -> find p (filter q l) = find p l.
  Proof.
    induction l as [|a l IH]; cbn; intros H; [reflexivity|].
    assert (IH' : find p (filter q l) = find p l) by (apply IH; intros x Hx; apply H; now right).
    destruct (q a) eqn:Q; cbn.
    - now rewrite IH'.
    - destruct (p a) eqn:P; [|exact IH']. rewrite (H a (or_introl eq_refl) P) in Q. discriminate.
  Qed.

  Lemma FOP_filter (Rel : A -> A -> Prop) (p : A -> bool) l : ForallOrdPairs Rel l -> ForallOrdPairs Rel (filter p l).
  Proof.
    induction 1 as [|a l Ha Hl IH]; cbn; [constructor|].
    destruct (p a); [|exact IH]. constructor; [|exact IH].
    rewrite Forall_forall in *. intros x Hx. apply filter_In in Hx. apply Ha. tauto.
  Qed.

  Lemma FOP_snoc (Rel : A -> A -> Prop) l v :
    ForallOrdPairs Rel l -> (forall a, In a l -> Rel a v) -> ForallOrdPairs Rel (l ++ [v]).
  Proof.
    induction 1 as [|a l Ha Hl IH]; cbn; intros H.
    - constructor; constructor.
    - constructor.
      + apply Forall_app. split; [exact Ha|]. constructor; [|constructor]. apply H. now left.
      + apply IH. intros x Hx. apply H. now right.
  Qed.

  Lemma nonempty_cons (l : list A) : l <> [] -> exists x l', l = x :: l'.
  Proof. destruct l; [congruence | eauto]. Qed.

  (* the entry of index i, for the pairs (i, x) that is_remove_many runs through *)
  Lemma Forall2_combine_seq {B} (P : A -> B -> Prop) d l st : Forall2 P l st ->
    forall pre i x, In (i, x) (combine (seq (length pre) (length l)) l) -> P x (nth i (pre ++ st) d).
  Proof.
    induction 1 as [|x0 m0 l st HP _ IH]; cbn; intros pre i x Hin; [destruct Hin|].
    destruct Hin as [E|Hin]; [injection E as <- <-; now rewrite nth_middle|].
    specialize (IH (pre ++ [m0]) i x). rewrite app_length, Nat.add_1_r, <- app_assoc in IH. now apply IH.
  Qed.

  Lemma take_turn_S i (th : list A) rest :
    take_turn (S i) (th :: rest) = let '(u, rest') := take_turn i rest in (u, th :: rest').
  Proof. now destruct th. Qed.

  Lemma take_turn_spec i : forall (ths : list (list A)) u ths',
    take_turn i ths = (u, ths') ->
    match u with
    | Some x => exists pre th post, ths = pre ++ (x :: th) :: post /\ ths' = pre ++ th :: post /\ length pre = i
    | None => ths' = ths
    end.
  Proof.
    induction i as [|i IH]; intros [|th rest] u ths' H; try (injection H as <- <-; reflexivity).
    - destruct th as [|x th]; injection H as <- <-; [reflexivity|]. now exists [], th, rest.
    - rewrite take_turn_S in H. destruct (take_turn i rest) as [u0 rest'] eqn:E. injection H as <- <-.
      specialize (IH _ _ _ E). destruct u0 as [x|]; [|now subst].
      destruct IH as (pre & th0 & post & -> & -> & <-). now exists (th :: pre), th0, post.
  Qed.

  (* a merged history only contains units of the sessions, each at most as often as the sessions hold it *)
  Lemma merge_sub sched : forall (ths : list (list A)),
    exists rest, Permutation (merge sched ths ++ concat rest) (concat ths).
  Proof.
    induction sched as [|i sched IH]; intros ths; cbn; [exists ths; reflexivity|].
    destruct (take_turn i ths) as [u ths'] eqn:E. apply take_turn_spec in E.
    destruct u as [x|]; [|subst ths'; apply IH].
    destruct E as (pre & th & post & -> & -> & _). destruct (IH (pre ++ th :: post)) as [rest P]. exists rest.
    rewrite concat_app in *. cbn. now apply Permutation_cons_app with (a := x) in P.
  Qed.
End Lists.

Section Proofs.
  Context {V K KId R : Type}.
  Variable keq : K -> K -> bool.
  Variable kideq : KId -> KId -> bool.
  Variable equals : V -> V -> bool.
  Variable keyfn : KId -> V -> K.
  Variable from_row : R -> V.
  Variable update_with_row : R -> V -> V.
  Variable add_row : R -> V -> V.
  Variable delete_row : R -> V -> V.
  Variable row_view : V -> V.
  Variable rows_view : V -> list V.
  Variable keyers : list KId.

  Hypothesis Hcontract : contract keq kideq equals keyfn keyers.

  Local Notation mmapT := (@mmap V K).
  Local Notation lookup := (mm_lookup keq).
  Local Notation get_many := (mm_get_many keq).
  Local Notation put := (mm_put keq).
  Local Notation remove := (mm_remove keq equals).
  Local Notation hk := (has_key keq keyfn).
  Local Notation sremove := (s_remove equals).
  Local Notation sremove_all := (s_remove_all equals).
  Local Notation isput := (is_put keq keyfn keyers).
  Local Notation isremove := (is_remove keq equals keyfn keyers).
  Local Notation isremove_all := (is_remove_all keq equals keyfn keyers).
  Local Notation isremove_many := (is_remove_many keq kideq equals keyfn keyers).
  Local Notation isget_many := (is_get_many keq kideq keyers).
  Local Notation sremove_many := (s_remove_many keq kideq keyfn keyers).
  Local Notation sget_many := (s_get_many keq kideq keyfn keyers).
  Local Notation stepN := (step keq kideq equals keyfn from_row update_with_row add_row delete_row row_view rows_view keyers).
  Local Notation sstepN := (sstep keq kideq equals keyfn from_row update_with_row add_row delete_row row_view rows_view keyers).
  Local Notation execN := (exec keq kideq equals keyfn from_row update_with_row add_row delete_row row_view rows_view keyers).
  Local Notation sexecN := (sexec keq kideq equals keyfn from_row update_with_row add_row delete_row row_view rows_view keyers).
  Local Notation sexec_setN := (sexec_set keq kideq equals keyfn from_row update_with_row add_row delete_row row_view rows_view keyers).
  Local Notation sstep_setN := (sstep_set keq kideq equals keyfn from_row update_with_row add_row delete_row row_view rows_view keyers).
  Local Notation no_dup_putN := (no_dup_put keq kideq equals keyfn from_row update_with_row add_row delete_row row_view rows_view keyers).
  Local Notation initN := (is_init (V := V) (K := K) keyers).
  Local Notation mchange := (m_change keq kideq equals keyfn from_row keyers).
  Local Notation schange := (s_change keq equals keyfn from_row keyers).

  Let keq_spec : forall a b, keq a b = true <-> a = b := proj1 Hcontract.
  Let kideq_spec : forall a b, kideq a b = true <-> a = b := proj1 (proj2 Hcontract).
  Let e_refl : forall v, equals v v = true := proj1 (proj2 (proj2 Hcontract)).
  Let e_sym : forall v w, equals v w = true -> equals w v = true := proj1 (proj2 (proj2 (proj2 Hcontract))).
  Let e_congr : forall kid v w, In kid keyers -> equals v w = true -> keyfn kid v = keyfn kid w :=
    proj2 (proj2 (proj2 (proj2 (proj2 Hcontract)))).

  Lemma keq_refl a : keq a a = true.
  Proof. now apply keq_spec. Qed.
  Lemma keq_neq a b : keq a b = false <-> a <> b.
  Proof. rewrite <- keq_spec. destruct (keq a b); split; congruence. Qed.

  Lemma lookup_notin (m : mmapT) k : ~ In k (map fst m) -> lookup m k = None.
  Proof.
    induction m as [|[k0 vs] m IH]; cbn; intros H; [reflexivity|].
    destruct (keq k0 k) eqn:E; [apply keq_spec in E; tauto | apply IH; tauto].
  Qed.

  Lemma lookup_put (m : mmapT) k v k' :
    lookup (put m k v) k' = if keq k k' then Some (get_many m k ++ [v]) else lookup m k'.
  Proof.
    unfold mm_get_many. induction m as [|[k0 vs] m IH]; cbn.
    - destruct (keq k k'); reflexivity.
    - destruct (keq k0 k) eqn:E; cbn.
      + apply keq_spec in E. subst k0. destruct (keq k k'); reflexivity.
      + rewrite IH. destruct (keq k k') eqn:E2; [|reflexivity].
        apply keq_spec in E2. subst k'. now rewrite E.
  Qed.

  Lemma in_keys_put (m : mmapT) k v k' : In k' (map fst (put m k v)) -> k' = k \/ In k' (map fst m).
  Proof.
    induction m as [|[k0 vs] m IH]; cbn.
    - intros [<-|[]]. now left.
    - destruct (keq k0 k); cbn; intros [<-|H]; auto. destruct (IH H); auto.
  Qed.

  Lemma nodup_put (m : mmapT) k v : NoDup (map fst m) -> NoDup (map fst (put m k v)).
  Proof.
    induction m as [|[k0 vs] m IH]; cbn; intros H.
    - constructor; [tauto|constructor].
    - inversion H as [|? ? Hn Hd]; subst. destruct (keq k0 k) eqn:E; cbn; [now constructor|].
      constructor; [|now apply IH]. intros Hin. apply in_keys_put in Hin. destruct Hin as [->|Hin]; [|tauto].
      rewrite keq_refl in E. discriminate.
  Qed.

  Lemma in_keys_remove (m : mmapT) k v k' : In k' (map fst (fst (remove m k v))) -> In k' (map fst m).
  Proof.
    induction m as [|[k0 vs] m IH]; cbn; [tauto|].
    destruct (keq k0 k).
    - cbn. destruct (filter _ vs); cbn; tauto.
    - destruct (remove m k v) as [m'' f] eqn:E. cbn in *. intros [<-|H]; auto.
  Qed.

  Lemma nodup_remove (m : mmapT) k v : NoDup (map fst m) -> NoDup (map fst (fst (remove m k v))).
  Proof.
    induction m as [|[k0 vs] m IH]; cbn; intros H; [constructor|].
    inversion H as [|? ? Hn Hd]; subst. destruct (keq k0 k).
    - cbn. destruct (filter _ vs); cbn; [assumption | now constructor].
    - pose proof (in_keys_remove m k v k0) as Hi. specialize (IH Hd).
      destruct (remove m k v) as [m'' f]. cbn in *. constructor; tauto.
  Qed.

  Lemma lookup_remove (m : mmapT) k v k' : NoDup (map fst m) ->
    lookup (fst (remove m k v)) k' =
    if keq k k' then match filter (fun vp => negb (equals v vp)) (get_many m k) with [] => None | l => Some l end
    else lookup m k'.
  Proof.
    unfold mm_get_many. induction m as [|[k0 vs] m IH]; cbn; intros H.
    - destruct (keq k k'); reflexivity.
    - inversion H as [|? ? Hn Hd]; subst. destruct (keq k0 k) eqn:E; cbn.
      + apply keq_spec in E. subst k0. destruct (keq k k') eqn:E2.
        * apply keq_spec in E2. subst k'.
          destruct (filter _ vs) eqn:F; cbn; [now apply lookup_notin | now rewrite keq_refl].
        * destruct (filter _ vs) eqn:F; cbn; [reflexivity | now rewrite E2].
      + specialize (IH Hd). destruct (remove m k v) as [m'' f]. cbn in *. rewrite IH.
        destruct (keq k k') eqn:E2; [|reflexivity]. apply keq_spec in E2. subst k'. now rewrite E.
  Qed.

  Lemma found_remove (m : mmapT) k v : snd (remove m k v) = existsb (equals v) (get_many m k).
  Proof.
    unfold mm_get_many. induction m as [|[k0 vs] m IH]; cbn; [reflexivity|].
    destruct (keq k0 k); cbn; [reflexivity|]. destruct (remove m k v). exact IH.
  Qed.

  (* one index represents the bag c *)
  Definition WF (c : list V) (kid : KId) (m : mmapT) : Prop :=
    NoDup (map fst m) /\
    forall k, lookup m k = match filter (hk kid k) c with [] => None | l => Some l end.

  Lemma get_many_wf c kid m k : WF c kid m -> get_many m k = filter (hk kid k) c.
  Proof. intros [_ H]. unfold mm_get_many. rewrite H. now destruct (filter _ c). Qed.

  Lemma wf_nil kid : WF [] kid [].
  Proof. split; [constructor|reflexivity]. Qed.

  Lemma wf_put c kid m v : WF c kid m -> WF (c ++ [v]) kid (put m (keyfn kid v) v).
  Proof.
    intros W. split; [apply nodup_put, W|]. intros k'. rewrite lookup_put, filter_app. cbn.
    unfold has_key at 2. destruct (keq (keyfn kid v) k') eqn:E.
    - apply keq_spec in E. subst k'. rewrite (get_many_wf _ _ _ _ W). now destruct (filter _ c).
    - rewrite app_nil_r. apply W.
  Qed.

  (* Equals elements sit in the same bucket of every index *)
  Lemma equals_has_key kid v w : In kid keyers -> equals v w = true -> hk kid (keyfn kid v) w = true.
  Proof. intros Hin Q. apply keq_spec. symmetry. now apply e_congr. Qed.

  Lemma wf_remove c kid m v : In kid keyers -> WF c kid m -> WF (sremove c v) kid (fst (remove m (keyfn kid v) v)).
  Proof.
    intros Hin W. split; [apply nodup_remove, W|]. intros k'. rewrite lookup_remove by apply W.
    unfold s_remove. destruct (keq (keyfn kid v) k') eqn:E.
    - apply keq_spec in E. subst k'. rewrite (get_many_wf _ _ _ _ W), filter_comm. reflexivity.
    - rewrite filter_absorb; [apply W|]. intros w _ Hw.
      destruct (equals v w) eqn:Q; [|reflexivity]. apply (equals_has_key kid v w Hin) in Q.
      apply keq_spec in Q, Hw. rewrite <- Hw, Q, keq_refl in E. discriminate.
  Qed.

  Lemma found_wf c kid m v : In kid keyers -> WF c kid m ->
    snd (remove m (keyfn kid v) v) = existsb (equals v) c.
  Proof.
    intros Hin W. rewrite found_remove, (get_many_wf _ _ _ _ W). apply existsb_filter.
    intros w _. now apply equals_has_key.
  Qed.

  (* bucket by bucket: the first bucket holds the elements with its key, the others the rest of the bag *)
  Lemma wf_entries_perm c kid (m : mmapT) : WF c kid m -> Permutation (mm_entries m) c.
  Proof.
    unfold mm_entries. revert c. induction m as [|[k0 vs] m IH]; intros c [Hnd Hl].
    - destruct c as [|w c]; [constructor|]. specialize (Hl (keyfn kid w)). cbn in Hl.
      unfold has_key at 1 in Hl. rewrite keq_refl in Hl. discriminate.
    - inversion Hnd as [|? ? Hn Hd]; subst. cbn.
      assert (Hvs : vs = filter (hk kid k0) c).
      { specialize (Hl k0). cbn in Hl. rewrite keq_refl in Hl. destruct (filter (hk kid k0) c); congruence. }
      rewrite (partition_perm (hk kid k0) c), <- Hvs. apply Permutation_app_head. apply IH. split; [assumption|].
      intros k. destruct (keq k0 k) eqn:E.
      + apply keq_spec in E. subst k. rewrite lookup_notin by assumption.
        rewrite filter_filter, filter_none; [reflexivity|]. intros x _. now destruct (hk kid k0 x).
      + specialize (Hl k). cbn in Hl. rewrite E in Hl. rewrite Hl, filter_absorb; [reflexivity|].
        intros w _ Hw. unfold has_key in *. apply keq_spec in Hw. subst k.
        destruct (keq (keyfn kid w) k0) eqn:E3; [|reflexivity].
        apply keq_spec in E3. rewrite <- E3, keq_refl in E. discriminate.
  Qed.

  (* the whole IndexedSet represents c *)
  Definition Inv (st : list mmapT) (c : list V) : Prop := Forall2 (WF c) keyers st.

  Lemma inv_init : Inv initN [].
  Proof.
    unfold Inv, is_init. generalize keyers as ks. induction ks; cbn; constructor; [apply wf_nil|assumption].
  Qed.

  Lemma inv_clear c st : Inv st c -> Inv (is_clear st) [].
  Proof. unfold Inv. generalize keyers as ks. induction 1; cbn; constructor; [apply wf_nil|assumption]. Qed.

  Lemma inv_put c v st : Inv st c -> Inv (isput st v) (c ++ [v]).
  Proof.
    unfold Inv, is_put. generalize keyers as ks. induction 1; cbn; constructor; [now apply wf_put | assumption].
  Qed.

  Lemma inv_remove_aux c v ks st : incl ks keyers -> Forall2 (WF c) ks st ->
    Forall2 (WF (sremove c v)) ks (fst (is_remove_aux keq equals keyfn ks st v)) /\
    snd (is_remove_aux keq equals keyfn ks st v) = match ks with [] => false | _ => existsb (equals v) c end.
  Proof.
    intros Hincl H. induction H as [|kid m ks st W H IH]; cbn; [split; [constructor|reflexivity]|].
    apply incl_cons_inv in Hincl. destruct Hincl as [Hin Hincl]. destruct (IH Hincl) as [IH1 IH2].
    pose proof (wf_remove c kid m v Hin W) as W'. pose proof (found_wf c kid m v Hin W) as F.
    destruct (remove m (keyfn kid v) v) as [m' f]. destruct (is_remove_aux keq equals keyfn ks st v) as [st'' f'].
    cbn in *. split; [now constructor|]. subst f f'. destruct ks; [apply orb_false_r | apply orb_diag].
  Qed.

  Lemma inv_remove c v st : Inv st c -> Inv (fst (isremove st v)) (sremove c v).
  Proof. intros H. apply inv_remove_aux; [apply incl_refl | exact H]. Qed.

  Lemma found_is_remove c v st : keyers <> [] -> Inv st c -> snd (isremove st v) = existsb (equals v) c.
  Proof.
    intros Hne H. destruct (inv_remove_aux c v keyers st (incl_refl _) H) as [_ F].
    unfold is_remove. rewrite F. destruct keyers; congruence.
  Qed.

  Lemma inv_remove_all vs : forall c st, Inv st c -> Inv (isremove_all st vs) (sremove_all c vs).
  Proof.
    unfold is_remove_all, s_remove_all. induction vs as [|v vs IH]; cbn; intros c st H; [exact H|].
    apply IH. now apply inv_remove.
  Qed.

  Lemma is_get_many_inv c st kid k : Inv st c -> isget_many st kid k = sget_many c kid k.
  Proof.
    unfold Inv, is_get_many, s_get_many. generalize keyers as ks. induction 1 as [|x m ks st W H IH]; cbn; [reflexivity|].
    destruct (kideq x kid) eqn:E; cbn; [|exact IH]. apply kideq_spec in E. subst x. now apply get_many_wf.
  Qed.

  Lemma sremove_all_forallb vs : forall c,
    sremove_all c vs = filter (fun w => forallb (fun v => negb (equals v w)) vs) c.
  Proof.
    unfold s_remove_all. induction vs as [|v vs IH]; cbn; intros c.
    - symmetry. now apply filter_all.
    - rewrite IH. unfold s_remove. now rewrite filter_filter.
  Qed.

  (* removing every element of the bucket [key kid = k] removes exactly the elements with that key *)
  Lemma sremove_all_bucket c kid k : In kid keyers ->
    sremove_all c (filter (hk kid k) c) = filter (fun w => negb (hk kid k w)) c.
  Proof.
    intros Hin. rewrite sremove_all_forallb. apply filter_ext_in. intros w Hw.
    destruct (hk kid k w) eqn:E; cbn.
    - apply not_true_is_false. intros Hf. rewrite forallb_forall in Hf.
      specialize (Hf w). rewrite e_refl in Hf. discriminate Hf. apply filter_In. tauto.
    - apply forallb_forall. intros v Hv. apply filter_In in Hv. destruct Hv as [_ Hv].
      destruct (equals v w) eqn:Q; [|reflexivity]. apply (equals_has_key kid v w Hin) in Q.
      apply keq_spec in Q, Hv. unfold has_key in E. rewrite Q, Hv, keq_refl in E. discriminate.
  Qed.

  Lemma existsb_combine_seq (f : KId -> bool) l : forall off,
    existsb (fun ix : nat * KId => f (snd ix)) (combine (seq off (length l)) l) = existsb f l.
  Proof. induction l as [|x l IH]; cbn; intros off; [reflexivity|]. now rewrite IH. Qed.

  Lemma inv_remove_many c st kid k : Inv st c -> Inv (isremove_many st kid k) (sremove_many c kid k).
  Proof.
    unfold is_remove_many, s_remove_many. rewrite <- (existsb_combine_seq (fun x => kideq x kid) keyers 0).
    assert (Hix : Forall (fun ix => In (snd ix) keyers /\ forall s c', Inv s c' -> WF c' (snd ix) (nth (fst ix) s []))
                         (combine (seq 0 (length keyers)) keyers)).
    { apply Forall_forall. intros [i x] Hin. split; [eapply in_combine_r; exact Hin|].
      intros s c' Hs. exact (Forall2_combine_seq _ _ _ _ Hs [] i x Hin). }
    revert st c. induction Hix as [|[i x] ixs [Hin HW] _ IH]; cbn; intros st c H; [exact H|].
    destruct (kideq x kid) eqn:E; cbn; [|now apply IH].
    apply kideq_spec in E. subst x. rewrite (get_many_wf _ _ _ _ (HW st c H)).
    pose proof (inv_remove_all (filter (hk kid k) c) c st H) as H1.
    rewrite (sremove_all_bucket c kid k Hin) in H1. specialize (IH _ _ H1).
    (* a later index with the same keyer finds the bucket empty *)
    destruct (existsb _ ixs); [|exact IH]. now rewrite filter_absorb in IH.
  Qed.

  Lemma every_index_perm c st m : Inv st c -> In m st -> Permutation (mm_entries m) c.
  Proof.
    unfold Inv. generalize keyers as ks. induction 1 as [|kid m0 ks st W H IH]; cbn; [tauto|].
    intros [<-|Hin]; [eapply wf_entries_perm; exact W | now apply IH].
  Qed.

  Lemma first_keyer_in k0 : first_keyer keyers = Some k0 -> In k0 keyers.
  Proof. unfold first_keyer. generalize keyers as ks. intros [|x ks]; cbn; [discriminate|]. intros [= ->]. now left. Qed.

  Lemma first_keyer_exists k0 : first_keyer keyers = Some k0 -> existsb (fun x => kideq x k0) keyers = true.
  Proof. intros H. apply existsb_exists. exists k0. split; [now apply first_keyer_in | now apply kideq_spec]. Qed.

  (* GetMany through the first keyer, as the editors call it *)
  Lemma get_many_first c st k0 k : Inv st c -> first_keyer keyers = Some k0 ->
    isget_many st k0 k = filter (hk k0 k) c.
  Proof. intros H Hk0. rewrite (is_get_many_inv c st k0 k H). unfold s_get_many. now rewrite first_keyer_exists. Qed.

  (* with at least one keyer, index 0 is the first keyer's *)
  Lemma inv_head c st : keyers <> [] -> Inv st c ->
    exists k0 m st', first_keyer keyers = Some k0 /\ st = m :: st' /\ WF c k0 m.
  Proof.
    unfold Inv, first_keyer. generalize keyers as ks. intros ks Hne H.
    destruct H as [|kid m ks st W H]; [congruence|]. now exists kid, m, st.
  Qed.

  Lemma visit_perm c st : keyers <> [] -> Inv st c -> Permutation (is_visit st) c.
  Proof.
    intros Hne H. destruct (inv_head c st Hne H) as (k0 & m & st' & _ & -> & W). now apply (wf_entries_perm c k0).
  Qed.

  Lemma count_inv c st : keyers <> [] -> Inv st c -> is_count st = length c.
  Proof. intros Hne H. apply Permutation_length. now apply visit_perm. Qed.

  Lemma m_change_refines f st c r : keyers <> [] -> Inv st c ->
    Inv (fst (mchange f st r)) (fst (schange f c r)) /\ snd (mchange f st r) = snd (schange f c r).
  Proof.
    intros Hne H. destruct (inv_head c st Hne H) as (k0 & _ & _ & Hk0 & _).
    unfold m_change, s_change. rewrite Hk0, (get_many_first c st k0 _ H Hk0).
    destruct (filter (hk k0 (keyfn k0 (from_row r))) c) as [|e1 [|e2 es]]; cbn; split; try reflexivity; try exact H.
    apply inv_put. now apply inv_remove.
  Qed.

  (* the editors wrap the not-found flag of m_change into the error observation *)
  Lemma err_refines (p : list mmapT * bool) (q : list V * bool) : Inv (fst p) (fst q) /\ snd p = snd q ->
    Inv (fst (let '(st, e) := p in (st, @OErr V e))) (fst (let '(c, e) := q in (c, @OErr V e))) /\
    obs_equiv (snd (let '(st, e) := p in (st, @OErr V e))) (snd (let '(c, e) := q in (c, @OErr V e))).
  Proof. destruct p, q. cbn. intros [I ->]. split; [exact I | constructor]. Qed.

  Lemma step_refines st c o : keyers <> [] -> Inv st c ->
    Inv (fst (stepN st o)) (fst (sstepN c o)) /\ obs_equiv (snd (stepN st o)) (snd (sstepN c o)).
  Proof.
    intros Hne H. destruct (inv_head c st Hne H) as (k0 & m0 & st0 & Hk0 & Est & W0).
    pose proof (first_keyer_in k0 Hk0) as Hin0.
    destruct o; cbn; rewrite ?Hk0, ?(get_many_first c st k0 _ H Hk0).
    - split; [now apply inv_put | constructor].
    - split; [exact H|]. unfold is_get. rewrite Hk0, Est.
      unfold mm_get. rewrite (get_many_wf _ _ _ _ W0), find_filter; [constructor|].
      intros w _. now apply equals_has_key.
    - split; [exact H|]. rewrite (is_get_many_inv c st kid k H). constructor.
    - pose proof (inv_remove c v st H) as H1. pose proof (found_is_remove c v st Hne H) as F.
      destruct (isremove st v) as [st' f]. cbn in *. subst f. split; [exact H1 | constructor].
    - split; [now apply inv_remove_many | constructor].
    - split; [exact H|]. rewrite (count_inv c st Hne H). constructor.
    - split; [eapply inv_clear; exact H | constructor].
    - split; [exact H|]. constructor. now apply visit_perm.
    - rewrite existsb_filter_nil. destruct (filter (hk k0 (keyfn k0 (from_row r))) c); cbn.
      + split; [now apply inv_put | constructor].
      + split; [exact H | constructor].
    - cbn. pose proof (inv_remove_many c st k0 (keyfn k0 (from_row r)) H) as H1.
      unfold s_remove_many in H1. rewrite (first_keyer_exists k0 Hk0) in H1. split; [exact H1 | constructor].
    - set (e := from_row old).
      pose proof (inv_remove_all (filter (hk k0 (keyfn k0 e)) c) c st H) as Hall.
      rewrite (sremove_all_bucket c k0 (keyfn k0 e) Hin0) in Hall.
      destruct (filter (hk k0 (keyfn k0 e)) c) as [|e1 [|e2 es]] eqn:F; cbn.
      + split; [now apply inv_put | constructor].
      + split; [apply inv_put; now apply inv_remove | constructor].
      + split; [now apply inv_put | constructor].
    - now apply err_refines, m_change_refines.
    - now apply err_refines, m_change_refines.
    - destruct (m_change_refines delete_row st c old Hne H) as [I E].
      destruct (mchange delete_row st old) as [st1 e1]. destruct (schange delete_row c old) as [c1 e1']. cbn in *. subst e1'.
      destruct e1; cbn; [split; [exact I | constructor]|]. now apply err_refines, m_change_refines.
    - split; [eapply inv_clear; exact H|]. rewrite (count_inv c st Hne H). constructor.
    - split; [exact H|]. constructor. apply Permutation_map. now apply visit_perm.
    - split; [exact H|]. constructor. apply Permutation_flat_map. now apply visit_perm.
  Qed.

  Lemma exec_cons st o ops :
    execN st (o :: ops) = (fst (execN (fst (stepN st o)) ops), snd (stepN st o) :: snd (execN (fst (stepN st o)) ops)).
  Proof. cbn [exec]. destruct (stepN st o) as [st' ob]. cbn [fst snd]. now destruct (execN st' ops). Qed.

  Lemma sexec_cons c o ops :
    sexecN c (o :: ops) = (fst (sexecN (fst (sstepN c o)) ops), snd (sstepN c o) :: snd (sexecN (fst (sstepN c o)) ops)).
  Proof. cbn [sexec]. destruct (sstepN c o) as [c' ob]. cbn [fst snd]. now destruct (sexecN c' ops). Qed.

  Lemma exec_refines ops : keyers <> [] -> forall st c, Inv st c ->
    Inv (fst (execN st ops)) (fst (sexecN c ops)) /\ Forall2 (@obs_equiv V) (snd (execN st ops)) (snd (sexecN c ops)).
  Proof.
    intros Hne. induction ops as [|o ops IH]; intros st c H; [split; [exact H|constructor]|].
    rewrite exec_cons, sexec_cons. destruct (step_refines st c o Hne H) as [H1 H2]. destruct (IH _ _ H1) as [H3 H4].
    split; [exact H3 | now constructor].
  Qed.

  Lemma run_inv ops : keyers <> [] -> Inv (fst (execN initN ops)) (fst (sexecN [] ops)).
  Proof. intros Hne. apply exec_refines; [exact Hne | apply inv_init]. Qed.

  Theorem refinement ops : keyers <> [] ->
    Forall2 (@obs_equiv V) (snd (execN initN ops)) (snd (sexecN [] ops)).
  Proof. intros Hne. apply exec_refines; [exact Hne | apply inv_init]. Qed.

  Theorem get_many_exact ops kid k : keyers <> [] ->
    isget_many (fst (execN initN ops)) kid k =
    if existsb (fun x => kideq x kid) keyers then filter (hk kid k) (fst (sexecN [] ops)) else [].
  Proof. intros Hne. now apply is_get_many_inv, run_inv. Qed.

  Theorem indexes_agree ops m : keyers <> [] ->
    In m (fst (execN initN ops)) -> Permutation (mm_entries m) (fst (sexecN [] ops)).
  Proof. intros Hne. now apply every_index_perm, run_inv. Qed.

  Theorem index_count ops : keyers <> [] ->
    length (fst (execN initN ops)) = length keyers /\
    is_count (fst (execN initN ops)) = length (fst (sexecN [] ops)).
  Proof.
    intros Hne. pose proof (run_inv ops Hne) as H. split.
    - symmetry. eapply Forall2_length. exact H.
    - now apply count_inv.
  Qed.

  Lemma exec_app a : forall st b, fst (execN st (a ++ b)) = fst (execN (fst (execN st a)) b).
  Proof. induction a as [|o a IH]; intros st b; [reflexivity|]. cbn [app]. rewrite !exec_cons. apply IH. Qed.
  Lemma sexec_app a : forall c b, fst (sexecN c (a ++ b)) = fst (sexecN (fst (sexecN c a)) b).
  Proof. induction a as [|o a IH]; intros c b; [reflexivity|]. cbn [app]. rewrite !sexec_cons. apply IH. Qed.

  (* Put of an element that is already there (even the very same one) is counted again: a bag, not a set *)
  Theorem put_duplicate_counts_twice ops v : keyers <> [] ->
    is_count (fst (execN initN (ops ++ [OpPut v; OpPut v]))) = is_count (fst (execN initN ops)) + 2.
  Proof.
    intros Hne. rewrite (proj2 (index_count _ Hne)), (proj2 (index_count ops Hne)), sexec_app. cbn.
    now rewrite !app_length, <- Nat.add_assoc.
  Qed.

  (* when no Put adds an Equals-duplicate the bag specification IS the set specification *)
  Theorem set_semantics ops : forall c, no_dup_putN c ops -> sexec_setN c ops = sexecN c ops.
  Proof.
    induction ops as [|o ops IH]; cbn; intros c H12; [reflexivity|]. destruct H12 as [H1 H2].
    assert (E : sstep_setN c o = sstepN c o) by (destruct o; try reflexivity; cbn; now rewrite H1).
    rewrite E. destruct (sstepN c o) as [c' ob]. cbn in *. now rewrite (IH c' H2).
  Qed.

  Lemma uniq_snoc c v : uniq equals c -> existsb (equals v) c = false -> uniq equals (c ++ [v]).
  Proof.
    intros U E. apply FOP_snoc; [exact U|]. intros a Ha. apply not_true_is_false. intros Q.
    apply e_sym in Q. rewrite (proj2 (existsb_exists _ _)) in E by eauto. discriminate.
  Qed.

  (* one step keeps the stored elements pairwise not Equals ... *)
  Lemma uniq_sstep c o : no_update o = true -> match o with OpPut v => existsb (equals v) c = false | _ => True end ->
    uniq equals c -> uniq equals (fst (sstepN c o)).
  Proof.
    intros Ho H1 U. destruct o; cbn in *; try exact U; try discriminate.
    - now apply uniq_snoc.
    - now apply FOP_filter.
    - unfold s_remove_many. destruct (existsb _ keyers); [now apply FOP_filter | exact U].
    - constructor.
    - destruct (first_keyer keyers) as [k0|] eqn:Ek; [|exact U].
      destruct (existsb _ c) eqn:X; cbn; [exact U|]. apply uniq_snoc; [exact U|].
      apply not_true_is_false. intros Q. apply existsb_exists in Q. destruct Q as (w & Hw & Q).
      rewrite (proj2 (existsb_exists _ _)) in X; [discriminate|].
      exists w. split; [exact Hw|]. apply equals_has_key; [now apply first_keyer_in | exact Q].
    - destruct (first_keyer keyers) as [k0|]; [|exact U]. cbn. now apply FOP_filter.
    - constructor.
  Qed.

  (* ... and then no two stored elements are Equals (every op except the editor's Update and the Multi* edits) *)
  Theorem uniq_preserved ops : forall c, forallb (@no_update V K KId R) ops = true ->
    uniq equals c -> no_dup_putN c ops -> uniq equals (fst (sexecN c ops)).
  Proof.
    induction ops as [|o ops IH]; cbn [forallb no_dup_put]; intros c Hops U H12; [exact U|].
    apply andb_prop in Hops. rewrite sexec_cons. apply IH; [tauto| |tauto]. apply uniq_sstep; tauto.
  Qed.

  (* the locking wrappers: whatever the interleaving of whole operations (OperationLockingTableEditor) or of whole
     statements (StatementLockingTableEditor) of any number of sessions, the history refines the bag *)
  Theorem locked_ops_any_interleaving (sessions : list (list (@op V K KId R))) sched : keyers <> [] ->
    Forall2 (@obs_equiv V) (snd (execN initN (merge sched sessions))) (snd (sexecN [] (merge sched sessions))).
  Proof. apply refinement. Qed.

  Theorem locked_statements_any_interleaving (sessions : list (list (list (@op V K KId R)))) sched : keyers <> [] ->
    Forall2 (@obs_equiv V) (snd (execN initN (concat (merge sched sessions))))
            (snd (sexecN [] (concat (merge sched sessions)))).
  Proof. apply refinement. Qed.

  Lemma pk_uniq_sstep k0 c o : first_keyer keyers = Some k0 -> pk_safe_op o = true ->
    ForallOrdPairs (fun a b => keq (keyfn k0 a) (keyfn k0 b) = false) c ->
    ForallOrdPairs (fun a b => keq (keyfn k0 a) (keyfn k0 b) = false) (fst (sstepN c o)).
  Proof.
    intros Ek Ho U. destruct o; cbn in *; rewrite ?Ek; try exact U; try discriminate.
    - now apply FOP_filter.
    - unfold s_remove_many. destruct (existsb _ keyers); [now apply FOP_filter | exact U].
    - constructor.
    - destruct (existsb _ c) eqn:X; cbn; [exact U|].
      apply FOP_snoc; [exact U|]. intros a Ha. apply not_true_is_false. intros Q.
      rewrite (proj2 (existsb_exists _ _)) in X by eauto. discriminate.
    - cbn. now apply FOP_filter.
    - constructor.
  Qed.

  (* Insert/Delete keep the first keyer a primary key (as long as nobody Puts directly and no Update or Multi* edit runs) *)
  Theorem pk_uniq_preserved ops : forall c, forallb (@pk_safe_op V K KId R) ops = true ->
    pk_uniq keq keyfn keyers c -> pk_uniq keq keyfn keyers (fst (sexecN c ops)).
  Proof.
    unfold pk_uniq. destruct (first_keyer keyers) as [k0|] eqn:Ek; [|trivial].
    induction ops as [|o ops IH]; cbn [forallb]; intros c Hops U; [exact U|].
    apply andb_prop in Hops. rewrite sexec_cons. apply IH; [tauto|]. apply pk_uniq_sstep; tauto.
  Qed.
End Proofs.

(* the concrete instance: the contract is satisfiable, and what Update can do *)
From Coq Require Import NArith.

Lemma val4_eqb_spec x y : val4_eqb x y = true <-> x = y.
Proof.
  destruct x as [[[a b] c] d], y as [[[a' b'] c'] d']. cbn. rewrite !andb_true_iff, !N.eqb_eq.
  split; [intros [[[-> ->] ->] ->]; reflexivity | intros E; injection E as -> -> -> ->; auto].
Qed.

(* one field: what a mask hides, every mask below it hides too *)
Lemma mask_field km em i (x y : N) : N.land km em = km ->
  (if N.testbit em i then x else 0%N) = (if N.testbit em i then y else 0%N) ->
  (if N.testbit km i then x else 0%N) = (if N.testbit km i then y else 0%N).
Proof.
  intros Hs. destruct (N.testbit km i) eqn:E; [|reflexivity].
  rewrite <- Hs, N.land_spec in E. apply andb_prop in E. now rewrite (proj2 E).
Qed.

Lemma mask_subset_congr em km v w :
  N.land km em = km -> mask_equals em v w = true -> mask_key km v = mask_key km w.
Proof.
  intros Hs Q. apply val4_eqb_spec in Q.
  destruct v as [[[a b] c] d], w as [[[a' b'] c'] d']. cbn in *. injection Q as Qa Qb Qc Qd.
  repeat f_equal; now apply (mask_field km em).
Qed.

(* Equals compares the fields selected by [em]; every keyer reads a subset of those fields *)
Lemma mask_contract em keyers :
  forallb (fun km => N.eqb (N.land km em) km) keyers = true ->
  contract val4_eqb N.eqb (mask_equals em) mask_key keyers.
Proof.
  intros H. unfold contract. repeat split.
  - apply val4_eqb_spec. - apply val4_eqb_spec.
  - apply N.eqb_eq. - apply N.eqb_eq.
  - intros v. unfold mask_equals. now apply val4_eqb_spec.
  - intros v w Q. unfold mask_equals in *. apply val4_eqb_spec in Q. apply val4_eqb_spec. congruence.
  - intros u v w Q1 Q2. unfold mask_equals in *. apply val4_eqb_spec in Q1, Q2. apply val4_eqb_spec. congruence.
  - intros km v w Hin Q. rewrite forallb_forall in H. apply (mask_subset_congr em); [|exact Q].
    apply N.eqb_eq. now apply H.
Qed.

Example contract_nonvacuous :
  contract val4_eqb N.eqb (mask_equals 3) mask_key [1; 2]%N /\
  snd (exec4 3 [1; 2]%N [OpPut (1, 1, 0, 7); OpPut (1, 2, 0, 8); OpPut (1, 1, 0, 9); OpGetMany 1 (1, 0, 0, 0);
                         OpRemove (1, 1, 5, 5); OpCount; OpGet (1, 2, 9, 9)]%N)
  = [ONone; ONone; ONone; OList [(1, 1, 0, 7); (1, 2, 0, 8); (1, 1, 0, 9)]; ORem (Some (1, 1, 5, 5)); OCount 1;
     OVal (Some (1, 2, 0, 8))]%N.
Proof. split; [apply mask_contract; reflexivity | vm_compute; reflexivity]. Qed.

(* The editor's Update does not check the primary key of the new row: after Insert a; Insert b; Update a -> b
   the first keyer has two entries under one key (Insert alone would have refused). *)
Example update_can_duplicate_primary_key :
  exists ops : list op4,
    forallb (@editor_op val4 val4 N row3) ops = true /\
    contract val4_eqb N.eqb (mask_equals 7) mask_key [1; 2]%N /\
    is_get_many val4_eqb N.eqb [1; 2]%N (fst (exec4 7 [1; 2]%N ops)) 1%N (2, 0, 0, 0)%N
    = [(2, 2, 2, 0); (2, 1, 1, 0)]%N.
Proof.
  exists [OpInsert (1, 1, 1); OpInsert (2, 2, 2); OpUpdate (1, 1, 1) (2, 1, 1)]%N.
  split; [reflexivity|]. split; [apply mask_contract; reflexivity | vm_compute; reflexivity].
Qed.

(* MultiUpdate is not atomic: when MultiDelete(old) succeeds and MultiInsert(new) finds no entry, the error is
   returned and the deletion stays *)
Example multi_update_partial_effect :
  exec4 3 [1; 2]%N [OpPut (1, 1, 3, 7); OpMUpdate (1, 9, 1) (2, 9, 1); OpMRows; OpMInsert (1, 9, 1); OpMRows; OpTruncate; OpCount]%N
  = ([[]; []],
     [ONone; OErr true; OBag [(1, 1, 2, 0)]; OErr false; OBag [(1, 1, 1, 0); (1, 1, 2, 0)]; OCount 1; OCount 0])%N.
Proof. vm_compute. reflexivity. Qed.
