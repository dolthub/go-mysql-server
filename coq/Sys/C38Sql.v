(* C38 — the SQL layer of named locks (sql/expression/function/locks.go, server/handler.go maybeReleaseAllLocks)
   as a thin layer over the atomic lock specification (Sys/Locks.v seq_step):
     GET_LOCK(name, 0)        = TryLock            -> 1 / 0
     GET_LOCK(name, t <> 0)   = Lock(t seconds)    -> 1, or 0 on ErrLockTimeout; a negative timeout never times out
     RELEASE_LOCK(name)       = Unlock             -> 1, 0 (ErrLockNotOwned), NULL (ErrLockDoesNotExist)
     IS_FREE_LOCK(name)       = GetLockState       -> 0 if LockInUse else 1
     IS_USED_LOCK(name)       = GetLockState       -> owner's connection id if LockInUse else NULL
     RELEASE_ALL_LOCKS()      = ReleaseAll         -> count
     disconnect               = ReleaseAll on a context of the closing connection (ConnectionClosed / ComResetConnection)
   NULL arguments (result NULL, no effect) are not modelled. *)
From Coq Require Import List NArith ZArith Bool Lia.
Import ListNotations.
From GMS Require Import Sys.Locks Sys.LocksProofs.
Open Scope N_scope.

Inductive sqlval := VNull | VInt (z : N).

Inductive sqlop :=
| SGet (n : N) (timeout : Z)
| SRel (n : N)
| SIsFree (n : N)
| SIsUsed (n : N)
| SRelAll
| SDisconnect.

(* result None = the statement does not return (GET_LOCK with a negative timeout on a lock held by another
   session waits) or returns no value (disconnect) *)
Definition sql_step (t : N) (o : sqlop) (names : list N) (s : seq_state) : seq_state * option sqlval :=
  match o with
  | SGet n tmo =>
      if Z.eqb tmo 0 then
        let '(s', r) := seq_step t (OTry n) names s in
        (s', Some (match r with RBool true => VInt 1 | _ => VInt 0 end))
      else
        let '(s', r) := seq_step t (OLock n) names s in
        match r with
        | ROk => (s', Some (VInt 1))
        | _ => if Z.ltb tmo 0 then (s', None) else (s', Some (VInt 0))
        end
  | SRel n =>
      let '(s', r) := seq_step t (OUnlock n) names s in
      (s', Some (match r with ROk => VInt 1 | RNotOwned => VInt 0 | _ => VNull end))
  | SIsFree n => (s, Some (match state_of (sget s n) with RState 1 _ => VInt 0 | _ => VInt 1 end))
  | SIsUsed n => (s, Some (match state_of (sget s n) with RState 1 o => VInt o | _ => VNull end))
  | SRelAll =>
      let '(s', r) := seq_step t ORelAll names s in
      (s', Some (match r with RCount k => VInt k | _ => VNull end))
  | SDisconnect => let '(s', _) := seq_step t ORelAll names s in (s', None)
  end.

(* the lock as GET_LOCK sees it: a missing entry is created free *)
Definition seen (s : seq_state) (n : N) : lstate := match sget s n with LNone => LFree | x => x end.

Definition holder (l : lstate) : option N := match l with LHeld t _ => Some t | _ => None end.

(* GET_LOCK in one equation: the result depends only on whether the lock, as GET_LOCK sees it, can be acquired *)
Lemma sql_get t n tmo names s :
  sql_step t (SGet n tmo) names s =
    match acquire t (seen s n) with
    | Some l' => (sput s n l', Some (VInt 1))
    | None => (sput s n (seen s n), if Z.ltb tmo 0 then None else Some (VInt 0))
    end.
Proof.
  unfold sql_step, seq_step, seq_try, seen.
  destruct (acquire t _), (Z.eqb_spec tmo 0) as [->|]; try reflexivity. now destruct (Z.ltb tmo 0).
Qed.

Lemma sql_rel t n names s :
  sql_step t (SRel n) names s =
    (sput s n (fst (release t (sget s n))),
     Some (match sget s n with
           | LNone => VNull
           | LFree => VInt 0
           | LHeld t' _ => if N.eqb t' t then VInt 1 else VInt 0
           end)).
Proof.
  unfold sql_step, seq_step. destruct (sget s n) as [| |t' c]; try reflexivity.
  cbn. now destruct (N.eqb t' t).
Qed.

Lemma sget_sput_same s n l : sget (sput s n l) n = l.
Proof. rewrite sget_sput. now rewrite N.eqb_refl. Qed.

Lemma sget_sput_other s n l m : m <> n -> sget (sput s n l) m = sget s m.
Proof. intros H. rewrite sget_sput. now destruct (N.eqb_spec m n). Qed.

(* GET_LOCK: 1 exactly when the lock is free or already ours (then it is ours with the count bumped), else 0
   (or no return for a negative timeout) and nothing changes *)
Theorem get_lock_value t n tmo names s :
  (forall l', acquire t (seen s n) = Some l' ->
     snd (sql_step t (SGet n tmo) names s) = Some (VInt 1) /\ sget (fst (sql_step t (SGet n tmo) names s)) n = l') /\
  (acquire t (seen s n) = None ->
     snd (sql_step t (SGet n tmo) names s) = (if Z.ltb tmo 0 then None else Some (VInt 0)) /\
     sget (fst (sql_step t (SGet n tmo) names s)) n = seen s n) /\
  (forall m, m <> n -> sget (fst (sql_step t (SGet n tmo) names s)) m = sget s m).
Proof.
  rewrite sql_get. destruct (acquire t (seen s n)) as [l'|]; cbn [fst snd].
  - split; [intros l0 [= <-]; now rewrite sget_sput_same|]. split; [discriminate|]. intros m. apply sget_sput_other.
  - split; [discriminate|]. split; [intros _; now rewrite sget_sput_same|]. intros m. apply sget_sput_other.
Qed.

Theorem release_lock_value t n names s :
  snd (sql_step t (SRel n) names s) =
    Some (match sget s n with
          | LNone => VNull
          | LFree => VInt 0
          | LHeld t' _ => if N.eqb t' t then VInt 1 else VInt 0
          end) /\
  sget (fst (sql_step t (SRel n) names s)) n = fst (release t (sget s n)) /\
  (forall m, m <> n -> sget (fst (sql_step t (SRel n) names s)) m = sget s m).
Proof.
  rewrite sql_rel. cbn [fst snd]. repeat split; [apply sget_sput_same|]. intros m Hm. now apply sget_sput_other.
Qed.

Theorem is_free_is_used_value t n names s :
  snd (sql_step t (SIsFree n) names s) = Some (match holder (sget s n) with Some _ => VInt 0 | None => VInt 1 end) /\
  snd (sql_step t (SIsUsed n) names s) = Some (match holder (sget s n) with Some o => VInt o | None => VNull end) /\
  fst (sql_step t (SIsFree n) names s) = s /\ fst (sql_step t (SIsUsed n) names s) = s.
Proof. cbn. destruct (sget s n); cbn; auto. Qed.

Definition held_by (t : N) (l : lstate) : bool := match l with LHeld t' _ => N.eqb t' t | _ => false end.

Lemma release_all1_held_by t x :
  release_all1 t x = if held_by t x then (LFree, 1) else (x, 0).
Proof. now destruct x. Qed.

(* ReleaseAll over a list of names: every listed name held by t becomes free, nothing else changes *)
Lemma seq_relall_sget t names : forall s k m,
  sget (fst (seq_relall t s names k)) m =
    if existsb (N.eqb m) names && held_by t (sget s m) then LFree else sget s m.
Proof.
  induction names as [|n r IH]; intros s k m; cbn [seq_relall existsb]; [reflexivity|].
  rewrite release_all1_held_by. destruct (N.eqb_spec m n) as [->|Hne]; cbn [orb andb].
  - destruct (held_by t (sget s n)) eqn:Eh; rewrite IH, sget_sput_same; [now destruct (_ && _)|].
    now rewrite Eh, andb_false_r.
  - destruct (held_by t (sget s n)); rewrite IH; now rewrite sget_sput_other.
Qed.

(* RELEASE_ALL_LOCKS / disconnect by session t, whose name list covers every lock it holds (C38Cover): exactly
   t's locks are freed, every other lock keeps its holder and count *)
Theorem disconnect_frees_exactly_own_locks t names s o :
  o = SRelAll \/ o = SDisconnect ->
  (forall m, held_by t (sget s m) = true -> In m names) ->
  forall m, sget (fst (sql_step t o names s)) m = if held_by t (sget s m) then LFree else sget s m.
Proof.
  intros Ho Hcov m.
  assert (fst (sql_step t o names s) = fst (seq_relall t s names 0)) as ->.
  { destruct Ho as [->| ->]; cbn; destruct (seq_relall t s names 0); reflexivity. }
  rewrite seq_relall_sget. destruct (held_by t (sget s m)) eqn:Eh; [|now rewrite andb_false_r].
  rewrite (proj2 (existsb_exists _ _)); [reflexivity|]. exists m. split; [now apply Hcov|apply N.eqb_refl].
Qed.

(* the count returned by RELEASE_ALL_LOCKS: the number of listed names held by t (names without repetition) *)
Lemma seq_relall_count t names : forall s k, NoDup names ->
  snd (seq_relall t s names k) = k + N.of_nat (length (filter (fun m => held_by t (sget s m)) names)).
Proof.
  induction names as [|n r IH]; intros s k Hnd; cbn [seq_relall filter]; [cbn; lia|].
  inversion Hnd as [|? ? Hnin Hnd']; subst. rewrite release_all1_held_by.
  assert (Hf : forall l, filter (fun m => held_by t (sget (sput s n l) m)) r = filter (fun m => held_by t (sget s m)) r).
  { intros l. apply filter_ext_in. intros m Hm. rewrite sget_sput_other; [reflexivity|]. now intros ->. }
  destruct (held_by t (sget s n)); rewrite IH, Hf by assumption; cbn [length]; lia.
Qed.

Theorem release_all_locks_value t names s : NoDup names ->
  snd (sql_step t SRelAll names s) =
    Some (VInt (N.of_nat (length (filter (fun m => held_by t (sget s m)) names)))).
Proof.
  intros Hnd. cbn. pose proof (seq_relall_count t names s 0 Hnd) as H.
  destruct (seq_relall t s names 0) as [s' k]. cbn in *. now rewrite H.
Qed.

(* re-entrancy through SQL: k+1 GET_LOCKs return 1, then k+1 RELEASE_LOCKs return 1 and the lock is free again;
   after only j <= k releases IS_USED_LOCK still reports t *)
Fixpoint sql_iter (t : N) (o : sqlop) (k : nat) (s : seq_state) : seq_state * list (option sqlval) :=
  match k with
  | O => (s, [])
  | S k' => let '(s1, v) := sql_step t o [] s in let '(s2, vs) := sql_iter t o k' s1 in (s2, v :: vs)
  end.

Lemma sql_iter_S t o k s (r := sql_step t o [] s) :
  sql_iter t o (S k) s = (fst (sql_iter t o k (fst r)), snd r :: snd (sql_iter t o k (fst r))).
Proof. subst r. cbn [sql_iter]. destruct (sql_step t o [] s) as [s1 v]. cbn [fst snd]. now destruct (sql_iter t o k s1). Qed.

Lemma acquire_held t l l' : acquire t l = Some l' -> exists c, l' = LHeld t c.
Proof.
  destruct l as [| |t' c]; cbn; [discriminate|intros [= <-]; eauto|].
  destruct (N.eqb t' t); [intros [= <-]; eauto|discriminate].
Qed.

(* repeated GET_LOCK follows [acquire_n] on the lock as GET_LOCK sees it *)
Lemma sql_iter_get t n tmo : forall k s l,
  acquire_n t k (seen s n) = Some l ->
  snd (sql_iter t (SGet n tmo) k s) = repeat (Some (VInt 1)) k /\ seen (fst (sql_iter t (SGet n tmo) k s)) n = l.
Proof.
  induction k as [|k IH]; intros s l; cbn [acquire_n]; [now intros [= <-]|].
  rewrite sql_iter_S, sql_get. destruct (acquire t (seen s n)) as [l1|] eqn:E; [|discriminate]. cbn [fst snd repeat].
  intros H. destruct (IH (sput s n l1) l) as [-> ->]; [|now split].
  destruct (acquire_held _ _ _ E) as [c ->]. unfold seen. now rewrite sget_sput_same.
Qed.

(* repeated RELEASE_LOCK follows [release_n], and returns 1 as long as the caller is the holder *)
Lemma sql_iter_rel t n : forall k s,
  (forall j, (j < k)%nat -> holder (release_n t j (sget s n)) = Some t) ->
  snd (sql_iter t (SRel n) k s) = repeat (Some (VInt 1)) k /\
  sget (fst (sql_iter t (SRel n) k s)) n = release_n t k (sget s n).
Proof.
  induction k as [|k IH]; intros s Hh; [now split|].
  rewrite sql_iter_S, sql_rel. cbn [fst snd repeat release_n].
  destruct (IH (sput s n (fst (release t (sget s n))))) as [-> ->].
  - intros j Hj. rewrite sget_sput_same. apply (Hh (S j)). lia.
  - rewrite sget_sput_same. split; [|reflexivity]. specialize (Hh O ltac:(lia)). cbn in Hh.
    destruct (sget s n); try discriminate. injection Hh as ->. now rewrite N.eqb_refl.
Qed.

Theorem sql_reentrant_count t n tmo k s :
  seen s n = LFree ->
  let g := sql_iter t (SGet n tmo) (S k) s in
  snd g = repeat (Some (VInt 1)) (S k) /\
  (forall j, (j <= k)%nat ->
     snd (sql_step t (SIsUsed n) [] (fst (sql_iter t (SRel n) j (fst g)))) = Some (VInt t)) /\
  let r := sql_iter t (SRel n) (S k) (fst g) in
  snd r = repeat (Some (VInt 1)) (S k) /\ snd (sql_step t (SIsFree n) [] (fst r)) = Some (VInt 1).
Proof.
  intros Hfree g. destruct (reentrant_count t k) as (l & Ha & Hr & Hj).
  destruct (sql_iter_get t n tmo (S k) s l) as [Hv Hl]; [now rewrite Hfree|]. fold g in Hv, Hl.
  assert (Hg : sget (fst g) n = l).
  { destruct (Hj O ltac:(lia)) as (c & Hc & _). cbn in Hc. unfold seen in Hl. destruct (sget (fst g) n); congruence. }
  assert (Hh : forall j, (j < S k)%nat -> holder (release_n t j (sget (fst g) n)) = Some t).
  { intros j Hlt. rewrite Hg. destruct (Hj j ltac:(lia)) as (c & -> & _). reflexivity. }
  split; [exact Hv|]. split.
  - intros j Hle. destruct (sql_iter_rel t n j (fst g)) as [_ Hs]; [intros; apply Hh; lia|].
    cbn [sql_step snd]. rewrite Hs, Hg. destruct (Hj j Hle) as (c & -> & _). reflexivity.
  - intros r. destruct (sql_iter_rel t n (S k) (fst g) Hh) as [Hv2 Hs]. fold r in Hv2, Hs.
    split; [exact Hv2|]. cbn [sql_step snd]. now rewrite Hs, Hg, Hr.
Qed.
