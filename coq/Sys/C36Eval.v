(* C36 — a small concrete evaluator instantiating the abstract read-only step of Sys/C36ReadOnly.v.
   A query is a FUNCTION of the database value ([eval], denotational, C02 style: filter / project / aggregate over a
   bag of rows); a session evaluates its queries with a cursor that reads one row of the shared database per
   micro-step ([lstep]).  Under every interleaving with any other sessions' actions each session ends with exactly
   [map (fun q => eval q db) queries]. *)
From Coq Require Import List NArith ZArith Lia.
Import ListNotations.
From GMS Require Import Sys.ProcessList Sys.C36ReadOnly.

Definition row := list Z.
Definition DB := list row.

Inductive pred := PTrue | PEq (c : nat) (v : Z) | PLt (c : nat) (v : Z) | PAnd (p q : pred).
Inductive query := QCount (p : pred) | QSum (c : nat) (p : pred) | QSelect (c : nat) (p : pred).

Definition col (c : nat) (r : row) : Z := nth c r 0%Z.

Fixpoint holds (p : pred) (r : row) : bool :=
  match p with
  | PTrue => true
  | PEq c v => Z.eqb (col c r) v
  | PLt c v => Z.ltb (col c r) v
  | PAnd a b => holds a r && holds b r
  end.

Definition qpred (q : query) : pred := match q with QCount p | QSum _ p | QSelect _ p => p end.
Definition qval (q : query) (r : row) : Z := match q with QCount _ => 1%Z | QSum c _ | QSelect c _ => col c r end.
Definition finish (q : query) (acc : list Z) : list Z :=
  match q with
  | QCount _ => [Z.of_nat (length acc)]
  | QSum _ _ => [fold_right Z.add 0%Z acc]
  | QSelect _ _ => acc
  end.

Definition eval (q : query) (db : DB) : list Z := finish q (map (qval q) (filter (holds (qpred q)) db)).

(* the session's private state: queries still to run, the cursor of the running query, the results so far *)
Record loc := mkLoc { todo : list query; cur : option (query * nat * list Z); results : list (list Z) }.

Definition lstep (db : DB) (_ : N) (l : loc) : loc :=
  match cur l with
  | None =>
      match todo l with
      | [] => l
      | q :: r => mkLoc r (Some (q, O, [])) (results l)
      end
  | Some (q, pos, acc) =>
      match nth_error db pos with
      | Some rw => mkLoc (todo l) (Some (q, S pos, if holds (qpred q) rw then acc ++ [qval q rw] else acc)) (results l)
      | None => mkLoc (todo l) None (results l ++ [finish q acc])
      end
  end.

Fixpoint iter (n : nat) (f : loc -> loc) (l : loc) : loc := match n with O => l | S k => iter k f (f l) end.

Lemma iter_add (a b : nat) f l : iter (a + b)%nat f l = iter b f (iter a f l).
Proof. revert l. induction a as [|a IH]; intros l; cbn; [reflexivity|apply IH]. Qed.

Lemma skipn_nth_error {A} (l : list A) : forall n x, nth_error l n = Some x -> skipn n l = x :: skipn (S n) l.
Proof.
  induction l as [|y l IH]; intros [|n] x E; try discriminate; [now injection E as ->|exact (IH n x E)].
Qed.

Lemma scan (db : DB) i q td res : forall (k pos : nat) acc,
  (pos + k = length db)%nat ->
  iter k (lstep db i) (mkLoc td (Some (q, pos, acc)) res) =
  mkLoc td (Some (q, length db, acc ++ map (qval q) (filter (holds (qpred q)) (skipn pos db)))) res.
Proof.
  induction k as [|k IH]; intros pos acc Hk; cbn [iter].
  - assert (pos = length db) by lia. subst pos. rewrite skipn_all. cbn. now rewrite app_nil_r.
  - unfold lstep at 2. cbn [cur].
    destruct (nth_error db pos) as [rw|] eqn:E.
    2: { apply nth_error_None in E. lia. }
    cbn [todo results]. rewrite IH, (skipn_nth_error db pos rw E) by lia. cbn [filter]. destruct (holds (qpred q) rw); cbn [map]; [now rewrite <- app_assoc|reflexivity].
Qed.

Lemma run_query (db : DB) i q td res :
  iter (length db + 2)%nat (lstep db i) (mkLoc (q :: td) None res) = mkLoc td None (res ++ [eval q db]).
Proof.
  replace (length db + 2)%nat with (1 + (length db + 1))%nat by lia. rewrite iter_add. cbn [iter].
  unfold lstep at 2. cbn [cur todo results]. rewrite iter_add, (scan db i q td res (length db) 0 []) by lia.
  cbn [iter]. unfold lstep. cbn [cur]. rewrite (proj2 (nth_error_None db (length db))) by lia.
  cbn [todo results app skipn]. reflexivity.
Qed.

Lemma run_queries (db : DB) i : forall qs res,
  iter (length qs * (length db + 2))%nat (lstep db i) (mkLoc qs None res) = mkLoc [] None (res ++ map (fun q => eval q db) qs).
Proof.
  induction qs as [|q qs IH]; intros res; cbn [length Nat.mul map].
  - cbn. now rewrite app_nil_r.
  - rewrite iter_add, run_query, IH, <- app_assoc. reflexivity.
Qed.

Lemma idle_stable db i res n : iter n (lstep db i) (mkLoc [] None res) = mkLoc [] None res.
Proof. induction n as [|n IH]; cbn; [reflexivity|exact IH]. Qed.

Theorem session_computes_eval (db : DB) i qs (n : nat) :
  (length qs * (length db + 2) <= n)%nat ->
  iter n (lstep db i) (mkLoc qs None []) = mkLoc [] None (map (fun q => eval q db) qs).
Proof.
  intros Hn. replace n with (length qs * (length db + 2) + (n - length qs * (length db + 2)))%nat by lia.
  rewrite iter_add, run_queries, idle_stable. reflexivity.
Qed.

Fixpoint nlocal (i : N) (l : list (N * action)) : nat :=
  match l with
  | [] => O
  | (j, ALocal) :: r => if N.eqb j i then S (nlocal i r) else nlocal i r
  | _ :: r => nlocal i r
  end.

Lemma gloc_exec (g : gstate DB loc) l i :
  gloc DB loc (exec DB loc lstep g l) i = iter (nlocal i l) (lstep (gdb DB loc g) i) (gloc DB loc g i).
Proof.
  revert g. induction l as [|[j a] r IH]; intros g; [reflexivity|].
  rewrite exec_cons, IH. destruct a; cbn [nlocal gstep gdb gloc]; try reflexivity.
  destruct (N.eqb_spec j i) as [->|Hne]; cbn [iter].
  - now rewrite N.eqb_refl.
  - destruct (N.eqb_spec i j); [congruence|reflexivity].
Qed.

(* read-only isolation with the concrete evaluator: in EVERY interleaving in which session i gets enough of its own
   evaluation steps, and whatever the other sessions, the process list and the counters do in between, session i ends
   with exactly the meaning of its queries on the (unchanged) database *)
Theorem readonly_sessions_compute_eval (g : gstate DB loc) l i qs :
  gloc DB loc g i = mkLoc qs None [] ->
  (length qs * (length (gdb DB loc g) + 2) <= nlocal i l)%nat ->
  gloc DB loc (exec DB loc lstep g l) i = mkLoc [] None (map (fun q => eval q (gdb DB loc g)) qs) /\
  gdb DB loc (exec DB loc lstep g l) = gdb DB loc g.
Proof.
  intros Hl Hn. split; [|apply db_never_written]. rewrite gloc_exec, Hl. now apply session_computes_eval.
Qed.

Example eval_demo :
  let db := [[1; 10]; [2; 20]; [3; 30]; [2; 5]]%Z in
  eval (QSelect 1 (PEq 0 2)) db = [20; 5]%Z /\ eval (QCount (PLt 1 25)) db = [3]%Z /\
  eval (QSum 1 (PAnd PTrue (PLt 0 3))) db = [35]%Z.
Proof. vm_compute. repeat split. Qed.
