(* C36 — the memory manager's cache registry (sql/memory.go MemoryManager: addCache / removeCache under mu,
   NumCaches), shared by all sessions of a server.  addCache: token++; caches[token] = c; removeCache(pos):
   delete(caches, pos); if the map is empty the token counter restarts at 0.  Each step is atomic (mu held). *)
From Coq Require Import List NArith ZArith Lia Bool.
Import ListNotations.
Open Scope N_scope.

Inductive mev := MAdd | MRem (p : N).

Record mstate := mkM { tok : N; live : list N }.
Definition minit : mstate := mkM 0 [].

Definition mstep (s : mstate) (e : mev) : mstate :=
  match e with
  | MAdd => mkM (tok s + 1) ((tok s + 1) :: live s)
  | MRem p => let l := filter (fun x => negb (N.eqb x p)) (live s) in
              mkM (match l with [] => 0 | _ => tok s end) l
  end.

(* the discipline: a dispose function is called once, for a cache that was added (position currently live) *)
Definition mok (s : mstate) (e : mev) : Prop := match e with MAdd => True | MRem p => In p (live s) end.

Fixpoint mrun (s : mstate) (es : list mev) : mstate := match es with [] => s | e :: r => mrun (mstep s e) r end.
Fixpoint mwf (s : mstate) (es : list mev) : Prop :=
  match es with [] => True | e :: r => mok s e /\ mwf (mstep s e) r end.

Fixpoint adds (es : list mev) : Z := match es with [] => 0 | MAdd :: r => 1 + adds r | _ :: r => adds r end.
Fixpoint rems (es : list mev) : Z := match es with [] => 0 | MRem _ :: r => 1 + rems r | _ :: r => rems r end.

Record MInv (s : mstate) : Prop := {
  mi_nodup : NoDup (live s);
  mi_le : forall p, In p (live s) -> 0 < p <= tok s;
  mi_zero : live s = [] -> tok s = 0
}.

Lemma minv_init : MInv minit.
Proof. split; cbn; [constructor|tauto|reflexivity]. Qed.

Lemma filter_neq_notin p l : ~ In p l -> filter (fun x => negb (N.eqb x p)) l = l.
Proof.
  induction l as [|y r IH]; cbn [In filter]; intros Hn; [reflexivity|].
  destruct (N.eqb_spec y p); [tauto|]. cbn [negb]. f_equal. tauto.
Qed.

(* removing a position that is live drops exactly one entry: the positions are pairwise distinct *)
Lemma filter_neq_length p l : NoDup l -> In p l ->
  Z.of_nat (length (filter (fun x => negb (N.eqb x p)) l)) = (Z.of_nat (length l) - 1)%Z.
Proof.
  induction l as [|x r IH]; cbn [In filter length]; [tauto|]. intros Hnd [->|Hin]; inversion Hnd as [|? ? Hn Hnd']; subst.
  - rewrite N.eqb_refl, (filter_neq_notin p r Hn), Nat2Z.inj_succ. cbn [negb]. lia.
  - destruct (N.eqb_spec x p) as [->|Hne]; [contradiction|]. cbn [negb length]. rewrite Nat2Z.inj_succ, IH by assumption. lia.
Qed.

Lemma minv_step s e : MInv s -> mok s e -> MInv (mstep s e).
Proof.
  intros [Hnd Hle Hz] Hok. destruct e as [|p]; cbn.
  - split; cbn.
    + constructor; [|exact Hnd]. intros H. apply Hle in H. lia.
    + intros q [<-|H]; [lia|]. apply Hle in H. lia.
    + discriminate.
  - split; cbn.
    + now apply NoDup_filter.
    + intros q Hq. revert Hq. destruct (filter (fun x => negb (N.eqb x p)) (live s)) as [|y l'] eqn:E; intros Hq; [contradiction|].
      rewrite <- E in Hq. apply filter_In in Hq as [Hq _]. exact (Hle _ Hq).
    + intros ->. reflexivity.
Qed.

Lemma mrun_facts es : forall s, MInv s -> mwf s es ->
  MInv (mrun s es) /\ Z.of_nat (length (live (mrun s es))) = (Z.of_nat (length (live s)) + adds es - rems es)%Z.
Proof.
  induction es as [|e r IH]; intros s HI Hwf; cbn [mrun adds rems]; [split; [exact HI|lia]|].
  destruct Hwf as [Hok Hwf]. destruct (IH _ (minv_step _ _ HI Hok) Hwf) as [HI' Hlen]. split; [exact HI'|].
  rewrite Hlen. destruct e as [|p]; cbn [mstep live adds rems length].
  - rewrite Nat2Z.inj_succ. lia.
  - rewrite (filter_neq_length p (live s) (mi_nodup _ HI) Hok). lia.
Qed.

(* for every interleaving of addCache / removeCache calls in which every dispose function is called once:
   live positions are pairwise distinct (a dispose never removes another cache), the position handed out next
   is not live, NumCaches = adds - removes, and when every cache has been disposed the registry is empty and
   the token counter is back at 0 *)
Theorem cache_registry_consistent es :
  mwf minit es ->
  let s := mrun minit es in
  NoDup (live s) /\ ~ In (tok s + 1) (live s) /\
  Z.of_nat (length (live s)) = (adds es - rems es)%Z /\
  (adds es = rems es -> live s = [] /\ tok s = 0).
Proof.
  intros Hwf s. destruct (mrun_facts es minit minv_init Hwf) as [HI Hlen]. fold s in HI, Hlen. cbn in Hlen.
  split; [exact (mi_nodup _ HI)|]. split; [intros H; apply (mi_le _ HI) in H; lia|]. split; [lia|].
  intros Hab. assert (E : live s = []) by (destruct (live s); [reflexivity|cbn [length] in Hlen; lia]).
  split; [exact E|exact (mi_zero _ HI E)].
Qed.

Example registry_demo :
  mwf minit [MAdd; MAdd; MRem 1; MAdd; MRem 3; MRem 2; MAdd] /\
  mrun minit [MAdd; MAdd; MRem 1; MAdd; MRem 3; MRem 2; MAdd] = mkM 1 [1].
Proof. cbn. intuition. Qed.
