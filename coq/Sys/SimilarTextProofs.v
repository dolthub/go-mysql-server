(* Proofs about the C49 model (Sys/SimilarText.v). *)
From Coq Require Import List NArith Arith Lia Bool.
Import ListNotations.
From GMS Require Import Sys.SimilarText.

Lemma edr_nil_r a : edr a [] = length a.
Proof. destruct a; reflexivity. Qed.

Lemma edr_nil_l b : edr [] b = length b.
Proof. reflexivity. Qed.

Lemma edr_cons x a y b :
  edr (x :: a) (y :: b) =
  Nat.min (edr a (y :: b) + 1) (Nat.min (edr a b + subst_cost x y) (edr (x :: a) b + 1)).
Proof. reflexivity. Qed.

Fixpoint rprefs (rb : str) (tgt : str) : list str :=
  match tgt with
  | [] => []
  | t :: ts => (t :: rb) :: rprefs (t :: rb) ts
  end.

Definition row_of (ra : str) (tgt : str) : list nat :=
  edr ra [] :: map (edr ra) (rprefs [] tgt).

Lemma fill_spec tgt : forall c ra rb,
  fill c tgt (map (edr ra) (rprefs rb tgt)) (edr ra rb) (edr (c :: ra) rb)
  = map (edr (c :: ra)) (rprefs rb tgt).
Proof.
  induction tgt as [|t ts IH]; intros c ra rb; [reflexivity|].
  cbn [rprefs map fill].
  rewrite <- (edr_cons c ra t rb).
  f_equal. apply IH.
Qed.

Lemma next_row_spec c ra tgt :
  next_row c (S (length ra)) (row_of ra tgt) tgt = row_of (c :: ra) tgt.
Proof.
  unfold next_row, row_of.
  rewrite (edr_nil_r (c :: ra)). cbn [length]. f_equal.
  replace (S (length ra)) with (edr (c :: ra) []) by (rewrite edr_nil_r; reflexivity).
  apply fill_spec.
Qed.

Lemma rows_spec tgt : forall src ra,
  rows src (S (length ra)) (row_of ra tgt) tgt = row_of (rev src ++ ra) tgt.
Proof.
  induction src as [|c src IH]; intros ra; [reflexivity|].
  cbn [rows]. rewrite next_row_spec.
  change (S (S (length ra))) with (S (length (c :: ra))).
  rewrite IH. cbn [rev]. rewrite <- app_assoc. reflexivity.
Qed.

Lemma init_row_aux tgt : forall rb,
  map (edr []) (rprefs rb tgt) = seq (S (length rb)) (length tgt).
Proof.
  induction tgt as [|t ts IH]; intros rb; [reflexivity|].
  cbn [rprefs map length seq]. f_equal. apply (IH (t :: rb)).
Qed.

Lemma init_row tgt : seq 0 (S (length tgt)) = row_of [] tgt.
Proof. unfold row_of. rewrite init_row_aux. reflexivity. Qed.

Lemma last_row ra tgt : forall rb,
  last (edr ra rb :: map (edr ra) (rprefs rb tgt)) 0 = edr ra (rev tgt ++ rb).
Proof.
  induction tgt as [|t ts IH]; intros rb; [reflexivity|].
  cbn [rprefs map rev].
  change (last (edr ra rb :: edr ra (t :: rb) :: map (edr ra) (rprefs (t :: rb) ts)) 0)
    with (last (edr ra (t :: rb) :: map (edr ra) (rprefs (t :: rb) ts)) 0).
  rewrite IH. rewrite <- app_assoc. reflexivity.
Qed.

Theorem distance_eq_ed source target : distance source target = ed source target.
Proof.
  unfold distance, ed.
  rewrite init_row.
  change 1 with (S (length (@nil N))).
  rewrite rows_spec. unfold row_of. rewrite last_row.
  rewrite !app_nil_r. reflexivity.
Qed.

Lemma script_cost a b c c' : script a b c -> c = c' -> script a b c'.
Proof. intros H <-; exact H. Qed.

Lemma edr_del x a b : edr (x :: a) b <= edr a b + 1.
Proof.
  destruct b as [|y b]; [rewrite !edr_nil_r; cbn [length]; lia|].
  rewrite edr_cons. lia.
Qed.

Lemma edr_ins a y b : edr a (y :: b) <= edr a b + 1.
Proof.
  destruct a as [|x a]; [cbn [edr length]; lia|].
  rewrite edr_cons. lia.
Qed.

Lemma edr_keep x a b : edr (x :: a) (x :: b) <= edr a b.
Proof. rewrite edr_cons. unfold subst_cost. rewrite N.eqb_refl. lia. Qed.

Lemma edr_sub x y a b : edr (x :: a) (y :: b) <= edr a b + 2.
Proof. rewrite edr_cons. unfold subst_cost. destruct (N.eqb x y); lia. Qed.

Theorem ed_le_script a b c : script a b c -> ed a b <= c.
Proof.
  unfold ed. induction 1 as [|a b c x _ IH|a b c y _ IH|a b c x _ IH|a b c x y _ _ IH];
    rewrite ?rev_app_distr; cbn [rev app].
  - cbn; lia.
  - pose proof (edr_del x (rev a) (rev b)); lia.
  - pose proof (edr_ins (rev a) y (rev b)); lia.
  - pose proof (edr_keep x (rev a) (rev b)); lia.
  - pose proof (edr_sub x y (rev a) (rev b)); lia.
Qed.

Lemma script_ins_all rb : script [] (rev rb) (length rb).
Proof.
  induction rb as [|y rb IH]; [constructor|].
  cbn [rev length]. eapply script_cost; [apply (s_ins _ _ _ y IH)|lia].
Qed.

Lemma script_del_all ra : script (rev ra) [] (length ra).
Proof.
  induction ra as [|x ra IH]; [constructor|].
  cbn [rev length]. eapply script_cost; [apply (s_del _ _ _ x IH)|lia].
Qed.

Lemma script_edr ra : forall rb, script (rev ra) (rev rb) (edr ra rb).
Proof.
  induction ra as [|x ra IHa]; intros rb.
  - cbn [edr]. apply script_ins_all.
  - induction rb as [|y rb IHb].
    + rewrite edr_nil_r. apply script_del_all.
    + rewrite edr_cons. cbn [rev].
      destruct (Nat.min_spec (edr ra (y :: rb) + 1)
                  (Nat.min (edr ra rb + subst_cost x y) (edr (x :: ra) rb + 1))) as [[_ ->]|[_ ->]].
      * apply (s_del _ _ _ x (IHa (y :: rb))).
      * destruct (Nat.min_spec (edr ra rb + subst_cost x y) (edr (x :: ra) rb + 1)) as [[_ ->]|[_ ->]].
        -- unfold subst_cost. destruct (N.eqb_spec x y) as [->|Hne].
           ++ eapply script_cost; [apply (s_keep _ _ _ y (IHa rb))|lia].
           ++ apply (s_sub _ _ _ x y Hne (IHa rb)).
        -- apply (s_ins _ _ _ y IHb).
Qed.

Theorem script_ed a b : script a b (ed a b).
Proof.
  unfold ed. pose proof (script_edr (rev a) (rev b)) as H.
  rewrite !rev_involutive in H. exact H.
Qed.

Lemma bucket_get_add m : forall d n d',
  bucket_get (bucket_add m d n) d' =
  if Nat.eqb d d' then bucket_get m d' ++ [n] else bucket_get m d'.
Proof.
  induction m as [|[k l] m IH]; intros d n d'; cbn [bucket_add bucket_get].
  - rewrite Nat.eqb_sym. destruct (Nat.eqb d' d); reflexivity.
  - destruct (Nat.eqb_spec k d) as [->|Hkd]; cbn [bucket_get].
    + destruct (Nat.eqb_spec d d'); reflexivity.
    + destruct (Nat.eqb_spec k d') as [->|Hkd'].
      * destruct (Nat.eqb_spec d d'); [congruence|reflexivity].
      * apply IH.
Qed.

Lemma in_snoc {A} (l : list A) x y : In y (l ++ [x]) <-> In y l \/ y = x.
Proof. rewrite in_app_iff. cbn. intuition. Qed.

Section Find.
Variable src : str.

Definition sel (d : nat) (n : str) : bool := (ed n src <? distance_skipped) && (ed n src =? d).

(* after the names [seen]: every bucket holds the qualifying names at its distance, in input order, and the running
   minimum is the least qualifying distance (None while no name has qualified) *)
Definition Inv (seen : list str) (st : option nat * list (nat * list str)) : Prop :=
  (forall d, bucket_get (snd st) d = filter (sel d) seen) /\
  match fst st with
  | None => forall n, In n seen -> distance_skipped <= ed n src
  | Some d => d < distance_skipped /\ (exists n, In n seen /\ ed n src = d) /\
              forall n, In n seen -> ed n src < distance_skipped -> d <= ed n src
  end.

Lemma Inv_init : Inv [] (None, []).
Proof. split; [reflexivity|]. cbn. intros n []. Qed.

Lemma Inv_step seen st n : Inv seen st -> Inv (seen ++ [n]) (find_step src st n).
Proof.
  destruct st as [mind m]. intros [Hb Hm]. unfold find_step. rewrite distance_eq_ed.
  destruct (Nat.leb_spec distance_skipped (ed n src)) as [Hge|Hlt]; split; cbn [fst snd] in *.
  - intros d. rewrite Hb, filter_app. cbn [filter]. change (sel d n) with ((ed n src <? distance_skipped) && (ed n src =? d)).
    rewrite (proj2 (Nat.ltb_ge _ _) Hge). symmetry. apply app_nil_r.
  - destruct mind as [d|].
    + destruct Hm as (Hd & (n0 & Hin & He) & Hmin). repeat split; [exact Hd|exists n0; rewrite in_snoc; auto|].
      intros n' [Hin'| ->]%in_snoc Hlt'; [auto|lia].
    + intros n' [Hin'| ->]%in_snoc; auto.
  - intros d. rewrite bucket_get_add, Hb, filter_app. cbn [filter]. change (sel d n) with ((ed n src <? distance_skipped) && (ed n src =? d)).
    rewrite (proj2 (Nat.ltb_lt _ _) Hlt). cbn [andb]. destruct (ed n src =? d); [reflexivity|symmetry; apply app_nil_r].
  - destruct mind as [d|].
    + destruct Hm as (Hd & (n0 & Hin & He) & Hmin).
      destruct (Nat.ltb_spec (ed n src) d) as [Hnd|Hnd]; cbn [fst]; repeat split; try assumption.
      * exists n. rewrite in_snoc. auto.
      * intros n' [Hin'| ->]%in_snoc Hlt'; [specialize (Hmin n' Hin' Hlt')|]; lia.
      * exists n0. rewrite in_snoc. auto.
      * intros n' [Hin'| ->]%in_snoc Hlt'; [auto|lia].
    + repeat split; [exact Hlt|exists n; rewrite in_snoc; auto|].
      intros n' [Hin'| ->]%in_snoc Hlt'; [specialize (Hm n' Hin')|]; lia.
Qed.

Lemma Inv_fold names : forall seen st, Inv seen st -> Inv (seen ++ names) (fold_left (find_step src) names st).
Proof.
  induction names as [|n names IH]; intros seen st H; cbn [fold_left].
  - rewrite app_nil_r. exact H.
  - replace (seen ++ n :: names) with ((seen ++ [n]) ++ names) by (rewrite <- app_assoc; reflexivity).
    apply IH, Inv_step, H.
Qed.

Lemma sel_spec d n : sel d n = true <-> ed n src < distance_skipped /\ ed n src = d.
Proof. unfold sel. rewrite andb_true_iff, Nat.ltb_lt, Nat.eqb_eq. reflexivity. Qed.

End Find.

(* Find in one statement: nothing is suggested and (for a non-empty name) nothing qualifies, or the suggestions are the
   qualifying names at the least qualifying distance, in input order *)
Lemma find_names_char names src :
  (find_names names src = [] /\ (src <> [] -> forall n, In n names -> distance_skipped <= ed n src)) \/
  (exists d, d < distance_skipped /\ find_names names src = filter (sel src d) names /\
             (exists n, In n names /\ ed n src = d) /\
             forall n, In n names -> ed n src < distance_skipped -> d <= ed n src).
Proof.
  unfold find_names. destruct src as [|c s]; [left; split; [reflexivity|congruence]|].
  pose proof (Inv_fold (c :: s) names [] (None, []) (Inv_init _)) as H. cbn [app] in H.
  destruct (fold_left (find_step (c :: s)) names (None, [])) as [[d|] m]; destruct H as [Hb Hm]; cbn [fst snd] in *.
  - right. exists d. rewrite Hb. destruct Hm as (Hd & Hex & Hmin). auto.
  - left. split; [reflexivity|intros _; exact Hm].
Qed.

Theorem find_names_sound names src n :
  In n (find_names names src) ->
  In n names /\ ed n src < distance_skipped /\
  forall n', In n' names -> ed n src <= ed n' src.
Proof.
  intros Hin. destruct (find_names_char names src) as [[H0 _]|(d & Hd & Hf & _ & Hmin)]; [rewrite H0 in Hin; destruct Hin|].
  rewrite Hf in Hin. apply filter_In in Hin. destruct Hin as [Hn Hsel]. apply sel_spec in Hsel. destruct Hsel as [H1 H2].
  split; [exact Hn|]. split; [exact H1|]. intros n' Hn'.
  destruct (Nat.lt_ge_cases (ed n' src) distance_skipped) as [Hl|Hg]; [specialize (Hmin n' Hn' Hl)|]; lia.
Qed.

Theorem find_names_all_minimal names src n m :
  In m (find_names names src) -> In n names -> ed n src = ed m src -> In n (find_names names src).
Proof.
  intros Hm Hn He. destruct (find_names_char names src) as [[H0 _]|(d & _ & Hf & _)]; [rewrite H0 in Hm; destruct Hm|].
  rewrite Hf in *. apply filter_In in Hm. apply filter_In. split; [exact Hn|].
  unfold sel. rewrite He. exact (proj2 Hm).
Qed.

Theorem find_names_none_iff names src :
  src <> [] ->
  (find_names names src = [] <-> forall n, In n names -> distance_skipped <= ed n src).
Proof.
  intros Hsrc. destruct (find_names_char names src) as [[H0 Hall]|(d & Hd & Hf & (n0 & Hin0 & He0) & _)].
  - split; [intros _; exact (Hall Hsrc)|intros _; exact H0].
  - (* n0 is suggested and is within the threshold *)
    split; [intros Hnil|intros Hall; specialize (Hall n0 Hin0); lia].
    assert (Hc : In n0 (find_names names src)) 
      by (rewrite Hf; apply filter_In; split; [exact Hin0|]; apply sel_spec; split; [lia|exact He0]).
    rewrite Hnil in Hc. destruct Hc.
Qed.

Theorem find_names_order names src :
  exists d, find_names names src = [] \/ find_names names src = filter (fun n => Nat.eqb (ed n src) d) names.
Proof.
  destruct (find_names_char names src) as [[H0 _]|(d & Hd & Hf & _)]; [exists 0; left; exact H0|].
  exists d. right. rewrite Hf. apply filter_ext. intros n. unfold sel.
  destruct (Nat.eqb_spec (ed n src) d) as [->|]; [|apply andb_false_r].
  rewrite (proj2 (Nat.ltb_lt _ _) Hd). reflexivity.
Qed.

Theorem find_empty_iff names src : find names src = [] <-> find_names names src = [].
Proof.
  unfold find. destruct (find_names names src) eqn:E; split; intros H; try reflexivity; try discriminate.
Qed.
