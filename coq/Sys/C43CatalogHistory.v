(* C43 -- the set model lifted from table names to every kind of object: after one statement, hence after the last
   statement of any DDL history, views / triggers / routines / foreign keys and the columns, indexes and checks of every table are
   the ones created and not dropped, with their current definition. *)
From Coq Require Import List NArith Bool.
Import ListNotations.
From GMS Require Import Sys.C43Catalog Sys.C43CatalogProofs.
Open Scope N_scope.

Lemma find_tbl_app : forall c c' x m, tables c' = tables c ++ [x] ->
  find_tbl m c' = match find_tbl m c with Some y => Some y | None => if N.eqb (tname x) m then Some x else None end.
Proof.
  intros c c' x m Ht. unfold find_tbl. rewrite Ht. clear Ht. induction (tables c) as [|a r IH]; cbn; [reflexivity|].
  destruct (N.eqb (tname a) m); [reflexivity | exact IH].
Qed.

Lemma find_tbl_filter : forall c c' t m, tables c' = filter (fun x => negb (N.eqb (tname x) t)) (tables c) ->
  find_tbl m c' = if N.eqb m t then None else find_tbl m c.
Proof.
  intros c c' t m Ht. unfold find_tbl. rewrite Ht. clear Ht. induction (tables c) as [|a r IH]; cbn.
  - destruct (N.eqb m t); reflexivity.
  - destruct (N.eqb (tname a) t) eqn:Ea; cbn.
    + apply N.eqb_eq in Ea. rewrite Ea. destruct (N.eqb m t) eqn:Em; [exact IH|].
      rewrite N.eqb_sym, Em. exact IH.
    + destruct (N.eqb (tname a) m) eqn:Eam; [|exact IH].
      apply N.eqb_eq in Eam. subst m. rewrite Ea. reflexivity.
Qed.

(* every table called t replaced by t', which is called u: either u is t (a table rewritten in place) or no table
   is called u yet (a table renamed) *)
Lemma find_tbl_set : forall c c' t u t' m, tables c' = set_tbl t t' (tables c) -> tname t' = u ->
  u = t \/ find_tbl u c = None ->
  find_tbl m c' = if N.eqb m u then match find_tbl t c with Some _ => Some t' | None => None end
                  else if N.eqb m t then None else find_tbl m c.
Proof.
  intros c c' t u t' m Ht Hu Hn. unfold find_tbl in *. rewrite Ht. clear Ht. unfold set_tbl.
  induction (tables c) as [|a r IH]; cbn in *.
  - destruct (N.eqb m u); [reflexivity | destruct (N.eqb m t); reflexivity].
  - assert (IH' : u = t \/ find (fun x => N.eqb (tname x) u) r = None).
    { destruct Hn as [Hn|Hn]; [left; exact Hn | right]. destruct (N.eqb (tname a) u); [discriminate | exact Hn]. }
    specialize (IH IH'). destruct (N.eqb (tname a) t) eqn:Eat.
    + rewrite Hu. apply N.eqb_eq in Eat. destruct (N.eqb m u) eqn:Emu.
      * apply N.eqb_eq in Emu. subst m. rewrite N.eqb_refl. reflexivity.
      * rewrite N.eqb_sym, Emu. rewrite IH. destruct (N.eqb m t) eqn:Emt; [reflexivity|].
        rewrite Eat, N.eqb_sym, Emt. reflexivity.
    + rewrite IH. destruct (N.eqb m u) eqn:Emu.
      * apply N.eqb_eq in Emu. subst m. destruct (N.eqb (tname a) u) eqn:Eau; [|reflexivity].
        destruct Hn as [->|Hn]; [congruence | discriminate].
      * destruct (N.eqb m t) eqn:Emt.
        { apply N.eqb_eq in Emt. subst m. rewrite Eat. reflexivity. }
        { destruct (N.eqb (tname a) m); reflexivity. }
Qed.

Lemma find_tbl_replace : forall c c' t tb tb' m, find_tbl t c = Some tb -> tname tb' = tname tb ->
  tables c' = set_tbl t tb' (tables c) -> find_tbl m c' = if N.eqb m t then Some tb' else find_tbl m c.
Proof.
  intros c c' t tb tb' m Ef Hn Ht. rewrite (find_tbl_name _ _ _ Ef) in Hn.
  rewrite (find_tbl_set c c' t t tb' m Ht Hn (or_introl eq_refl)), Ef. destruct (N.eqb m t); reflexivity.
Qed.

Lemma upd_find : forall c n ok f m, (forall t, tname (f t) = tname t) ->
  find_tbl m (snd (upd c n ok f)) =
  if fst (upd c n ok f) && N.eqb m n then option_map f (find_tbl n c) else find_tbl m c.
Proof.
  intros c n ok f m Hf. unfold upd. destruct (find_tbl n c) as [t|] eqn:Ef; [|reflexivity].
  destruct (ok t); [|reflexivity]. cbn [fst snd andb option_map]. apply (find_tbl_replace c _ n t (f t) m Ef (Hf t)). reflexivity.
Qed.

Definition views_after (o : op) (c : cat) : list view :=
  match o with
  | CreateView v b cs => if fst (step o c) then views c ++ [mkview v b cs] else views c
  | DropView v => if fst (step o c) then filter (fun x => negb (N.eqb (vname x) v)) (views c) else views c
  | _ => views c
  end.
Definition trigs_after (o : op) (c : cat) : list trig :=
  match o with
  | CreateTrigger g t before ev r => if fst (step o c) then trigs c ++ [mktrig g t before ev r] else trigs c
  | DropTrigger g => if fst (step o c) then remove_first_trig g (trigs c) else trigs c
  | DropTable t => if fst (step o c) then filter (fun g => negb (N.eqb (gtable g) t)) (trigs c) else trigs c
  | _ => trigs c
  end.
Definition procs_after (o : op) (c : cat) : list proc :=
  match o with
  | CreateProc p v => if fst (step o c) then procs c ++ [mkproc p v] else procs c
  | DropProc p => if fst (step o c) then filter (fun x => negb (N.eqb (pname x) p)) (procs c) else procs c
  | _ => procs c
  end.
(* foreign keys: added, dropped (by name), dropped with their table, re-pointed by RENAME TABLE (even a rejected one
   whose source exists: the code rewrites them first), columns renamed along *)
Definition fks_after (o : op) (c : cat) : list fk :=
  match o with
  | AddFK t f cs p pcs => if fst (step o c) then fks c ++ [mkfk f t cs p pcs] else fks c
  | DropFK t f => if fst (step o c) then filter (fun g => negb (N.eqb (fname g) f)) (fks c) else fks c
  | DropTable t => if fst (step o c) then filter (fun f => negb (N.eqb (ftable f) t)) (fks c) else fks c
  | RenameTable t u =>
    if has_tbl t c then map (fun f => mkfk (fname f) (ren t u (ftable f)) (fcols f) (ren t u (fparent f)) (fpcols f)) (fks c)
    else fks c
  | RenameColumn t x y =>
    if fst (step o c)
    then map (fun f => mkfk (fname f) (ftable f) (if N.eqb (ftable f) t then map (ren x y) (fcols f) else fcols f)
                            (fparent f) (if N.eqb (fparent f) t then map (ren x y) (fpcols f) else fpcols f)) (fks c)
    else fks c
  | _ => fks c
  end.

Theorem step_other_objects : forall o c,
  views (exec o c) = views_after o c /\ trigs (exec o c) = trigs_after o c /\
  procs (exec o c) = procs_after o c /\ fks (exec o c) = fks_after o c.
Proof.
  intros o c. unfold exec.
  destruct o as [t cs pk | t | t u | t s p | t x | t x y | t i cs pre uq | t i x | t i | t cs | t | t f cs p pcs | t f | t k x b | t k | v b cs | v | g t before ev r | g | p v | p];
    cbn [views_after trigs_after procs_after fks_after step];
    (* the statements that rewrite one table leave the four lists alone; most others change one list behind a guard *)
    try apply upd_rest; try solve [case_guard c; cbn; auto].
  - (* RenameTable *)
    rewrite (has_tbl_find t). destruct (find_tbl t c) as [x|]; [|cbn; auto].
    destruct (negb (has_tbl u c)); cbn; auto.
  - (* DropColumn *)
    destruct (find_tbl t c) as [tb|]; [|cbn; auto]. destruct (find_col x tb); [|cbn; auto].
    destruct (fn_depends x tb); [cbn; auto|].
    match goal with |- context [if ?b then (false, _) else (true, _)] => destruct b end; cbn; auto.
  - (* RenameColumn *)
    match goal with |- context [upd c t ?ok ?f] =>
      pose proof (upd_rest c t ok f) as [Hv [Hg [Hp Hf]]]; destruct (upd c t ok f) as [[|] c'] end; cbn in *;
      repeat split; try assumption. now rewrite Hf.
  - (* AddFK *)
    destruct (find_tbl t c) as [tb|]; [|cbn; auto]. destruct (find_tbl p c) as [pb|]; [|cbn; auto].
    case_guard c; [|cbn; auto].
    destruct (negb (fk_index_ok tb cs false None)); cbn.
    + destruct (has_idx f tb || N.eqb f PRIMARY); [cbn; auto|].
      destruct (existsb (fun g => N.eqb (fname g) f) (fks c)); cbn; [destruct (tmap tb); cbn; auto | auto].
    + destruct (existsb (fun g => N.eqb (fname g) f) (fks c)); cbn; [destruct (tmap tb); cbn; auto | auto].
Qed.

Definition retitle (u : name) (x : tbl) : tbl := mktbl u (tcols x) (tpk x) (tidx x) (tchk x) (tmap x).

(* does a rejected DROP COLUMN get as far as dropConstraints? *)
Definition dropcol_leaks (x : name) (tb : tbl) : bool :=
  match find_col x tb with Some _ => negb (fn_depends x tb) | None => false end.

(* does ADD FOREIGN KEY leave a backing index on the child table? *)
Definition addfk_adds_index (t f : name) (cs : list name) (p : name) (pcs : list name) (c : cat) : bool :=
  match find_tbl t c, find_tbl p c with
  | Some tb, Some pb =>
    negb (isnil cs) && Nat.eqb (length cs) (length pcs) && nodupb cs && nodupb pcs
    && otys_eqb (col_types tb cs) (col_types pb pcs) && fk_index_ok pb pcs true None
    && negb (existsb (fun g => N.eqb (fname g) f && N.eqb (ftable g) t) (fks c))
    && negb (fk_index_ok tb cs false None) && negb (has_idx f tb || N.eqb f PRIMARY)
    && (negb (existsb (fun g => N.eqb (fname g) f) (fks c)) || tmap tb)
  | _, _ => false
  end.

Definition tbl_after (o : op) (c : cat) (m : name) : option tbl :=
  let acc := fst (step o c) in
  let same := find_tbl m c in
  let on t f := if acc && N.eqb m t then option_map f (find_tbl t c) else same in
  match o with
  | CreateTable t cs pk => if created o c && N.eqb m t then Some (new_table t cs pk) else same
  | DropTable t => if acc && N.eqb m t then None else same
  | RenameTable t u =>
    if acc then (if N.eqb m u then option_map (retitle u) (find_tbl t c) else if N.eqb m t then None else same) else same
  | AddColumn t s p => on t (add_col_tbl s p)
  | DropColumn t x =>
    if N.eqb m t
    then option_map (fun tb => if acc then drop_col_tbl x tb else if dropcol_leaks x tb then drop_chk_col x tb else tb) (find_tbl t c)
    else same
  | RenameColumn t x y => on t (rename_col_tbl x y)
  | CreateIndex t i cs pre uq => on t (add_idx_tbl (mkidx i cs uq t pre))
  | CreateFnIndex t i x => on t (add_fn_idx_tbl i x)
  | DropIndex t i => on t (drop_idx_full_tbl i)
  | AddPK t cs => on t (add_pk_tbl cs)
  | DropPK t => on t drop_pk_tbl
  | AddFK t f cs p pcs =>
    if addfk_adds_index t f cs p pcs c && N.eqb m t then option_map (add_idx_tbl (mkidx f cs false t [])) (find_tbl t c) else same
  | AddCheck t k x b => on t (add_chk_tbl (mkchk k x b))
  | DropCheck t k => on t (drop_chk_tbl k)
  | _ => same
  end.

Theorem step_tables : forall o c m, find_tbl m (exec o c) = tbl_after o c m.
Proof.
  intros o c m. unfold exec, tbl_after.
  destruct o as [t cs pk | t | t u | t s p | t x | t x y | t i cs pre uq | t i x | t i | t cs | t | t f cs p pcs | t f | t k x b | t k | v b cs | v | g t before ev r | g | p v | p];
    cbn [step created];
    (* a table rewritten in place is found under its name; statements about other objects keep the tables *)
    try (apply upd_find; reflexivity); try (case_guard c; reflexivity).
  - (* CreateTable *)
    destruct (negb (has_tbl t c) && _ && _ && _ && _) eqn:E; cbn [fst snd andb]; [|reflexivity].
    rewrite !andb_true_iff, negb_true_iff, has_tbl_find in E. destruct E as [[[[E _] _] _] _].
    rewrite (find_tbl_app c _ (new_table t cs pk) m) by reflexivity. cbn [new_table tname]. rewrite (N.eqb_sym t m).
    destruct (N.eqb m t) eqn:Em; [|destruct (find_tbl m c); reflexivity].
    apply N.eqb_eq in Em. subst m. destruct (find_tbl t c); [discriminate | reflexivity].
  - (* DropTable *)
    case_guard c; cbn [fst snd andb]; [|reflexivity].
    rewrite (find_tbl_filter c _ t m) by reflexivity. reflexivity.
  - (* RenameTable *)
    destruct (find_tbl t c) as [x|] eqn:Ef; [|reflexivity].
    destruct (negb (has_tbl u c)) eqn:Eu; cbn [fst snd]; [|reflexivity].
    rewrite negb_true_iff, has_tbl_find in Eu.
    rewrite (find_tbl_set c _ t u (retitle u x) m), Ef; [reflexivity ..|].
    right. destruct (find_tbl u c); [discriminate | reflexivity].
  - (* DropColumn: whatever the outcome, another table is untouched, and t is rewritten or left as found *)
    unfold dropcol_leaks. destruct (find_tbl t c) as [tb|] eqn:Ef; cbn [option_map].
    2: { destruct (N.eqb m t) eqn:Em; [apply N.eqb_eq in Em; subst m; exact Ef | reflexivity]. }
    assert (Hsame : find_tbl m c = if N.eqb m t then Some tb else find_tbl m c).
    { destruct (N.eqb m t) eqn:Em; [apply N.eqb_eq in Em; subst m; exact Ef | reflexivity]. }
    destruct (find_col x tb) as [cl|]; [|exact Hsame]. destruct (fn_depends x tb); [exact Hsame|].
    match goal with |- context [if ?b then (false, _) else (true, _)] => destruct b end; cbn [fst snd negb];
      [rewrite (find_tbl_replace c _ t tb (drop_chk_col x tb) m Ef) | rewrite (find_tbl_replace c _ t tb (drop_col_tbl x tb) m Ef)];
      reflexivity.
  - (* RenameColumn *)
    match goal with |- context [upd c t ?ok ?f] =>
      pose proof (upd_find c t ok f m (fun _ => eq_refl)) as H; destruct (upd c t ok f) as [[|] c'] end; cbn in *; exact H.
  - (* DropIndex *)
    apply upd_find. intros t0. unfold drop_idx_full_tbl. destruct (existsb _ _); reflexivity.
  - (* AddFK *)
    unfold addfk_adds_index.
    destruct (find_tbl t c) as [tb|] eqn:Ef; [|reflexivity]. destruct (find_tbl p c) as [pb|]; [|reflexivity].
    case_guard c; [|reflexivity].
    cbn [andb]. destruct (negb (fk_index_ok tb cs false None)); cbn [andb negb].
    + destruct (has_idx f tb || N.eqb f PRIMARY); cbn [fst snd negb andb]; [reflexivity|].
      destruct (existsb (fun g => N.eqb (fname g) f) (fks c)); cbn [fst snd negb orb]; [destruct (tmap tb); cbn [fst snd]; [|reflexivity]|];
        rewrite (find_tbl_replace c _ t tb (add_idx_tbl (mkidx f cs false t []) tb) m Ef) by reflexivity; destruct (N.eqb m t); reflexivity.
    + destruct (existsb (fun g => N.eqb (fname g) f) (fks c)); cbn [fst snd]; [destruct (tmap tb); reflexivity | reflexivity].
Qed.

Definition pos_k (p : pos) (l : list col) : nat :=
  match p with PFirst => O | PLast => length l | PAfter a => S (index_of a (map cname l)) end.

Definition cols_after (o : op) (c : cat) (m : name) : option (list col) :=
  let acc := fst (step o c) in
  let same := option_map tcols (find_tbl m c) in
  let on t (g : list col -> list col) := if acc && N.eqb m t then option_map g same else same in
  match o with
  | CreateTable t cs pk => if created o c && N.eqb m t then Some (map (spec_col pk) cs) else same
  | DropTable t => if acc && N.eqb m t then None else same
  | RenameTable t u =>
    if acc then (if N.eqb m u then option_map tcols (find_tbl t c) else if N.eqb m t then None else same) else same
  | AddColumn t s p => on t (fun l => insert_at (pos_k p l) (spec_col [] s) l)
  | DropColumn t x => on t (filter (fun cl => negb (N.eqb (cname cl) x)))
  | RenameColumn t x y =>
    on t (map (fun cl => if N.eqb (cname cl) x then mkcol y (cty cl) (cnull cl) (cpk cl) (cdef cl) (ccom cl) (csrc cl) else cl))
  | CreateFnIndex t i x =>
    on t (fun l => l ++ [mkcol (hid i) 2 (match find (fun cl => N.eqb (cname cl) x) l with Some cl => cnull cl | None => true end)
                               false None 0 (Some x)])
  | DropIndex t i =>
    on t (fun l => if existsb (fun cl => negb (visible cl) && N.eqb (cname cl) (hid i)) l
                   then filter (fun cl => negb (N.eqb (cname cl) (hid i))) l else l)
  | AddPK t cs => on t (map (fun cl => if mem (cname cl) cs then mkcol (cname cl) (cty cl) false true (cdef cl) (ccom cl) (csrc cl) else cl))
  | DropPK t => on t (map (fun cl => mkcol (cname cl) (cty cl) (cnull cl) false (cdef cl) (ccom cl) (csrc cl)))
  | _ => same
  end.

Definition idx_after (o : op) (c : cat) (m : name) : option (list idx) :=
  let acc := fst (step o c) in
  let same := option_map tidx (find_tbl m c) in
  let on t (g : list idx -> list idx) := if acc && N.eqb m t then option_map g same else same in
  match o with
  | CreateTable t cs pk => if created o c && N.eqb m t then Some [] else same
  | DropTable t => if acc && N.eqb m t then None else same
  | RenameTable t u =>
    if acc then (if N.eqb m u then option_map tidx (find_tbl t c) else if N.eqb m t then None else same) else same
  | CreateIndex t i cs pre uq => on t (fun l => l ++ [mkidx i cs uq t pre])
  | CreateFnIndex t i x => on t (fun l => l ++ [mkidx i [hid i] false t []])
  | DropIndex t i => on t (filter (fun j => negb (N.eqb (iname j) i)))
  | DropColumn t x =>
    on t (fun l => filter (fun j => negb (isnil (icols j)))
                          (map (fun j => mkidx (iname j) (filter (fun y => negb (N.eqb y x)) (icols j)) (iuniq j) (itab j) (ipre j)) l))
  | RenameColumn t x y => on t (map (fun j => mkidx (iname j) (map (ren x y) (icols j)) (iuniq j) (itab j) (ipre j)))
  | AddFK t f cs p pcs => if addfk_adds_index t f cs p pcs c && N.eqb m t then option_map (fun l => l ++ [mkidx f cs false t []]) same else same
  | _ => same
  end.

Definition chk_after (o : op) (c : cat) (m : name) : option (list chk) :=
  let acc := fst (step o c) in
  let same := option_map tchk (find_tbl m c) in
  let on t (g : list chk -> list chk) := if acc && N.eqb m t then option_map g same else same in
  match o with
  | CreateTable t cs pk => if created o c && N.eqb m t then Some [] else same
  | DropTable t => if acc && N.eqb m t then None else same
  | RenameTable t u =>
    if acc then (if N.eqb m u then option_map tchk (find_tbl t c) else if N.eqb m t then None else same) else same
  | AddCheck t k x b => on t (fun l => l ++ [mkchk k x b])
  | DropCheck t k => on t (filter (fun q => negb (N.eqb (kname q) k)))
  | DropColumn t x =>
    (* the checks on the column go with it -- also when the statement is rejected after dropConstraints has run,
       and not at all on a table with a hidden system column *)
    if N.eqb m t
    then option_map (fun tb => if (acc || dropcol_leaks x tb) && negb (has_hidden tb)
                               then filter (fun q => negb (N.eqb (kcol q) x)) (tchk tb) else tchk tb) (find_tbl t c)
    else same
  | _ => same
  end.

Lemma tname_created : forall t cs pk, tname (new_table t cs pk) = t.
Proof. reflexivity. Qed.

Theorem step_table_objects : forall o c m,
  option_map tcols (find_tbl m (exec o c)) = cols_after o c m /\
  option_map tidx (find_tbl m (exec o c)) = idx_after o c m /\
  option_map tchk (find_tbl m (exec o c)) = chk_after o c m.
Proof.
  intros o c m. rewrite step_tables. unfold tbl_after, cols_after, idx_after, chk_after.
  destruct o as [t cs pk | t | t u | t s p | t x | t x y | t i cs pre uq | t i x | t i | t cs | t | t f cs p pcs | t f | t k x b | t k | v b cs | v | g t before ev r | g | p v | p];
    try solve [repeat split; reflexivity];
    (* a statement about one table t: either m is t -- and t is there, its parts read off the new table, or it is
       not -- or nothing is seen to change *)
    try solve [destruct (_ && N.eqb m t) eqn:E;
                 [apply andb_true_iff in E as [_ E]; apply N.eqb_eq in E; subst m; destruct (find_tbl t c) as [tb|] eqn:Ef|];
               repeat split; reflexivity].
  - (* RenameTable *)
    destruct (fst _); [destruct (N.eqb m u); [destruct (find_tbl t c) | destruct (N.eqb m t)]|]; repeat split; reflexivity.
  - (* DropColumn *)
    destruct (N.eqb m t) eqn:Em; rewrite ?andb_false_r; [|repeat split; reflexivity].
    apply N.eqb_eq in Em. subst m. rewrite andb_true_r.
    destruct (find_tbl t c) as [tb|]; [|destruct (fst _); repeat split; reflexivity]. cbn [option_map].
    destruct (fst _); cbn [orb andb]; [|destruct (dropcol_leaks x tb); cbn [andb]];
      unfold drop_col_tbl, drop_chk_col; cbn [tcols tidx tchk]; destruct (has_hidden tb); repeat split; reflexivity.
  - (* CreateFnIndex: the index is recorded under the name of the table found, which is t *)
    destruct (_ && N.eqb m t) eqn:E; [|repeat split; reflexivity].
    apply andb_true_iff in E as [_ E]. apply N.eqb_eq in E. subst m.
    destruct (find_tbl t c) as [tb|] eqn:Ef; [|repeat split; reflexivity].
    cbn. rewrite (find_tbl_name _ _ _ Ef). repeat split; reflexivity.
  - (* DropIndex *)
    destruct (_ && N.eqb m t) eqn:E; [|repeat split; reflexivity].
    apply andb_true_iff in E as [_ E]. apply N.eqb_eq in E. subst m.
    destruct (find_tbl t c) as [tb|]; [|repeat split; reflexivity].
    cbn. unfold drop_idx_full_tbl. cbn. destruct (existsb _ (tcols tb)); repeat split; reflexivity.
Qed.

Lemma run_snoc : forall h o c, run (h ++ [o]) c = exec o (run h c).
Proof. intros h o c. unfold run. rewrite fold_left_app. reflexivity. Qed.

Theorem history_other_objects : forall h o,
  views (run (h ++ [o]) empty) = views_after o (run h empty) /\
  trigs (run (h ++ [o]) empty) = trigs_after o (run h empty) /\
  procs (run (h ++ [o]) empty) = procs_after o (run h empty) /\
  fks (run (h ++ [o]) empty) = fks_after o (run h empty).
Proof. intros h o. rewrite run_snoc. apply step_other_objects. Qed.

Theorem history_table_objects : forall h o m,
  option_map tcols (find_tbl m (run (h ++ [o]) empty)) = cols_after o (run h empty) m /\
  option_map tidx (find_tbl m (run (h ++ [o]) empty)) = idx_after o (run h empty) m /\
  option_map tchk (find_tbl m (run (h ++ [o]) empty)) = chk_after o (run h empty) m.
Proof. intros h o m. rewrite run_snoc. apply step_table_objects. Qed.

Theorem history_starts_empty :
  views (run [] empty) = [] /\ trigs (run [] empty) = [] /\ procs (run [] empty) = [] /\ fks (run [] empty) = [] /\
  forall m, find_tbl m (run [] empty) = None.
Proof. repeat split. Qed.

(* the ordinal gap: a column added after a functional index is listed with a position that skips the hidden column *)
Definition h_gap : list op :=
  [CreateTable 1 [mkcs 10 1 true None 0; mkcs 11 1 true None 0] []; CreateFnIndex 1 50 10; AddColumn 1 (mkcs 12 1 true None 0) PLast].
Lemma ordinal_gap :
  option_map (fun t => map (fun r => (nth 1 r 0, nth 2 r 0)) (table_columns_rows t)) (find_tbl 1 (run h_gap empty))
  = Some [(10, 1); (11, 2); (12, 4)].
Proof. vm_compute. reflexivity. Qed.

(* SHOW CREATE TABLE's key part order against STATISTICS once a functional index exists *)
Definition h_pkorder : list op :=
  [CreateTable 1 [mkcs 10 1 false None 0; mkcs 11 1 false None 0] [11; 10]; CreateFnIndex 1 50 10].
Lemma pk_order_disagrees :
  show_create_pk (run (removelast h_pkorder) empty) 1 = Some [11; 10] /\
  show_create_pk (run h_pkorder empty) 1 = Some [10; 11] /\
  option_map pk_cols (find_tbl 1 (run h_pkorder empty)) = Some [11; 10].
Proof. vm_compute. repeat split. Qed.
