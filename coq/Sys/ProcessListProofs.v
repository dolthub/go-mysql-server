(* C37 — proofs about the ProcessList model (Sys/ProcessList.v). *)
From Coq Require Import List NArith ZArith Bool Lia.
Import ListNotations.
From GMS Require Import Sys.ProcessList.
Open Scope N_scope.

Section AMapFacts.
  Context {V : Type}.
  Implicit Types l : list (N * V).

  Definition lbound (k : N) l : Prop := Forall (fun kv => k < fst kv) l.

  Fixpoint sorted l : Prop :=
    match l with
    | [] => True
    | (k, _) :: r => lbound k r /\ sorted r
    end.

  Lemma lookup_upd k v l k' : lookup (upd k v l) k' = if N.eqb k' k then Some v else lookup l k'.
  Proof.
    induction l as [|[k0 v0] r IH]; cbn.
    - destruct (N.eqb_spec k' k); reflexivity.
    - destruct (N.ltb_spec k0 k) as [Hlt|Hge]; cbn.
      + rewrite IH. destruct (N.eqb_spec k' k0), (N.eqb_spec k' k); try reflexivity. lia.
      + destruct (N.eqb_spec k k0) as [->|Hne]; cbn.
        * destruct (N.eqb_spec k' k0); reflexivity.
        * destruct (N.eqb_spec k' k); reflexivity.
  Qed.

  Lemma lookup_upd_same k v l : lookup (upd k v l) k = Some v.
  Proof. now rewrite lookup_upd, N.eqb_refl. Qed.

  Lemma lookup_del k l k' : lookup (del k l) k' = if N.eqb k' k then None else lookup l k'.
  Proof.
    induction l as [|[k0 v0] r IH]; cbn.
    - destruct (N.eqb k' k); reflexivity.
    - destruct (N.eqb_spec k k0) as [->|Hne]; cbn.
      + rewrite IH. destruct (N.eqb_spec k' k0); reflexivity.
      + rewrite IH. destruct (N.eqb_spec k' k0), (N.eqb_spec k' k); try reflexivity. congruence.
  Qed.

  Lemma lookup_In l k v : lookup l k = Some v -> In (k, v) l.
  Proof.
    induction l as [|[k0 v0] r IH]; cbn; [discriminate|].
    destruct (N.eqb_spec k k0) as [->|Hne]; intros H.
    - injection H as ->. now left.
    - right. now apply IH.
  Qed.

  Lemma lbound_In k l k' v : lbound k l -> In (k', v) l -> k < k'.
  Proof. intros Hb Hin. exact (proj1 (Forall_forall _ _) Hb _ Hin). Qed.

  Lemma lbound_lookup k l k' : lbound k l -> k' <= k -> lookup l k' = None.
  Proof.
    intros Hb Hle. destruct (lookup l k') as [v|] eqn:E; [|reflexivity].
    apply lookup_In in E. pose proof (lbound_In _ _ _ _ Hb E). lia.
  Qed.

  Lemma lbound_del_id k l : lbound k l -> del k l = l.
  Proof.
    intros Hb. induction Hb as [|[k0 v0] r Hk _ IH]; cbn; [reflexivity|].
    cbn in Hk. destruct (N.eqb_spec k k0); [lia|now rewrite IH].
  Qed.

  Lemma Forall_upd (P : N * V -> Prop) k v l : Forall P l -> P (k, v) -> Forall P (upd k v l).
  Proof.
    intros Hl Hp. induction Hl as [|[k0 v0] r H0 Hr IH]; cbn.
    - now constructor.
    - destruct (N.ltb k0 k); [now constructor|].
      destruct (N.eqb k k0); constructor; auto.
  Qed.

  Lemma Forall_del (P : N * V -> Prop) k l : Forall P l -> Forall P (del k l).
  Proof.
    intros Hl. induction Hl as [|[k0 v0] r H0 Hr IH]; cbn; [constructor|].
    destruct (N.eqb k k0); [exact IH|now constructor].
  Qed.

  Lemma sorted_upd k v l : sorted l -> sorted (upd k v l).
  Proof.
    induction l as [|[k0 v0] r IH]; cbn; intros Hs.
    - split; [constructor|exact I].
    - destruct Hs as [Hb Hs]. destruct (N.ltb_spec k0 k) as [Hlt|Hge]; cbn.
      + split; [apply Forall_upd; [exact Hb|exact Hlt]|now apply IH].
      + destruct (N.eqb_spec k k0) as [->|Hne]; cbn.
        * now split.
        * split; [|now split]. constructor; [cbn; lia|].
          eapply Forall_impl; [|exact Hb]. cbn; intros; lia.
  Qed.

  Lemma sorted_del k l : sorted l -> sorted (del k l).
  Proof.
    induction l as [|[k0 v0] r IH]; cbn; intros Hs; [exact I|].
    destruct Hs as [Hb Hs]. destruct (N.eqb k k0); cbn; [now apply IH|].
    split; [now apply Forall_del|now apply IH].
  Qed.

  Lemma sorted_In_lookup l k v : sorted l -> In (k, v) l -> lookup l k = Some v.
  Proof.
    induction l as [|[k0 v0] r IH]; cbn; [tauto|]. intros [Hb Hs] [H|H].
    - injection H as -> ->. now rewrite N.eqb_refl.
    - destruct (N.eqb_spec k k0) as [->|Hne]; [|now apply IH].
      pose proof (lbound_In _ _ _ _ Hb H). lia.
  Qed.

  Lemma sorted_NoDup_keys l : sorted l -> NoDup (map fst l).
  Proof.
    induction l as [|[k0 v0] r IH]; cbn; [constructor|]. intros [Hb Hs]. constructor; [|now apply IH].
    intros Hin. apply in_map_iff in Hin as [[k v] [E Hin]]. cbn in E. subst k.
    pose proof (lbound_In _ _ _ _ Hb Hin). lia.
  Qed.

  Lemma cnt_upd f k v l :
    sorted l -> cnt f (upd k v l) = (cnt f l - optcnt f (lookup l k) + b2z (f v))%Z.
  Proof.
    induction l as [|[k0 v0] r IH]; cbn; intros Hs; [lia|].
    destruct Hs as [Hb Hs]. destruct (N.ltb_spec k0 k) as [Hlt|Hge]; cbn.
    - rewrite (IH Hs). destruct (N.eqb_spec k k0); [lia|lia].
    - destruct (N.eqb_spec k k0) as [->|Hne]; cbn; [lia|].
      rewrite (lbound_lookup k0 r k Hb) by lia. cbn. lia.
  Qed.

  Lemma cnt_del f k l :
    sorted l -> cnt f (del k l) = (cnt f l - optcnt f (lookup l k))%Z.
  Proof.
    induction l as [|[k0 v0] r IH]; cbn; intros Hs; [lia|].
    destruct Hs as [Hb Hs]. destruct (N.eqb_spec k k0) as [->|Hne]; cbn.
    - rewrite (lbound_del_id k0 r Hb). lia.
    - rewrite (IH Hs). lia.
  Qed.

  Lemma cnt_anyv_length l : cnt anyv l = Z.of_nat (length l).
  Proof. induction l as [|[k v] r IH]; cbn [cnt length]; [reflexivity|]. rewrite IH. unfold anyv, b2z. lia. Qed.

  Lemma cnt_filter_length f l : cnt f l = Z.of_nat (length (filter f (map snd l))).
  Proof.
    induction l as [|[k v] r IH]; cbn [cnt filter map snd]; [reflexivity|].
    rewrite IH. destruct (f v); cbn [b2z length]; lia.
  Qed.

  Lemma cnt_split f l : cnt anyv l = (cnt (fun v => negb (f v)) l + cnt f l)%Z.
  Proof.
    induction l as [|[k v] r IH]; cbn [cnt]; [reflexivity|]. rewrite IH. unfold anyv.
    destruct (f v); cbn [b2z negb]; lia.
  Qed.

  (* [upd] and [del] as one operation: bind k to o, where None means no binding *)
  Definition put (k : N) (o : option V) l : list (N * V) :=
    match o with Some v => upd k v l | None => del k l end.

  Lemma lookup_put k o l k' : lookup (put k o l) k' = if N.eqb k' k then o else lookup l k'.
  Proof. destruct o; [apply lookup_upd|apply lookup_del]. Qed.

  Lemma sorted_put k o l : sorted l -> sorted (put k o l).
  Proof. destruct o; [apply sorted_upd|apply sorted_del]. Qed.

  Lemma cnt_put f k o l :
    sorted l -> cnt f (put k o l) = (cnt f l - optcnt f (lookup l k) + optcnt f o)%Z.
  Proof. intros Hs. destruct o; cbn [put optcnt]; [now apply cnt_upd|rewrite cnt_del by assumption; lia]. Qed.

  Lemma put_lookup_id k l : sorted l -> put k (lookup l k) l = l.
  Proof.
    induction l as [|[k0 v0] r IH]; [reflexivity|]. intros [Hb Hs]. cbn [lookup].
    destruct (N.eqb_spec k k0) as [->|Hne].
    - cbn. rewrite N.ltb_irrefl, N.eqb_refl. reflexivity.
    - destruct (N.ltb_spec k0 k) as [Hlt|Hge].
      + specialize (IH Hs). destruct (lookup r k); cbn in *.
        * destruct (N.ltb_spec k0 k); [|lia]. now rewrite IH.
        * destruct (N.eqb_spec k k0); [contradiction|]. now rewrite IH.
      + rewrite (lbound_lookup k0 r k Hb) by lia. cbn. destruct (N.eqb_spec k k0); [contradiction|].
        f_equal. apply lbound_del_id. eapply Forall_impl; [|exact Hb]. cbn; intros; lia.
  Qed.
End AMapFacts.

Lemma memN_In k l : memN k l = true <-> In k l.
Proof.
  induction l as [|x r IH]; cbn; [split; [discriminate|tauto]|].
  rewrite orb_true_iff, IH, N.eqb_eq. split; intros [H|H]; auto.
Qed.

Lemma In_cancel k k' l : In k (cancel k' l) <-> k = k' \/ In k l.
Proof.
  unfold cancel. destruct (memN k' l) eqn:E.
  - apply memN_In in E. split; [auto|]. intros [->|H]; auto.
  - cbn. split; intros [H|H]; auto.
Qed.

Lemma In_cancel_opt k o l : In k (cancel_opt o l) <-> o = Some k \/ In k l.
Proof.
  destruct o as [k'|]; cbn.
  - rewrite In_cancel. split; intros [H|H]; auto; [left; congruence|left; congruence].
  - split; [auto|]. intros [H|H]; [discriminate|auto].
Qed.

Lemma run_app s es1 es2 : run s (es1 ++ es2) = run (run s es1) es2.
Proof. unfold run. apply fold_left_app. Qed.

Lemma run_snoc s es e : run s (es ++ [e]) = fst (step (run s es) e).
Proof. rewrite run_app. reflexivity. Qed.

Lemma srun_app g es1 es2 :
  srun g (es1 ++ es2) = match srun g es1 with Some g' => srun g' es2 | None => None end.
Proof.
  revert g. induction es1 as [|e r IH]; intros g; cbn; [reflexivity|].
  destruct (sstep g e); [apply IH|reflexivity].
Qed.

(* the context that connection c's Kill field cancels *)
Definition kill_at (l : list (N * proc)) (c : N) : option N :=
  match lookup l c with Some p => p_kill p | None => None end.

Lemma kill_at_some l c k : kill_at l c = Some k <-> exists p, lookup l c = Some p /\ p_kill p = Some k.
Proof.
  unfold kill_at. destruct (lookup l c) as [p|]; split; eauto.
  - intros (p0 & [= <-] & H). exact H.
  - discriminate.
  - intros (p0 & H & _). discriminate.
Qed.

Lemma kill_at_lookup l c p : lookup l c = Some p -> kill_at l c = p_kill p.
Proof. unfold kill_at. now intros ->. Qed.

Lemma kill_at_upd c p l c' : kill_at (upd c p l) c' = if N.eqb c' c then p_kill p else kill_at l c'.
Proof. unfold kill_at. rewrite lookup_upd. now destruct (N.eqb c' c). Qed.

Lemma kill_at_del c l c' : kill_at (del c l) c' = if N.eqb c' c then None else kill_at l c'.
Proof. unfold kill_at. rewrite lookup_del. now destruct (N.eqb c' c). Qed.

(* What one call does to the contexts.  Either it hands out the next context, which becomes the Kill target of its
   connection, and cancels nothing; or it hands out nothing, cancels at most the context of its own connection, and
   every Kill field keeps its target or is cleared. *)
Lemma step_contexts s e :
  let s' := fst (step s e) in
  (snd (step s e) = OCtx (next s) /\ next s' = next s + 1 /\ cancelled s' = cancelled s /\
   forall c, kill_at (procs s') c = if N.eqb c (conn_of e) then Some (next s) else kill_at (procs s) c)
  \/
  ((forall k, snd (step s e) <> OCtx k) /\ next s' = next s /\
   (forall k, In k (cancelled s') -> In k (cancelled s) \/ kill_at (procs s) (conn_of e) = Some k) /\
   (forall c k, kill_at (procs s') c = Some k -> kill_at (procs s) c = Some k)).
Proof.
  assert (Hclr : forall c p, p_kill p = None ->
            forall c0 k, kill_at (upd c p (procs s)) c0 = Some k -> kill_at (procs s) c0 = Some k).
  { intros c p Hp c0 k. rewrite kill_at_upd, Hp. now destruct (N.eqb c0 c). }
  assert (Hnew : forall c p, p_kill p = Some (next s) ->
            forall c0, kill_at (upd c p (procs s)) c0 = if N.eqb c0 c then Some (next s) else kill_at (procs s) c0).
  { intros c p Hp c0. now rewrite kill_at_upd, Hp. }
  destruct e as [c|c h|c h u d|c|c pid q|c pid|c|c|c]; cbn.
  - right. repeat split; auto; discriminate.
  - right. repeat split; [discriminate|auto|now apply Hclr].
  - right. repeat split; [discriminate|auto|now apply Hclr].
  - destruct (lookup (procs s) c) as [p|] eqn:Ep; cbn; [|right; repeat split; auto; discriminate].
    right. repeat split; [discriminate| |].
    + intros k. rewrite In_cancel_opt, (kill_at_lookup _ _ _ Ep). tauto.
    + intros c0 k. rewrite kill_at_del. now destruct (N.eqb c0 c).
  - destruct (lookup (procs s) c) as [p|]; [destruct (lookup (byq s) pid)|]; cbn.
    1, 3: right; repeat split; auto; discriminate.
    left. repeat split. now apply Hnew.
  - destruct (lookup (procs s) c) as [p|] eqn:Ep; [destruct (N.eqb (p_qpid p) pid)|]; cbn.
    2, 3: right; repeat split; auto; discriminate.
    rewrite (kill_at_lookup _ _ _ Ep).
    destruct (p_kill p) as [k0|]; cbn; right; (repeat split; [discriminate| |now apply Hclr]); [|auto].
    intros k. rewrite In_cancel. intros [->|H]; auto.
  - destruct (lookup (procs s) c) as [p|]; [destruct (p_kill p)|]; cbn.
    1, 3: right; repeat split; auto; discriminate.
    left. repeat split. now apply Hnew.
  - destruct (lookup (procs s) c) as [p|] eqn:Ep; [rewrite (kill_at_lookup _ _ _ Ep); destruct (p_kill p) as [k0|]|]; cbn.
    2, 3: right; repeat split; auto; discriminate.
    right. repeat split; [discriminate| |now apply Hclr].
    intros k. rewrite In_cancel. intros [->|H]; auto.
  - destruct (lookup (procs s) c) as [p|] eqn:Ep; cbn; [|right; repeat split; auto; discriminate].
    right. repeat split; [discriminate| |auto].
    intros k. rewrite In_cancel_opt, (kill_at_lookup _ _ _ Ep). tauto.
Qed.

Record GInv (s : state) : Prop := {
  g_kill_lt : forall c k, kill_at (procs s) c = Some k -> k < next s;
  g_canc_lt : forall k, In k (cancelled s) -> k < next s;
  g_inj : forall c c' k, kill_at (procs s) c = Some k -> kill_at (procs s) c' = Some k -> c = c'
}.

Lemma ginv_init : GInv init.
Proof. split; cbn; intros; try discriminate; tauto. Qed.

Lemma ginv_step s e : GInv s -> GInv (fst (step s e)).
Proof.
  intros [Hk Hc Hi]. destruct (step_contexts s e) as [(_ & Hn & Hcn & Hka)|(_ & Hn & Hcn & Hka)]; split.
  - intros c k. rewrite Hka, Hn. destruct (N.eqb c (conn_of e)); [intros [= <-]; lia|].
    intros H. apply Hk in H. lia.
  - intros k. rewrite Hcn, Hn. intros H. apply Hc in H. lia.
  - (* the new context is below no old Kill target, so it is nobody else's *)
    intros c c' k. rewrite !Hka.
    destruct (N.eqb_spec c (conn_of e)), (N.eqb_spec c' (conn_of e)); [congruence| | |apply Hi].
    + intros [= <-] H. apply Hk in H. lia.
    + intros H [= <-]. apply Hk in H. lia.
  - intros c k H. rewrite Hn. eauto.
  - intros k H. rewrite Hn. destruct (Hcn _ H); eauto.
  - intros c c' k H1 H2. eauto.
Qed.

Lemma ginv_run es : GInv (run init es).
Proof.
  induction es as [|e r IH] using rev_ind; [exact ginv_init|].
  rewrite run_snoc. now apply ginv_step.
Qed.

Definition prel (c : N) (ph : option sphase) (po : option proc) : Prop :=
  match ph, po with
  | None, None => True
  | Some SPending, None => True
  | Some SIdle, Some p =>
      p_conn p = c /\ p_cmd p <> CQuery /\ p_query p = 0 /\ p_qpid p = 0 /\ p_kill p = None
  | Some SOp, Some p =>
      p_conn p = c /\ p_cmd p <> CQuery /\ p_query p = 0 /\ p_qpid p = 0
  | Some (SQuery pid q), Some p =>
      p_conn p = c /\ p_cmd p = CQuery /\ p_query p = q /\ p_qpid p = pid /\ p_kill p <> None
  | _, _ => False
  end.

(* what a Processes() entry must show for a session in phase ph *)
Definition shows (ph : sphase) (p : proc) : Prop :=
  match ph with
  | SQuery pid q => p_cmd p = CQuery /\ p_query p = q /\ p_qpid p = pid
  | _ => p_cmd p <> CQuery /\ p_query p = 0 /\ p_qpid p = 0
  end.

Lemma prel_shows c ph p : prel c (Some ph) (Some p) -> p_conn p = c /\ ph <> SPending /\ shows ph p.
Proof. destruct ph; cbn; intros H; try tauto; repeat split; try tauto; discriminate. Qed.

(* an entry is counted (as shown, as running) exactly when its session is (as connected, as in a query) *)
Lemma prel_counts c oph op : prel c oph op ->
  optcnt anyv op = optcnt is_connected oph /\ optcnt is_query op = optcnt is_squery oph.
Proof.
  destruct op as [p|]; [|destruct oph as [[]|]; cbn; tauto].
  destruct oph as [ph|]; [|contradiction]. intros H. apply prel_shows in H as (_ & Hp & Hs).
  unfold is_query. destruct ph; cbn in *; try congruence; split; try reflexivity.
  1, 2: destruct (p_cmd p); tauto.
  now destruct Hs as [-> _].
Qed.

Definition no_query (o : option sphase) : Prop := match o with Some (SQuery _ _) => False | _ => True end.

(* the bookkeeping of query pids: byQueryPid is the inverse of "connection c runs query pid", the pid of a running
   query is marked used, pid 0 never is *)
Record Links (ss : list (N * sphase)) (us : list N) (bq : list (N * N)) : Prop := {
  lk_byq : forall pid c, lookup bq pid = Some c <-> exists q, lookup ss c = Some (SQuery pid q);
  lk_used : forall c pid q, lookup ss c = Some (SQuery pid q) -> memN pid us = true;
  lk_zero : memN 0 us = false
}.

(* a connection that runs no query changes to another phase that is no query *)
Lemma links_idle ss us bq c o :
  Links ss us bq -> no_query (lookup ss c) -> no_query o -> Links (put c o ss) us bq.
Proof.
  intros [Hb Hu Hz] Hold Hnew.
  assert (E : forall c0 pid q, lookup (put c o ss) c0 = Some (SQuery pid q) <-> lookup ss c0 = Some (SQuery pid q)).
  { intros c0 pid q. rewrite lookup_put. destruct (N.eqb_spec c0 c) as [->|]; [|tauto].
    split; intros H; [rewrite H in Hnew|rewrite H in Hold]; contradiction. }
  split; [|intros c0 pid q H; apply E in H; eauto|exact Hz].
  intros pid c0. rewrite Hb. split; intros [q H]; exists q; now apply E.
Qed.

(* deleting the byQueryPid key of a pid that no connection runs *)
Lemma links_dead ss us bq pid :
  Links ss us bq -> (forall c q, lookup ss c <> Some (SQuery pid q)) -> Links ss us (del pid bq).
Proof.
  intros [Hb Hu Hz] Hd. split; [|exact Hu|exact Hz]. intros pid0 c. rewrite lookup_del, <- Hb.
  destruct (N.eqb_spec pid0 pid) as [->|]; [|tauto]. split; [discriminate|].
  intros H. apply Hb in H as [q H]. now apply Hd in H.
Qed.

Lemma links_begin ss us bq c pid q :
  Links ss us bq -> no_query (lookup ss c) -> pid <> 0 -> memN pid us = false ->
  Links (put c (Some (SQuery pid q)) ss) (pid :: us) (upd pid c bq).
Proof.
  intros [Hb Hu Hz] Hold Hnz Hf. split.
  - intros pid0 c0. rewrite lookup_upd, lookup_put.
    destruct (N.eqb_spec pid0 pid) as [->|Hp], (N.eqb_spec c0 c) as [->|Hc].
    + split; eauto.
    + split; [congruence|]. intros [q0 H]. apply Hu in H. congruence.
    + split; [|intros [q0 H]; congruence]. intros H. apply Hb in H as [q0 H]. rewrite H in Hold. contradiction.
    + apply Hb.
  - intros c0 pid0 q0. rewrite lookup_put. cbn [memN]. destruct (N.eqb_spec c0 c).
    + intros [= <- <-]. now rewrite N.eqb_refl.
    + intros H. rewrite (Hu _ _ _ H). apply orb_true_r.
  - cbn [memN]. destruct (N.eqb_spec 0 pid); [congruence|exact Hz].
Qed.

Lemma links_end ss us bq c pid q o :
  Links ss us bq -> lookup ss c = Some (SQuery pid q) -> no_query o -> Links (put c o ss) us (del pid bq).
Proof.
  intros [Hb Hu Hz] Hc Hnew. split; [| |exact Hz].
  - intros pid0 c0. rewrite lookup_del, lookup_put.
    destruct (N.eqb_spec c0 c) as [->|Hne], (N.eqb_spec pid0 pid) as [->|Hp]; try rewrite Hb.
    + split; [discriminate|]. intros [q0 H]. rewrite H in Hnew. contradiction.
    + split; intros [q0 H]; [congruence|]. rewrite H in Hnew. contradiction.
    + (* byQueryPid binds pid to c only *)
      split; [discriminate|]. intros [q0 H]. exfalso. apply Hne.
      assert (H1 : lookup bq pid = Some c0) by (apply Hb; eauto).
      assert (H2 : lookup bq pid = Some c) by (apply Hb; eauto). congruence.
    + tauto.
  - intros c0 pid0 q0. rewrite lookup_put. destruct (N.eqb_spec c0 c); [|apply Hu].
    intros H. rewrite H in Hnew. contradiction.
Qed.

Record Inv (g : spec) (s : state) : Prop := {
  inv_sp : sorted (procs s);
  inv_ss : sorted (sess g);
  inv_rel : forall c, prel c (lookup (sess g) c) (lookup (procs s) c);
  inv_links : Links (sess g) (used g) (byq s);
  inv_tc : tc s = cnt anyv (sess g);
  inv_tr : tr s = cnt is_squery (sess g);
  inv_cp : cnt anyv (procs s) = cnt is_connected (sess g);
  inv_cq : cnt is_query (procs s) = cnt is_squery (sess g)
}.

Lemma inv_init : Inv sinit init.
Proof. repeat split; cbn; intros; try discriminate; auto. destruct H; discriminate. Qed.

(* One connection changes: session c goes from phase oph0 to oph (None: no session) and its entry becomes op, related
   by [prel]; the two thread counters move by what the session counts for.  The other laws about counts follow. *)
Lemma inv_put g s c oph0 oph op g' s' :
  Inv g s -> lookup (sess g) c = oph0 ->
  sess g' = put c oph (sess g) -> procs s' = put c op (procs s) -> prel c oph op ->
  tc s' = (tc s - optcnt anyv oph0 + optcnt anyv oph)%Z ->
  tr s' = (tr s - optcnt is_squery oph0 + optcnt is_squery oph)%Z ->
  Links (sess g') (used g') (byq s') ->
  Inv g' s'.
Proof.
  intros [Hsp Hss Hrel _ Htc Htr Hcp Hcq] <- Eg Es Hr Etc Etr HL.
  destruct (prel_counts _ _ _ (Hrel c)) as [C1 C2]. destruct (prel_counts _ _ _ Hr) as [D1 D2].
  split; [| | |exact HL|..]; rewrite ?Eg, ?Es, ?Etc, ?Etr, ?cnt_put by assumption.
  - now apply sorted_put.
  - now apply sorted_put.
  - intros c0. rewrite !lookup_put. destruct (N.eqb c0 c) eqn:E; [|apply Hrel].
    apply N.eqb_eq in E. now subst c0.
  - now rewrite Htc.
  - now rewrite Htr.
  - now rewrite Hcp, C1, D1.
  - now rewrite Hcq, C2, D2.
Qed.

(* the same when the session is in no query before and after: the pid bookkeeping is not involved *)
Lemma inv_put_idle g s c oph0 oph op g' s' :
  Inv g s -> lookup (sess g) c = oph0 -> no_query oph0 -> no_query oph ->
  sess g' = put c oph (sess g) -> used g' = used g -> procs s' = put c op (procs s) -> byq s' = byq s ->
  prel c oph op ->
  tc s' = (tc s - optcnt anyv oph0 + optcnt anyv oph)%Z -> tr s' = tr s ->
  Inv g' s'.
Proof.
  intros HI E0 H0 H1 Eg Eu Es Eb Hr Etc Etr. apply (inv_put g s c oph0 oph op); auto.
  - rewrite Etr. destruct oph0 as [[]|], oph as [[]|]; cbn in *; (contradiction || lia).
  - rewrite Eg, Eu, Eb. apply links_idle; [apply HI|now rewrite E0|exact H1].
Qed.

Lemma live_pid_iff g pid : sorted (sess g) ->
  live_pid g pid = true <-> exists c q, lookup (sess g) c = Some (SQuery pid q).
Proof.
  intros Hs. unfold live_pid. rewrite existsb_exists. split.
  - intros ([c ph] & Hin & Hr). destruct ph as [| | |p q]; try discriminate. apply N.eqb_eq in Hr. subst p.
    exists c, q. now apply sorted_In_lookup.
  - intros (c & q & H). exists (c, SQuery pid q). split; [now apply lookup_In|apply N.eqb_refl].
Qed.

(* what the discipline promises about the result of each call *)
Definition good_outcome (e : event) (o : outcome) (nxt : N) : Prop :=
  match e with
  | EBeginQ _ _ _ | EBeginOp _ => o = OCtx nxt
  | _ => o = ODone
  end.

(* EndQuery for a query that has already ended: no effect besides deleting an absent byQueryPid key *)
Lemma endq_dead g s c pid :
  Inv g s -> negb (N.eqb pid 0) && memN pid (used g) && negb (live_pid g pid) = true ->
  Inv g (fst (step s (EEndQ c pid))) /\ snd (step s (EEndQ c pid)) = ODone.
Proof.
  intros HI H. apply andb_prop in H as [H Hl]. apply andb_prop in H as [Hnz _].
  apply negb_true_iff in Hnz, Hl. apply N.eqb_neq in Hnz.
  assert (Hd : forall c0 q, lookup (sess g) c0 <> Some (SQuery pid q)).
  { intros c0 q E. rewrite (proj2 (live_pid_iff g pid (inv_ss _ _ HI))) in Hl by eauto. discriminate. }
  assert (HI' : Inv g (mkState (procs s) (del pid (byq s)) (tc s) (tr s) (cancelled s) (next s))).
  { destruct HI. split; cbn; auto. now apply links_dead. }
  cbn. pose proof (inv_rel _ _ HI c) as Hr.
  destruct (lookup (procs s) c) as [p|]; [|now split].
  destruct (N.eqb_spec (p_qpid p) pid) as [Heq|]; [exfalso|now split].
  (* the entry of c shows pid: c is in that query, or pid is 0 *)
  destruct (lookup (sess g) c) as [ph|] eqn:Es; [|contradiction].
  apply prel_shows in Hr as (_ & _ & Hsh).
  destruct ph as [| | |pid0 q0]; cbn in Hsh; destruct Hsh as (_ & _ & H0); try congruence.
  apply (Hd c q0). congruence.
Qed.

Lemma inv_step g s e g' :
  Inv g s -> sstep g e = Some g' ->
  Inv g' (fst (step s e)) /\ good_outcome e (snd (step s e)) (next s).
Proof.
  intros HI Hs. pose proof (inv_rel _ _ HI (conn_of e)) as Hr. pose proof (inv_links _ _ HI) as HL.
  destruct e as [c|c h|c h u d|c|c pid q|c pid|c|c|c]; cbn [conn_of] in Hr; cbn [sstep] in Hs.
  - (* EAddInc: the counter moves, the connection is pending and has no entry yet *)
    destruct (lookup (sess g) c) eqn:Es; [discriminate|]. injection Hs as <-.
    destruct (lookup (procs s) c) eqn:Ep; [contradiction|].
    split; [|reflexivity]. apply (inv_put_idle g s c _ (Some SPending) None _ _ HI Es); try reflexivity; try exact I.
    + rewrite <- Ep. symmetry. apply (put_lookup_id c (procs s)), HI.
    + cbn. lia.
  - (* EAddIns *)
    destruct (lookup (sess g) c) as [[| | |]|] eqn:Es; try discriminate. injection Hs as <-.
    split; [|reflexivity]. eapply (inv_put_idle g s c _ (Some SIdle) (Some _) _ _ HI Es); try reflexivity; try exact I.
    + cbn. repeat split; congruence.
    + cbn. lia.
  - (* EReady: the session stays idle, or inside its operation bracket *)
    assert (g' = g /\ (lookup (sess g) c = Some SIdle \/ lookup (sess g) c = Some SOp)) as [-> Hph].
    { destruct (lookup (sess g) c) as [[| | |]|]; try discriminate; injection Hs as <-; auto. }
    split; [|reflexivity].
    eapply (inv_put_idle g s c _ (lookup (sess g) c) (Some _) _ _ HI eq_refl); try reflexivity.
    1, 2: now destruct Hph as [E|E]; rewrite E.
    + symmetry. apply put_lookup_id, HI.
    + destruct Hph as [E|E]; rewrite E; cbn; repeat split; congruence.
    + cbn. lia.
  - (* ERemove *)
    destruct (lookup (sess g) c) as [[| | |]|] eqn:Es; try discriminate. injection Hs as <-.
    destruct (lookup (procs s) c) as [p|] eqn:Ep; [|contradiction]. destruct Hr as (_ & _ & _ & Hp0 & Hk0).
    cbn [step]. rewrite Ep, Hp0, Hk0. split; [|reflexivity].
    apply (inv_put g s c _ None None _ _ HI Es); try reflexivity; try (cbn; lia).
    (* no connection runs pid 0 *)
    assert (HL' := links_idle _ _ _ c None HL ltac:(now rewrite Es) I). apply links_dead; [exact HL'|].
    intros c0 q0 H. apply (lk_used _ _ _ HL') in H. rewrite (lk_zero _ _ _ HL') in H. discriminate.
  - (* EBeginQ *)
    destruct (lookup (sess g) c) as [[| | |]|] eqn:Es; try discriminate.
    destruct (N.eqb_spec pid 0) as [|Hnz]; [discriminate|]. cbn [orb] in Hs.
    destruct (memN pid (used g)) eqn:Hu; [discriminate|]. injection Hs as <-.
    destruct (lookup (procs s) c) as [p|] eqn:Ep; [|contradiction].
    assert (Eb : lookup (byq s) pid = None).
    { destruct (lookup (byq s) pid) as [c1|] eqn:Eb; [|reflexivity].
      apply (lk_byq _ _ _ HL) in Eb as [q1 H]. apply (lk_used _ _ _ HL) in H. congruence. }
    cbn [step]. rewrite Ep, Eb. split; [|reflexivity].
    eapply (inv_put g s c _ (Some (SQuery pid q)) (Some _) _ _ HI Es); try reflexivity; try (cbn; lia).
    + destruct Hr as (Hc & _). cbn. repeat split; congruence.
    + apply links_begin; [exact HL|now rewrite Es|exact Hnz|exact Hu].
  - (* EEndQ: of the connection's running query, or of one that has ended *)
    destruct (lookup (sess g) c) as [[| | |p0 q0]|] eqn:Es; [| | |destruct (N.eqb_spec p0 pid) as [->|Hne]|].
    1-3, 5-6: destruct (_ && _) eqn:E in Hs; [injection Hs as <-; exact (endq_dead _ _ _ _ HI E)|discriminate].
    injection Hs as <-. destruct (lookup (procs s) c) as [p|] eqn:Ep; [|contradiction].
    destruct Hr as (Hc & _ & _ & Hp0 & Hk0). cbn [step]. rewrite Ep. cbn zeta. rewrite Hp0, N.eqb_refl.
    destruct (p_kill p) as [k|]; [|congruence]. split; [|reflexivity].
    eapply (inv_put g s c _ (Some SIdle) (Some _) _ _ HI Es); try reflexivity; try (cbn; lia).
    + cbn. repeat split; congruence.
    + apply (links_end _ _ _ c pid q0 (Some SIdle)); [exact HL|exact Es|exact I].
  - (* EBeginOp *)
    destruct (lookup (sess g) c) as [[| | |]|] eqn:Es; try discriminate. injection Hs as <-.
    destruct (lookup (procs s) c) as [p|] eqn:Ep; [|contradiction]. destruct Hr as (Hc & Hnq & Hq0 & Hp0 & Hk0).
    cbn [step]. rewrite Ep, Hk0. split; [|reflexivity].
    eapply (inv_put_idle g s c _ (Some SOp) (Some _) _ _ HI Es); try reflexivity; try exact I.
    + cbn. repeat split; congruence.
    + cbn. lia.
  - (* EEndOp: a ConnectionReady inside the bracket has cleared Kill already; then the entry stays as it is *)
    destruct (lookup (sess g) c) as [[| | |]|] eqn:Es; try discriminate. injection Hs as <-.
    destruct (lookup (procs s) c) as [p|] eqn:Ep; [|contradiction]. destruct Hr as (Hc & Hnq & Hq0 & Hp0).
    cbn [step]. rewrite Ep. split; [|now destruct (p_kill p)].
    apply (inv_put_idle g s c _ (Some SIdle) (Some (set_kill p None)) _ _ HI Es);
      try reflexivity; try exact I; try now destruct (p_kill p).
    + destruct (p_kill p) as [k|] eqn:Ek; [reflexivity|]. cbn [fst].
      replace (set_kill p None) with p by (destruct p; cbn in Ek; now subst).
      rewrite <- Ep. symmetry. apply (put_lookup_id c (procs s)), HI.
    + destruct (p_kill p); cbn; lia.
  - (* EKill *)
    injection Hs as <-. cbn [step]. destruct (lookup (procs s) c); (split; [|reflexivity]); [|exact HI].
    destruct HI. now split.
Qed.

Lemma inv_run es g :
  srun sinit es = Some g -> Inv g (run init es).
Proof.
  revert g. induction es as [|e r IH] using rev_ind; intros g.
  - cbn. intros [= <-]. exact inv_init.
  - rewrite srun_app, run_snoc. destruct (srun sinit r) as [g0|]; [|discriminate].
    cbn. destruct (sstep g0 e) as [g1|] eqn:Hs; [|discriminate]. intros [= <-].
    exact (proj1 (inv_step _ _ _ _ (IH _ eq_refl) Hs)).
Qed.

Lemma In_processes s p : sorted (procs s) -> In p (processes s) <-> exists c, lookup (procs s) c = Some p.
Proof.
  intros Hs. unfold processes. rewrite in_map_iff. split.
  - intros ([c p0] & <- & Hin). exists c. now apply sorted_In_lookup.
  - intros [c H]. exists (c, p). split; [reflexivity|now apply lookup_In].
Qed.

Lemma entry_shows g s c p : Inv g s -> lookup (procs s) c = Some p ->
  p_conn p = c /\ exists ph, lookup (sess g) c = Some ph /\ ph <> SPending /\ shows ph p.
Proof.
  intros HI Hl. pose proof (inv_rel _ _ HI c) as Hr. rewrite Hl in Hr.
  destruct (lookup (sess g) c) as [ph|]; [|contradiction]. apply prel_shows in Hr as (Hc & Hr). eauto.
Qed.

Theorem processes_sound es g :
  srun sinit es = Some g ->
  forall p, In p (processes (run init es)) ->
    exists ph, lookup (sess g) (p_conn p) = Some ph /\ ph <> SPending /\ shows ph p.
Proof.
  intros Hs p Hin. pose proof (inv_run _ _ Hs) as HI. apply In_processes in Hin as [c Hl]; [|apply HI].
  destruct (entry_shows _ _ _ _ HI Hl) as [-> H]. exact H.
Qed.

Theorem processes_complete es g :
  srun sinit es = Some g ->
  forall c ph, lookup (sess g) c = Some ph -> ph <> SPending ->
    exists p, In p (processes (run init es)) /\ p_conn p = c /\ shows ph p.
Proof.
  intros Hs c ph Es Hp. pose proof (inv_run _ _ Hs) as HI.
  pose proof (inv_rel _ _ HI c) as Hr. rewrite Es in Hr.
  destruct (lookup (procs (run init es)) c) as [p|] eqn:Ep; [|now destruct ph].
  destruct (prel_shows _ _ _ Hr) as (Hc & _ & Hsh). exists p. repeat split; auto.
  apply In_processes; [apply HI|eauto].
Qed.

Theorem processes_one_entry_per_connection es g :
  srun sinit es = Some g -> NoDup (map p_conn (processes (run init es))).
Proof.
  intros Hs. pose proof (inv_run _ _ Hs) as HI.
  assert (map p_conn (processes (run init es)) = map fst (procs (run init es))) as ->.
  { unfold processes. rewrite map_map. apply map_ext_in. intros [c p] Hin.
    apply (entry_shows _ _ _ _ HI), sorted_In_lookup, Hin. apply HI. }
  apply sorted_NoDup_keys, HI.
Qed.

Theorem threads_connected_eq es g :
  srun sinit es = Some g ->
  let s := run init es in
  tc s = cnt anyv (sess g) /\
  tc s = (Z.of_nat (length (processes s)) + cnt is_pending (sess g))%Z.
Proof.
  intros Hs s. subst s. pose proof (inv_run _ _ Hs) as HI. split; [exact (inv_tc _ _ HI)|].
  unfold processes. rewrite map_length, <- cnt_anyv_length, (inv_cp _ _ HI), (inv_tc _ _ HI).
  apply (cnt_split is_pending).
Qed.

Theorem threads_running_eq es g :
  srun sinit es = Some g ->
  let s := run init es in
  tr s = cnt is_squery (sess g) /\
  tr s = Z.of_nat (length (filter is_query (processes s))).
Proof.
  intros Hs s. subst s. pose proof (inv_run _ _ Hs) as HI. split; [exact (inv_tr _ _ HI)|].
  unfold processes. rewrite <- cnt_filter_length, (inv_cq _ _ HI). exact (inv_tr _ _ HI).
Qed.

Theorem wellformed_calls_succeed es g e g' :
  srun sinit es = Some g -> sstep g e = Some g' ->
  good_outcome e (snd (step (run init es) e)) (next (run init es)).
Proof. intros Hs He. exact (proj2 (inv_step _ _ _ _ (inv_run _ _ Hs) He)). Qed.

(* cancellation: statements for ALL histories (no discipline needed) *)
Theorem kill_cancels_exactly_target es c :
  let s := run init es in
  let s' := fst (step s (EKill c)) in
  procs s' = procs s /\ byq s' = byq s /\ tc s' = tc s /\ tr s' = tr s /\ next s' = next s /\
  forall k, In k (cancelled s') <->
            In k (cancelled s) \/ exists p, lookup (procs s) c = Some p /\ p_kill p = Some k.
Proof.
  intros s s'. subst s'. cbn. destruct (lookup (procs s) c) as [p|] eqn:Ep; cbn.
  - repeat split; auto.
    + rewrite In_cancel_opt. intros [H|H]; eauto.
    + intros [H|(p0 & [= <-] & H)]; apply In_cancel_opt; auto.
  - repeat split; auto. intros [H|(p0 & H & _)]; [auto|discriminate].
Qed.

(* an event about connection c never cancels the current context of another connection *)
Theorem other_connections_never_cancelled es e c' p' k' :
  let s := run init es in
  conn_of e <> c' -> lookup (procs s) c' = Some p' -> p_kill p' = Some k' ->
  ~ In k' (cancelled s) -> ~ In k' (cancelled (fst (step s e))).
Proof.
  intros s Hne Hl Hk Hn Hin. apply Hne, (g_inj _ (ginv_run es) _ _ k'); [|apply kill_at_some; eauto].
  destruct (step_contexts s e) as [(_ & _ & Hc & _)|(_ & _ & Hc & _)]; [rewrite Hc in Hin|apply Hc in Hin]; tauto.
Qed.

Theorem kill_cancels_running_query es g c pid q :
  srun sinit es = Some g -> lookup (sess g) c = Some (SQuery pid q) ->
  let s := run init es in
  exists p k, lookup (procs s) c = Some p /\ p_qpid p = pid /\ p_kill p = Some k /\
              In k (cancelled (fst (step s (EKill c)))).
Proof.
  intros Hs Es s. pose proof (inv_run _ _ Hs) as HI.
  pose proof (inv_rel _ _ HI c) as Hr. rewrite Es in Hr. fold s in Hr.
  destruct (lookup (procs s) c) as [p|] eqn:Ep; cbn in Hr; [|tauto].
  destruct Hr as (_ & _ & _ & Hp & Hk). destruct (p_kill p) as [k|] eqn:Ek; [|congruence].
  exists p, k. repeat split; auto. cbn. rewrite Ep. cbn. rewrite Ek. cbn. apply In_cancel. auto.
Qed.

Lemma next_run_mono s es : next s <= next (run s es).
Proof.
  revert s. induction es as [|e r IH]; intros s; cbn; [lia|].
  specialize (IH (fst (step s e))). unfold run in *.
  destruct (step_contexts s e) as [(_ & Hn & _)|(_ & Hn & _)]; lia.
Qed.

(* a context handed out by BeginQuery / BeginOperation is new, registered as the connection's cancel
   target, and not cancelled — whatever happened before (kills included) *)
Theorem new_context_is_fresh_and_live es e k :
  let s := run init es in
  snd (step s e) = OCtx k ->
  ~ In k (cancelled (fst (step s e))) /\
  (forall k0, In k0 (cancelled (fst (step s e))) -> k0 < k) /\
  exists p, lookup (procs (fst (step s e))) (conn_of e) = Some p /\ p_kill p = Some k.
Proof.
  intros s Ho. pose proof (g_canc_lt _ (ginv_run es)) as G. fold s in G.
  destruct (step_contexts s e) as [(Hk & _ & Hc & Hka)|(Hk & _)]; [|now apply Hk in Ho].
  rewrite Hk in Ho. injection Ho as <-. rewrite Hc. repeat split; auto.
  - intros Hin. apply G in Hin. lia.
  - apply kill_at_some. now rewrite Hka, N.eqb_refl.
Qed.

Theorem contexts_never_reused es1 e1 es2 e2 k1 k2 :
  snd (step (run init es1) e1) = OCtx k1 ->
  snd (step (run init (es1 ++ e1 :: es2)) e2) = OCtx k2 ->
  k1 < k2.
Proof.
  replace (es1 ++ e1 :: es2) with ((es1 ++ [e1]) ++ es2) by (rewrite <- app_assoc; reflexivity).
  rewrite run_app, run_snoc. set (s1 := run init es1). intros H1 H2.
  pose proof (next_run_mono (fst (step s1 e1)) es2).
  destruct (step_contexts s1 e1) as [(E1 & N1 & _)|(E1 & _)]; [|now apply E1 in H1].
  destruct (step_contexts (run (fst (step s1 e1)) es2) e2) as [(E2 & _)|(E2 & _)]; [|now apply E2 in H2].
  rewrite E1 in H1. rewrite E2 in H2. injection H1 as <-. injection H2 as <-. lia.
Qed.

(* facts about ill-formed API histories (outside the call discipline): a BeginQuery that returns an error
   has already incremented Threads_running *)
Definition running_shown (s : state) : Z := Z.of_nat (length (filter is_query (processes s))).

Lemma failed_begin_unregistered_outside_discipline :
  exists es, snd (step (run init es) (EBeginQ 2 7 1)) = OErrNotRegistered /\
             tr (run init (es ++ [EBeginQ 2 7 1])) <> running_shown (run init (es ++ [EBeginQ 2 7 1])).
Proof. exists [EAddInc 1; EAddIns 1 5]. split; [reflexivity|]. vm_compute. discriminate. Qed.

Lemma failed_begin_pid_in_use_outside_discipline :
  exists es, well_formed es /\ snd (step (run init es) (EBeginQ 2 7 1)) = OErrPidUsed /\
             tr (run init (es ++ [EBeginQ 2 7 1])) <> running_shown (run init (es ++ [EBeginQ 2 7 1])).
Proof.
  exists [EAddInc 1; EAddIns 1 5; EAddInc 2; EAddIns 2 5; EBeginQ 1 7 1].
  split; [eexists; vm_compute; reflexivity|]. split; [reflexivity|]. vm_compute. discriminate.
Qed.

Definition demo : list event :=
  [EAddInc 1; EAddInc 2; EAddIns 2 9; EAddIns 1 9; EReady 1 9 3 4; EBeginQ 1 7 1; EKill 1; EBeginOp 2;
   EReady 2 9 3 4; EEndQ 1 7; EEndOp 2; EEndQ 1 7; EBeginQ 1 8 2; EKill 5; ERemove 2].

Lemma demo_facts :
  well_formed demo /\
  processes (run init demo) = [mkProc 1 CQuery 9 3 4 2 8 (Some 2)] /\
  tc (run init demo) = 1%Z /\ tr (run init demo) = 1%Z /\
  cancelled (run init demo) = [0].
Proof. split; [eexists; vm_compute; reflexivity|]. vm_compute. repeat split. Qed.
