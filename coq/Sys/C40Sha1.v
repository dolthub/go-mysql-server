(* SHA-1 (FIPS 180-4) over byte lists, executable by vm_compute.  Used by the C40 correspondence to
   instantiate the abstract hash [H] of Sys/Auth.v with the function the Go code calls (crypto/sha1).
   The theorems of C40 are proved for an arbitrary [H] with 20-byte outputs (byte-valued, where the honest
   client is concerned); this file supplies the instance, proves that it meets both premises, and checks it
   against the two standard test vectors. *)
From Coq Require Import List NArith Lia.
Import ListNotations.
Open Scope N_scope.

Definition mask32 : N := 4294967295.
Definition w32 (x : N) : N := N.land x mask32.
Definition rotl (n x : N) : N := w32 (N.lor (N.shiftl x n) (N.shiftr x (32 - n))).
Definition add32 (a b : N) : N := w32 (a + b).
Definition not32 (x : N) : N := N.lxor x mask32.

Fixpoint be_bytes (k : nat) (x : N) : list N :=
  match k with
  | O => []
  | S k' => N.land (N.shiftr x (8 * N.of_nat k')) 255 :: be_bytes k' x
  end.

Definition be_word (b : list N) : N := fold_left (fun a x => a * 256 + x) b 0.

Definition pad (msg : list N) : list N :=
  let l := N.of_nat (length msg) in
  let z := (119 - (l mod 64)) mod 64 in    (* zeros so that l + 1 + z + 8 = 0 mod 64 *)
  msg ++ [128] ++ repeat 0 (N.to_nat z) ++ be_bytes 8 (8 * l).

Fixpoint words (k : nat) (b : list N) : list N :=
  match k with
  | O => []
  | S k' => be_word (firstn 4 b) :: words k' (skipn 4 b)
  end.

(* message schedule, most recent word first *)
Fixpoint extend (k : nat) (rev_w : list N) : list N :=
  match k with
  | O => rev_w
  | S k' =>
      let x := N.lxor (N.lxor (nth 2 rev_w 0) (nth 7 rev_w 0)) (N.lxor (nth 13 rev_w 0) (nth 15 rev_w 0)) in
      extend k' (rotl 1 x :: rev_w)
  end.

Definition st : Type := (N * N * N * N * N)%type.

Definition round (t : N) (s : st) (w : N) : st :=
  let '(a, b, c, d, e) := s in
  let '(f, k) :=
    if t <? 20 then (N.lor (N.land b c) (N.land (not32 b) d), 1518500249)
    else if t <? 40 then (N.lxor (N.lxor b c) d, 1859775393)
    else if t <? 60 then (N.lor (N.lor (N.land b c) (N.land b d)) (N.land c d), 2400959708)
    else (N.lxor (N.lxor b c) d, 3395469782) in
  let tmp := add32 (add32 (add32 (add32 (rotl 5 a) f) e) k) w in
  (tmp, a, rotl 30 b, c, d).

Fixpoint rounds (t : N) (ws : list N) (s : st) : st :=
  match ws with
  | [] => s
  | w :: ws' => rounds (t + 1) ws' (round t s w)
  end.

Definition block (s : st) (b : list N) : st :=
  let ws := rev (extend 64 (rev (words 16 b))) in
  let '(a, b', c, d, e) := rounds 0 ws s in
  let '(h0, h1, h2, h3, h4) := s in
  (add32 h0 a, add32 h1 b', add32 h2 c, add32 h3 d, add32 h4 e).

Fixpoint blocks (k : nat) (s : st) (b : list N) : st :=
  match k with
  | O => s
  | S k' => blocks k' (block s (firstn 64 b)) (skipn 64 b)
  end.

Definition init : st := (1732584193, 4023233417, 2562383102, 271733878, 3285377520).

Definition sha1 (msg : list N) : list N :=
  let p := pad msg in
  let '(h0, h1, h2, h3, h4) := blocks (Nat.div (length p) 64) init p in
  be_bytes 4 h0 ++ be_bytes 4 h1 ++ be_bytes 4 h2 ++ be_bytes 4 h3 ++ be_bytes 4 h4.

Lemma be_bytes_length k x : length (be_bytes k x) = k.
Proof. induction k as [|k IH]; cbn [be_bytes length]; congruence. Qed.

Lemma sha1_length msg : length (sha1 msg) = 20%nat.
Proof.
  unfold sha1. destruct (blocks _ _ _) as [[[[h0 h1] h2] h3] h4].
  rewrite !app_length, !be_bytes_length. reflexivity.
Qed.

Lemma be_bytes_lt k x : Forall (fun b => b < 256) (be_bytes k x).
Proof.
  induction k as [|k IH]; cbn [be_bytes]; constructor; [|exact IH].
  change 255 with (N.ones 8). rewrite N.land_ones. apply N.mod_lt. discriminate.
Qed.

Lemma sha1_bytes msg : Forall (fun b => b < 256) (sha1 msg).
Proof.
  unfold sha1. destruct (blocks _ _ _) as [[[[h0 h1] h2] h3] h4].
  repeat (apply Forall_app; split); apply be_bytes_lt.
Qed.

(* FIPS 180 test vectors: "" and "abc" *)
Example sha1_empty :
  sha1 [] = [218;57;163;238;94;107;75;13;50;85;191;239;149;96;24;144;175;216;7;9].
Proof. vm_compute. reflexivity. Qed.
Example sha1_abc :
  sha1 [97;98;99] = [169;153;62;54;71;6;129;106;186;62;37;113;120;80;194;108;156;208;216;157].
Proof. vm_compute. reflexivity. Qed.
