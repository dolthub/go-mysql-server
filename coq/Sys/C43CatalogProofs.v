(* Proofs about the C43 catalog model. *)
From Coq Require Import List NArith Bool Arith.
Import ListNotations.
From GMS Require Import Base.ListFacts Sys.C43Catalog.
Open Scope N_scope.

Definition tnames (c : cat) : list name := map tname (tables c).

Lemma set_tbl_names : forall n t' ts, tname t' = n -> map tname (set_tbl n t' ts) = map tname ts.
Proof.
  intros n t' ts Hn. unfold set_tbl. rewrite map_map. apply map_ext_in. intros a _.
  destruct (N.eqb (tname a) n) eqn:E; [apply N.eqb_eq in E; congruence | reflexivity].
Qed.

Lemma find_tbl_name : forall n c t, find_tbl n c = Some t -> tname t = n.
Proof.
  intros n c t H. unfold find_tbl in H. apply find_some in H. destruct H as [_ H]. now apply N.eqb_eq in H.
Qed.

Lemma replace_names : forall c t tb tb', find_tbl t c = Some tb -> tname tb' = tname tb ->
  map tname (set_tbl t tb' (tables c)) = tnames c.
Proof. intros c t tb tb' Ef Hn. apply set_tbl_names. rewrite Hn. exact (find_tbl_name _ _ _ Ef). Qed.

Lemma upd_names : forall c n ok f, (forall t, tname (f t) = tname t) -> tnames (snd (upd c n ok f)) = tnames c.
Proof.
  intros c n ok f Hf. unfold upd. destruct (find_tbl n c) as [t|] eqn:Ef; [|reflexivity].
  destruct (ok t); [|reflexivity]. exact (replace_names c n t (f t) Ef (Hf t)).
Qed.

Lemma upd_rest : forall c n ok f,
  views (snd (upd c n ok f)) = views c /\ trigs (snd (upd c n ok f)) = trigs c /\
  procs (snd (upd c n ok f)) = procs c /\ fks (snd (upd c n ok f)) = fks c.
Proof.
  intros. unfold upd. destruct (find_tbl n c); [destruct (ok t)|]; cbn; auto.
Qed.

Lemma upd_rejected : forall c n ok f, fst (upd c n ok f) = false -> snd (upd c n ok f) = c.
Proof.
  intros c n ok f. unfold upd. destruct (find_tbl n c); [destruct (ok t)|]; cbn; congruence.
Qed.

Lemma has_tbl_find : forall n c, has_tbl n c = match find_tbl n c with Some _ => true | None => false end.
Proof.
  intros n c. unfold has_tbl, find_tbl. induction (tables c) as [|a r IH]; [reflexivity|].
  cbn. destruct (N.eqb (tname a) n); [reflexivity | exact IH].
Qed.

(* most statements are [if guard then (true, changed catalog) else (false, c)]: case analysis on the guard *)
Ltac case_guard c := match goal with |- context [if ?b then _ else (false, c)] => destruct b end.

Definition created (o : op) (c : cat) : bool :=
  match o with
  | CreateTable t cs pk =>
    let names := map sname cs in
    negb (has_tbl t c) && negb (isnil cs) && nodupb names && forallb (fun n => mem n names) pk && nodupb pk
  | _ => false
  end.

Definition names_after (o : op) (c : cat) : list name :=
  match o with
  | CreateTable t _ _ => if created o c then tnames c ++ [t] else tnames c
  | DropTable t => if fst (step o c) then filter (fun x => negb (N.eqb x t)) (tnames c) else tnames c
  | RenameTable t u => if fst (step o c) then map (ren t u) (tnames c) else tnames c
  | _ => tnames c
  end.

Lemma filter_map_names : forall t ts,
  map tname (filter (fun x => negb (N.eqb (tname x) t)) ts) = filter (fun x => negb (N.eqb x t)) (map tname ts).
Proof.
  intros t ts. induction ts as [|a r IH]; [reflexivity|]. cbn. destruct (N.eqb (tname a) t); cbn; now rewrite IH.
Qed.

Lemma set_tbl_rename : forall t u x ts, tname x = u ->
  map tname (set_tbl t x ts) = map (ren t u) (map tname ts).
Proof.
  intros t u x ts Hx. unfold set_tbl. rewrite !map_map. apply map_ext. intros a. unfold ren.
  destruct (N.eqb (tname a) t); [assumption | reflexivity].
Qed.

Theorem step_table_names : forall o c, tnames (exec o c) = names_after o c.
Proof.
  intros o c. unfold exec.
  destruct o as [t cs pk | t | t u | t s p | t x | t x y | t i cs pre uq | t i x | t i | t cs | t | t f cs p pcs | t f | t k x b | t k | v b cs | v | g t before ev r | g | p v | p];
    cbn [names_after created];
    (* the statements that rewrite one table in place keep its name; those about other objects keep the tables *)
    try (apply upd_names; reflexivity); try (cbn [step]; case_guard c; reflexivity).
  - (* CreateTable *)
    cbn [step]. case_guard c; cbn; [|reflexivity]. unfold tnames. cbn. now rewrite map_app.
  - (* DropTable *)
    cbn [step]. case_guard c; cbn; [|reflexivity]. unfold tnames. cbn. apply filter_map_names.
  - (* RenameTable *)
    cbn [step]. destruct (find_tbl t c) as [x|]; [|reflexivity].
    destruct (negb (has_tbl u c)); cbn; [|reflexivity].
    unfold tnames. cbn. now apply set_tbl_rename.
  - (* DropColumn *)
    cbn [step]. destruct (find_tbl t c) as [tb|] eqn:Ef; [|reflexivity].
    destruct (find_col x tb) as [cl|]; [|reflexivity]. destruct (fn_depends x tb); [reflexivity|].
    match goal with |- context [if ?b then (false, _) else (true, _)] => destruct b end;
      apply (replace_names c t tb _ Ef); reflexivity.
  - (* RenameColumn *)
    cbn [step].
    match goal with |- context [upd c t ?ok ?f] =>
      pose proof (upd_names c t ok f (fun _ => eq_refl)) as Hn; destruct (upd c t ok f) as [[|] c'] end;
      cbn in *; exact Hn.
  - (* DropIndex *)
    apply upd_names. intros t0. unfold drop_idx_full_tbl. destruct (existsb _ _); reflexivity.
  - (* AddFK *)
    cbn [step]. destruct (find_tbl t c) as [tb|] eqn:Ef; [|reflexivity]. destruct (find_tbl p c) as [pb|]; [|reflexivity].
    case_guard c; [|reflexivity].
    pose proof (replace_names c t tb (add_idx_tbl (mkidx f cs false t []) tb) Ef eq_refl) as Hs.
    destruct (negb (fk_index_ok tb cs false None)); cbn.
    + destruct (has_idx f tb || N.eqb f PRIMARY); [reflexivity|].
      destruct (existsb (fun g => N.eqb (fname g) f) (fks c)); cbn; [destruct (tmap tb); [exact Hs | reflexivity] | exact Hs].
    + destruct (existsb (fun g => N.eqb (fname g) f) (fks c)); cbn; [destruct (tmap tb); reflexivity | reflexivity].
Qed.

Lemma mem_In : forall n l, mem n l = true <-> In n l.
Proof.
  intros n l. unfold mem. rewrite existsb_exists. split.
  - intros [x [Hx He]]. apply N.eqb_eq in He. now subst.
  - intros H. exists n. split; [assumption | apply N.eqb_refl].
Qed.

Lemma has_tbl_In : forall t c, has_tbl t c = true <-> In t (tnames c).
Proof.
  intros t c. unfold has_tbl, tnames. rewrite existsb_exists, in_map_iff. split.
  - intros [x [Hx He]]. apply N.eqb_eq in He. eauto.
  - intros [x [He Hx]]. exists x. split; [assumption | now apply N.eqb_eq].
Qed.

Lemma NoDup_ren : forall t u l, NoDup l -> ~ In u l -> NoDup (map (ren t u) l).
Proof.
  intros t u l Hd Hu. induction Hd as [|a l Hn Hd IH]; cbn; [constructor|].
  constructor.
  - rewrite in_map_iff. intros [b [Hb Hin]]. unfold ren in Hb.
    destruct (N.eqb b t) eqn:Eb; destruct (N.eqb a t) eqn:Ea.
    + apply N.eqb_eq in Eb, Ea. subst. contradiction.
    + subst. apply Hu. now left.
    + subst. apply Hu. right. assumption.
    + subst. contradiction.
  - apply IH. intros H. apply Hu. now right.
Qed.

Lemma step_keeps_unique_names : forall o c, NoDup (tnames c) -> NoDup (tnames (exec o c)).
Proof.
  intros o c Hd. rewrite step_table_names. destruct o as [t cs pk | t | t u | t s p | t x | t x y | t i cs pre uq | t i x | t i | t cs | t | t f cs p pcs | t f | t k x b | t k | v b cs | v | g t before ev r | g | p v | p]; cbn [names_after]; try assumption.
  - destruct (created (CreateTable t cs pk) c) eqn:E; [|assumption].
    cbn [created] in E. rewrite !andb_true_iff in E. destruct E as [[[[E _] _] _] _].
    apply negb_true_iff in E.
    apply NoDup_snoc. split; [assumption|]. intros Hin. apply has_tbl_In in Hin. congruence.
  - destruct (fst (step (DropTable t) c)); [now apply NoDup_filter | assumption].
  - destruct (fst (step (RenameTable t u) c)) eqn:E; [|assumption].
    apply NoDup_ren; [assumption|]. intros Hin. apply has_tbl_In in Hin.
    cbn [step] in E. destruct (find_tbl t c); [|discriminate]. rewrite Hin in E. discriminate.
Qed.

Theorem histories_keep_unique_names : forall h c, NoDup (tnames c) -> NoDup (tnames (run h c)).
Proof.
  induction h as [|o h IH]; intros c Hd; [assumption|]. cbn. apply IH. now apply step_keeps_unique_names.
Qed.

(* the set model: names created and not dropped, renamed along *)
Fixpoint live_names (h : list op) (c : cat) : list name :=
  match h with
  | [] => tnames c
  | o :: h' => live_names h' (exec o c)
  end.
Fixpoint names_fold (h : list op) (c : cat) (l : list name) : list name :=
  match h with
  | [] => l
  | o :: h' =>
    names_fold h' (exec o c)
      (match o with
       | CreateTable t _ _ => if created o c then l ++ [t] else l
       | DropTable t => if fst (step o c) then filter (fun x => negb (N.eqb x t)) l else l
       | RenameTable t u => if fst (step o c) then map (ren t u) l else l
       | _ => l
       end)
  end.

Theorem listed_tables_follow_history : forall h c, tnames (run h c) = names_fold h c (tnames c).
Proof.
  induction h as [|o h IH]; intros c; [reflexivity|]. cbn [run fold_left names_fold].
  change (fold_left (fun c0 o0 => exec o0 c0) h (exec o c)) with (run h (exec o c)).
  rewrite IH. rewrite step_table_names. destruct o; reflexivity.
Qed.

Theorem tables_rows_exact : forall c r,
  In r (tables_rows c) <->
  (exists t, In t (tables c) /\ r = [tname t; BASE]) \/ (exists v, In v (views c) /\ r = [vname v; VIEWT]).
Proof.
  intros c r. unfold tables_rows. rewrite in_app_iff, !in_map_iff. split.
  - intros [[t [E H]] | [v [E H]]]; [left; exists t | right; exists v]; auto.
  - intros [[t [H E]] | [v [H E]]]; [left; exists t | right; exists v]; auto.
Qed.

Theorem constraints_rows_exact : forall c r,
  In r (table_constraints_rows c) <->
  exists t, In t (tables c) /\
    ((exists k, In k (tchk t) /\ r = [kname k; tname t; T_CHECK])
     \/ (exists i, In i (all_idx t) /\ ((iname i = PRIMARY /\ r = [iname i; tname t; T_PK])
                                       \/ (iname i <> PRIMARY /\ iuniq i = true /\ r = [iname i; tname t; T_UNIQ])))
     \/ (exists f, In f (fks c) /\ ftable f = tname t /\ r = [fname f; tname t; T_FK])).
Proof.
  intros c r. unfold table_constraints_rows. rewrite in_flat_map. split.
  - intros [t [Ht H]]. exists t. split; [assumption|].
    rewrite !in_app_iff in H. destruct H as [H | [H | H]].
    + left. apply in_map_iff in H. destruct H as [k [E Hk]]. eauto.
    + right; left. apply in_flat_map in H. destruct H as [i [Hi H]]. exists i. split; [assumption|].
      destruct (N.eqb (iname i) PRIMARY) eqn:E.
      * apply N.eqb_eq in E. destruct H as [H|[]]. left. auto.
      * apply N.eqb_neq in E. destruct (iuniq i); [|destruct H]. destruct H as [H|[]]. right. auto.
    + right; right. apply in_map_iff in H. destruct H as [f [E Hf]]. unfold table_fks in Hf.
      apply filter_In in Hf. destruct Hf as [Hf Hn]. apply N.eqb_eq in Hn. exists f. auto.
  - intros [t [Ht H]]. exists t. split; [assumption|]. rewrite !in_app_iff.
    destruct H as [[k [Hk E]] | [[i [Hi H]] | [f [Hf [Hn E]]]]].
    + left. apply in_map_iff. eauto.
    + right; left. apply in_flat_map. exists i. split; [assumption|].
      destruct H as [[Hp E] | [Hp [Hu E]]].
      * rewrite Hp, N.eqb_refl. left. rewrite <- Hp. auto.
      * apply N.eqb_neq in Hp. rewrite Hp, Hu. left. auto.
    + right; right. apply in_map_iff. exists f. split; [auto|]. unfold table_fks. apply filter_In.
      split; [assumption | now apply N.eqb_eq].
Qed.

(* ordinal positions: the visible columns of a table are listed in schema order; the position counts every schema
   column, hidden system columns included (so it is 1, 2, ... exactly when the table has none) *)
Fixpoint numbered (n : N) (l : list name) : list (name * N) :=
  match l with [] => [] | x :: r => (x, n) :: numbered (n + 1) r end.
Fixpoint numbered_visible (n : N) (l : list col) : list (name * N) :=
  match l with
  | [] => []
  | x :: r => if visible x then (cname x, n) :: numbered_visible (n + 1) r else numbered_visible (n + 1) r
  end.

Lemma col_keys_length : forall m cs b, length (col_keys m b cs) = length cs.
Proof.
  intros m cs. induction cs as [|c r IH]; intros b; cbn; [reflexivity|].
  destruct (cpk c); cbn; [now rewrite IH|].
  destruct (key_lookup m (cname c)); cbn; [|now rewrite IH].
  destruct (negb (cnull c) && negb b && N.eqb n K_UNI); cbn; now rewrite IH.
Qed.

Lemma columns_numbered : forall tn n cs ks, length ks = length cs ->
  map (fun r => (nth 1 r 0, nth 2 r 0))
      (map (fun p => let '(n, (c, k)) := p in [tn; cname c; n; yesno (cnull c); cty c; k; def_code (cdef c); ccom c])
           (filter (fun p : N * (col * N) => visible (fst (snd p))) (number_from n (combine cs ks))))
  = numbered_visible n cs.
Proof.
  intros tn n cs. revert n. induction cs as [|c r IH]; intros n ks Hl; [reflexivity|].
  destruct ks as [|k ks]; [discriminate|]. cbn. cbn in Hl.
  injection Hl as Hl. destruct (visible c); cbn; [f_equal|]; apply IH; exact Hl.
Qed.

Theorem columns_ordinals_exact : forall t,
  map (fun r => (nth 1 r 0, nth 2 r 0)) (table_columns_rows t) = numbered_visible 1 (tcols t).
Proof.
  intros t. unfold table_columns_rows. apply columns_numbered. apply col_keys_length.
Qed.

Lemma numbered_visible_all : forall cs n, forallb visible cs = true -> numbered_visible n cs = numbered n (map cname cs).
Proof.
  induction cs as [|c r IH]; intros n H; [reflexivity|]. cbn in *. apply andb_true_iff in H. destruct H as [Hc Hr].
  rewrite Hc. f_equal. now apply IH.
Qed.

Theorem columns_ordinals_contiguous : forall t, has_hidden t = false ->
  map (fun r => (nth 1 r 0, nth 2 r 0)) (table_columns_rows t) = numbered 1 (colnames t).
Proof.
  intros t H. rewrite columns_ordinals_exact. apply numbered_visible_all.
  unfold has_hidden in H. clear -H. induction (tcols t) as [|c r IH]; [reflexivity|]. cbn in *.
  destruct (visible c); cbn in *; [now apply IH | discriminate].
Qed.

Theorem columns_rows_belong_to_table : forall t r, In r (table_columns_rows t) -> nth 0 r 0 = tname t.
Proof.
  intros t r H. unfold table_columns_rows in H. apply in_map_iff in H.
  destruct H as [[n [c k]] [E _]]. subst. reflexivity.
Qed.

(* STATISTICS: exactly one row per (index, key position) *)
Lemma number_nat_nth {A} : forall (l : list A) n p,
  In p (number_nat n l) <-> exists k, nth_error l k = Some (snd p) /\ fst p = (n + k)%nat.
Proof.
  induction l as [|a r IH]; intros n p; cbn.
  - split; [tauto | intros [k [H _]]; destruct k; discriminate].
  - rewrite IH. split.
    + intros [E | [k [H1 H2]]].
      * subst. exists O. split; [reflexivity | apply plus_n_O].
      * exists (S k). split; [assumption|]. rewrite H2. apply plus_n_Sm.
    + intros [[|k] [H1 H2]]; cbn in H1.
      * left. destruct p. cbn in *. rewrite <- plus_n_O in H2. congruence.
      * right. exists k. split; [assumption|]. rewrite H2. symmetry. apply plus_n_Sm.
Qed.

Theorem statistics_rows_exact : forall t r,
  In r (table_statistics_rows t) <->
  exists i k x, In i (all_idx t) /\ nth_error (icols i) k = Some x /\
    r = [tname t; bN (negb (iuniq i)); iname i; N.of_nat k + 1; col_shown t x; col_nullable t x; sub_part i k; col_expr t x].
Proof.
  intros t r. unfold table_statistics_rows. rewrite in_flat_map. split.
  - intros [i [Hi H]]. unfold index_rows in H. apply in_map_iff in H. destruct H as [[n x] [E H]].
    apply number_nat_nth in H. destruct H as [k [H1 H2]]. cbn in *. subst. exists i, k, x. auto.
  - intros [i [k [x [Hi [Hk E]]]]]. exists i. split; [assumption|]. unfold index_rows. apply in_map_iff.
    exists (k, x). split; [now subst|]. apply number_nat_nth. exists k. auto.
Qed.

Theorem drop_table_cascade : forall t c c', step (DropTable t) c = (true, c') ->
  ~ In t (tnames c') /\
  (forall f, In f (fks c') -> ftable f <> t /\ fparent f <> t) /\
  (forall g, In g (trigs c') -> gtable g <> t) /\
  (forall x, In x (tables c') <-> In x (tables c) /\ tname x <> t) /\
  views c' = views c /\ procs c' = procs c.
Proof.
  intros t c c' H. cbn [step] in H.
  destruct (has_tbl t c && forallb (trig_loads c) (trigs c)
            && negb (existsb (fun f => N.eqb (fparent f) t && negb (N.eqb (ftable f) t)) (fks c))) eqn:E; [|discriminate].
  inversion H; subst; clear H. cbn. rewrite !andb_true_iff in E. destruct E as [_ E]. apply negb_true_iff in E.
  split; [|split; [|split; [|split; [|split; reflexivity]]]].
  - unfold tnames. cbn. rewrite in_map_iff. intros [x [Hx Hin]]. apply filter_In in Hin. destruct Hin as [_ Hn].
    apply negb_true_iff in Hn. apply N.eqb_neq in Hn. contradiction.
  - intros f Hf. apply filter_In in Hf. destruct Hf as [Hf Hn]. apply negb_true_iff in Hn. apply N.eqb_neq in Hn.
    split; [assumption|].
    intros Hp. assert (X : existsb (fun f => N.eqb (fparent f) t && negb (N.eqb (ftable f) t)) (fks c) = true).
    { apply existsb_exists. exists f. split; [assumption|]. apply andb_true_iff. split; [now apply N.eqb_eq|].
      apply negb_true_iff. now apply N.eqb_neq. }
    congruence.
  - intros g Hg. apply filter_In in Hg. destruct Hg as [_ Hn]. apply negb_true_iff in Hn. now apply N.eqb_neq in Hn.
  - intros x. rewrite filter_In, negb_true_iff, N.eqb_neq. tauto.
Qed.

Theorem rename_table_moves_one : forall t u c c', step (RenameTable t u) c = (true, c') ->
  tnames c' = map (ren t u) (tnames c) /\ In t (tnames c) /\ ~ In u (tnames c) /\
  views c' = views c /\ trigs c' = trigs c /\ procs c' = procs c /\
  map fname (fks c') = map fname (fks c).
Proof.
  intros t u c c' H. cbn [step] in H. destruct (find_tbl t c) as [x|] eqn:Ef; [|discriminate].
  destruct (negb (has_tbl u c)) eqn:Eu; [|discriminate]. inversion H; subst; clear H. cbn.
  split; [|split; [|split; [|split; [|split; [|split]]]]]; try reflexivity.
  - unfold tnames. cbn. now apply set_tbl_rename.
  - apply has_tbl_In. rewrite has_tbl_find, Ef. reflexivity.
  - intros Hin. apply has_tbl_In in Hin. apply negb_true_iff in Eu. congruence.
  - rewrite map_map. reflexivity.
Qed.

Definition no_leak (o : op) (c : cat) : bool :=
  match o with
  | CreateTable t _ _ => negb (has_view t c)
  | RenameTable _ u => negb (has_tbl u c)
  | AddFK _ _ _ _ _ => false
  | DropColumn _ _ => false
  | _ => true
  end.

Theorem rejected_statement_no_effect : forall o c, no_leak o c = true -> fst (step o c) = false -> snd (step o c) = c.
Proof.
  intros o c Hg. destruct o as [t cs pk | t | t u | t s p | t x | t x y | t i cs pre uq | t i x | t i | t cs | t | t f cs p pcs | t f | t k x b | t k | v b cs | v | g t before ev r | g | p v | p]; cbn [no_leak] in Hg; try discriminate; cbn [step];
    try (apply upd_rejected); try (case_guard c; cbn; congruence).
  - destruct (find_tbl t c); [|reflexivity]. rewrite Hg. cbn. congruence.
  - match goal with |- context [upd c t ?ok ?f] =>
      pose proof (upd_rejected c t ok f) as Hr; destruct (upd c t ok f) as [[|] c'] end; cbn in *; [congruence | exact Hr].
Qed.

Theorem views_rows_exact_when_resolving : forall c, forallb (view_resolves c) (views c) = true ->
  views_rows c = map (fun v => vname v :: vbase v :: vcols v) (views c).
Proof. intros c H. unfold views_rows. rewrite filter_all; [reflexivity|]. apply forallb_forall, H. Qed.

Theorem views_rows_sound : forall c r, In r (views_rows c) -> exists v, In v (views c) /\ r = vname v :: vbase v :: vcols v.
Proof.
  intros c r H. unfold views_rows in H. apply in_map_iff in H. destruct H as [v [E Hv]].
  apply filter_In in Hv. destruct Hv as [Hv _]. exists v. split; [assumption | now symmetry].
Qed.

Theorem show_triggers_exact_when_loading : forall c, forallb (trig_loads c) (trigs c) = true ->
  show_triggers_rows c = Some (map (fun g => [gname g; gevent g; gtable g; bN (gbefore g); ref_code (gref g)]) (trigs c)).
Proof. intros c H. unfold show_triggers_rows. now rewrite H. Qed.

Theorem routines_rows_exact : forall c, routines_rows c = map (fun p => [pname p; pval p]) (procs c).
Proof. reflexivity. Qed.

(* witnesses: where the model, faithful to the code, departs from the property *)
Definition cat_view5 : cat := mkcat [] [] [mkview 5 7 [1]] [] [].
Lemma rejected_create_has_effect :
  exists o c, fst (step o c) = false /\ tables (snd (step o c)) <> tables c.
Proof. exists (CreateTable 5 [mkcs 1 1 true None 0] []), cat_view5. split; [reflexivity | vm_compute; discriminate]. Qed.
Definition h_fk : list op :=
  [CreateTable 1 [mkcs 10 1 false None 0] [10]; CreateTable 2 [mkcs 10 1 false None 0; mkcs 11 1 true None 0] [10]; CreateTable 3 [mkcs 10 1 false None 0] [10];
   AddFK 2 20 [11] 1 [10]; RenameTable 1 3].
Lemma rejected_rename_rewrites_fk :
  fst (step (RenameTable 1 3) (run (removelast h_fk) empty)) = false /\
  map fparent (fks (run (removelast h_fk) empty)) = [1] /\ map fparent (fks (run h_fk empty)) = [3].
Proof. vm_compute. repeat split. Qed.
Definition h_view : list op := [CreateTable 1 [mkcs 10 1 true None 0] []; CreateView 30 1 [10]; RenameColumn 1 10 11].
Lemma view_not_listed :
  map vname (views (run h_view empty)) = [30] /\ In [30; VIEWT] (tables_rows (run h_view empty)) /\
  views_rows (run h_view empty) = [].
Proof. vm_compute. repeat split; auto. Qed.
Definition h_trig : list op := [CreateTable 1 [mkcs 10 1 true None 0] []; CreateTrigger 40 1 true 0 (Some 10); RenameTable 1 2].
Lemma triggers_unlistable :
  map gname (trigs (run h_trig empty)) = [40] /\ show_triggers_rows (run h_trig empty) = None /\
  is_triggers_rows (run h_trig empty) = None /\ fst (step (DropTable 2) (run h_trig empty)) = false.
Proof. vm_compute. repeat split. Qed.
Definition h_pk : list op :=
  [CreateTable 1 [mkcs 10 1 true None 0; mkcs 11 1 false None 0; mkcs 12 1 false None 0] [11; 12]; RenameColumn 1 12 13].
Lemma pk_garbled :
  option_map pk_cols (find_tbl 1 (run (removelast h_pk) empty)) = Some [11; 12] /\
  option_map pk_cols (find_tbl 1 (run h_pk empty)) = Some [13; 10].
Proof. vm_compute. repeat split. Qed.
Definition h_ok : list op :=
  [CreateTable 1 [mkcs 10 1 false None 0; mkcs 11 1 true None 0] [10]; CreateTable 2 [mkcs 10 1 false None 0; mkcs 11 1 true None 0] [10];
   CreateIndex 1 50 [11] [] true; AddFK 2 20 [11] 1 [11]; AddCheck 2 60 11 5; RenameTable 2 3; DropTable 3; DropTable 1].
