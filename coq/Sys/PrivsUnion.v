(* C39: UnionWith at the level of facts, well-formedness (unique map keys) as an invariant of every history, and
   allow/deny for accounts WITH roles. *)
From Coq Require Import List NArith Bool Lia.
Import ListNotations.
From GMS Require Import Sys.Privs Sys.PrivsProofs.
Open Scope N_scope.

Fixpoint ukeys {V} (m : list (str * V)) : bool :=
  match m with
  | [] => true
  | (k, _) :: m' => negb (existsb (fun kv => seqb k (fst kv)) m') && ukeys m'
  end.

Section Keys.
  Context {V : Type}.
  Implicit Types m : list (str * V).

  Lemma ukeys_aput m k v : ukeys m = true -> ukeys (aput k v m) = true.
  Proof.
    induction m as [|[k0 v0] m IH]; cbn [aput ukeys]; [reflexivity|]. intros E. apply andb_prop in E. destruct E as [E1 E2].
    destruct (seqb_spec k k0) as [->|N]; cbn [ukeys]; [rewrite E1; exact E2|].
    rewrite (IH E2), key_aget, aget_aput, seqb_sym. destruct (seqb_spec k k0); [contradiction|].
    rewrite <- key_aget, E1. reflexivity.
  Qed.

  Lemma ukeys_adel m k : ukeys m = true -> ukeys (adel k m) = true.
  Proof.
    induction m as [|[k0 v0] m IH]; cbn [adel ukeys]; [reflexivity|]. intros E. apply andb_prop in E. destruct E as [E1 E2].
    destruct (seqb k k0); cbn [ukeys]; [exact (IH E2)|].
    rewrite (IH E2), key_aget, aget_adel. rewrite key_aget in E1. destruct (seqb k0 k); [reflexivity|].
    rewrite E1. reflexivity.
  Qed.

  Definition allv (P : V -> bool) m : bool := forallb (fun kv => P (snd kv)) m.

  Lemma allv_aget P m k v : allv P m = true -> aget k m = Some v -> P v = true.
  Proof.
    induction m as [|[k0 v0] m IH]; cbn; [discriminate|]. intros E G. apply andb_prop in E. destruct E as [E1 E2].
    destruct (seqb k k0); [injection G as <-; exact E1|]. apply IH; assumption.
  Qed.

  Lemma allv_aput P m k v : allv P m = true -> P v = true -> allv P (aput k v m) = true.
  Proof.
    induction m as [|[k0 v0] m IH]; cbn; intros E Hv.
    - rewrite Hv. reflexivity.
    - apply andb_prop in E. destruct E as [E1 E2]. destruct (seqb k k0); cbn.
      + rewrite Hv, E2. reflexivity.
      + rewrite E1. apply IH; assumption.
  Qed.

  Lemma allv_adel P m k : allv P m = true -> allv P (adel k m) = true.
  Proof.
    induction m as [|[k0 v0] m IH]; cbn; [reflexivity|]. intros E. apply andb_prop in E. destruct E as [E1 E2].
    destruct (seqb k k0); cbn; [apply IH; exact E2|]. rewrite E1. apply IH. exact E2.
  Qed.
End Keys.

(* merging one map into another (UnionWith / unionWith) *)
Section Merge.
  Context {V : Type}.
  Variable dflt : V.
  Variable mg : V -> V -> V.
  Definition getd (k : str) (m : list (str * V)) : V := match aget k m with Some v => v | None => dflt end.
  Definition mstep (acc : list (str * V)) (kv : str * V) := aput (fst kv) (mg (getd (fst kv) acc) (snd kv)) acc.

  Lemma getd_cons m k k' v : getd k ((k', v) :: m) = if seqb k k' then v else getd k m.
  Proof. unfold getd. cbn [aget]. destruct (seqb k k'); reflexivity. Qed.

  Lemma getd_aput m k k' v : getd k (aput k' v m) = if seqb k k' then v else getd k m.
  Proof. unfold getd. rewrite aget_aput. destruct (seqb k k'); reflexivity. Qed.

  (* when the default is a right unit of mg, merging is mg pointwise *)
  Lemma merge_getd l : (forall x, mg x dflt = x) -> forall acc k, ukeys l = true ->
    getd k (fold_left mstep l acc) = mg (getd k acc) (getd k l).
  Proof.
    intros Hd. induction l as [|[k0 v0] l IH]; intros acc k Hu; [symmetry; apply Hd|].
    cbn [ukeys] in Hu. apply andb_prop in Hu. destruct Hu as [Hn Hu]. rewrite key_aget in Hn.
    cbn [fold_left]. rewrite (IH _ _ Hu). unfold mstep. cbn [fst snd]. rewrite getd_aput, getd_cons.
    destruct (seqb_spec k k0) as [->|]; [|reflexivity].
    unfold getd. destruct (aget k0 l); [discriminate|apply Hd].
  Qed.

  Lemma merge_ukeys l : forall acc, ukeys acc = true -> ukeys (fold_left mstep l acc) = true.
  Proof.
    induction l as [|kv l IH]; intros acc Hu; [exact Hu|]. cbn [fold_left]. apply IH. apply ukeys_aput. exact Hu.
  Qed.
End Merge.

Definition wf_d (ds : dset) : bool := ukeys (d_tbls ds).
Definition wf_ps (ps : privset) : bool := ukeys (dbs ps) && allv wf_d (dbs ps).

Lemma wf_aget ps d ds : wf_ps ps = true -> aget d (dbs ps) = Some ds -> wf_d ds = true.
Proof. intros W. apply andb_prop in W. exact (allv_aget _ _ _ _ (proj2 W)). Qed.

Lemma wf_db_of ps d : wf_ps ps = true -> wf_d (db_of ps d) = true.
Proof. intros W. unfold db_of. destruct (aget d (dbs ps)) as [ds|] eqn:A; [exact (wf_aget ps d ds W A)|reflexivity]. Qed.

Lemma wf_put ps g d ds : wf_ps ps = true -> wf_d ds = true -> wf_ps (mkP g (aput d ds (dbs ps))) = true.
Proof.
  intros W Wd. apply andb_prop in W. destruct W as [W1 W2]. unfold wf_ps. cbn [dbs].
  rewrite ukeys_aput by exact W1. apply allv_aput; assumption.
Qed.

Lemma wf_put_tbl ps g d ds p t s :
  wf_ps ps = true -> wf_d ds = true -> wf_ps (mkP g (aput d (mkD p (aput t s (d_tbls ds))) (dbs ps))) = true.
Proof. intros W Wd. apply wf_put; [exact W|]. apply ukeys_aput, Wd. Qed.

Lemma wf_del ps g d : wf_ps ps = true -> wf_ps (mkP g (adel d (dbs ps))) = true.
Proof.
  intros W. apply andb_prop in W. destruct W as [W1 W2]. unfold wf_ps. cbn [dbs].
  rewrite ukeys_adel by exact W1. apply allv_adel. exact W2.
Qed.

Lemma wf_add_at l p ps : wf_ps ps = true -> wf_ps (add_at l p ps) = true.
Proof.
  intros W. destruct l as [|d|d t]; [exact W|apply wf_put|apply wf_put_tbl]; try exact W; apply wf_db_of, W.
Qed.

Lemma wf_rem_at l p ps : wf_ps ps = true -> wf_ps (rem_at l p ps) = true.
Proof.
  intros W. destruct l as [|d|d t]; cbn [rem_at]; [exact W| |].
  - unfold rem_db. destruct (aget d (dbs ps)) as [ds|] eqn:A; [|exact W].
    destruct (pempty _); [apply wf_del|apply wf_put]; try exact W. exact (wf_aget ps d ds W A).
  - unfold rem_tbl. destruct (aget d (dbs ps)) as [ds|] eqn:A; [|exact W].
    destruct (aget t (d_tbls ds)); [|exact W]. apply wf_put_tbl; [exact W|exact (wf_aget ps d ds W A)].
Qed.

Lemma wf_clear_at l ps : wf_ps ps = true -> wf_ps (clear_at l ps) = true.
Proof.
  intros W. destruct l as [|d|d t]; [exact W|apply wf_del, W|apply wf_put_tbl; [exact W|apply wf_db_of, W]].
Qed.

Lemma wf_fold (f : N -> privset -> privset) qs :
  (forall p ps, wf_ps ps = true -> wf_ps (f p ps) = true) ->
  forall ps, wf_ps ps = true -> wf_ps (fold_left (fun acc p => f p acc) qs ps) = true.
Proof. intros Hf. induction qs as [|q qs IH]; intros ps W; [exact W|]. cbn [fold_left]. apply IH, Hf, W. Qed.

(* UnionWith reads as the union of the facts *)
Lemma tbl_of_union a b t : wf_d b = true -> tbl_of (union_d a b) t = punion (tbl_of a t) (tbl_of b t).
Proof. exact (merge_getd [] punion (d_tbls b) (fun x => eq_refl) (d_tbls a) t). Qed.

Lemma db_of_union a b d : ukeys (dbs b) = true -> db_of (union_with a b) d = union_d (db_of a d) (db_of b d).
Proof. refine (merge_getd empty_d union_d (dbs b) _ (dbs a) d). intros []. reflexivity. Qed.

Theorem union_with_facts a b f : wf_ps b = true -> holds (union_with a b) f = holds a f || holds b f.
Proof.
  intros W. pose proof (fun d => wf_db_of b d W) as Wd. apply andb_prop in W. destruct W as [W _].
  destruct f as [p|d p|d t p]; cbn [holds]; unfold has_g, has_d, has_t;
    rewrite ?(db_of_union a b _ W), ?(tbl_of_union _ _ t (Wd d)); apply pmem_punion.
Qed.

Definition state_wf (s : state) : Prop := forall u ps, aget u (users s) = Some ps -> wf_ps ps = true.

Lemma state_wf_upd s u f :
  state_wf s -> (forall ps, wf_ps ps = true -> wf_ps (f ps) = true) -> state_wf (upd_user s u f).
Proof.
  intros W Hf v ps. unfold upd_user. destruct (aget u (users s)) as [pu|] eqn:A; [|apply W].
  cbn [users]. rewrite aget_aput. destruct (seqb v u) eqn:E.
  - intros G. injection G as <-. apply Hf. exact (W u pu A).
  - apply W.
Qed.

Lemma exec_wf s st : state_wf s -> state_wf (exec s st).
Proof.
  intros W. destruct st as [u|u|u l qs|u l qs|u l|u l|r u|r u]; cbn [exec].
  3-6: apply state_wf_upd; [exact W|intros ps].
  7-8: destruct (has_user s u && has_user s r); exact W.
  - destruct (has_user s u); [exact W|]. intros v ps. cbn [users]. rewrite aget_aput.
    destruct (seqb v u); [intros G; injection G as <-; reflexivity|apply W].
  - destruct (has_user s u); [|exact W]. intros v ps. cbn [users]. rewrite aget_adel.
    destruct (seqb v u); [discriminate|apply W].
  - exact (wf_fold (add_at l) qs (wf_add_at l) ps).
  - exact (wf_fold (rem_at l) qs (wf_rem_at l) ps).
  - exact (wf_fold (add_at l) _ (wf_add_at l) ps).
  - apply wf_clear_at.
Qed.

Theorem run_wf h : forall s, state_wf s -> state_wf (run s h).
Proof. induction h as [|st h IH]; intros s W; [exact W|]. apply IH, exec_wf, W. Qed.

Lemma init_wf : state_wf init.
Proof. intros u ps. cbn. discriminate. Qed.

Definition role_gives (s : state) (u : str) (f : fact) : bool :=
  existsb (fun e => seqb (snd e) u && match aget (fst e) (users s) with Some rps => holds rps f | None => false end) (edges s).

Theorem active_facts s u f :
  state_wf s -> holds (active s u) f = has_user s u && (holds (privs_of s u) f || role_gives s u f).
Proof.
  intros W. unfold active, privs_of, has_user, role_gives.
  destruct (aget u (users s)) as [ps|]; cbn [andb]; [|destruct f; reflexivity].
  (* one UnionWith per edge into u, each adding the facts of the role's set *)
  revert ps. induction (edges s) as [|e es IH]; intros acc; cbn [fold_left existsb]; [symmetry; apply orb_false_r|].
  rewrite IH. destruct (seqb (snd e) u); cbn [andb orb]; [|reflexivity].
  destruct (aget (fst e) (users s)) as [rps|] eqn:A; [|reflexivity].
  rewrite union_with_facts by exact (W _ _ A). symmetry. apply orb_assoc.
Qed.

(* allow / deny for every account, with or without roles, in every well-formed state (hence after every history):
   the decision taken on the facts of its own set and of the sets of the roles granted to it *)
Theorem allowed_grants s u ops :
  state_wf s -> allowed s u ops = has_user s u && grants (fun f => holds (privs_of s u) f || role_gives s u f) ops.
Proof.
  intros W. unfold allowed. destruct (has_user s u) eqn:Hu; [|reflexivity].
  rewrite set_has_grants. apply grants_ext. intros f. rewrite (active_facts s u f W), Hu. reflexivity.
Qed.

Theorem allowed_iff s u ops :
  state_wf s ->
  (allowed s u ops = true <->
   has_user s u = true /\
   ((holds (privs_of s u) (FG SUPER) || role_gives s u (FG SUPER)) = true \/
    forall o, In o ops -> exists f, (holds (privs_of s u) f || role_gives s u f) = true /\ covers f o = true)).
Proof. intros W. rewrite (allowed_grants s u ops W), andb_true_iff, grants_iff. reflexivity. Qed.

Corollary allowed_iff_after_history h u ops :
  let s := run init h in
  allowed s u ops = true <->
   has_user s u = true /\
   ((holds (privs_of s u) (FG SUPER) || role_gives s u (FG SUPER)) = true \/
    forall o, In o ops -> exists f, (holds (privs_of s u) f || role_gives s u f) = true /\ covers f o = true).
Proof. cbv zeta. apply allowed_iff. apply run_wf. exact init_wf. Qed.
