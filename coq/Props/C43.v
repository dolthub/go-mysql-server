(* C43 -- information_schema and SHOW reflect the catalog.
   Only statements, each closed by [exact], each followed by Print Assumptions.
   Model: Sys/C43Catalog.v (catalog kept by the engine + memory backend after a DDL history, row generators of the
   information_schema tables and SHOW statements); proofs: Sys/C43CatalogProofs.v. *)
From Coq Require Import List NArith Bool Arith.
Import ListNotations.
From GMS Require Import Sys.C43Catalog Sys.C43CatalogProofs Sys.C43CatalogHistory.
Open Scope N_scope.

(* TABLES / SHOW FULL TABLES list exactly the tables and views of the catalog, each with its type *)
Theorem C43_tables_exact : forall c r,
  In r (tables_rows c) <->
  (exists t, In t (tables c) /\ r = [tname t; BASE]) \/ (exists v, In v (views c) /\ r = [vname v; VIEWT]).
Proof. exact tables_rows_exact. Qed.
Print Assumptions C43_tables_exact.

(* ... and over ALL DDL histories (rejected statements included) the table names of the catalog are the names created
   and not dropped, renamed along: one statement changes the name list exactly as [names_after] says, a history as
   the fold of it; names stay unique *)
Theorem C43_table_names_after_statement : forall o c, tnames (exec o c) = names_after o c.
Proof. exact step_table_names. Qed.
Print Assumptions C43_table_names_after_statement.

Theorem C43_table_names_follow_history : forall h c, tnames (run h c) = names_fold h c (tnames c).
Proof. exact listed_tables_follow_history. Qed.
Print Assumptions C43_table_names_follow_history.

Theorem C43_table_names_unique : forall h, NoDup (tnames (run h empty)).
Proof. intros h. apply histories_keep_unique_names. constructor. Qed.
Print Assumptions C43_table_names_unique.

(* COLUMNS: the rows of a table are its VISIBLE columns in schema order; every row carries the table's name.  The
   ordinal position is the position in the full schema: 1, 2, ... when the table has no hidden system column, but with a
   gap after a functional index ((c + 1)) -- the faithful model refutes "ordinal positions are 1..n" *)
Theorem C43_columns_exact : forall t,
  map (fun r => (nth 1 r 0, nth 2 r 0)) (table_columns_rows t) = numbered_visible 1 (tcols t) /\
  forall r, In r (table_columns_rows t) -> nth 0 r 0 = tname t.
Proof. intros t. split; [exact (columns_ordinals_exact t) | exact (columns_rows_belong_to_table t)]. Qed.
Print Assumptions C43_columns_exact.

Theorem C43_columns_ordinals_contiguous_partial : forall t, has_hidden t = false ->
  map (fun r => (nth 1 r 0, nth 2 r 0)) (table_columns_rows t) = numbered 1 (colnames t).
Proof. exact columns_ordinals_contiguous. Qed.
Print Assumptions C43_columns_ordinals_contiguous_partial.
(* _partial: tables without hidden system columns only *)

Theorem C43_columns_ordinals_refuted :
  option_map (fun t => map (fun r => (nth 1 r 0, nth 2 r 0)) (table_columns_rows t)) (find_tbl 1 (run h_gap empty))
  = Some [(10, 1); (11, 2); (12, 4)].
Proof. exact ordinal_gap. Qed.
Print Assumptions C43_columns_ordinals_refuted.

(* STATISTICS / SHOW INDEXES: exactly one row per index (PRIMARY included) and key position, with the prefix length and,
   for a functional key part, the expression instead of a column name *)
Theorem C43_statistics_exact : forall t r,
  In r (table_statistics_rows t) <->
  exists i k x, In i (all_idx t) /\ nth_error (icols i) k = Some x /\
    r = [tname t; bN (negb (iuniq i)); iname i; N.of_nat k + 1; col_shown t x; col_nullable t x; sub_part i k; col_expr t x].
Proof. exact statistics_rows_exact. Qed.
Print Assumptions C43_statistics_exact.

(* TABLE_CONSTRAINTS: exactly the checks, the primary key, the unique indexes and the foreign keys of each table *)
Theorem C43_constraints_exact : forall c r,
  In r (table_constraints_rows c) <->
  exists t, In t (tables c) /\
    ((exists k, In k (tchk t) /\ r = [kname k; tname t; T_CHECK])
     \/ (exists i, In i (all_idx t) /\ ((iname i = PRIMARY /\ r = [iname i; tname t; T_PK])
                                       \/ (iname i <> PRIMARY /\ iuniq i = true /\ r = [iname i; tname t; T_UNIQ])))
     \/ (exists f, In f (fks c) /\ ftable f = tname t /\ r = [fname f; tname t; T_FK])).
Proof. exact constraints_rows_exact. Qed.
Print Assumptions C43_constraints_exact.

Theorem C43_routines_exact : forall c, routines_rows c = map (fun p => [pname p; pval p]) (procs c).
Proof. exact routines_rows_exact. Qed.
Print Assumptions C43_routines_exact.

(* The set model for every kind of object.  One statement: views / triggers / routines / foreign keys, and every table
   with its columns, indexes and checks, are afterwards what the statement makes of what was there before (created ones
   appended with the given definition, dropped ones removed, renamed ones renamed, everything else untouched -- also by
   rejected statements, except the leaks spelled out in [fks_after], [idx_after], [chk_after]) *)
Theorem C43_objects_after_statement : forall o c,
  views (exec o c) = views_after o c /\ trigs (exec o c) = trigs_after o c /\
  procs (exec o c) = procs_after o c /\ fks (exec o c) = fks_after o c.
Proof. exact step_other_objects. Qed.
Print Assumptions C43_objects_after_statement.

Theorem C43_tables_after_statement : forall o c m, find_tbl m (exec o c) = tbl_after o c m.
Proof. exact step_tables. Qed.
Print Assumptions C43_tables_after_statement.

Theorem C43_columns_indexes_checks_after_statement : forall o c m,
  option_map tcols (find_tbl m (exec o c)) = cols_after o c m /\
  option_map tidx (find_tbl m (exec o c)) = idx_after o c m /\
  option_map tchk (find_tbl m (exec o c)) = chk_after o c m.
Proof. exact step_table_objects. Qed.
Print Assumptions C43_columns_indexes_checks_after_statement.

(* ... and by induction over ALL histories (from the empty catalog): the objects after h ++ [o] are the set model's
   image of the objects after h *)
Theorem C43_objects_follow_history : forall h o,
  views (run (h ++ [o]) empty) = views_after o (run h empty) /\
  trigs (run (h ++ [o]) empty) = trigs_after o (run h empty) /\
  procs (run (h ++ [o]) empty) = procs_after o (run h empty) /\
  fks (run (h ++ [o]) empty) = fks_after o (run h empty).
Proof. exact history_other_objects. Qed.
Print Assumptions C43_objects_follow_history.

Theorem C43_columns_indexes_checks_follow_history : forall h o m,
  option_map tcols (find_tbl m (run (h ++ [o]) empty)) = cols_after o (run h empty) m /\
  option_map tidx (find_tbl m (run (h ++ [o]) empty)) = idx_after o (run h empty) m /\
  option_map tchk (find_tbl m (run (h ++ [o]) empty)) = chk_after o (run h empty) m.
Proof. exact history_table_objects. Qed.
Print Assumptions C43_columns_indexes_checks_follow_history.

Theorem C43_history_starts_empty :
  views (run [] empty) = [] /\ trigs (run [] empty) = [] /\ procs (run [] empty) = [] /\ fks (run [] empty) = [] /\
  forall m, find_tbl m (run [] empty) = None.
Proof. exact history_starts_empty. Qed.
Print Assumptions C43_history_starts_empty.

(* primary key part order: once the table has a functional index SHOW CREATE TABLE lists the key parts in COLUMN order,
   STATISTICS / SHOW INDEXES / KEY_COLUMN_USAGE in key order *)
Theorem C43_show_create_pk_order_refuted :
  show_create_pk (run (removelast h_pkorder) empty) 1 = Some [11; 10] /\
  show_create_pk (run h_pkorder empty) 1 = Some [10; 11] /\
  option_map pk_cols (find_tbl 1 (run h_pkorder empty)) = Some [11; 10].
Proof. exact pk_order_disagrees. Qed.
Print Assumptions C43_show_create_pk_order_refuted.

(* cascade: an accepted DROP TABLE removes the table, its foreign keys and its triggers (so no listing generated
   from the catalog mentions it any more) and nothing else *)
Theorem C43_drop_table_cascade : forall t c c', step (DropTable t) c = (true, c') ->
  ~ In t (tnames c') /\
  (forall f, In f (fks c') -> ftable f <> t /\ fparent f <> t) /\
  (forall g, In g (trigs c') -> gtable g <> t) /\
  (forall x, In x (tables c') <-> In x (tables c) /\ tname x <> t) /\
  views c' = views c /\ procs c' = procs c.
Proof. exact drop_table_cascade. Qed.
Print Assumptions C43_drop_table_cascade.

(* an accepted RENAME TABLE moves exactly one name *)
Theorem C43_rename_moves_exactly_one : forall t u c c', step (RenameTable t u) c = (true, c') ->
  tnames c' = map (ren t u) (tnames c) /\ In t (tnames c) /\ ~ In u (tnames c) /\
  views c' = views c /\ trigs c' = trigs c /\ procs c' = procs c /\ map fname (fks c') = map fname (fks c).
Proof. exact rename_table_moves_one. Qed.
Print Assumptions C43_rename_moves_exactly_one.

(* Model facts about DDL atomicity.  They are NOT part of C43 (the listings agree with whatever the catalog holds);
   they record where the code -- and therefore the model -- lets a rejected statement change the catalog, which is
   where the driver cuts a history for the implementation-side predicate.  A rejected statement leaves the catalog
   as it was, except the four statements of [no_leak]: *)
Theorem C43_model_rejected_statement_no_effect_partial : forall o c,
  no_leak o c = true -> fst (step o c) = false -> snd (step o c) = c.
Proof. exact rejected_statement_no_effect. Qed.
Print Assumptions C43_model_rejected_statement_no_effect_partial.
(* _partial (of the model fact, not of C43): excluded are CREATE TABLE over a view's name, RENAME TABLE to an existing name, ADD FOREIGN KEY and
   DROP COLUMN, which the code (and therefore the model) lets change the catalog although they fail. *)

Theorem C43_model_note_rejected_create_changes_catalog :
  exists o c, fst (step o c) = false /\ tables (snd (step o c)) <> tables c.
Proof. exact rejected_create_has_effect. Qed.
Print Assumptions C43_model_note_rejected_create_changes_catalog.

Theorem C43_model_note_rejected_rename_rewrites_foreign_keys :
  fst (step (RenameTable 1 3) (run (removelast h_fk) empty)) = false /\
  map fparent (fks (run (removelast h_fk) empty)) = [1] /\ map fparent (fks (run h_fk empty)) = [3].
Proof. exact rejected_rename_rewrites_fk. Qed.
Print Assumptions C43_model_note_rejected_rename_rewrites_foreign_keys.

(* VIEWS lists a subset of the views, all of them while every definition still resolves; a view whose base column was
   renamed exists (TABLES lists it) but is not listed in VIEWS *)
Theorem C43_views_exact_partial : forall c,
  (forall r, In r (views_rows c) -> exists v, In v (views c) /\ r = vname v :: vbase v :: vcols v) /\
  (forallb (view_resolves c) (views c) = true ->
   views_rows c = map (fun v => vname v :: vbase v :: vcols v) (views c)).
Proof. intros c. split; [exact (views_rows_sound c) | exact (views_rows_exact_when_resolving c)]. Qed.
Print Assumptions C43_views_exact_partial.

Theorem C43_views_exact_refuted :
  map vname (views (run h_view empty)) = [30] /\ In [30; VIEWT] (tables_rows (run h_view empty)) /\
  views_rows (run h_view empty) = [].
Proof. exact view_not_listed. Qed.
Print Assumptions C43_views_exact_refuted.

(* SHOW TRIGGERS lists every trigger while each trigger's table exists; RENAME TABLE leaves the trigger on the old
   name, after which neither SHOW TRIGGERS nor information_schema.TRIGGERS can be read and DROP TABLE is refused *)
Theorem C43_show_triggers_exact_partial : forall c, forallb (trig_loads c) (trigs c) = true ->
  show_triggers_rows c = Some (map (fun g => [gname g; gevent g; gtable g; bN (gbefore g); ref_code (gref g)]) (trigs c)).
Proof. exact show_triggers_exact_when_loading. Qed.
Print Assumptions C43_show_triggers_exact_partial.

Theorem C43_triggers_exact_refuted :
  map gname (trigs (run h_trig empty)) = [40] /\ show_triggers_rows (run h_trig empty) = None /\
  is_triggers_rows (run h_trig empty) = None /\ fst (step (DropTable 2) (run h_trig empty)) = false.
Proof. exact triggers_unlistable. Qed.
Print Assumptions C43_triggers_exact_refuted.

(* PRIMARY KEY (11, 12), RENAME COLUMN 12 TO 13: the key listed afterwards is (13, 10), not (11, 13) *)
Theorem C43_primary_key_after_rename_refuted :
  option_map pk_cols (find_tbl 1 (run (removelast h_pk) empty)) = Some [11; 12] /\
  option_map pk_cols (find_tbl 1 (run h_pk empty)) = Some [13; 10].
Proof. exact pk_garbled. Qed.
Print Assumptions C43_primary_key_after_rename_refuted.

(* non-vacuity: a history with accepted CREATE / ALTER / RENAME / DROP statements and its listings *)
Example C43_nonvacuous :
  map (fun o => fst (step o (run [] empty))) [hd (DropTable 0) h_ok] = [true] /\
  tnames (run (firstn 6 h_ok) empty) = [1; 3] /\
  table_constraints_rows (run (firstn 6 h_ok) empty)
    = [[PRIMARY; 1; T_PK]; [50; 1; T_UNIQ]; [60; 3; T_CHECK]; [PRIMARY; 3; T_PK]; [20; 3; T_FK]] /\
  fst (step (DropTable 1) (run (firstn 6 h_ok) empty)) = false /\
  tables_rows (run h_ok empty) = [].
Proof. repeat split; vm_compute; reflexivity. Qed.
