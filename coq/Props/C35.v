(* C35 - Clients receive exactly the engine's results over the wire: the row-spooling pipeline of
   server/handler.go (resultForDefaultIter / resultForValueRowIter + doQuery's epilogue), model Phys/Pipeline.v.
   Only statements, each closed by [exact], each followed by Print Assumptions.
   Quantification: every row type, encoded-row type and encoder, every batch size B >= 1 (128 in the code), every
   channel capacity >= 1 (512 and 4 in the code), every row list, every schedule (any list / stream of actions of
   the three processes, actions that are not enabled being no-ops). *)
From Coq Require Import List Arith Bool.
Import ListNotations.
From GMS Require Import Phys.Pipeline Phys.PipelineProofs.

(* whatever the interleaving, once the three goroutines have returned the client has been sent exactly the encoded
   rows, in order, nothing lost or duplicated, in batches of B rows except a shorter last one (absent when the row
   count is a positive multiple of B; a single empty batch for an empty result) *)
Theorem C35_pipeline_deterministic :
  forall (Row Enc : Type) (encode : Row -> Enc) (B c1 c2 : nat) (rows : list Row) (sched : list action),
  1 <= B -> 1 <= c1 -> 1 <= c2 ->
  let s := exec Row Enc encode B c1 c2 sched (init Row Enc rows EOF) in
  terminal Row Enc s = true ->
  failed Row Enc s = false /\ concat (client Row Enc s) = map encode rows /\
  map (@length Enc) (client Row Enc s) = expected_sizes B (length rows).
Proof. exact pipeline_exact. Qed.
Print Assumptions C35_pipeline_deterministic.

(* an iterator error after the rows: the statement fails, the client has only been sent complete batches, and
   they are a prefix of the encoded rows produced before the error *)
Theorem C35_error_delivers_complete_batches_only :
  forall (Row Enc : Type) (encode : Row -> Enc) (B c1 c2 : nat) (rows : list Row) (sched : list action),
  1 <= B -> 1 <= c1 -> 1 <= c2 ->
  let s := exec Row Enc encode B c1 c2 sched (init Row Enc rows Fail) in
  terminal Row Enc s = true ->
  failed Row Enc s = true /\ client Row Enc s = delivered Row Enc s /\
  Forall (fun b => length b = B) (client Row Enc s) /\
  exists rest, concat (client Row Enc s) ++ rest = map encode rows.
Proof. exact pipeline_error. Qed.
Print Assumptions C35_error_delivers_complete_batches_only.

(* without having finished, some process can always move (no deadlock on the bounded channels) *)
Theorem C35_no_deadlock :
  forall (Row Enc : Type) (encode : Row -> Enc) (B c1 c2 : nat) (rows : list Row) (f : src_end) (sched : list action),
  1 <= B -> 1 <= c1 -> 1 <= c2 ->
  let s := exec Row Enc encode B c1 c2 sched (init Row Enc rows f) in
  terminal Row Enc s = false -> exists a s', step Row Enc encode B c1 c2 a s = Some s'.
Proof. exact pipeline_no_deadlock. Qed.
Print Assumptions C35_no_deadlock.

(* every enabled step strictly decreases a natural-number measure: no schedule can keep the pipeline busy for ever *)
Theorem C35_every_step_progresses :
  forall (Row Enc : Type) (encode : Row -> Enc) (B c1 c2 : nat), 1 <= B -> 1 <= c1 -> 1 <= c2 ->
  forall (a : action) (s s' : st Row Enc),
  step Row Enc encode B c1 c2 a s = Some s' -> measure Row Enc s' < measure Row Enc s.
Proof. intros Row Enc encode B c1 c2 _ _ _. exact (step_decreases Row Enc encode B c1 c2). Qed.
Print Assumptions C35_every_step_progresses.

(* every fair infinite schedule (each action scheduled again and again) reaches the finished state; together with
   C35_pipeline_deterministic: under every fair schedule the client receives exactly map encode rows *)
Theorem C35_fair_schedules_terminate :
  forall (Row Enc : Type) (encode : Row -> Enc) (B c1 c2 : nat), 1 <= B -> 1 <= c1 -> 1 <= c2 ->
  forall (rows : list Row) (f : src_end) (sched : nat -> action),
  fair sched -> exists k, terminal Row Enc (run Row Enc encode B c1 c2 rows f sched k) = true.
Proof. exact fair_terminates. Qed.
Print Assumptions C35_fair_schedules_terminate.

(* non-vacuity: 300 rows, B = 128, capacities 2 and 1, round-robin: batches 128,128,44; with a failing iterator
   the same schedule finishes with an error after the two complete batches *)
Example C35_nonvacuous :
  let s := exec nat nat S 128 2 1 (rr 700) (init nat nat (seq 0 300) EOF) in
  terminal nat nat s = true /\ map (@length nat) (client nat nat s) = [128; 128; 44] /\
  let s' := exec nat nat S 128 2 1 (rr 700) (init nat nat (seq 0 300) Fail) in
  terminal nat nat s' = true /\ failed nat nat s' = true /\ map (@length nat) (client nat nat s') = [128; 128].
Proof. exact pipeline_nonvacuous. Qed.
Print Assumptions C35_nonvacuous.
