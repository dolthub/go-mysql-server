(* C25 — Integer and decimal arithmetic is exact or reports out-of-range.
   Only statements, each closed by [exact], each followed by Print Assumptions.
   Model: Codec/C25Arith.v (Go's fixed-width operators as Z reduced into the type's range). *)
From Coq Require Import ZArith Bool List.
Import ListNotations.
From GMS Require Import Codec.C25Arith Codec.C25ArithProofs Codec.C25Nested Codec.C25NestedProofs.
Open Scope Z_scope.

(* Target statement "eval (a op b) = RInt t v -> v = a op b" is FALSE of the faithful model: + - * use Go's
   wrapping operators on int64 / uint64.  Witnesses (operands of legal range, a silently different value): *)
Theorem C25_plus_int64_refuted :
  silently_wrong Plus (OInt I64 9223372036854775807) (OInt I8 1) (9223372036854775807 + 1).
Proof. exact plus_int64_wraps. Qed.
Print Assumptions C25_plus_int64_refuted.

Theorem C25_minus_int64_refuted :
  silently_wrong Minus (OInt I64 (-9223372036854775808)) (OInt I8 1) (-9223372036854775808 - 1).
Proof. exact minus_int64_wraps. Qed.
Print Assumptions C25_minus_int64_refuted.

Theorem C25_mult_int64_refuted :
  silently_wrong Mult (OInt I64 4611686018427387904) (OInt I8 4) (4611686018427387904 * 4).
Proof. exact mult_int64_wraps. Qed.
Print Assumptions C25_mult_int64_refuted.

Theorem C25_plus_uint64_refuted :
  silently_wrong Plus (OInt U64 18446744073709551615) (OInt U64 1) (18446744073709551615 + 1).
Proof. exact plus_uint64_wraps. Qed.
Print Assumptions C25_plus_uint64_refuted.

Theorem C25_minus_uint64_refuted : silently_wrong Minus (OInt U8 0) (OInt U16 1) (0 - 1).
Proof. exact minus_uint64_wraps. Qed.
Print Assumptions C25_minus_uint64_refuted.

Theorem C25_mult_uint64_refuted :
  silently_wrong Mult (OInt U64 4294967296) (OInt U64 4294967296) (4294967296 * 4294967296).
Proof. exact mult_uint64_wraps. Qed.
Print Assumptions C25_mult_uint64_refuted.

(* BIGINT UNSIGNED op signed: the unsigned operand is clamped to MaxInt64 first; wrong even when the exact
   result fits BIGINT (18446744073709551615 + 0 = 9223372036854775807) *)
Theorem C25_mixed_sign_operand_clamp_refuted :
  silently_wrong Plus (OInt U64 18446744073709551615) (OInt I8 0) 18446744073709551615 /\
  silently_wrong Plus (OInt U64 18446744073709551615) (OInt I64 (-9223372036854775808))
                      (18446744073709551615 + -9223372036854775808).
Proof. exact (conj plus_mixed_clamps_zero plus_mixed_clamps). Qed.
Print Assumptions C25_mixed_sign_operand_clamp_refuted.

(* unary minus of an unsigned value is computed in the signed type of the same width: -(200) = 56 *)
Theorem C25_neg_unsigned_refuted :
  silently_wrong Neg (OInt U8 200) ONull (- 200) /\
  silently_wrong Neg (OInt U32 4294967295) ONull (- 4294967295) /\
  silently_wrong Neg (OInt U64 18446744073709551615) ONull (- 18446744073709551615).
Proof. exact neg_unsigned_refuted. Qed.
Print Assumptions C25_neg_unsigned_refuted.

(* -9223372036854775808 DIV -1 = -9223372036854775808 *)
Theorem C25_intdiv_minint_refuted :
  silently_wrong IntDiv (OInt I64 (-9223372036854775808)) (OInt I8 (-1)) (Z.quot (-9223372036854775808) (-1)).
Proof. exact intdiv_minint_wraps. Qed.
Print Assumptions C25_intdiv_minint_refuted.

(* What does hold: + - * on integers of every width / signedness are exact whenever the operands and the
   mathematical result fit the result type (BIGINT UNSIGNED if both are unsigned, else BIGINT). *)
Theorem C25_int_op_exact_when_in_range_unsigned :
  forall o tl a tr b, is_arith o -> unsigned tl = true -> unsigned tr = true -> in_range tl a -> in_range tr b ->
    0 <= zop o a b <= max_u64 ->
    eval o false 0 (OInt tl a) (OInt tr b) = RInt U64 (zop o a b).
Proof. exact eval_unsigned_exact_when_fits. Qed.
Print Assumptions C25_int_op_exact_when_in_range_unsigned.

Theorem C25_int_op_exact_when_in_range_signed :
  forall o tl a tr b, is_arith o -> unsigned tl && unsigned tr = false -> in_range tl a -> in_range tr b ->
    a <= max_i64 -> b <= max_i64 -> min_i64 <= zop o a b <= max_i64 ->
    eval o false 0 (OInt tl a) (OInt tr b) = RInt I64 (zop o a b).
Proof. exact eval_signed_exact_when_fits. Qed.
Print Assumptions C25_int_op_exact_when_in_range_signed.

(* and in every case the BIGINT result is the exact value of the converted operands modulo 2^64 *)
Theorem C25_int_op_congruent_mod_2_64 :
  forall o tl a tr b, unsigned tl && unsigned tr = false ->
    exists v, arith o (OInt tl a) (OInt tr b) = RInt I64 v /\
              (v - zop o (conv_i64 (OInt tl a)) (conv_i64 (OInt tr b))) mod two64 = 0.
Proof. exact arith_signed_congruent. Qed.
Print Assumptions C25_int_op_congruent_mod_2_64.

(* unary minus: exact on every signed width; the most negative BIGINT gives an out-of-range error (or the
   exact decimal for a literal); decimals exact; unsigned exact while -z fits the narrow signed carrier *)
Theorem C25_neg_signed_exact :
  forall lit t z, unsigned t = false -> in_range t z -> z <> min_i64 -> eval Neg lit 0 (OInt t z) ONull = RInt I64 (- z).
Proof. exact neg_signed_exact. Qed.
Print Assumptions C25_neg_signed_exact.

Theorem C25_neg_minint_error_or_exact_decimal :
  forall lit, eval Neg lit 0 (OInt I64 min_i64) ONull = if lit then RDec (- min_i64) 0 else RErr.
Proof. exact neg_minint. Qed.
Print Assumptions C25_neg_minint_error_or_exact_decimal.

Theorem C25_neg_unsigned_exact_when_fits :
  forall lit t z, unsigned t = true -> 0 <= z < neg_carrier_half t ->
    eval Neg lit 0 (OInt t z) ONull = RInt (neg_carrier t) (- z).
Proof. exact neg_unsigned_exact_when_fits. Qed.
Print Assumptions C25_neg_unsigned_exact_when_fits.

(* DECIMAL + - * are exact for all coefficients and scales (value of (m, s) is m / 10^s; equalities are
   cross-multiplied); an integer operand enters as (z, 0) *)
Theorem C25_decimal_exact_within_precision :
  forall m1 s1 m2 s2, 0 <= s1 -> 0 <= s2 ->
    (exists m s, dec_arith Plus (m1, s1) (m2, s2) = RDec m s /\ 0 <= s /\
                 m * 10 ^ (s1 + s2) = (m1 * 10 ^ s2 + m2 * 10 ^ s1) * 10 ^ s) /\
    (exists m s, dec_arith Minus (m1, s1) (m2, s2) = RDec m s /\ 0 <= s /\
                 m * 10 ^ (s1 + s2) = (m1 * 10 ^ s2 - m2 * 10 ^ s1) * 10 ^ s) /\
    dec_arith Mult (m1, s1) (m2, s2) = RDec (m1 * m2) (s1 + s2) /\
    (forall lit, eval Neg lit 0 (ODec m1 s1) ONull = RDec (- m1) s1).
Proof.
  exact (fun m1 s1 m2 s2 H1 H2 =>
    conj (dec_addsub_exact Plus m1 s1 m2 s2 (or_introl eq_refl) H1 H2)
   (conj (dec_addsub_exact Minus m1 s1 m2 s2 (or_intror eq_refl) H1 H2)
   (conj (dec_mult_exact m1 s1 m2 s2) (fun lit => neg_decimal_exact lit m1 s1)))).
Qed.
Print Assumptions C25_decimal_exact_within_precision.

Theorem C25_decimal_path_taken :
  forall o l r, is_arith o -> is_null l = false -> is_null r = false -> is_int l && is_int r = false ->
    eval o false 0 l r = dec_arith o (to_dec l) (to_dec r).
Proof. exact eval_decimal_path. Qed.
Print Assumptions C25_decimal_path_taken.

(* x DIV 0, x % 0, x / 0 are NULL for every operand shape *)
Theorem C25_div_by_zero_null :
  forall o lit ldecl l r, o = IntDiv \/ o = Mod \/ o = Div -> is_zero r -> eval o lit ldecl l r = RNull.
Proof. exact div_by_zero_null. Qed.
Print Assumptions C25_div_by_zero_null.

(* DIV returns the quotient truncated toward zero ([Z.quot], characterised below) of the exact operand
   values num/10^scl, or NULL / an error, except for the one wrapping case refuted above *)
Theorem C25_intdiv_truncates_toward_zero :
  forall l r t q, operand_ok l -> operand_ok r -> eval IntDiv false 0 l r = RInt t q -> ~ minint_by_minus_one l r ->
    q = Z.quot (num l * 10 ^ scl r) (num r * 10 ^ scl l).
Proof. exact intdiv_truncates. Qed.
Print Assumptions C25_intdiv_truncates_toward_zero.

(* % returns the remainder of that truncated division (sign of the dividend), at scale max(s1, s2) *)
Theorem C25_mod_sign_of_dividend :
  forall l r m s, operand_ok l -> operand_ok r -> eval Mod false 0 l r = RDec m s ->
    s = Z.max (scl l) (scl r) /\ m = Z.rem (num l * 10 ^ (s - scl l)) (num r * 10 ^ (s - scl r)).
Proof. exact modulo_is_rem. Qed.
Print Assumptions C25_mod_sign_of_dividend.

Theorem C25_quot_rem_are_truncation :
  forall n d, d <> 0 ->
    n = d * Z.quot n d + Z.rem n d /\ Z.abs (Z.rem n d) < Z.abs d /\ (Z.rem n d = 0 \/ Z.sgn (Z.rem n d) = Z.sgn n).
Proof. exact quot_rem_truncation. Qed.
Print Assumptions C25_quot_rem_are_truncation.

(* / : the result has scale f = min(30, left scale + 4) and, whenever the working scale exceeds f, its
   coefficient is an integer nearest to the exact quotient scaled by 10^f *)
Theorem C25_div_correctly_rounded :
  forall ldecl l r res f, operand_ok l -> operand_ok r -> 0 <= ldecl -> eval Div false ldecl l r = RDec res f ->
    let '(m1, s1) := lpad ldecl (to_dec l) in
    let '(m2, s2) := to_dec r in
    f = div_final_scale s1 /\
    (f < div_work_scale s1 s2 ->
     2 * Z.abs (res * (m2 * 10 ^ s1) - m1 * 10 ^ (s2 + f)) <= Z.abs (m2 * 10 ^ s1)).
Proof. exact divide_correctly_rounded. Qed.
Print Assumptions C25_div_correctly_rounded.

(* without that guard the statement is false: when left scale + 4 is a multiple of 9 the truncated working
   quotient is returned unrounded, e.g. 123.45600 / 7 = 17.636571428 (exact 17.636571428571...) *)
Theorem C25_div_rounding_refuted :
  eval Div false 5 (ODec 12345600 5) (OInt I8 7) = RDec 17636571428 9 /\
  div_final_scale 5 = div_work_scale 5 0 /\
  ~ (2 * Z.abs (17636571428 * (7 * 10 ^ 5) - 12345600 * 10 ^ (0 + 9)) <= Z.abs (7 * 10 ^ 5)).
Proof. exact divide_truncates_witness. Qed.
Print Assumptions C25_div_rounding_refuted.

(* ABS / SIGN (function/absval.go, function/math.go) *)
Theorem C25_abs_exact_unless_minimum :
  forall t z, in_range t z ->
    (unsigned t = true -> eval Abs false 0 (OInt t z) ONull = RInt (go_carrier t) z) /\
    (unsigned t = false -> z <> - carrier_half t -> eval Abs false 0 (OInt t z) ONull = RInt (go_carrier t) (Z.abs z)).
Proof. exact abs_exact. Qed.
Print Assumptions C25_abs_exact_unless_minimum.

Theorem C25_abs_minimum_refuted :
  eval Abs false 0 (OInt I8 (-128)) ONull = RInt I8 (-128) /\ eval Abs false 0 (OInt I64 min_i64) ONull = RInt I64 min_i64.
Proof. exact abs_minimum_wraps. Qed.
Print Assumptions C25_abs_minimum_refuted.

Theorem C25_sign_integer_exact : forall t z, eval Sign false 0 (OInt t z) ONull = RInt I8 (Z.sgn z).
Proof. exact sign_integer_exact. Qed.
Print Assumptions C25_sign_integer_exact.

(* SIGN(0.4) = 0: the decimal is rounded to an integer before its sign is taken *)
Theorem C25_sign_decimal_refuted :
  eval Sign false 0 (ODec 4 1) ONull = RInt I8 0 /\ eval Sign false 0 (ODec (-4) 1) ONull = RInt I8 0 /\
  eval Sign false 0 (ODec 5 1) ONull = RInt I8 1.
Proof. exact sign_decimal_rounds. Qed.
Print Assumptions C25_sign_decimal_refuted.

(* ---- nested arithmetic (model: Codec/C25Nested.v; static types propagate bottom-up and decide the conversions) ---- *)
(* trees of + - * of any depth over signed integer leaves of any width: if EVERY subexpression's exact value fits
   BIGINT, the engine returns the exact value *)
Theorem C25_nested_int_exact_when_every_subexpression_fits :
  forall e, signed_tree e -> fits e -> min_i64 <= zval e <= max_i64 -> exists t, neval e = RInt t (zval e).
Proof. exact nested_signed_exact. Qed.
Print Assumptions C25_nested_int_exact_when_every_subexpression_fits.

(* ... and the guard on the intermediates is needed: ((9223372036854775807 + 1) * 2) - 5 evaluates to -5 *)
Theorem C25_nested_intermediate_overflow_refuted :
  let e := EBin Minus (EBin Mult (EBin Plus (ELeaf false 0 (OInt I64 9223372036854775807)) (ELeaf true 0 (OInt I8 1)))
                                 (ELeaf true 0 (OInt I8 2))) (ELeaf true 0 (OInt I8 5)) in
  neval e = RInt I64 (-5) /\ zval e = 18446744073709551611.
Proof. exact nested_intermediate_overflow. Qed.
Print Assumptions C25_nested_intermediate_overflow_refuted.

Theorem C25_nested_error_and_null_absorbing :
  forall o l r,
    (ev l = RErr -> ev (EBin o l r) = RErr) /\
    (ev l <> RErr -> ev r = RErr -> ev (EBin o l r) = RErr) /\
    (ev l <> RErr -> ev r <> RErr -> (ev l = RNull \/ ev r = RNull) -> ev (EBin o l r) = RNull).
Proof. exact nested_error_and_null_absorbing. Qed.
Print Assumptions C25_nested_error_and_null_absorbing.

Example C25_nested_division_nonvacuous :
  neval (EBin Div (EBin Div (ELeaf true 0 (OInt I8 10)) (ELeaf true 0 (OInt I8 4))) (ELeaf true 0 (OInt I8 2)))
    = RDec 125000000 8 /\
  neval (EBin Plus (EBin Div (ELeaf true 0 (OInt I8 1)) (ELeaf true 0 (OInt I8 3)))
                   (EBin Div (EBin Div (ELeaf true 0 (OInt I8 7)) (ELeaf true 0 (OInt I8 2))) (ELeaf true 0 (OInt I8 3))))
    = RDec 150000000 8 /\
  neval (EBin Div (ELeaf true 0 (OInt I8 1)) (EBin IntDiv (ELeaf true 0 (OInt I8 7)) (ELeaf true 0 (OInt I8 0)))) = RNull /\
  neval (ENeg (EBin Div (ELeaf true 0 (OInt I8 2)) (ELeaf true 0 (OInt I8 3)))) = RDec (-6667) 4.
Proof. exact nested_division_examples. Qed.
Print Assumptions C25_nested_division_nonvacuous.

(* non-vacuity: concrete evaluations that meet the hypotheses of the guarded theorems *)
Example C25_nonvacuous :
  eval Plus false 0 (OInt I64 9223372036854775806) (OInt I8 1) = RInt I64 9223372036854775807 /\
  eval Mult false 0 (OInt U32 4294967295) (OInt U32 4294967295) = RInt U64 18446744065119617025 /\
  eval Minus false 0 (OInt U64 5) (OInt I8 6) = RInt I64 (-1) /\
  eval IntDiv false 0 (OInt I8 (-7)) (OInt I8 2) = RInt I64 (-3) /\
  eval IntDiv false 0 (ODec 15 1) (ODec 4 1) = RInt I64 3 /\
  eval Mod false 0 (OInt I8 (-7)) (OInt I8 3) = RDec (-1) 0 /\
  eval Mod false 0 (ODec (-15) 1) (ODec 4 1) = RDec (-3) 1 /\
  eval Div false 0 (OInt I8 2) (OInt I8 3) = RDec 6667 4 /\
  eval Div false 0 (OInt I8 (-2)) (OInt I8 3) = RDec (-6667) 4 /\
  eval Neg false 0 (OInt U8 127) ONull = RInt I8 (-127) /\
  eval Plus false 0 (ODec 15 1) (ODec 225 2) = RDec 375 2.
Proof. exact nonvacuous_evals. Qed.
Print Assumptions C25_nonvacuous.
