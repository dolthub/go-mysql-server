(* C34 -- Built-in scalar functions satisfy their defining identities.
   Only statements, each closed by [exact], each followed by Print Assumptions.
   Models: Sys/C34Funcs.v (mirrors sql/expression/function/*.go); strings are lists of code points, the
   byte-based Go functions work on [utf8 s].  [fits t] (length below 2^62) holds of every Go slice. *)
From Coq Require Import List NArith ZArith Bool.
Import ListNotations.
From GMS Require Import Sys.C34Funcs Sys.C34FuncsProofs Sys.C34InverseProofs Sys.C34More Sys.C34MoreProofs.
Open Scope Z_scope.

(* CHAR_LENGTH (and LENGTH) of a concatenation is the sum of the lengths *)
Theorem C34_char_length_concat : forall a b : list N,
  exists c, concat [Some a; Some b] = Val c /\
            char_length (Some c) = Val (len a + len b) /\
            byte_length (Some c) = Val (len (utf8 a) + len (utf8 b)).
Proof. exact char_length_concat. Qed.
Print Assumptions C34_char_length_concat.

(* NULL propagation of CONCAT: any NULL argument gives NULL, and only then *)
Theorem C34_concat_null_propagation : forall (A : Type) (a b : option (list A)),
  match concat [a; b] with
  | Val c => exists x y, a = Some x /\ b = Some y /\ c = x ++ y /\ len c = len x + len y
  | Null => a = None \/ b = None
  | _ => False
  end.
Proof. exact @concat2. Qed.
Print Assumptions C34_concat_null_propagation.

Theorem C34_concat_any_null : forall (A : Type) (args : list (option (list A))), In None args -> concat args = Null.
Proof. exact @concat_null. Qed.
Print Assumptions C34_concat_any_null.

(* REVERSE is an involution and keeps the length *)
Theorem C34_reverse_involutive : forall (A : Type) (s : list A),
  exists r, reverse (Some s) = Val r /\ reverse (Some r) = Val s /\ len r = len s.
Proof. exact @reverse_involutive. Qed.
Print Assumptions C34_reverse_involutive.

Theorem C34_repeat_length : forall (A : Type) (t : list A) n,
  0 <= n -> exists r, repeat (Some t) (Some n) = Val r /\ len r = n * len t.
Proof. exact @repeat_length. Qed.
Print Assumptions C34_repeat_length.

(* SUBSTRING(s, start, l): no panic and exactly the requested piece, PROVIDED start-index + l stays below 2^63 *)
Theorem C34_substring_spec : forall (A : Type) (t : list A) start l,
  fits t -> in64 start -> in64 l ->
  let idx := if start <? 0 then len t + start else start - 1 in
  idx + l < 2^63 ->
  substring_core t start (Some l) =
    if (idx <? 0) || (len t <=? idx) || (l <=? 0) then Val []
    else Val (take (Z.min l (len t - idx)) (drop idx t)).
Proof. intros A t start l Hf _ _. exact (substring_spec t start l Hf). Qed.
Print Assumptions C34_substring_spec.

(* without that guard the statement is false of the code: int64 overflow, then a slice panic *)
Theorem C34_substring_never_panics_refuted :
  exists (t : list N) start l, in64 start /\ in64 l /\ substring_core t start (Some l) = Panic.
Proof. exact substring_overflow_panics. Qed.
Print Assumptions C34_substring_never_panics_refuted.

(* LEFT / RIGHT / SUBSTRING are mutually consistent, for all lengths in int64 *)
Theorem C34_left_is_substring : forall (A : Type) (t : list A) n,
  fits t -> in64 n -> substring_core t 1 (Some n) = Val (left_core t n).
Proof. exact @left_is_substring. Qed.
Print Assumptions C34_left_is_substring.

Theorem C34_left_substring_split : forall (A : Type) (t : list A) n,
  fits t -> 0 <= n < 2^63 - 1 ->
  exists r, substring_core t (n + 1) None = Val r /\ left_core t n ++ r = t.
Proof. exact @left_split. Qed.
Print Assumptions C34_left_substring_split.

Theorem C34_right_is_substring : forall (A : Type) (t : list A) n,
  fits t -> 0 < n <= len t -> substring_core t (- n) None = Val (right_core t n).
Proof. exact @right_is_substring. Qed.
Print Assumptions C34_right_is_substring.

(* INSTR finds the first occurrence (code points, exact comparison) *)
Theorem C34_instr_finds_first : forall s sub : list N,
  exists p, instr (Some s) (Some sub) = Val p /\
    ((p = 0 /\ forall j, 0 <= j <= len s -> is_prefix N.eqb sub (drop j s) = false) \/
     (1 <= p <= len s + 1 /\ is_prefix N.eqb sub (drop (p - 1) s) = true /\
      forall j, 0 <= j < p - 1 -> is_prefix N.eqb sub (drop j s) = false)).
Proof. exact instr_finds_first. Qed.
Print Assumptions C34_instr_finds_first.

(* LOCATE finds the first case-folded occurrence at or after pos -- on ASCII strings *)
Theorem C34_locate_finds_first_ascii : forall (sub s : list N) pos,
  ascii sub -> ascii s -> 1 <= pos <= len s -> sub <> [] ->
  let ls := to_lower s in let lsub := to_lower sub in
  exists p, locate_core sub s pos = Val p /\
    ((p = 0 /\ forall j, pos - 1 <= j <= len s -> is_prefix N.eqb lsub (drop j ls) = false) \/
     (pos <= p <= len s + 1 /\ is_prefix N.eqb lsub (drop (p - 1) ls) = true /\
      forall j, pos - 1 <= j < p - 1 -> is_prefix N.eqb lsub (drop j ls) = false)).
Proof. intros sub s pos Hsub Hs Hpos _. exact (locate_finds_first_ascii sub s pos Hsub Hs Hpos). Qed.
Print Assumptions C34_locate_finds_first_ascii.

(* on multi-byte strings LOCATE answers in bytes and disagrees with INSTR / SUBSTRING positions *)
Theorem C34_locate_is_character_position_refuted :
  exists sub s, locate_core sub s 1 = Val 3 /\ instr (Some s) (Some sub) = Val 2.
Proof. exact locate_multibyte_byte_position. Qed.
Print Assumptions C34_locate_is_character_position_refuted.

Theorem C34_locate_never_panics_refuted : exists sub s pos, 1 <= pos < 2^31 /\ locate_core sub s pos = Panic.
Proof. exact locate_panics. Qed.
Print Assumptions C34_locate_never_panics_refuted.

(* INSERT(s,p,l,n) = LEFT(s,p-1) || n || SUBSTRING(s,p+l) in the units the code uses (bytes), no overflow *)
Theorem C34_insert_spec : forall (A : Type) (s n : list A) p l,
  fits s -> 1 <= p <= len s -> 0 <= l -> p - 1 + l < 2^63 ->
  insert_core s p l n = Val (take (p - 1) s ++ n ++ drop (p - 1 + l) s).
Proof. exact @insert_spec. Qed.
Print Assumptions C34_insert_spec.

Theorem C34_insert_outside_is_identity : forall (A : Type) (s n : list A) p l,
  p < 1 \/ len s < p -> insert_core s p l n = Val s.
Proof. exact @insert_outside_is_identity. Qed.
Print Assumptions C34_insert_outside_is_identity.

(* in characters the identity is false of the code, and a huge length panics *)
Theorem C34_insert_in_characters_refuted :
  exists s p l n, insert (Some s) (Some p) (Some l) (Some n) <> Val (utf8 (take (p - 1) s ++ n ++ drop (p - 1 + l) s)).
Proof. exact insert_multibyte_byte_offsets. Qed.
Print Assumptions C34_insert_in_characters_refuted.

Theorem C34_insert_never_panics_refuted :
  exists (s n : list N) p l, in64 p /\ in64 l /\ insert_core s p l n = Panic.
Proof. exact insert_panics. Qed.
Print Assumptions C34_insert_never_panics_refuted.

(* LPAD / RPAD: the result has exactly the requested length and keeps the string (in the code's units) *)
Theorem C34_lpad_rpad_length : forall (A : Type) lp (s p : list A) n,
  0 <= n -> (n <= len s \/ p <> []) -> len (pad_core lp s n p) = n.
Proof. exact @pad_length. Qed.
Print Assumptions C34_lpad_rpad_length.

Theorem C34_lpad_keeps_string : forall (A : Type) (s p : list A) n,
  len s <= n -> p <> [] -> exists q, pad_core true s n p = q ++ s /\ len q = n - len s.
Proof. exact (fun A => @pad_core_spec A true). Qed.
Print Assumptions C34_lpad_keeps_string.

Theorem C34_rpad_keeps_string : forall (A : Type) (s p : list A) n,
  len s <= n -> p <> [] -> exists q, pad_core false s n p = s ++ q /\ len q = n - len s.
Proof. exact (fun A => @pad_core_spec A false). Qed.
Print Assumptions C34_rpad_keeps_string.

Theorem C34_lpad_character_length_refuted :
  exists s n p, pad true (Some s) (Some n) (Some p) = Val [195]%N /\ n = 1 /\ char_length (Some s) = Val 1.
Proof. exact pad_multibyte_byte_length. Qed.
Print Assumptions C34_lpad_character_length_refuted.

(* UNHEX inverts HEX on every byte string *)
Theorem C34_unhex_hex : forall bs, is_bytes bs -> unhex_bytes (hex_bytes bs) = Some bs.
Proof. exact unhex_hex. Qed.
Print Assumptions C34_unhex_hex.

(* ROUND on DECIMAL: within half a unit of the last kept place (d >= 0, and d < 0) *)
Theorem C34_round_within_half_unit : forall m s prec,
  0 <= s -> 0 <= prec ->
  let '(m', s') := quantize div_half_away m s prec in
  s' = prec /\ 2 * Z.abs (m' * 10 ^ s - m * 10 ^ prec) <= 10 ^ s.
Proof. exact round_within_half_unit_pos. Qed.
Print Assumptions C34_round_within_half_unit.

Theorem C34_round_negative_places : forall m s prec,
  0 <= s -> prec < 0 ->
  let '(m', s') := quantize div_half_away m s prec in
  s' = 0 /\ 2 * Z.abs (m' * 10 ^ s - m) <= 10 ^ (s - prec) /\ m' mod 10 ^ (- prec) = 0.
Proof. exact round_within_half_unit_neg. Qed.
Print Assumptions C34_round_negative_places.

Theorem C34_round_int_identity : forall k n d,
  k <> KDecimal -> 0 <= d -> clamp_kind k n = n ->
  round_num k (Some (n, 0)) (Some (Some d)) = Val (n, 0).
Proof. exact round_int_identity. Qed.
Print Assumptions C34_round_int_identity.

(* TRUNCATE goes toward zero and stays within one unit *)
Theorem C34_truncate_toward_zero : forall m P,
  0 < P -> let q := Z.quot m P in
  Z.abs (m - q * P) < P /\ Z.abs (q * P) <= Z.abs m /\ (0 <= m -> 0 <= q) /\ (m <= 0 -> q <= 0).
Proof. exact truncate_toward_zero. Qed.
Print Assumptions C34_truncate_toward_zero.

(* CEIL / FLOOR of a decimal bracket the argument -- when the coefficient has at least as many digits as
   the scale and the result fits BIGINT *)
Theorem C34_ceil_floor_bracket : forall m s,
  0 <= s -> 10 ^ (s - 1) <= Z.abs m ->
  - 2^63 <= floor_div m (10 ^ s) -> ceil_div m (10 ^ s) < 2^63 ->
  exists c f, ceil_num KDecimal (Some (m, s)) = Val c /\ floor_num KDecimal (Some (m, s)) = Val f /\
              f * 10 ^ s <= m < (f + 1) * 10 ^ s /\ (c - 1) * 10 ^ s < m <= c * 10 ^ s.
Proof. exact ceil_floor_decimal. Qed.
Print Assumptions C34_ceil_floor_bracket.

(* both guards are needed: CEIL(0.075) = 0, FLOOR(-0.015) = 0, CEIL(12345678901234567890.5) = 2^63-1 *)
Theorem C34_ceil_small_fraction_refuted :
  ceil_num KDecimal (Some (75, 3)) = Val 0 /\ floor_num KDecimal (Some (-15, 3)) = Val 0.
Proof. exact ceil_small_fraction_is_zero. Qed.
Print Assumptions C34_ceil_small_fraction_refuted.

Theorem C34_ceil_beyond_bigint_refuted :
  ceil_num KDecimal (Some (123456789012345678905, 1)) = Val (2^63 - 1).
Proof. exact ceil_saturates. Qed.
Print Assumptions C34_ceil_beyond_bigint_refuted.

(* INET_NTOA saturates at 2^31-1, so it does not invert INET_ATON on addresses from 128.0.0.0 up *)
Theorem C34_inet_ntoa_injective_refuted : inet_ntoa (Some 3232235777) = inet_ntoa (Some 2147483647).
Proof. exact inet_ntoa_saturates. Qed.
Print Assumptions C34_inet_ntoa_injective_refuted.

(* FROM_BASE64 inverts TO_BASE64 on every byte string, including the 76-column line wrapping *)
Theorem C34_from_to_base64 : forall bs, is_bytes bs -> from_base64_bytes (to_base64_bytes bs) = Some bs.
Proof. exact from_to_base64. Qed.
Print Assumptions C34_from_to_base64.

(* CONV between any two bases 2..36 is exact on every 64-bit number, hence CONV(CONV(n,a,b),b,a) = n *)
Theorem C34_conv_correct : forall a b n, 2 <= a <= 36 -> 2 <= b <= 36 -> 0 <= n < 2 ^ 64 ->
  conv (Some (fmt_uint a n)) (Some a) (Some b) = Val (fmt_uint b n).
Proof. exact conv_correct. Qed.
Print Assumptions C34_conv_correct.

Theorem C34_conv_roundtrip : forall a b n, 2 <= a <= 36 -> 2 <= b <= 36 -> 0 <= n < 2 ^ 64 ->
  exists x, conv (Some (fmt_uint a n)) (Some a) (Some b) = Val x /\
            conv (Some x) (Some b) (Some a) = Val (fmt_uint a n).
Proof. exact conv_roundtrip. Qed.
Print Assumptions C34_conv_roundtrip.

(* INET_ATON reads every dotted quad (all 2^32 addresses); with INET_NTOA it forms an inverse pair in both
   directions below 2^31, the guard that excludes the saturation finding *)
Theorem C34_inet_aton_dotted : forall u, 0 <= u < 2 ^ 32 -> inet_aton_str (dotted u) = Some u.
Proof. exact inet_aton_dotted. Qed.
Print Assumptions C34_inet_aton_dotted.

Theorem C34_inet_aton_ntoa : forall n, 0 <= n < 2 ^ 31 ->
  exists s, inet_ntoa (Some n) = Val s /\ inet_aton (Some s) = Val n.
Proof. exact inet_roundtrip. Qed.
Print Assumptions C34_inet_aton_ntoa.

Theorem C34_inet_ntoa_aton : forall u, 0 <= u < 2 ^ 31 ->
  exists n, inet_aton (Some (dotted u)) = Val n /\ inet_ntoa (Some n) = Val (dotted u).
Proof. exact inet_ntoa_aton. Qed.
Print Assumptions C34_inet_ntoa_aton.

(* two-argument LOCATE on arbitrary (multi-byte) strings: the first byte offset of the lower-cased substring *)
Theorem C34_locate_first_byte_occurrence : forall sub s : list N,
  utf8 s <> [] ->
  let bs := utf8 (to_lower s) in let bsub := utf8 (to_lower sub) in
  exists p, locate_core sub s 1 = Val p /\
    ((p = 0 /\ forall j, 0 <= j <= len bs -> is_prefix N.eqb bsub (drop j bs) = false) \/
     (1 <= p <= len bs + 1 /\ is_prefix N.eqb bsub (drop (p - 1) bs) = true /\
      forall j, 0 <= j < p - 1 -> is_prefix N.eqb bsub (drop j bs) = false)).
Proof. exact locate_first_byte_occurrence. Qed.
Print Assumptions C34_locate_first_byte_occurrence.

(* ---------------- further functions (Sys/C34More.v) ---------------- *)
(* TRIM(s) = RTRIM(LTRIM(s)) = LTRIM(RTRIM(s)); TRIM(LEADING ' ') = LTRIM; TRIM(TRAILING ' ') = RTRIM *)
Theorem C34_trim_is_ltrim_rtrim : forall s,
  trim_core 0 [32%N] s = rtrim_sp (ltrim_sp s) /\ trim_core 0 [32%N] s = ltrim_sp (rtrim_sp s) /\
  trim_core 1 [32%N] s = ltrim_sp s /\ trim_core 2 [32%N] s = rtrim_sp s.
Proof. exact trim_is_ltrim_rtrim. Qed.
Print Assumptions C34_trim_is_ltrim_rtrim.

(* TRIM(LEADING pat FROM s) removes a whole number of copies of pat and what is left does not start with pat *)
Theorem C34_trim_leading_spec : forall pat s, pat <> [] ->
  exists k, s = repeat_list pat k ++ trim_core 1 pat s /\ is_prefix N.eqb pat (trim_core 1 pat s) = false.
Proof. exact trim_leading_spec. Qed.
Print Assumptions C34_trim_leading_spec.

Theorem C34_trim_null_propagation : forall dir (pat s : option (list N)), trim dir pat s = Null <-> pat = None \/ s = None.
Proof. exact trim_null_propagation. Qed.
Print Assumptions C34_trim_null_propagation.

(* REPLACE(s,a,a) = s, REPLACE(s,'',b) = s, and the length law *)
Theorem C34_replace_identity : forall s a b, replace_core s a a = s /\ replace_core s [] b = s.
Proof. exact replace_identity. Qed.
Print Assumptions C34_replace_identity.

Theorem C34_replace_length_law : forall s a b, a <> [] ->
  len (replace_core s a b) = len s + count_fuel (S (length s)) a s * (len b - len a).
Proof. exact replace_length_law. Qed.
Print Assumptions C34_replace_length_law.

Theorem C34_replace_null_propagation : forall s a b : option (list N),
  replace s a b = Null <-> s = None \/ a = None \/ b = None.
Proof. exact replace_null_propagation. Qed.
Print Assumptions C34_replace_null_propagation.

(* LOWER is idempotent, LOWER(UPPER(s)) = LOWER(s), both keep CHAR_LENGTH (code points below 400) *)
Theorem C34_lower_upper_laws : forall s : list N, Forall (fun c => (c < 400)%N) s ->
  map lower2 (map lower2 s) = map lower2 s /\ map lower2 (map upper2 s) = map lower2 s /\
  len (map lower2 s) = len s /\ len (map upper2 s) = len s.
Proof. intros s _. apply lower_upper_laws. Qed.
Print Assumptions C34_lower_upper_laws.

(* CONV(HEX(n),16,10) = n and CONV(BIN(n),2,10) = n for non-negative BIGINT n; HEX of a negative n is its 64-bit
   two's complement; BIN of a negative n is not (refuted) *)
Theorem C34_hex_bin_of_number : forall n, 0 <= n < 2 ^ 63 ->
  conv (Some (hex_num n)) (Some 16) (Some 10) = Val (fmt_uint 10 n) /\
  conv (Some (bin_num n)) (Some 2) (Some 10) = Val (fmt_uint 10 n).
Proof. exact hex_bin_of_nonneg_number. Qed.
Print Assumptions C34_hex_bin_of_number.

Theorem C34_hex_of_negative_number : forall n, - 2 ^ 63 <= n < 0 ->
  conv (Some (hex_num n)) (Some 16) (Some 10) = Val (fmt_uint 10 (n + 2 ^ 64)).
Proof. exact hex_of_negative_number. Qed.
Print Assumptions C34_hex_of_negative_number.

Theorem C34_bin_of_negative_number_refuted : len (bin_num (-256)) = 57 /\ len (fmt_uint 2 (-256 + 2 ^ 64)) = 64.
Proof. exact bin_negative_unpadded. Qed.
Print Assumptions C34_bin_of_negative_number_refuted.

(* ABS / SIGN / MOD *)
Theorem C34_abs_sign_laws : forall n, - 2 ^ 63 < n < 2 ^ 63 ->
  0 <= abs_int n /\ sign_num n * abs_int n = n /\ abs_int n = Z.abs n.
Proof. exact abs_sign_laws. Qed.
Print Assumptions C34_abs_sign_laws.

Theorem C34_abs_nonnegative_refuted : abs_int (- 2 ^ 63) = - 2 ^ 63.
Proof. exact abs_min_int64. Qed.
Print Assumptions C34_abs_nonnegative_refuted.

(* SIGN(0.471) = 0: a DECIMAL argument is rounded to BIGINT before its sign is taken *)
Theorem C34_sign_of_fraction_refuted : sign_dec 471 3 = 0 /\ sign_dec (-283) 3 = 0 /\ sign_dec 5 1 = 1.
Proof. exact sign_small_fraction. Qed.
Print Assumptions C34_sign_of_fraction_refuted.

Theorem C34_mod_law : forall a b, b <> 0 ->
  exists r, mod_int a b = Some r /\ a = b * Z.quot a b + r /\ Z.abs r < Z.abs b /\ (r = 0 \/ Z.sgn r = Z.sgn a).
Proof. exact mod_law. Qed.
Print Assumptions C34_mod_law.

(* ASCII(CHAR(n)) = n for one-byte n; CHAR skips NULL arguments *)
Theorem C34_ascii_of_char : forall n, 0 <= n < 256 ->
  char_fn [Some n] = [Z.to_N n] /\ (match char_fn [Some n] with b :: _ => Z.of_N b | [] => 0 end) = n.
Proof. exact ascii_of_char. Qed.
Print Assumptions C34_ascii_of_char.

(* STRCMP is antisymmetric, reflexive, and zero only on equal strings *)
Theorem C34_strcmp_antisymmetric : forall a b, strcmp_core a b = - strcmp_core b a.
Proof. exact strcmp_antisym. Qed.
Print Assumptions C34_strcmp_antisymmetric.

Theorem C34_strcmp_zero_iff_equal : forall a b, strcmp_core a b = 0 <-> a = b.
Proof. exact strcmp_zero_iff. Qed.
Print Assumptions C34_strcmp_zero_iff_equal.

(* ELT(FIELD(x, l), l) is an element of l equal to x up to letter case *)
Theorem C34_elt_field : forall key vals, 0 < field_fn (Some key) vals ->
  exists v, elt_fn (Some (field_fn (Some key) vals)) vals = Some v /\ fold_eq key v = true.
Proof. exact elt_field. Qed.
Print Assumptions C34_elt_field.

Theorem C34_concat_ws : forall sep a b : list N,
  concat_ws (Some sep) [Some a; Some b] = Val (a ++ sep ++ b) /\
  concat_ws (Some sep) [Some a; None; Some b] = Val (a ++ sep ++ b) /\
  concat_ws None [Some a; Some b] = Null.
Proof. exact concat_ws_two. Qed.
Print Assumptions C34_concat_ws.

(* SUBSTRING_INDEX: the k leftmost fields, the delimiter and the remaining fields rebuild the string; a count beyond
   the number of fields returns the whole string *)
Theorem C34_substring_index_halves : forall s d k,
  d <> [] -> 0 < k < len (split d s) -> len (split d s) < 2 ^ 62 ->
  substring_index_core s d k ++ d ++ substring_index_core s d (- (len (split d s) - k)) = s.
Proof. exact substring_index_halves. Qed.
Print Assumptions C34_substring_index_halves.

Theorem C34_substring_index_all : forall s d k, d <> [] -> len (split d s) <= k -> substring_index_core s d k = s.
Proof. exact substring_index_all. Qed.
Print Assumptions C34_substring_index_all.

(* COMPRESS / UNCOMPRESS over a zlib oracle (deflate; the first Read of the inflating reader): under the oracle law
   "a payload below the 32 KiB window arrives complete and with EOF in the first Read" and "a zlib stream is not
   empty", UNCOMPRESS inverts COMPRESS and UNCOMPRESSED_LENGTH returns the length, for payloads below 32768 bytes.
   (From 32768 bytes on the engine returns NULL: finding uncompress/payload-32k-or-more-returns-null.) *)
Theorem C34_uncompress_compress :
  forall (deflate : list N -> list N) (read1 : list N -> Z -> list N * bool),
  (forall b, 0 < len b < 32768 -> read1 (deflate b) (len b) = (b, true)) ->
  (forall b, deflate b <> []) ->
  forall b, len b < 32768 ->
    uncompress read1 (compress deflate b) = Some b /\ uncompressed_length (compress deflate b) = Some (len b).
Proof. exact uncompress_compress. Qed.
Print Assumptions C34_uncompress_compress.

(* non-vacuity: concrete calls *)
Example C34_nonvacuous :
  substring_core [104; 233; 108; 108; 111]%N (-3) (Some 2) = Val [108; 108]%N /\
  locate_core [98]%N [97; 98; 99]%N 1 = Val 2 /\
  insert_core [104; 101; 108; 108; 111]%N 2 3 [88]%N = Val [104; 88; 111]%N /\
  pad_core true [97; 98]%N 5 [120; 121]%N = [120; 121; 120; 97; 98]%N /\
  conv (Some [102; 102]%N) (Some 16) (Some 10) = Val [50; 53; 53]%N /\
  inet_aton (Some [49; 48; 46; 48; 46; 49; 46; 57]%N) = Val 167772425 /\
  round_num KDecimal (Some (-125, 2)) (Some (Some 1)) = Val (-13, 1).
Proof. repeat split; vm_compute; reflexivity. Qed.
Print Assumptions C34_nonvacuous.
