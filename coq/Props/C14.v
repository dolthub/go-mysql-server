(* C14 — Primary and unique keys are enforced exactly.
   Only statements, each closed by [exact], each followed by Print Assumptions.
   Model: Store/C14Editor.v (memory/table_editor.go + the rowexec insert / update / delete iterators). *)
From Coq Require Import List NArith ZArith.
Import ListNotations.
From GMS Require Import Store.C14Editor Store.C14EditorProofs.

(* Over ALL histories of INSERT / INSERT IGNORE / REPLACE / ON DUPLICATE KEY UPDATE / UPDATE / DELETE statements on a
   keyed table: the stored rows never contain two rows with the same primary key AS GO VALUES (columnsMatch equality).
   No guard: ApplyEdits overwrites a stored row with the same key instead of appending, whatever the accumulator holds. *)
Theorem C14_primary_keys_stay_distinct_as_go_values :
  forall sch h rows, keyless sch = false ->
    NoDup (map (key sch) rows) -> NoDup (map (key sch) (run_history sch rows h)).
Proof. exact history_keys_nodup. Qed.
Print Assumptions C14_primary_keys_stay_distinct_as_go_values.

(* hence, when every primary-key column is an integer or has a binary collation, no reachable state holds two rows
   that are equal in the primary key under the collation *)
Theorem C14_no_equal_primary_keys_binary_collation :
  forall sch h, keyless sch = false -> pk_binary sch -> no_equal_keys sch (run_history sch [] h).
Proof. exact (fun sch h Hk Hb => history_no_equal_keys_binary sch h [] Hk Hb (NoDup_nil _)). Qed.
Print Assumptions C14_no_equal_primary_keys_binary_collation.

(* without the collation guard the statement is false of the faithful model: 'a' then 'A' under a case-insensitive
   collation are both stored (columnsMatch compares Go strings) *)
Theorem C14_no_equal_primary_keys_refuted :
  exists sch h, keyless sch = false /\ ~ no_equal_keys sch (run_history sch [] h).
Proof. exact (ex_intro _ sch_ci (ex_intro _ h_ci missed_duplicate_ci)). Qed.
Print Assumptions C14_no_equal_primary_keys_refuted.

(* the row key (getRowKey since commit 1b57e874c: every key part is length-prefixed) is injective on rows whose key columns
   hold integers / strings of fixed kinds: length-prefix decoding + injectivity of the decimal rendering *)
Theorem C14_row_key_injective :
  forall sch ks a b, key_kinds sch ks a -> key_kinds sch ks b -> key_str sch a = key_str sch b -> key sch a = key sch b.
Proof. exact row_key_injective. Qed.
Print Assumptions C14_row_key_injective.

(* exactness of a plain multi-row INSERT (primary key and unique indexes, Go-value equality, prefixes in bytes): the
   statement is rejected iff some row collides with a stored row or with an earlier row of the statement, and otherwise
   exactly the new rows are added.  No injectivity guard any more: the rows only have to be well typed in the key. *)
Theorem C14_insert_rejected_iff_collision :
  forall sch ks rows news, keyless sch = false -> Forall (key_kinds sch ks) news ->
    impl_exec sch rows (SInsert IPlain news) =
    match spec_insert sch rows news with
    | Some l => (OOk (N.of_nat (length news)) 0, sort_rows sch l)
    | None => (ODupKey, rows)
    end.
Proof. exact insert_plain_exact_typed. Qed.
Print Assumptions C14_insert_rejected_iff_collision.

(* regression witness of the repaired defect: PRIMARY KEY(a,b), INSERT (1,12,0),(11,2,0) into the empty table is accepted
   (the row keys are "1:12:12" and "2:111:2", formerly "112" twice) *)
Theorem C14_former_key_string_collision_accepted :
  key_str sch_ab [VInt 1; VInt 12; VInt 0] <> key_str sch_ab [VInt 11; VInt 2; VInt 0] /\
  impl_exec sch_ab [] (SInsert IPlain news_ab) = (OOk 2 0, news_ab).
Proof. exact former_false_duplicate_accepted. Qed.
Print Assumptions C14_former_key_string_collision_accepted.

(* unique indexes are NOT protected over all histories: GetByCols answers "not found" as soon as a pending delete
   matches, so REPLACE (1,9),(2,5),(3,5) over (1,5),(2,6),(3,7) with UNIQUE(u) stores u = 5 twice *)
Theorem C14_unique_index_invariant_refuted :
  exists sch h r1 r2 l1 l2 l3,
    run_history sch [] h = l1 ++ r1 :: l2 ++ r2 :: l3 /\ uq_conf (s_uniq sch) [r1] r2 = true.
Proof.
  exact (ex_intro _ sch_u (ex_intro _ h_u (ex_intro _ [VInt 2; VInt 5] (ex_intro _ [VInt 3; VInt 5]
        (ex_intro _ [[VInt 1; VInt 9]] (ex_intro _ [] (ex_intro _ [] unique_freed_value_taken_twice))))))).
Qed.
Print Assumptions C14_unique_index_invariant_refuted.

(* the typing premise of C14_insert_rejected_iff_collision is satisfiable, also on the formerly colliding rows *)
Example C14_nonvacuous :
  Forall (key_kinds sch_ab [KInt; KInt]) news_ab /\
  impl_exec sch_ab [[VInt 1; VInt 12; VInt 0]] (SInsert IPlain [[VInt 11; VInt 2; VInt 0]; [VInt 1; VInt 12; VInt 5]]) =
    (ODupKey, [[VInt 1; VInt 12; VInt 0]]).
Proof. split; [exact key_kinds_example|vm_compute; reflexivity]. Qed.
Print Assumptions C14_nonvacuous.
