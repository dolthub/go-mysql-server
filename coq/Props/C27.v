(* C27 — Storing a value keeps it exactly or reports the change.
   Only statements, each closed by [exact], each followed by Print Assumptions.
   Model: Codec/C27Convert.v (NumberTypeImpl_.Convert per width, DecimalType_.Convert). *)
From Coq Require Import ZArith Bool List.
Import ListNotations.
From GMS Require Import Codec.C25Arith Codec.C27Convert Codec.C27ConvertProofs Codec.C27Strings Codec.C27StringsProofs
  Codec.C26Compare Codec.C27Temporal Codec.C27TemporalProofs Codec.C27Enum Codec.C27EnumProofs.
Open Scope Z_scope.

(* the narrow integer types (every width below 64 bits, signed and unsigned): given the int64 image [n] of the
   source, the outcome is the same value flagged InRange, or the type's maximum flagged Overflow, or (signed types)
   the type's minimum flagged Underflow -- exact or flagged, for all n *)
Theorem C27_convert_exact_or_flag :
  forall t n out f, narrow t n = COk out f ->
    (f = InRange -> out = mk t n /\ in_range t n) /\
    (f = Overflow -> ity_max t < n /\ out = mk t (ity_max t)) /\
    (f = Underflow -> n < ity_min t /\ (unsigned t = false -> out = mk t (ity_min t))).
Proof. exact narrow_spec. Qed.
Print Assumptions C27_convert_exact_or_flag.

Theorem C27_narrow_types_use_int64_image :
  forall t v, t <> I64 -> t <> U64 -> conv_int t v = narrow t (fst (to_i64 v)).
Proof. exact conv_narrow. Qed.
Print Assumptions C27_narrow_types_use_int64_image.

(* that image is the source itself for signed Go integers and for unsigned ones up to MaxInt64; larger uint64
   values enter as MaxInt64 (hence Overflow for every narrow type) *)
Theorem C27_int64_image_of_integers :
  forall z, to_i64 (SI z) = (z, InRange) /\
            (z <= max_i64 -> to_i64 (SU z) = (z, InRange)) /\ (max_i64 < z -> to_i64 (SU z) = (max_i64, Overflow)).
Proof. exact (fun z => conj (to_i64_signed z) (to_i64_unsigned z)). Qed.
Print Assumptions C27_int64_image_of_integers.

(* BIGINT and BIGINT UNSIGNED from integer sources: exact, Overflow with the maximum, or Underflow *)
Theorem C27_bigint_out_of_range_flagged :
  forall z, conv_int I64 (SI z) = COk (SI z) InRange /\
            (z <= max_i64 -> conv_int I64 (SU z) = COk (SI z) InRange) /\
            (max_i64 < z -> conv_int I64 (SU z) = COk (SI max_i64) Overflow) /\
            (0 <= z -> conv_int U64 (SI z) = COk (SU z) InRange) /\
            (z < 0 -> conv_int U64 (SI z) = COk (SU (two64 + z)) Underflow) /\
            conv_int U64 (SU z) = COk (SU z) InRange.
Proof.
  exact (fun z => conj (conv_i64_signed z) (conj (proj1 (conv_i64_unsigned z)) (conj (proj2 (conv_i64_unsigned z))
        (conj (proj1 (conv_u64_signed z)) (conj (proj2 (conv_u64_signed z)) (conv_u64_unsigned z)))))).
Qed.
Print Assumptions C27_bigint_out_of_range_flagged.

(* decimals into narrow integer types: in range means rounded half away from zero (the documented exception) *)
Theorem C27_decimal_into_integer_rounds :
  forall t m s out, t <> I64 -> t <> U64 -> min_i64 * 10 ^ s <= m <= max_i64 * 10 ^ s ->
    conv_int t (SD m s) = COk out InRange -> out = mk t (round_to m s 0) /\ in_range t (round_to m s 0).
Proof. exact decimal_source_in_range_is_rounded. Qed.
Print Assumptions C27_decimal_into_integer_rounds.

(* converting an already converted (representable) value again never changes it *)
Theorem C27_convert_idempotent_integer :
  forall t z, t <> I64 -> t <> U64 -> in_range t z -> conv_int t (mk t z) = COk (mk t z) InRange.
Proof. exact representable_is_fixpoint_narrow. Qed.
Print Assumptions C27_convert_idempotent_integer.

(* REFUTED (for INSERT IGNORE, which stores the value Convert returns): an unsigned underflow is flagged, but the
   returned value is wrapped, not the nearest representable one; for MEDIUMINT UNSIGNED it can leave the type's range.
   At the Convert level alone the flag reports the change, which is all the property demands there. *)
Theorem C27_unsigned_underflow_nearest_refuted :
  conv_int U8 (SI (-1)) = COk (SU 255) Underflow /\
  conv_int U64 (SI (-1)) = COk (SU 18446744073709551615) Underflow /\
  conv_int U24 (SD (-184467440737095516175) 1) = COk (SU 16777216) Underflow /\ ~ in_range U24 16777216.
Proof. exact unsigned_underflow_wraps. Qed.
Print Assumptions C27_unsigned_underflow_nearest_refuted.

(* DECIMAL(p,s): never clamps; exact when the source has no more fraction digits than the type; otherwise rounded
   to a nearest value at scale s; out of range is an error; idempotent *)
Theorem C27_decimal_never_clamps :
  forall p s col v out f, conv_dec p s col v = COk out f -> f = InRange.
Proof. exact conv_dec_never_flags. Qed.
Print Assumptions C27_decimal_never_clamps.

Theorem C27_decimal_exact_when_scale_fits :
  forall p s col v m2 s2 f, 0 <= snd (to_dec v) <= s -> conv_dec p s col v = COk (SD m2 s2) f ->
    m2 * 10 ^ snd (to_dec v) = fst (to_dec v) * 10 ^ s2 /\ snd (to_dec v) <= s2 <= s /\ Z.abs m2 < 10 ^ (p - s + s2).
Proof. exact conv_dec_exact_when_scale_fits. Qed.
Print Assumptions C27_decimal_exact_when_scale_fits.

Theorem C27_decimal_rounds_to_nearest :
  forall p s col m0 s0 m2 s2 f, 0 <= s < s0 -> conv_dec p s col (SD m0 s0) = COk (SD m2 s2) f ->
    s2 = s /\ 2 * Z.abs (m2 * 10 ^ (s0 - s) - m0) <= 10 ^ (s0 - s).
Proof. exact conv_dec_rounds_to_nearest. Qed.
Print Assumptions C27_decimal_rounds_to_nearest.

Theorem C27_decimal_out_of_range_is_error :
  forall p s col v, conv_dec p s col v = CErr <->
    (let '(m0, s0) := to_dec v in
     let '(m1, s1) := if col && negb ((s0 =? 0) && (s =? 0)) then (round_to m0 s0 s, s) else (m0, s0) in
     let '(m2, s2) := if s1 >? s then (round_to m1 s1 s, s) else (m1, s1) in
     10 ^ (p - s + s2) <= Z.abs m2).
Proof. exact conv_dec_out_of_range_is_error. Qed.
Print Assumptions C27_decimal_out_of_range_is_error.

Theorem C27_convert_idempotent_decimal :
  forall p s col v m2 s2 f, 0 <= s -> 0 <= snd (to_dec v) -> conv_dec p s col v = COk (SD m2 s2) f ->
    conv_dec p s col (SD m2 s2) = COk (SD m2 s2) InRange.
Proof. exact conv_dec_idempotent. Qed.
Print Assumptions C27_convert_idempotent_decimal.

(* ---- strings (model: Codec/C27Strings.v) ---- *)
(* StringType.Convert for VARCHAR / CHAR (valid UTF-8) and VARBINARY: the text is kept byte for byte when it has at
   most maxlen characters (bytes for VARBINARY), otherwise rejected; [nchars] is the decoder oracle's rune count,
   assumed only to be at most the byte count *)
Theorem C27_string_exact_or_rejected :
  forall binary maxlen bs nchars, nchars <= Z.of_nat (length bs) ->
    (forall out, conv_text binary maxlen bs nchars = TOk out ->
       out = bs /\ (if binary then Z.of_nat (length bs) else nchars) <= maxlen) /\
    (conv_text binary maxlen bs nchars = TErr -> maxlen < (if binary then Z.of_nat (length bs) else nchars)).
Proof. exact conv_text_exact_or_error. Qed.
Print Assumptions C27_string_exact_or_rejected.

Theorem C27_convert_idempotent_string :
  forall binary maxlen bs nchars out,
    conv_text binary maxlen bs nchars = TOk out -> conv_text binary maxlen out nchars = TOk out.
Proof. exact conv_text_idempotent. Qed.
Print Assumptions C27_convert_idempotent_string.

(* text into an integer type (every width below 64 bits, and BIGINT): "in range, no error" means the whole trimmed
   text was consumed by the digit scan and the stored value is the parsed one, within the type's range *)
Theorem C27_string_to_integer_exact_or_flag :
  forall t bs out, t <> U64 -> conv_int_str t bs = COk out InRange ->
    exists z, str_to_i64 bs = SOk z false /\ out = mk t z /\ in_range t z.
Proof. exact conv_int_str_in_range. Qed.
Print Assumptions C27_string_to_integer_exact_or_flag.

Theorem C27_string_unreported_means_fully_consumed :
  forall bs z, str_to_i64 bs = SOk z false -> snd (scan true (trim bs)) = [].
Proof. exact str_unreported_consumes_everything. Qed.
Print Assumptions C27_string_unreported_means_fully_consumed.

(* a clean literal (digits only, optionally a leading '-') within BIGINT is parsed to exactly its value *)
Theorem C27_string_clean_literal_exact :
  forall ds, all_digits ds -> ds <> [] -> horner ds <= max_i64 ->
    str_to_i64 ds = SOk (horner ds) false /\ str_to_i64 (45 :: ds) = SOk (- horner ds) false.
Proof. exact str_clean_literal_exact. Qed.
Print Assumptions C27_string_clean_literal_exact.

(* REFUTED: malformed text is reported -- a text without any digit ("", "-", " +\t") converts to 0 silently *)
Theorem C27_string_without_digits_refuted :
  conv_int_str I32 [] = COk (SI 0) InRange /\ conv_int_str I8 [45] = COk (SI 0) InRange /\
  conv_int_str U16 [32; 43; 9] = COk (SU 0) InRange.
Proof. exact str_no_digit_silent. Qed.
Print Assumptions C27_string_without_digits_refuted.

Example C27_strings_nonvacuous :
  conv_int_str I8 [49; 50; 55] = COk (SI 127) InRange /\
  conv_int_str I8 [49; 50; 56] = COk (SI 127) Overflow /\
  conv_int_str I8 [49; 50; 97; 98] = CErr /\
  conv_int_str I8 [51; 48; 48; 97] = COk (SI 127) Overflow /\
  conv_int_str I64 [32; 45; 53; 9] = COk (SI (-5)) InRange /\
  conv_int_str I64 [57;50;50;51;51;55;50;48;51;54;56;53;52;55;55;53;56;48;56] = CErr /\
  conv_text false 3 [230;151;165;230;156;172;232;170;158] 3 = TOk [230;151;165;230;156;172;232;170;158] /\
  conv_text false 3 [97;98;99;100] 4 = TErr /\ conv_text true 3 [195;169;49] 2 = TOk [195;169;49].
Proof. exact nonvacuous_strings. Qed.
Print Assumptions C27_strings_nonvacuous.

(* ---- temporal types (model: Codec/C27Temporal.v) ---- *)
(* DATE / DATETIME(p) / TIMESTAMP(p) from text: accepted means well-formed in the strict grammar
   YYYY-MM-DD[ HH:MM:SS[.f{1,6}]] with valid fields, and the stored instant is the text's instant (the day for DATE,
   rounded half up to p digits otherwise); anything else is rejected *)
Theorem C27_temporal_convert_exact_or_rejected :
  forall k p bs us, conv_dt k p bs = DOk us ->
    exists c, parse_strict bs = Some c /\ valid_civil c = true /\
              us = match k with KDate => trunc_day (us_of_civil c) | _ => round_us p (us_of_civil c) end.
Proof. exact conv_dt_exact_or_rejected. Qed.
Print Assumptions C27_temporal_convert_exact_or_rejected.

Theorem C27_temporal_malformed_rejected : forall k p bs, parse_strict bs = None -> conv_dt k p bs = DErr.
Proof. exact conv_dt_malformed_rejected. Qed.
Print Assumptions C27_temporal_malformed_rejected.

(* the stored instant is within half a unit of precision of the text's instant, and storing it again is the identity *)
Theorem C27_temporal_precision_and_idempotence :
  forall k p bs us c, 0 <= p <= 6 -> k <> KDate -> conv_dt k p bs = DOk us -> parse_strict bs = Some c ->
    2 * Z.abs (us - us_of_civil c) <= unit_us p /\ round_us p us = us.
Proof. exact conv_dt_precision. Qed.
Print Assumptions C27_temporal_precision_and_idempotence.

Theorem C27_date_truncation_idempotent :
  forall us, trunc_day (trunc_day us) = trunc_day us /\ trunc_day us <= us < trunc_day us + day_us.
Proof. exact (fun us => conj (trunc_day_idempotent us) (trunc_day_floor us)). Qed.
Print Assumptions C27_date_truncation_idempotent.

Theorem C27_year_convert_range_and_idempotent :
  forall z y, conv_year_int z = YOk y -> (y = 0 \/ 1901 <= y <= 2155) /\ conv_year_int y = YOk y.
Proof. exact (fun z y H => conj (conv_year_int_range z y H) (conv_year_idempotent z y H)). Qed.
Print Assumptions C27_year_convert_range_and_idempotent.

Theorem C27_year_four_digit_exact : forall z, 1901 <= z <= 2155 -> conv_year_int z = YOk z.
Proof. exact conv_year_four_digit_exact. Qed.
Print Assumptions C27_year_four_digit_exact.

(* TIME: inside the range the arithmetic core of stringToTimespan is exact ... *)
Theorem C27_time_exact_within_range :
  forall neg h m s micro, 0 <= h <= 838 -> 0 <= m < 60 -> 0 <= s < 60 -> 0 <= micro < 1000000 ->
    ~ (h = 838 /\ m = 59 /\ s = 59) ->
    time_core neg h m s micro = TmOk ((if neg then -1 else 1) * (h * 3600000000 + m * 60000000 + s * 1000000 + micro)).
Proof. exact time_core_exact. Qed.
Print Assumptions C27_time_exact_within_range.

(* ... but REFUTED: malformed TIME text is rejected ('11:59:30.451048abc' is accepted as 11:59:30.451049) *)
Theorem C27_time_junk_after_fraction_refuted :
  string_to_timespan [49;49;58;53;57;58;51;48;46;52;53;49;48;52;56;97;98;99] = TmOk 43170451049 /\
  string_to_timespan [48;48;58;48;48;58;48;48;46;52;57;57;57;57;57;32;102;111;111] = TmOk 500000.
Proof. exact time_junk_after_fraction_accepted. Qed.
Print Assumptions C27_time_junk_after_fraction_refuted.

(* ... and REFUTED: out-of-range TIME is reported ('999:59:59' and '839:00:00' become 838:59:59 silently) *)
Theorem C27_time_beyond_range_refuted :
  string_to_timespan [57;57;57;58;53;57;58;53;57] = TmOk 3020399000000 /\
  string_to_timespan [56;51;57;58;48;48;58;48;48] = TmOk 3020399000000.
Proof. exact time_beyond_range_clamped_silently. Qed.
Print Assumptions C27_time_beyond_range_refuted.

Example C27_temporal_nonvacuous :
  conv_dt KDatetime 0 [50;48;50;51;45;48;49;45;49;53;32;49;48;58;51;48;58;52;53;46;53] = DOk 1673778646000000 /\
  conv_dt KDatetime 6 [50;48;50;51;45;48;50;45;51;48;32;49;48;58;48;48;58;48;48] = DErr /\
  conv_dt KDatetime 6 [50;48;50;51;45;48;49;45;49;53;32;49;48;58;51;48;58;52;53;97;98;99] = DErr /\
  conv_dt KDate 0 [49;53;48;48;45;48;54;45;49;53] = DOk (-14817513600000000) /\
  string_to_timespan [49;48;58;51;48;58;52;53] = TmOk 37845000000 /\
  string_to_timespan [49;48;58;54;49;58;52;53] = TmErr /\
  conv_year_str [50;48;50;51] = YOk 2023 /\ conv_year_str [49;57;48;48] = YErr /\ conv_year_str [48] = YOk 2000.
Proof. exact nonvacuous_temporal_convert. Qed.
Print Assumptions C27_temporal_nonvacuous.

(* ---- ENUM / SET / BIT (model: Codec/C27Enum.v) ---- *)
Theorem C27_enum_exact_or_rejected : forall n z out, conv_enum n (SI z) = EOk out -> out = z /\ 0 <= z <= n.
Proof. exact enum_exact_or_rejected. Qed.
Print Assumptions C27_enum_exact_or_rejected.

Theorem C27_set_bit_exact_or_rejected :
  forall n z, 0 <= z <= max_u64 ->
    (forall out, conv_set n (SU z) = EOk out -> out = z /\ z <= 2 ^ n - 1) /\
    (forall out, conv_bit n (SU z) = EOk out -> out = z /\ z <= 2 ^ n - 1).
Proof. exact set_bit_exact_or_rejected_nonneg. Qed.
Print Assumptions C27_set_bit_exact_or_rejected.

Theorem C27_enum_set_bit_idempotent :
  forall n v out,
    (conv_enum n v = EOk out -> conv_enum n (SI out) = EOk out) /\
    (conv_set n v = EOk out -> 0 <= n <= 64 -> conv_set n (SU out) = EOk out) /\
    (conv_bit n v = EOk out -> 0 <= n <= 64 -> conv_bit n (SU out) = EOk out).
Proof. exact esb_idempotent. Qed.
Print Assumptions C27_enum_set_bit_idempotent.

(* REFUTED: negative values are rejected: BIT(8) stores 5 for -5.0, BIT(64) stores 2^64-1 for -1 and 1 for -1.0,
   SET('x','y','z') stores 3 for -3.0 *)
Theorem C27_negative_into_bit_set_refuted :
  conv_bit 8 (SD (-50) 1) = EOk 5 /\ conv_bit 64 (SI (-1)) = EOk 18446744073709551615 /\
  conv_bit 64 (SD (-10) 1) = EOk 1 /\ conv_set 3 (SD (-30) 1) = EOk 3.
Proof. exact negative_values_accepted. Qed.
Print Assumptions C27_negative_into_bit_set_refuted.

Example C27_enum_set_bit_nonvacuous :
  conv_enum 3 (SI 2) = EOk 2 /\ conv_enum 3 (SI 4) = EErr /\ conv_enum 3 (SI 0) = EOk 0 /\ conv_enum 3 (SD 25 1) = EOk 3 /\
  conv_set 3 (SI 7) = EOk 7 /\ conv_set 3 (SI 8) = EErr /\ conv_set 3 (SI (-1)) = EErr /\
  conv_bit 8 (SI 255) = EOk 255 /\ conv_bit 8 (SI 256) = EErr /\ conv_bit 8 (SI (-5)) = EErr.
Proof. exact nonvacuous_esb. Qed.
Print Assumptions C27_enum_set_bit_nonvacuous.

Example C27_nonvacuous :
  conv_int I8 (SI 127) = COk (SI 127) InRange /\
  conv_int I8 (SI 128) = COk (SI 127) Overflow /\
  conv_int I8 (SU 18446744073709551615) = COk (SI 127) Overflow /\
  conv_int I16 (SI (-32769)) = COk (SI (-32768)) Underflow /\
  conv_int I32 (SD 21474836474 1) = COk (SI 2147483647) InRange /\
  conv_int I32 (SD 21474836475 1) = COk (SI 2147483647) Overflow /\
  conv_dec 10 2 true (SD 1005 3) = COk (SD 101 2) InRange /\
  conv_dec 5 0 true (SI 100000) = CErr /\
  conv_dec 10 2 false (SD 15 1) = COk (SD 15 1) InRange.
Proof. exact nonvacuous_converts. Qed.
Print Assumptions C27_nonvacuous.
