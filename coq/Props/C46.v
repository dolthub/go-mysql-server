(* C46 — Index range operations preserve the set of keys they denote.
   Only statements, each closed by [exact], each followed by Print Assumptions.
   Keys: [option Z] (None = NULL, its own lowest point); a tuple is a list of keys; [contains r v] and
   [rcontains rg t] are the denotations of a column expression and of a multi-column range;
   [ucontains rs t] is the union of a list of ranges.  All statements hold for ALL cuts / ranges / keys. *)
From Coq Require Import List ZArith Bool.
Import ListNotations.
From Coq Require Import Sorted.
From GMS Require Import Range.Cut Range.CutProofs Range.MRange Range.MRangeProofs Range.MRangeMore Range.RorNoError
  Range.RorSorted Range.SimplifyProofs Range.RorTerm Range.C03IndexBuilderProofs.
Open Scope nat_scope.

(* the cut order of range_cut.go is a total order ... *)
Theorem C46_cut_order_total : forall a b c,
  cut_cmp a a = Eq /\ (cut_cmp a b = Eq <-> a = b) /\ cut_cmp b a = CompOpp (cut_cmp a b) /\
  (cut_cmp a b = Lt -> cut_cmp b c = Lt -> cut_cmp a c = Lt).
Proof. intros a b c. exact (conj (cut_cmp_refl a) (conj (cut_cmp_Eq_eq a b) (conj (cut_cmp_antisym a b) (cut_cmp_trans a b c)))). Qed.
Print Assumptions C46_cut_order_total.

(* ... with BelowNull < AboveNull < Below k < Above k < AboveAll (and Above k < Below k' for k < k') ... *)
Theorem C46_cut_chain : forall k k', cut_cmp BelowNull AboveNull = Lt /\ cut_cmp AboveNull (Below k) = Lt /\
  cut_cmp (Below k) (Above k) = Lt /\ cut_cmp (Above k) AboveAll = Lt /\ (k < k' -> cut_cmp (Above k) (Below k') = Lt)%Z.
Proof. exact cut_chain. Qed.
Print Assumptions C46_cut_chain.

(* ... compatible with the denotation: a lower cut is below at least the same keys; NULL is only above BelowNull *)
Theorem C46_below_antitone : forall a b v, cut_cmp a b <> Gt -> below b v = true -> below a v = true.
Proof. exact below_mono. Qed.
Print Assumptions C46_below_antitone.
Theorem C46_null_is_lowest_point : forall c, below c None = true <-> c = BelowNull.
Proof. exact null_lowest. Qed.
Print Assumptions C46_null_is_lowest_point.

(* single column: intersection, overlap, union, subtraction are exact over the denotation *)
Theorem C46_col_try_intersect_exact : forall r o v, contains (fst (try_intersect r o)) v = contains r v && contains o v.
Proof. exact try_intersect_exact. Qed.
Print Assumptions C46_col_try_intersect_exact.
Theorem C46_col_overlaps_exact : forall r o v,
  (snd (overlaps r o) = true -> contains (fst (overlaps r o)) v = contains r v && contains o v) /\
  (snd (overlaps r o) = false -> contains r v && contains o v = false).
Proof. intros r o v. exact (conj (overlaps_true r o v) (overlaps_false r o v)). Qed.
Print Assumptions C46_col_overlaps_exact.
Theorem C46_col_try_union_exact_when_connected : forall r o,
  ((exists m, try_union r o = Some m) <-> (is_empty o = true \/ is_empty r = true \/ is_connected r o = true)) /\
  forall m v, try_union r o = Some m -> contains m v = contains r v || contains o v.
Proof. intros r o. exact (conj (try_union_some_iff r o) (fun m v => try_union_exact r o m v)). Qed.
Print Assumptions C46_col_try_union_exact_when_connected.
Theorem C46_col_subtract_exact : forall r o v,
  existsb (fun p => contains p v) (subtract r o) = contains r v && negb (contains o v).
Proof. exact subtract_exact. Qed.
Print Assumptions C46_col_subtract_exact.
Theorem C46_col_subtract_pieces_disjoint : forall r o p q v,
  is_empty o = false -> subtract r o = [p; q] -> contains p v && contains q v = false.
Proof. exact subtract_disjoint. Qed.
Print Assumptions C46_col_subtract_pieces_disjoint.
(* without the guard the pieces overlap: [0,10] minus the inverted (5,3) yields [0,5] and [3,10], both holding 4 *)
Theorem C46_col_subtract_pieces_disjoint_unguarded_refuted : exists r o p q v,
  subtract r o = [p; q] /\ contains p v && contains q v = true.
Proof. exists (closed_rce 0 10), (open_rce 5 3), (mkR (Below 0) (Above 5)), (mkR (Below 3) (Above 10)), (Some 4%Z). split; reflexivity. Qed.
Print Assumptions C46_col_subtract_pieces_disjoint_unguarded_refuted.
Theorem C46_col_is_empty_and_subset_sound : forall r o v,
  (is_empty r = true -> contains r v = false) /\
  (is_subset_of r o = true -> contains r v = true -> contains o v = true).
Proof. intros r o v. exact (conj (is_empty_sound r v) (is_subset_sound r o v)). Qed.
Print Assumptions C46_col_is_empty_and_subset_sound.

(* multi-column ranges *)
Theorem C46_range_intersect_exact : forall a b t, length a = length b ->
  rcontains (r_intersect a b) t = rcontains a t && rcontains b t.
Proof. exact r_intersect_exact. Qed.
Print Assumptions C46_range_intersect_exact.
Theorem C46_range_try_merge_exact : forall a b m t, try_merge a b = Some m -> rcontains m t = rcontains a t || rcontains b t.
Proof. exact try_merge_exact. Qed.
Print Assumptions C46_range_try_merge_exact.
Theorem C46_range_merge_error_unreachable : forall a b, length a = length b -> first_diff a b = None -> try_merge a b = Some a.
Proof. exact merge_error_unreachable. Qed.
Print Assumptions C46_range_merge_error_unreachable.
Theorem C46_range_remove_overlap_exact : forall fuel a b out ok t,
  remove_overlap fuel a b = Some (out, ok) -> ucontains out t = rcontains a t || rcontains b t.
Proof. exact remove_overlap_exact. Qed.
Print Assumptions C46_range_remove_overlap_exact.

(* the recursion of MySQLRange.RemoveOverlap always finishes within (columns + 1) levels *)
Theorem C46_range_remove_overlap_terminates : forall a b, exists out ok, remove_overlap_top a b = Some (out, ok).
Proof. exact remove_overlap_terminates. Qed.
Print Assumptions C46_range_remove_overlap_terminates.

(* the ranges RemoveOverlap returns are pairwise disjoint when no column of a or b is empty at the cut level
   (without that guard Subtract's pieces can overlap, see C46_col_subtract_pieces_disjoint_unguarded_refuted) *)
Theorem C46_range_remove_overlap_disjoint : forall fuel a b out ok, no_empty_col a = true -> no_empty_col b = true ->
  remove_overlap fuel a b = Some (out, ok) -> pairwise_disjoint out.
Proof. exact remove_overlap_disjoint. Qed.
Print Assumptions C46_range_remove_overlap_disjoint.

(* SimplifyRangeColumn: same union; the output ranges are non-empty, ascending, and each lies strictly above the
   previous one with a gap (upper bound < next lower bound), hence pairwise disconnected and disjoint *)
Theorem C46_simplify_range_column : forall l,
  (forall v, existsb (fun r => contains r v) (simplify_range_column l) = existsb (fun r => contains r v) l) /\
  StronglySorted gap (simplify_range_column l) /\ Forall (fun b => is_empty b = false) (simplify_range_column l).
Proof. intros l. exact (conj (simplify_range_column_exact l) (simplify_range_column_sorted l)). Qed.
Print Assumptions C46_simplify_range_column.
Theorem C46_gap_means_disconnected_and_disjoint : forall x y, is_empty x = false -> is_empty y = false -> gap x y ->
  is_connected x y = false /\ snd (overlaps x y) = false /\ forall v, contains x v && contains y v = false.
Proof. intros x y _ _. exact (gap_disconnected x y). Qed.
Print Assumptions C46_gap_means_disconnected_and_disjoint.

(* RemoveOverlappingRanges, for every input list, every step bound and every admissible sequence of
   FindConnections observations: a returned collection denotes exactly the union of the inputs and is pairwise
   disjoint.  (Named _partial for continuity: sortedness, absence of the error and termination are the three theorems
   that follow it, each under the guard that no input column is empty at the cut level.) *)
Theorem C46_remove_overlapping_ranges_exact_disjoint_partial : forall fuel finds rs out c t, t <> [] ->
  remove_overlapping_ranges fuel finds rs = (ROk out, c) ->
  ucontains out t = ucontains rs t /\ pairwise_disjoint out.
Proof. exact remove_overlapping_ranges_exact. Qed.
Print Assumptions C46_remove_overlapping_ranges_exact_disjoint_partial.

(* ... and, when every input range has the same number n of columns (empty columns allowed), it is strictly sorted by
   MySQLRange.Compare ... *)
Theorem C46_remove_overlapping_ranges_sorted : forall n fuel finds rs out c,
  Forall (fun r => length r = n) rs -> remove_overlapping_ranges fuel finds rs = (ROk out, c) -> StronglySorted rlt out.
Proof. exact remove_overlapping_ranges_sorted_len. Qed.
Print Assumptions C46_remove_overlapping_ranges_sorted.
(* ... and, when moreover no input column is empty at the cut level (lower < upper), the "overlapping ranges" error
   cannot occur when every FindConnections observation was complete
   (the flag returned by the model is true); the finding below is exactly an incomplete observation of the real tree *)
Theorem C46_remove_overlapping_ranges_no_error_when_finds_complete : forall n fuel finds rs res,
  Forall (wf n) rs -> remove_overlapping_ranges fuel finds rs = (res, true) -> res <> RErrOverlap.
Proof. exact remove_overlapping_ranges_no_error. Qed.
Print Assumptions C46_remove_overlapping_ranges_no_error_when_finds_complete.

(* ... and the worklist loop terminates: with more steps than the explicit bound ror_bound (computed from the number of
   grid cells the input covers, counted on the grid of its own cuts) the step bound is never the reason to stop,
   whatever the FindConnections observations are.  The guard is essential: see the non-termination finding. *)
Theorem C46_remove_overlapping_ranges_terminates : forall n rs finds fuel,
  Forall (wf n) rs -> ror_bound rs < fuel -> fst (remove_overlapping_ranges fuel finds rs) <> RFuel.
Proof. exact remove_overlapping_ranges_terminates. Qed.
Print Assumptions C46_remove_overlapping_ranges_terminates.

(* IntersectRanges: when the arguments of non-zero length all have n columns and there is at least one, the
   result is a range of n columns denoting exactly the intersection of those arguments (an empty intersection is
   returned as the range of empty columns, which denotes nothing); nil when every argument has length 0. *)
Theorem C46_intersect_ranges_exact : forall n rs, n <> 0 -> lens_ok n rs -> Exists (fun x => length x = n) rs ->
  exists r, intersect_ranges rs = Some r /\ length r = n /\ forall t, rcontains r t = all_contain rs t.
Proof. exact intersect_ranges_exact. Qed.
Print Assumptions C46_intersect_ranges_exact.
Theorem C46_intersect_ranges_nil_when_no_argument : forall rs, Forall (fun x => length x = 0) rs -> intersect_ranges rs = None.
Proof. exact intersect_ranges_none_when_all_zero. Qed.
Print Assumptions C46_intersect_ranges_nil_when_no_argument.

(* with the FindConnections observations the real tree produced on this well-formed 3-column input (one of them
   misses a stored overlapping range: the completeness flag is false) the result is the "overlapping ranges" error *)
Definition c46_err_input : list range :=
  [[mkR (Above 3) AboveAll; mkR (Above 2) (Above 3); mkR (Above 2) (Below 4)];
   [mkR (Above 4) AboveAll; mkR AboveNull (Above 3); mkR (Above 0) (Above 1)];
   [mkR BelowNull AboveAll; mkR (Below 3) AboveAll; mkR (Above 1) (Above 2)];
   [mkR (Above 2) (Below 4); mkR (Below 0) (Below 3); mkR (Below 0) (Below 2)];
   [mkR (Below 0) (Below 3); mkR (Below 1) (Above 1); mkR (Above 3) AboveAll];
   [mkR (Below 4) (Above 4); mkR BelowNull (Above 4); mkR (Below 2) (Above 4)]]%Z.
Definition c46_err_finds : list (list range) :=
  [[]; [[mkR (Above 3) AboveAll; mkR (Above 2) (Above 3); mkR (Above 2) (Below 4)]; [mkR (Above 4) AboveAll; mkR AboveNull (Above 3); mkR (Above 0) (Above 1)]];
   [[mkR BelowNull AboveAll; mkR (Below 3) AboveAll; mkR (Above 1) (Above 2)]]; [];
   [[mkR (Above 3) AboveAll; mkR (Above 2) (Above 3); mkR (Above 2) (Below 4)]; [mkR BelowNull AboveAll; mkR (Below 3) AboveAll; mkR (Above 1) (Above 2)]; [mkR (Above 2) (Below 4); mkR (Below 0) (Below 3); mkR (Below 0) (Below 2)]];
   []; [];
   [[mkR (Above 2) (Below 4); mkR (Below 0) (Below 3); mkR (Below 0) (Below 2)]; [mkR (Above 4) AboveAll; mkR (Above 2) (Above 3); mkR (Above 2) (Below 4)]; [mkR (Above 3) (Below 4); mkR (Above 2) (Above 3); mkR (Above 2) (Below 4)]]]%Z.
Theorem C46_remove_overlapping_error_reachable :
  remove_overlapping_ranges 300 c46_err_finds c46_err_input = (RErrOverlap, false).
Proof. vm_compute. reflexivity. Qed.
Print Assumptions C46_remove_overlapping_error_reachable.

(* non-vacuity: three 1-column ranges, two of them overlapping, come out as two disjoint sorted ranges *)
Example C46_nonvacuous :
  remove_overlapping_ranges 10 [[[closed_rce 0 2]]; []; []] [[closed_rce 0 2]; [closed_rce 1 4]; [closed_rce 6 7]]
  = (ROk [[closed_rce 0 4]; [closed_rce 6 7]], true)%Z.
Proof. vm_compute. reflexivity. Qed.
