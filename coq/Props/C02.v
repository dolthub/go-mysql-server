(* C02 — Query results match the SQL definition of the query.
   The definition is Rel/C02Logical.v (eval_query / eval_expr); the engine is tied to it by the
   correspondence run (Corr/C02.v).  The theorems below are about the definition: they state that it has
   the NULL, join, grouping, set-operation, ordering and subquery semantics the property names, for ALL
   databases, environments and queries.  Only statements, each closed by [exact]. *)
From Coq Require Import List ZArith NArith Bool Permutation Sorted.
Import ListNotations.
From GMS Require Import Rel.C02Logical Rel.C02LogicalProofs.
Open Scope Z_scope.

(* x NOT IN (.. NULL ..) is never TRUE: list form and subquery form *)
Theorem C02_not_in_null_never_true :
  forall d en a l v,
    eval_expr d en (ENot (EIn a l)) = Ok v ->
    (exists e, In e l /\ eval_expr d en e = Ok VNull) ->
    v <> VInt 1.
Proof. exact not_in_null_never_true. Qed.
Print Assumptions C02_not_in_null_never_true.

Theorem C02_not_in_subquery_null_never_true :
  forall d en a q v rs r,
    eval_expr d en (ENot (EInQ a q)) = Ok v ->
    eval_query d en q = Ok rs -> In (VNull :: r) rs ->
    v <> VInt 1.
Proof. exact not_in_subquery_null_never_true. Qed.
Print Assumptions C02_not_in_subquery_null_never_true.

(* IN: TRUE iff some element is definitely equal, FALSE iff all are definitely different,
   NULL IN (non-empty) is NULL, x IN (empty) is FALSE *)
Theorem C02_in_null_semantics :
  forall x ys t, in3 x ys = Ok t ->
    (t = TT <-> exists y, In y ys /\ cmp3 OEq x y = Ok TT) /\
    (t = TF <-> forall y, In y ys -> cmp3 OEq x y = Ok TF) /\
    (In VNull ys -> t <> TF) /\
    in3 VNull ys = Ok (match ys with [] => TF | _ => TN end).
Proof.
  intros x ys t H. split; [exact (in3_true_iff x ys t H)|]. split; [exact (in3_false_iff x ys t H)|].
  split; [exact (in3_null_elem x ys t H)|exact (in3_null_lhs ys)].
Qed.
Print Assumptions C02_in_null_semantics.

(* LEFT JOIN keeps every left row: with each match, or padded with NULLs when there is none; nothing else *)
Theorem C02_left_join_pads_null :
  forall d en l r on L R rows,
    eval_query d en l = Ok L -> eval_query d en r = Ok R ->
    eval_query d en (QJoin JLeft l r on) = Ok rows ->
    (forall lr, In lr L ->
       (forall rr, In rr R -> on_true d en on (lr ++ rr) = Ok true -> In (lr ++ rr) rows) /\
       ((forall rr, In rr R -> on_true d en on (lr ++ rr) = Ok false) -> In (lr ++ nulls (qwidth d r)) rows)) /\
    (forall rw, In rw rows -> exists lr, In lr L /\
       ((exists rr, In rr R /\ on_true d en on (lr ++ rr) = Ok true /\ rw = lr ++ rr) \/
        ((forall rr, In rr R -> on_true d en on (lr ++ rr) = Ok false) /\ rw = lr ++ nulls (qwidth d r)))).
Proof. exact left_join_pads_null. Qed.
Print Assumptions C02_left_join_pads_null.

Theorem C02_right_join_mirror :
  forall d en l r on L R rows,
    eval_query d en l = Ok L -> eval_query d en r = Ok R ->
    eval_query d en (QJoin JRight l r on) = Ok rows ->
    (forall rr, In rr R ->
       (forall lr, In lr L -> on_true d en on (lr ++ rr) = Ok true -> In (lr ++ rr) rows) /\
       ((forall lr, In lr L -> on_true d en on (lr ++ rr) = Ok false) -> In (nulls (qwidth d l) ++ rr) rows)) /\
    (forall rw, In rw rows -> exists rr, In rr R /\
       ((exists lr, In lr L /\ on_true d en on (lr ++ rr) = Ok true /\ rw = lr ++ rr) \/
        ((forall lr, In lr L -> on_true d en on (lr ++ rr) = Ok false) /\ rw = nulls (qwidth d l) ++ rr))).
Proof. exact right_join_mirror. Qed.
Print Assumptions C02_right_join_mirror.

(* multiplicities: UNION ALL adds, INTERSECT ALL takes the minimum, EXCEPT ALL subtracts (monus),
   the DISTINCT forms return one copy of each qualifying row (row identity: NULL = NULL, 1 = 1.00) *)
Theorem C02_set_op_multiplicities :
  forall x l r,
    count row_eqb x (set_op SUnion true l r) = (count row_eqb x l + count row_eqb x r)%nat /\
    count row_eqb x (set_op SIntersect true l r) = Nat.min (count row_eqb x l) (count row_eqb x r) /\
    count row_eqb x (set_op SExcept true l r) = (count row_eqb x l - count row_eqb x r)%nat /\
    count row_eqb x (set_op SUnion false l r) = (if mem row_eqb x l || mem row_eqb x r then 1 else 0)%nat /\
    count row_eqb x (set_op SIntersect false l r) = (if mem row_eqb x l && mem row_eqb x r then 1 else 0)%nat /\
    count row_eqb x (set_op SExcept false l r) = (if mem row_eqb x l && negb (mem row_eqb x r) then 1 else 0)%nat.
Proof. exact set_op_multiplicities. Qed.
Print Assumptions C02_set_op_multiplicities.

Theorem C02_distinct_multiplicity :
  forall x rows, count row_eqb x (distinct_if true rows) = (if mem row_eqb x rows then 1 else 0)%nat.
Proof. exact distinct_multiplicity. Qed.
Print Assumptions C02_distinct_multiplicity.

(* HAVING is the WHERE of the grouped rows: a grouped block = its groups, then the same
   filter / project / distinct tail as an ungrouped block *)
Theorem C02_having_is_filter_after_group :
  forall d en src wh keys aggs hav proj dist,
    eval_query d en (QGroup src wh keys aggs hav proj dist) =
      bind (group_rows d en src wh keys aggs) (select_tail d en hav proj dist) /\
    eval_query d en (QSelect src wh proj dist) =
      bind (eval_query d en src) (select_tail d en wh proj dist).
Proof.
  intros. split; [exact (having_is_filter_after_group d en src wh keys aggs hav proj dist)
                 |exact (select_is_tail d en src wh proj dist)].
Qed.
Print Assumptions C02_having_is_filter_after_group.

(* LIMIT n OFFSET m is firstn n (skipn m) of the ordered result; ORDER BY permutes and sorts *)
Theorem C02_limit_offset_slice :
  forall d en q keys n off,
    eval_query d en (QOrder q keys (Some (n, off))) =
    bind (eval_query d en (QOrder q keys None)) (fun rows => Ok (firstn n (skipn off rows))).
Proof. exact limit_offset_slice. Qed.
Print Assumptions C02_limit_offset_slice.

Theorem C02_order_by_sorts :
  forall d en q keys rows,
    eval_query d en q = Ok rows ->
    exists sorted, eval_query d en (QOrder q keys None) = Ok sorted /\
      Permutation sorted rows /\ Sorted (fun a b => row_leb keys a b = true) sorted.
Proof. exact order_by_sorts. Qed.
Print Assumptions C02_order_by_sorts.

(* EXISTS is TRUE iff the subquery returns a row (and never NULL) *)
Theorem C02_exists_iff_nonempty :
  forall d en q v,
    eval_expr d en (EExists q) = Ok v ->
    exists rs, eval_query d en q = Ok rs /\ (v = VInt 1 <-> rs <> []) /\ (v = VInt 0 <-> rs = []).
Proof. exact exists_iff_nonempty. Qed.
Print Assumptions C02_exists_iff_nonempty.

(* scalar subquery: no row = NULL, one row = its value, more = error *)
Theorem C02_scalar_subquery_cardinality :
  forall d en q rs,
    eval_query d en q = Ok rs ->
    eval_expr d en (EScalar q) = match rs with [] => Ok VNull | [r] => first_col r | _ => Err ErrCard end.
Proof. exact scalar_subquery_cardinality. Qed.
Print Assumptions C02_scalar_subquery_cardinality.

(* WHERE a IN (subquery) keeps exactly the rows with a definitely-equal partner (semi join), correlated or
   not; mirrors what unnest_in_subqueries.go must preserve *)
Theorem C02_unnest_in_sound :
  forall d en src a q proj out rows,
    eval_query d en (QSelect src (EInQ a q) proj false) = Ok out ->
    eval_query d en src = Ok rows ->
    exists kept,
      mapM (fun rw => mapM (eval_expr d (rw :: en)) proj) kept = Ok out /\
      forall rw, In rw kept <->
        (In rw rows /\ exists x ys, sub_col d en a q rw x ys /\ exists y, In y ys /\ cmp3 OEq x y = Ok TT).
Proof. exact in_subquery_is_semijoin. Qed.
Print Assumptions C02_unnest_in_sound.

(* WHERE a NOT IN (subquery) keeps exactly the rows all of whose comparisons are definitely FALSE:
   the null-aware anti join (a NULL on either side disqualifies the row unless the subquery is empty) *)
Theorem C02_unnest_not_in_null_aware :
  forall d en src a q proj out rows,
    eval_query d en (QSelect src (ENot (EInQ a q)) proj false) = Ok out ->
    eval_query d en src = Ok rows ->
    exists kept,
      mapM (fun rw => mapM (eval_expr d (rw :: en)) proj) kept = Ok out /\
      forall rw, In rw kept <->
        (In rw rows /\ exists x ys, sub_col d en a q rw x ys /\ forall y, In y ys -> cmp3 OEq x y = Ok TF).
Proof. exact not_in_subquery_is_null_aware_antijoin. Qed.
Print Assumptions C02_unnest_not_in_null_aware.

(* non-vacuity: t0 = {1, 2, NULL}, t1 = {1, NULL}.
   SELECT c0 FROM t0 WHERE c0 NOT IN (SELECT c0 FROM t1) is empty, the IN form returns {1},
   and t0 LEFT JOIN t1 ON t0.c0 = t1.c0 pads 2 and NULL. *)
Definition ex_db : db := [(1%nat, [[VInt 1]; [VInt 2]; [VNull]]); (1%nat, [[VInt 1]; [VNull]])].
Definition ex_sub : query := QSelect (QTable 1) (EConst (VInt 1)) [ECol 0 0] false.
Example C02_nonvacuous :
  eval_query ex_db [] (QSelect (QTable 0) (ENot (EInQ (ECol 0 0) ex_sub)) [ECol 0 0] false) = Ok [] /\
  eval_query ex_db [] (QSelect (QTable 0) (EInQ (ECol 0 0) ex_sub) [ECol 0 0] false) = Ok [[VInt 1]] /\
  eval_query ex_db [] (QJoin JLeft (QTable 0) (QTable 1) (ECmp OEq (ECol 0 0) (ECol 0 1)))
    = Ok [[VInt 1; VInt 1]; [VInt 2; VNull]; [VNull; VNull]].
Proof. repeat split; vm_compute; reflexivity. Qed.
Print Assumptions C02_nonvacuous.

(* ---------------------------------------------------------------------------------------------------------
   exec_refines_definition.  Phys/C02Exec.v models the row iterators of sql/rowexec and sql/iters (table scan,
   FilterIter, ProjectIter, joinIter inner / left outer, the transposed right join of planbuilder/factory.go,
   crossJoinIterator, HashLookup, distinctIter, groupByGroupingIter with count / count-distinct / sum / min /
   max / avg buffers, sortIter, LimitIter, offsetIter, UnionIter, IntersectIter, ExceptIter, per-row InSubquery /
   ExistsSubquery / scalar Subquery) as an executor [exec_env] of physical plans; [plan_of] compiles a C02 query
   to the plan a planner without optimisations builds.  For every database, every environment of outer rows
   (so also for correlated subqueries) and every query of the C02 grammar: the plan returns rows iff the
   definition assigns rows, and then the very same rows in the same order (hence the same bag); the plan fails
   iff the definition raises an error.
   Side condition [ok_query d q]: none for queries without RIGHT JOIN ([wf_query], see
   C02_exec_refines_definition_no_right_join); at a RIGHT JOIN the rows of every table of d must have the
   table's width ([wf_db]) and the set operations in the join's right input must combine equally wide
   branches ([wt_query]) -- the transposing projection splits rows at a static width.
   Not part of the statement: which error is raised; real hash collisions (hash keys are the normalised rows);
   sortIter is the definition's own stable insertion sort (sorting is C04's subject); the analyzer's rewrites
   (unnesting, join planning, pushdown, caching) -- the hash-lookup join is tied to the nested-loop join by a
   separate theorem under a key-soundness premise. *)
From GMS Require Import Phys.C02Exec Phys.C02ExecProofs Phys.C02ExecConverse.

Theorem C02_exec_refines_definition :
  forall d en q rows,
    ok_query d q = true ->
    (exec_env d en (plan_of q) = Ok rows <-> eval_query d en q = Ok rows).
Proof. exact exec_agrees_with_definition_ok. Qed.
Print Assumptions C02_exec_refines_definition.

Theorem C02_exec_refines_definition_no_right_join :
  forall d en q rows,
    wf_query q = true ->
    ok_query d q = true /\ (exec_env d en (plan_of q) = Ok rows <-> eval_query d en q = Ok rows).
Proof.
  intros d en q rows W. split; [exact (proj2 (wf_ok_mut d) q W)|exact (exec_agrees_with_definition d en q rows W)].
Qed.
Print Assumptions C02_exec_refines_definition_no_right_join.

Theorem C02_exec_fails_iff_definition_fails :
  forall d en q,
    ok_query d q = true ->
    ((exists e, exec_env d en (plan_of q) = Err e) <-> (exists e, eval_query d en q = Err e)).
Proof. exact exec_fails_iff_definition_fails_ok. Qed.
Print Assumptions C02_exec_fails_iff_definition_fails.

(* top level: sequence under ORDER BY, bag otherwise (the two comparisons of the differential run) *)
Theorem C02_exec_refines_definition_bag :
  forall d q rows,
    ok_query d q = true -> eval_query d [] q = Ok rows ->
    exists out, exec d (plan_of q) = Ok out /\ Permutation out rows /\
                (forall q' keys lim, q = QOrder q' keys lim -> out = rows).
Proof. exact exec_refines_bag. Qed.
Print Assumptions C02_exec_refines_definition_bag.

(* expressions, including per-row IN / EXISTS / scalar subqueries *)
Theorem C02_expr_refines_definition :
  forall d en e v,
    ok_expr d e = true -> (eval_pexpr d en (cexpr e) = Ok v <-> eval_expr d en e = Ok v).
Proof. exact expr_agrees_with_definition_ok. Qed.
Print Assumptions C02_expr_refines_definition.

(* per-operator facts *)
Theorem C02_filter_iter_keeps_true_rows :
  forall ev rows kept, filter_iter ev rows = Ok kept ->
    forall rw, In rw kept <-> (In rw rows /\ cond_true (ev rw) = Ok true).
Proof. exact filter_iter_true. Qed.
Print Assumptions C02_filter_iter_keeps_true_rows.

Theorem C02_join_iter_is_join :
  forall f wr L R,
    join_iter f false wr L R = inner_join (fun rw => holds (f rw)) L R /\
    join_iter f true wr L R =
      outer_join (fun rw => holds (f rw)) (fun l r => l ++ r) (fun l => l ++ nulls wr) L R /\
    inner_join (fun _ => Ok true) L R = Ok (cross_iter L R).
Proof.
  intros. split; [exact (join_iter_eq f false wr L R)|]. split; [exact (join_iter_eq f true wr L R)|exact (cross_join_ok L R)].
Qed.
Print Assumptions C02_join_iter_is_join.

(* the transposed plan of a RIGHT JOIN: B LEFT JOIN A on the physical rows with the re-indexed condition, then
   the column projection, gives A RIGHT JOIN B (rows of B of width wr) *)
Theorem C02_transposed_join_is_right_join :
  forall ev wl wr L R rows0,
    (forall r, In r R -> length r = wr) ->
    join_iter (fun x => ev (transpose_row wr x)) true wl R L = Ok rows0 ->
    outer_join (fun rw => holds (ev rw)) (fun r l => l ++ r) (fun r => nulls wl ++ r) R L =
    Ok (map (transpose_row wr) rows0).
Proof. intros ev wl wr L R rows0 HW H. rewrite <- (transposed_join ev wl wr L R HW), H. reflexivity. Qed.
Print Assumptions C02_transposed_join_is_right_join.

(* the rows of a query have its static width (used for the transposing projection) *)
Theorem C02_query_rows_have_static_width :
  forall d, wf_db d = true ->
  forall q, wt_query d q = true -> forall en rows, eval_query d en q = Ok rows ->
  forall r, In r rows -> length r = qwidth d q.
Proof. exact query_width. Qed.
Print Assumptions C02_query_rows_have_static_width.

Theorem C02_hash_join_is_nested_loop_join :
  forall d en lo l r lk rk on L R rows,
    exec_env d en l = Ok L -> exec_env d en r = Ok R ->
    (forall x, In x L -> exists k, hash_key (fun rw => mapM (eval_pexpr d (rw :: en)) lk) x = Ok k) ->
    (forall y, In y R -> exists k, hash_key (fun rw => mapM (eval_pexpr d (rw :: en)) rk) y = Ok k) ->
    (forall x y, In x L -> In y R -> cond_true (eval_pexpr d ((x ++ y) :: en) on) = Ok true ->
       exists k, hash_key (fun rw => mapM (eval_pexpr d (rw :: en)) lk) x = Ok (Some k) /\
                 hash_key (fun rw => mapM (eval_pexpr d (rw :: en)) rk) y = Ok (Some k)) ->
    exec_env d en (PJoin lo l r on) = Ok rows ->
    exec_env d en (PHashJoin lo l r lk rk on) = Ok rows.
Proof. exact hash_join_plan_ok. Qed.
Print Assumptions C02_hash_join_is_nested_loop_join.

Theorem C02_distinct_iter_is_dedup :
  forall rows, distinct_iter [] rows = dedup row_eqb rows.
Proof. exact distinct_iter_ok. Qed.
Print Assumptions C02_distinct_iter_is_dedup.

(* the streaming group table (get-or-create buffers per key, updateBuffers per row, evalBuffers at the end)
   computes the definition's groups in first-seen order with the definition's aggregates *)
Theorem C02_group_by_iter_is_grouping :
  forall (E : Type) (ev ev' : row -> E -> res val) aggsE kf kf' n kept keyed grows,
    sub kf kf' ->
    (forall fe, In fe aggsE -> sub (fun rw => ev rw (snd fe)) (fun rw => ev' rw (snd fe))) ->
    mapM (fun rw => do k <- kf rw; Ok (k, rw)) kept = Ok keyed ->
    mapM (fun g : row * list row => do avs <- def_avs ev aggsE (snd g); Ok (fst g ++ avs)) (groups_of n keyed) = Ok grows ->
    group_by_iter kf' (paggs ev' aggsE) n kept = Ok grows.
Proof. exact (@group_by_ok). Qed.
Print Assumptions C02_group_by_iter_is_grouping.

Theorem C02_agg_buffer_is_aggregate :
  forall f args,
    (forall av, agg f args = Ok av ->
       exists b, foldM (buf_update f) args (buf_init f) = Ok b /\ buf_eval b = av) /\
    (forall b, foldM (buf_update f) args (buf_init f) = Ok b -> agg f args = Ok (buf_eval b)).
Proof.
  intros f args. rewrite <- (agg_stream f args).
  destruct (foldM (buf_update f) args (buf_init f)) as [b|e]; split; intros x H; inversion H; eauto.
Qed.
Print Assumptions C02_agg_buffer_is_aggregate.

Theorem C02_limit_offset_iter_is_slice :
  forall n off rows, limit_iter O n (offset_iter off rows) = firstn n (skipn off rows).
Proof. exact limit_offset_ok. Qed.
Print Assumptions C02_limit_offset_iter_is_slice.

Theorem C02_set_op_iters :
  forall l r,
    union_iter false l r = set_op SUnion true l r /\
    union_iter true l r = set_op SUnion false l r /\
    intersect_iter l r = set_op SIntersect true l r /\
    distinct_iter [] (intersect_iter l r) = set_op SIntersect false l r /\
    except_iter false l r = set_op SExcept true l r /\
    except_iter true l r = set_op SExcept false l r.
Proof.
  intros l r. split; [reflexivity|]. split; [exact (distinct_iter_ok (l ++ r))|].
  split; [exact (intersect_iter_ok l r)|]. split; [exact (intersect_distinct_ok l r)|].
  split; [exact (except_iter_ok false l r)|exact (except_iter_ok true l r)].
Qed.
Print Assumptions C02_set_op_iters.

Theorem C02_in_loop_is_in3 :
  forall x ys, in_loop x ys false false = in3 x ys.
Proof. exact in_loop_in3. Qed.
Print Assumptions C02_in_loop_is_in3.

(* non-vacuity: t0(id, grp), t1(id, amount);
   SELECT grp, COUNT( * ), SUM(amount), MIN(amount), AVG(amount), COUNT(DISTINCT t1.id)
   FROM t0 LEFT JOIN t1 ON t0.id = t1.id
   WHERE t0.id IN (SELECT DISTINCT id FROM t1) OR EXISTS (SELECT id FROM t1 WHERE t1.amount < t0.id)
   GROUP BY grp HAVING COUNT( * ) >= 1 ORDER BY 1 LIMIT 5 OFFSET 0
   is in the fragment, the definition gives it three rows, and so does the executor; the same for
   (SELECT id FROM t0 EXCEPT SELECT id FROM t1) UNION ALL (SELECT id FROM t0 INTERSECT SELECT id FROM t1);
   the hash-lookup join on t0.id = t1.id returns the rows of the nested-loop join;
   t0 RIGHT JOIN (t1 UNION ALL t1) ON t0.id = t1.id satisfies the side condition and is executed transposed. *)
Definition ex2_db : db :=
  [(2%nat, [[VInt 1; VInt 10]; [VInt 2; VInt 10]; [VInt 3; VInt 20]; [VNull; VInt 20]; [VInt 5; VNull]]);
   (2%nat, [[VInt 1; VDec 150 2]; [VInt 1; VDec 250 2]; [VInt 3; VDec 400 2]; [VInt 7; VDec 100 2]; [VNull; VDec 999 2]])].
Definition ex2_join : query := QJoin JLeft (QTable 0) (QTable 1) (ECmp OEq (ECol 0 0) (ECol 0 2)).
Definition ex2_where : expr :=
  EOr (EInQ (ECol 0 0) (QSelect (QTable 1) (EConst (VInt 1)) [ECol 0 0] true))
      (EExists (QSelect (QTable 1) (ECmp OLt (ECol 0 1) (ECol 1 0)) [ECol 0 0] false)).
Definition ex2_q : query :=
  QOrder (QGroup ex2_join ex2_where [ECol 0 1]
            [(ACountStar, EConst (VInt 1)); (ASum, ECol 0 3); (AMin, ECol 0 3); (AAvg, ECol 0 3); (ACountDistinct, ECol 0 2)]
            (ECmp OGe (ECol 0 1) (EConst (VInt 1)))
            [ECol 0 0; ECol 0 1; ECol 0 2; ECol 0 3; ECol 0 4; ECol 0 5] false)
         [(0%nat, false)] (Some (5%nat, 0%nat)).
Definition ex2_ids (t : nat) : query := QSelect (QTable t) (EConst (VInt 1)) [ECol 0 0] false.
Definition ex2_set : query :=
  QSetOp SUnion true (QSetOp SExcept false (ex2_ids 0) (ex2_ids 1)) (QSetOp SIntersect false (ex2_ids 0) (ex2_ids 1)).
Definition ex2_right : query :=
  QJoin JRight (QTable 0) (QSetOp SUnion true (QTable 1) (QTable 1)) (ECmp OEq (ECol 0 0) (ECol 0 2)).
Example C02_exec_refines_nonvacuous :
  ok_query ex2_db ex2_right = true /\ wf_query ex2_right = false /\
  eval_query ex2_db [] (QSelect ex2_right (ECmp OLe (ECol 0 3) (EConst (VInt 2))) [ECol 0 0; ECol 0 1; ECol 0 2; ECol 0 3] true) =
    Ok [[VInt 1; VInt 10; VInt 1; VDec 150 2]; [VNull; VNull; VInt 7; VDec 100 2]] /\
  exec ex2_db (plan_of ex2_right) = eval_query ex2_db [] ex2_right /\
  wf_query ex2_q = true /\
  eval_query ex2_db [] ex2_q =
    Ok [[VNull; VInt 1; VNull; VNull; VNull; VInt 0];
        [VInt 10; VInt 3; VDec 400 2; VDec 150 2; VDec 2000000 6; VInt 1];
        [VInt 20; VInt 1; VDec 400 2; VDec 400 2; VDec 4000000 6; VInt 1]] /\
  exec ex2_db (plan_of ex2_q) = eval_query ex2_db [] ex2_q /\
  wf_query ex2_set = true /\
  eval_query ex2_db [] ex2_set = Ok [[VInt 2]; [VInt 5]; [VInt 1]; [VInt 3]; [VNull]] /\
  exec ex2_db (plan_of ex2_set) = eval_query ex2_db [] ex2_set /\
  exec ex2_db (PHashJoin true (PTable 0) (PTable 1) [PCol 0 0] [PCol 0 0] (PCmp OEq (PCol 0 0) (PCol 0 2))) =
    eval_query ex2_db [] ex2_join.
Proof. repeat split; vm_compute; reflexivity. Qed.
Print Assumptions C02_exec_refines_nonvacuous.
