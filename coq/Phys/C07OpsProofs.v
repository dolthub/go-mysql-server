(* C07: the hashing operators compute their SQL definitions whenever key equality is the class relation. *)
From Coq Require Import List ZArith NArith Bool Lia PeanoNat.
Import ListNotations.
From GMS Require Import Phys.C07HashKey Phys.C07HashKeyProofs Phys.C07Ops.
Local Open Scope nat_scope.

Section SetOpFacts.
  Context {A K : Type} (key : A -> K) (keq : K -> K -> bool).
  Hypothesis keq_spec : forall a b, keq a b = true <-> a = b.

  Lemma keqP a b : reflect (a = b) (keq a b).
  Proof. apply iff_reflect. symmetry. apply keq_spec. Qed.
  Lemma keq_refl k : keq k k = true.
  Proof. apply keq_spec. reflexivity. Qed.
  Lemma keq_sym a b : keq a b = keq b a.
  Proof. destruct (keqP a b) as [->|N]; [symmetry; apply keq_refl|]. destruct (keqP b a); congruence. Qed.

  Definition cnt (m : list (K * nat)) (k : K) : nat := match cm_get keq m k with Some n => n | None => 0 end.

  Lemma cm_get_set m : forall k n k0,
    cm_get keq (cm_set keq m k n) k0 = if keq k0 k then Some n else cm_get keq m k0.
  Proof.
    induction m as [|[k' n'] m IH]; intros k n k0; cbn; [reflexivity|].
    destruct (keqP k k') as [<-|N]; cbn; [destruct (keq k0 k); reflexivity|].
    rewrite IH. destruct (keqP k0 k') as [E|_], (keqP k0 k) as [E'|_]; congruence.
  Qed.

  Lemma cnt_set m k n k0 : cnt (cm_set keq m k n) k0 = if keq k0 k then n else cnt m k0.
  Proof. unfold cnt. rewrite cm_get_set. destruct (keq k0 k); reflexivity. Qed.

  Lemma cnt_incr m k k0 : cnt (cm_incr keq m k) k0 = cnt m k0 + (if keq k0 k then 1 else 0).
  Proof.
    unfold cm_incr. destruct (cm_get keq m k) as [n|] eqn:G; rewrite cnt_set;
      (destruct (keqP k0 k) as [->|_]; [unfold cnt; rewrite G|]; lia).
  Qed.

  Lemma kcount_cons {B} (f : B -> K) k x l :
    kcount f keq k (x :: l) = (if keq (f x) k then 1 else 0) + kcount f keq k l.
  Proof. unfold kcount. cbn [filter]. destruct (keq (f x) k); reflexivity. Qed.

  Lemma kcount_app {B} (f : B -> K) k a b : kcount f keq k (a ++ b) = kcount f keq k a + kcount f keq k b.
  Proof. unfold kcount. rewrite filter_app, app_length. reflexivity. Qed.

  Lemma kcount_map k l : kcount (fun k0 => k0) keq k (map key l) = kcount key keq k l.
  Proof. induction l as [|x l IH]; [reflexivity|]. cbn [map]. rewrite !kcount_cons, IH. reflexivity. Qed.

  Lemma cnt_fold ks : forall m k, cnt (fold_left (cm_incr keq) ks m) k = cnt m k + kcount (fun k0 => k0) keq k ks.
  Proof.
    induction ks as [|k0 ks IH]; intros m k; cbn [fold_left]; [cbn; lia|].
    rewrite IH, cnt_incr, kcount_cons, (keq_sym k k0). lia.
  Qed.

  Lemma cnt_build ks k : cnt (cm_build keq ks) k = kcount (fun k0 => k0) keq k ks.
  Proof. unfold cm_build. rewrite cnt_fold. reflexivity. Qed.

  (* IntersectIter keeps, and ExceptIter drops, a left row while the count of its key is positive: per key, the
     minimum of the left multiplicity and the count, resp. their difference *)
  Lemma go_count ls : forall m k,
    kcount key keq k (intersect_go key keq m ls) = Nat.min (kcount key keq k ls) (cnt m k) /\
    kcount key keq k (except_go key keq m ls) = kcount key keq k ls - cnt m k.
  Proof.
    induction ls as [|r ls IH]; intros m k; [split; reflexivity|].
    cbn [intersect_go except_go]. rewrite (kcount_cons key k r ls).
    destruct (cm_get keq m (key r)) as [[|n]|] eqn:G; rewrite ?kcount_cons;
      [destruct (IH m k) as [-> ->]
      |destruct (IH (cm_set keq m (key r) n) k) as [-> ->]; rewrite cnt_set, (keq_sym k)
      |destruct (IH m k) as [-> ->]];
      (destruct (keqP (key r) k) as [<-|_]; [unfold cnt; rewrite G|]; lia).
  Qed.

  Theorem intersect_all_count ls rs k :
    kcount key keq k (intersect_all key keq ls rs) = Nat.min (kcount key keq k ls) (kcount key keq k rs).
  Proof. unfold intersect_all. rewrite (proj1 (go_count _ _ _)), cnt_build, kcount_map. reflexivity. Qed.

  (* as written: the key of the nil row hashed at end of input counts as one more right row *)
  Theorem except_all_count knil ls rs k :
    kcount key keq k (except_all key keq knil ls rs) =
    kcount key keq k ls - (kcount key keq k rs + (if keq knil k then 1 else 0)).
  Proof.
    unfold except_all. rewrite (proj2 (go_count _ _ _)), cnt_build, kcount_app, kcount_map, kcount_cons.
    cbn. rewrite Nat.add_0_r. reflexivity.
  Qed.

  Lemma go_incl ls : forall m, incl (intersect_go key keq m ls) ls /\ incl (except_go key keq m ls) ls.
  Proof.
    induction ls as [|r ls IH]; intros m; [split; apply incl_refl|]. cbn [intersect_go except_go].
    destruct (cm_get keq m (key r)) as [[|n]|];
      [destruct (IH m)|destruct (IH (cm_set keq m (key r) n))|destruct (IH m)];
      split; auto using incl_tl, incl_cons, in_eq.
  Qed.

  (* distinctIter: per key, at most one row *)
  Lemma dedup_go_count l : forall seen k,
    kcount key keq k (dedup_go key keq seen l) = if existsb (keq k) seen then 0 else Nat.min 1 (kcount key keq k l).
  Proof.
    induction l as [|x l IH]; intros seen k.
    - cbn. destruct (existsb (keq k) seen); reflexivity.
    - cbn [dedup_go]. rewrite (kcount_cons key k x l). destruct (existsb (keq (key x)) seen) eqn:S.
      + rewrite IH. destruct (keqP (key x) k) as [<-|_]; [rewrite S|]; reflexivity.
      + rewrite kcount_cons, IH. cbn [existsb]. rewrite (keq_sym k (key x)).
        destruct (keqP (key x) k) as [<-|_]; cbn [orb]; [rewrite S|destruct (existsb (keq k) seen)]; lia.
  Qed.

  Theorem dedup_count l k : kcount key keq k (dedup key keq l) = Nat.min 1 (kcount key keq k l).
  Proof. unfold dedup. rewrite dedup_go_count. reflexivity. Qed.

  Lemma dedup_incl l : incl (dedup key keq l) l.
  Proof. intros x H. apply (dedup_go_sound key keq keq_spec) in H. tauto. Qed.

  Theorem intersect_distinct_count ls rs k :
    kcount key keq k (intersect_distinct key keq ls rs) =
    Nat.min 1 (Nat.min (kcount key keq k ls) (kcount key keq k rs)).
  Proof. unfold intersect_distinct. rewrite dedup_count, intersect_all_count. reflexivity. Qed.

  Theorem except_distinct_count knil ls rs k :
    kcount key keq k (except_distinct key keq knil ls rs) =
    Nat.min 1 (kcount key keq k ls) - (Nat.min 1 (kcount key keq k rs) + (if keq knil k then 1 else 0)).
  Proof. unfold except_distinct. rewrite except_all_count, !dedup_count. reflexivity. Qed.

  Theorem union_distinct_count ls rs k :
    kcount key keq k (union_distinct key keq ls rs) = Nat.min 1 (kcount key keq k ls + kcount key keq k rs).
  Proof. unfold union_distinct. rewrite dedup_count, kcount_app. reflexivity. Qed.

  (* from keys to classes: when, on the rows in play, the class relation is key equality *)
  Lemma ccount_kcount (eqv : A -> A -> bool) a l :
    (forall x, In x l -> (eqv a x = true <-> key a = key x)) -> ccount eqv a l = kcount key keq (key a) l.
  Proof.
    intros H. unfold ccount, kcount. f_equal. apply filter_ext_in. intros x Hx.
    apply eq_true_iff_eq. rewrite (H x Hx), keq_spec. split; congruence.
  Qed.

  Lemma kcount_pos a l : In a l -> 1 <= kcount key keq (key a) l.
  Proof.
    intros Ha. apply in_split in Ha. destruct Ha as (l1 & l2 & ->). rewrite kcount_app, kcount_cons, keq_refl. lia.
  Qed.

  Lemma kcount_zero k l : (forall x, In x l -> key x <> k) -> kcount key keq k l = 0.
  Proof.
    induction l as [|y l IH]; intros H; [reflexivity|]. rewrite kcount_cons, IH by (intros; apply H; right; assumption).
    destruct (keqP (key y) k) as [E|_]; [destruct (H y (or_introl eq_refl) E)|reflexivity].
  Qed.

  Section Classes.
    Variable eqv : A -> A -> bool.
    Variables ls rs : list A.
    Hypothesis Hcls : forall x y, In x (ls ++ rs) -> In y (ls ++ rs) -> (eqv x y = true <-> key x = key y).

    (* a statement about the key counts of an output drawn from the inputs is one about its class counts *)
    Lemma by_keys a out (F : nat -> nat -> nat) : In a (ls ++ rs) -> incl out (ls ++ rs) ->
      kcount key keq (key a) out = F (kcount key keq (key a) ls) (kcount key keq (key a) rs) ->
      ccount eqv a out = F (ccount eqv a ls) (ccount eqv a rs).
    Proof.
      intros Ha Ho E.
      assert (C : forall l, incl l (ls ++ rs) -> ccount eqv a l = kcount key keq (key a) l).
      { intros l Hl. apply ccount_kcount. intros x Hx. apply Hcls; [exact Ha|apply Hl, Hx]. }
      rewrite !C; auto using incl_appl, incl_appr, incl_refl.
    Qed.

    (* INTERSECT ALL: every class occurs min(left, right) times *)
    Theorem intersect_all_is_min a : In a (ls ++ rs) ->
      ccount eqv a (intersect_all key keq ls rs) = Nat.min (ccount eqv a ls) (ccount eqv a rs).
    Proof.
      intros Ha. apply (by_keys a _ Nat.min Ha); [apply incl_appl, go_incl|apply intersect_all_count].
    Qed.

    (* EXCEPT ALL: every class occurs (left - right) times, provided no left row has the key of the nil row *)
    Theorem except_all_is_monus knil a : In a (ls ++ rs) -> (forall x, In x ls -> key x <> knil) ->
      ccount eqv a (except_all key keq knil ls rs) = ccount eqv a ls - ccount eqv a rs.
    Proof.
      intros Ha Hnil. apply (by_keys a _ Nat.sub Ha); [apply incl_appl, go_incl|].
      rewrite except_all_count. destruct (keqP knil (key a)) as [<-|_]; [rewrite (kcount_zero _ _ Hnil)|]; lia.
    Qed.

    (* DISTINCT / UNION: every class of the input occurs exactly once *)
    Theorem union_distinct_once a : In a (ls ++ rs) -> ccount eqv a (union_distinct key keq ls rs) = 1.
    Proof.
      intros Ha. apply (by_keys a _ (fun _ _ => 1) Ha); [apply dedup_incl|].
      rewrite union_distinct_count, <- kcount_app. pose proof (kcount_pos a _ Ha). lia.
    Qed.

    (* INTERSECT: once iff the class occurs on both sides *)
    Theorem intersect_distinct_def a : In a (ls ++ rs) ->
      ccount eqv a (intersect_distinct key keq ls rs) = Nat.min 1 (Nat.min (ccount eqv a ls) (ccount eqv a rs)).
    Proof.
      intros Ha. apply (by_keys a _ (fun l r => Nat.min 1 (Nat.min l r)) Ha); [|apply intersect_distinct_count].
      eapply incl_tran; [apply dedup_incl|apply incl_appl, go_incl].
    Qed.

    (* EXCEPT: once iff the class occurs left and not right (same guard on the nil-row key) *)
    Theorem except_distinct_def knil a : In a (ls ++ rs) -> (forall x, In x ls -> key x <> knil) ->
      ccount eqv a (except_distinct key keq knil ls rs) = Nat.min 1 (ccount eqv a ls) - Nat.min 1 (ccount eqv a rs).
    Proof.
      intros Ha Hnil. apply (by_keys a _ (fun l r => Nat.min 1 l - Nat.min 1 r) Ha).
      - apply incl_appl. eapply incl_tran; [apply go_incl|apply dedup_incl].
      - rewrite except_distinct_count. destruct (keqP knil (key a)) as [<-|_]; [rewrite (kcount_zero _ _ Hnil)|]; lia.
    Qed.
  End Classes.
End SetOpFacts.

Section HashLookupFacts.
  Context {L R K : Type} (lkey : L -> K) (rkey : R -> K) (keq : K -> K -> bool) (cond : L -> R -> bool).
  Hypothesis keq_spec : forall a b, keq a b = true <-> a = b.

  Lemma hl_get_put (m : list (K * list R)) : forall k' r k,
    hl_get keq (hl_put keq m k' r) k = if keq k k' then hl_get keq m k ++ [r] else hl_get keq m k.
  Proof.
    induction m as [|[k2 rs] m IH]; intros k' r k; cbn; [destruct (keq k k'); reflexivity|].
    destruct (keqP keq keq_spec k' k2) as [<-|N]; cbn; [destruct (keq k k'); reflexivity|].
    rewrite IH. destruct (keqP keq keq_spec k k2) as [E|_], (keqP keq keq_spec k k') as [E'|_]; congruence.
  Qed.

  Lemma hl_get_fold rs : forall m k,
    hl_get keq (fold_left (fun m r => hl_put keq m (rkey r) r) rs m) k =
    hl_get keq m k ++ filter (fun r => keq k (rkey r)) rs.
  Proof.
    induction rs as [|r rs IH]; intros m k; cbn [fold_left filter]; [rewrite app_nil_r; reflexivity|].
    rewrite IH, hl_get_put. destruct (keq k (rkey r)); [rewrite <- app_assoc|]; reflexivity.
  Qed.

  Lemma hl_bucket rs k : hl_get keq (hl_build rkey keq rs) k = filter (fun r => keq k (rkey r)) rs.
  Proof. unfold hl_build. rewrite hl_get_fold. reflexivity. Qed.

  (* every emitted pair satisfies the join condition: a NULL key (condition never TRUE) never matches *)
  Theorem hash_join_sound ls rs l r :
    In (l, r) (hash_join lkey rkey keq cond ls rs) -> In l ls /\ In r rs /\ cond l r = true.
  Proof.
    unfold hash_join. rewrite in_flat_map. intros (l' & Hl & H). apply in_map_iff in H.
    destruct H as (r' & E & H). injection E as -> ->. apply filter_In in H. destruct H as [H Hc].
    rewrite hl_bucket in H. apply filter_In in H. tauto.
  Qed.

  (* the hash join is the join, provided rows that satisfy the condition have equal keys: filtering the bucket
     by the condition then keeps what filtering all right rows keeps *)
  Theorem hash_join_is_join ls rs :
    (forall l r, In l ls -> In r rs -> cond l r = true -> lkey l = rkey r) ->
    hash_join lkey rkey keq cond ls rs = nl_join cond ls rs.
  Proof.
    intros H. unfold hash_join, nl_join. induction ls as [|l ls IH]; [reflexivity|]. cbn [flat_map].
    rewrite IH by (intros; apply H; auto; right; assumption). do 2 f_equal. rewrite hl_bucket.
    assert (Hl : forall r, In r rs -> cond l r = true -> keq (lkey l) (rkey r) = true)
      by (intros; apply keq_spec, H; auto; left; reflexivity).
    clear IH H. induction rs as [|r rs IHr]; [reflexivity|]. cbn [filter].
    pose proof (Hl r (or_introl eq_refl)) as Hr. specialize (IHr (fun r' Hr' => Hl r' (or_intror Hr'))).
    destruct (keq (lkey l) (rkey r)), (cond l r) eqn:C; cbn [filter]; rewrite ?C, IHr; auto. discriminate (Hr eq_refl).
  Qed.
End HashLookupFacts.

Theorem hash_in_is_in (skey : hv -> option (list N)) (eqb : hv -> hv -> bool) l rs :
  (forall v, skey v = None <-> is_null v = true) ->
  (forall r k k', In r rs -> skey l = Some k -> skey r = Some k' -> bytes_eqb k k' = eqb l r) ->
  hash_in skey l rs = in_def eqb l rs.
Proof.
  intros Hn Hk. unfold hash_in, in_def. destruct (skey l) as [k|] eqn:El.
  - assert (Nl : is_null l = false).
    { destruct (is_null l) eqn:N; [|reflexivity]. apply Hn in N. congruence. }
    rewrite Nl.
    assert (E : existsb (fun r => match skey r with Some k' => bytes_eqb k k' | None => false end) rs =
                existsb (fun r => negb (is_null r) && eqb l r) rs).
    { clear Nl. induction rs as [|r rs IH]; [reflexivity|]. cbn [existsb]. rewrite IH by (intros; eapply Hk; eauto; right; assumption).
      f_equal. destruct (skey r) as [k'|] eqn:Er.
      - assert (Nr : is_null r = false). { destruct (is_null r) eqn:N; [|reflexivity]. apply Hn in N. congruence. }
        rewrite Nr. cbn. apply (Hk r k k'); auto. left. reflexivity.
      - apply Hn in Er. rewrite Er. reflexivity. }
    rewrite E. reflexivity.
  - apply Hn in El. rewrite El. reflexivity.
Qed.

(* SELECT '' EXCEPT SELECT 'a' is empty: the nil row hashed at end of input has the key of the row ('') *)
Lemma except_empty_string_refuted :
  let key := row_key (fun c => c) [] in
  exists ls rs, (forall l r, In l ls -> In r rs -> key l <> key r) /\ ls <> [] /\
    except_all key bytes_eqb (key []) ls rs = [] /\ except_distinct key bytes_eqb (key []) ls rs = [].
Proof.
  exists [[HStr []]], [[HStr [97%N]]]. split; [|split; [discriminate|split; reflexivity]].
  intros l r [<-|[]] [<-|[]]. discriminate.
Qed.

(* COUNT(DISTINCT s, u) over ('a,','b') and ('a',',b') is 1 *)
Lemma count_distinct_comma_refuted :
  exists r1 r2, r1 <> r2 /\ count_distinct [r1; r2] = 1.
Proof. exists [HStr [97;44]%N; HStr [98]%N], [HStr [97]%N; HStr [44;98]%N]. split; [discriminate|reflexivity]. Qed.

Local Open Scope N_scope.

Lemma uint_nodot d : existsb (N.eqb 46) (bytes_of_string (DecimalString.NilEmpty.string_of_uint d)) = false.
Proof. induction d; cbn; try assumption; reflexivity. Qed.

Lemma dec_text0_nodot z : existsb (N.eqb 46) (dec_text z 0) = false.
Proof.
  unfold dec_text. rewrite !existsb_app. change (N.eqb 0 0) with true. cbn [existsb]. rewrite orb_false_r.
  unfold utext. rewrite uint_nodot. destruct (z <? 0)%Z; reflexivity.
Qed.

(* integers under the integer type: the key is strconv.FormatInt *)
Lemma simple_key_int_iff w x y :
  simple_key w TInt (HInt x) = simple_key w TInt (HInt y) <-> sql_eq w (HInt x) (HInt y) = true.
Proof.
  cbn. rewrite Z.eqb_eq. split; [intros E; injection E as E; apply int_text_inj; exact E|intros ->; reflexivity].
Qed.

(* integers under DECIMAL(65,sc), inside the bound of the type: converted to a decimal with exponent 0, printed without
   a '.', so nothing is trimmed *)
Lemma dec_simple_text_int sc z : (Z.to_N (Z.abs z) < 10 ^ (65 - sc))%N -> dec_simple_text sc z 0 = dec_text z 0.
Proof.
  intros Hb. unfold dec_simple_text, dec_convert.
  assert (E1 : (sc <? 0) = false) by (apply N.ltb_ge; lia). rewrite E1.
  rewrite N.add_0_r. assert (E2 : (10 ^ (65 - sc) <=? Z.to_N (Z.abs z)) = false) by (apply N.leb_gt; exact Hb).
  rewrite E2. unfold simple_trim.
  assert (E3 : sdec_text (z <? 0)%Z (Z.to_N (Z.abs z)) 0 = dec_text z 0) by reflexivity.
  rewrite E3, dec_text0_nodot. reflexivity.
Qed.

Lemma simple_key_int_as_decimal_iff w sc x y :
  (Z.to_N (Z.abs x) < 10 ^ (65 - sc))%N -> (Z.to_N (Z.abs y) < 10 ^ (65 - sc))%N ->
  (simple_key w (TDec sc) (HInt x) = simple_key w (TDec sc) (HInt y) <-> sql_eq w (HInt x) (HInt y) = true).
Proof.
  intros Hx Hy. cbn [simple_key sql_eq]. rewrite !dec_simple_text_int by assumption. rewrite Z.eqb_eq. split.
  - intros E. injection E as E. apply (dec_text_inj x y 0). exact E.
  - intros ->. reflexivity.
Qed.

(* collated strings: HashOfSimple hashes the weight string, as HashOf does with a schema *)
Lemma simple_key_text_iff w : (forall c, (w c < 4294967296)%N) -> forall a b,
  simple_key w TText (HStr a) = simple_key w TText (HStr b) <-> sql_eq w (HStr a) (HStr b) = true.
Proof.
  intros Hw a b. rewrite <- (key_str_schema_iff w Hw). cbn. split; [intros E; injection E as E; exact E|intros ->; reflexivity].
Qed.

(* trailing zeros are trimmed: numerically equal decimals of different scale, and an integer against a decimal, do
   collapse here (they do not under HashOf) *)
Example simple_key_collapses w :
  simple_key w (TDec 30) (HDec 100 2) = simple_key w (TDec 30) (HDec 10000 4) /\
  simple_key w (TDec 30) (HInt 1) = simple_key w (TDec 30) (HDec 100 2) /\
  simple_key w (TDec 30) (HDec 0 2) = simple_key w (TDec 30) (HInt 0) /\
  simple_key w (TDec 30) (HDec 150 2) <> simple_key w (TDec 30) (HDec 15 2).
Proof. repeat split; try (vm_compute; reflexivity). vm_compute. discriminate. Qed.

(* outside the guard: at or beyond 10^(65-sc) the conversion fails and the value is hashed as 0 *)
Lemma simple_key_overflow_refuted w :
  exists a b, sql_eq w a b = false /\ simple_key w (TDec 30) a = simple_key w (TDec 30) b.
Proof. exists (HDec (10 ^ 36) 0), (HInt 0). split; vm_compute; reflexivity. Qed.

(* outside the guard: more fraction digits than the type are rounded away; a negative value that rounds to zero keeps
   its sign and is hashed as "-0" *)
Lemma simple_key_rounding_refuted w :
  (exists a b, sql_eq w a b = false /\ simple_key w (TDec 1) a = simple_key w (TDec 1) b) /\
  simple_key w (TDec 2) (HDec (-4) 3) = Some [45; 48] /\ simple_key w (TDec 2) (HDec 0 2) = Some [48].
Proof.
  split; [exists (HDec 125 2), (HDec 13 1); split; vm_compute; reflexivity|]. split; vm_compute; reflexivity.
Qed.

From GMS Require Import Phys.C07RowKeyProofs.
Local Open Scope nat_scope.

Lemma rows_classes_are_keys w sch (l : list (list hv)) :
  (forall c, (w c < 4294967296)%N) ->
  (forall x y, In x l -> In y l -> rows_ok w sch x y) ->
  forall x y, In x l -> In y l -> (rows_eqb w x y = true <-> row_key w sch x = row_key w sch y).
Proof. intros Hw H x y Hx Hy. symmetry. apply row_key_injective_on_classes; auto. Qed.

Theorem intersect_all_rows_is_min w sch ls rs a :
  (forall c, (w c < 4294967296)%N) ->
  (forall x y, In x (ls ++ rs) -> In y (ls ++ rs) -> rows_ok w sch x y) -> In a (ls ++ rs) ->
  ccount (rows_eqb w) a (intersect_all (row_key w sch) bytes_eqb ls rs) =
  Nat.min (ccount (rows_eqb w) a ls) (ccount (rows_eqb w) a rs).
Proof.
  intros Hw Hok Ha. apply (intersect_all_is_min (row_key w sch) bytes_eqb bytes_eqb_spec); [|exact Ha].
  apply rows_classes_are_keys; assumption.
Qed.

Theorem except_all_rows_is_monus w sch ls rs a :
  (forall c, (w c < 4294967296)%N) ->
  (forall x y, In x (ls ++ rs) -> In y (ls ++ rs) -> rows_ok w sch x y) -> In a (ls ++ rs) ->
  (forall x, In x ls -> row_key w sch x <> row_key w sch []) ->
  ccount (rows_eqb w) a (except_all (row_key w sch) bytes_eqb (row_key w sch []) ls rs) =
  ccount (rows_eqb w) a ls - ccount (rows_eqb w) a rs.
Proof.
  intros Hw Hok Ha Hnil. apply (except_all_is_monus (row_key w sch) bytes_eqb bytes_eqb_spec); [|exact Ha|exact Hnil].
  apply rows_classes_are_keys; assumption.
Qed.
