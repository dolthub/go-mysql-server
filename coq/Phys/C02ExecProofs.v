(* C02 — the executor of Phys/C02Exec.v agrees with the SQL definition of Rel/C02Logical.v: the plan of a query of
   the covered fragment returns rows exactly when the definition assigns rows to the query, and then these rows in
   the same order; it fails exactly when the definition raises an error.  Every iterator but one is the
   definition's combinator, errors included; the streaming group-by meets errors in another order, so the
   comparison is up to the identity of the error ([agree]).  Per-operator lemmas first, then one structural
   induction on the query. *)
From Coq Require Import List ZArith NArith Bool Lia Permutation Arith.
Import ListNotations.
From GMS Require Import Base.ListFacts Rel.C02Logical Rel.C02LogicalProofs Phys.C02Exec.
Open Scope Z_scope.

Definition sub {A B} (f g : A -> res B) : Prop := forall x v, f x = Ok v -> g x = Ok v.

Lemma mapM_map {A B C} (f : B -> res C) (g : A -> B) l : mapM f (map g l) = mapM (fun x => f (g x)) l.
Proof. induction l as [|x t IH]; cbn; [reflexivity|]. rewrite IH. reflexivity. Qed.

Lemma mapM_fmap {A B C} (f : A -> res B) (h : B -> C) l :
  mapM (fun x => do y <- f x; Ok (h y)) l = do ys <- mapM f l; Ok (map h ys).
Proof.
  induction l as [|x t IH]; cbn; [reflexivity|]. rewrite IH.
  destruct (f x); cbn; [|reflexivity]. destruct (mapM f t); reflexivity.
Qed.

Lemma bind_assoc {A B C} (x : res A) (f : A -> res B) (g : B -> res C) :
  bind (bind x f) g = do a <- x; bind (f a) g.
Proof. destruct x; reflexivity. Qed.

Lemma bind_ret {A} (x : res A) : bind x Ok = x.
Proof. destruct x; reflexivity. Qed.

Lemma foldM_app {A B} (f : B -> A -> res B) l1 l2 b :
  foldM f (l1 ++ l2) b = bind (foldM f l1 b) (foldM f l2).
Proof.
  revert b. induction l1 as [|x t IH]; cbn; intros b; [reflexivity|].
  destruct (f b x) as [b'|e]; cbn; [apply IH|reflexivity].
Qed.

(* Two computations agree when they return the same value or both fail.  Which error is raised is not
   compared: the streaming group-by meets errors in another order than the definition. *)
Definition agree {A} (x y : res A) : Prop := forall v, x = Ok v <-> y = Ok v.

Lemma agree_refl {A} (x : res A) : agree x x.
Proof. intros v. reflexivity. Qed.

Lemma agree_sym {A} (x y : res A) : agree x y -> agree y x.
Proof. intros H v. symmetry. apply H. Qed.

Lemma agree_trans {A} (x y z : res A) : agree x y -> agree y z -> agree x z.
Proof. intros H1 H2 v. rewrite (H1 v). apply H2. Qed.

Lemma agree_err {A} e (y : res A) : agree (Err e) y <-> exists e', y = Err e'.
Proof.
  split.
  - intros H. destruct y as [b|e']; [|eauto]. discriminate (proj2 (H b) eq_refl).
  - intros [e' ->] v. split; discriminate.
Qed.

Lemma agree_bind {A B} (x y : res A) (f g : A -> res B) :
  agree x y -> (forall a, y = Ok a -> agree (f a) (g a)) -> agree (bind x f) (bind y g).
Proof.
  intros H Hf. destruct y as [b|e'].
  - rewrite (proj2 (H b) eq_refl). exact (Hf b eq_refl).
  - apply agree_sym, agree_err in H. destruct H as [e ->]. apply agree_err. cbn. eauto.
Qed.

Lemma agree_bind_l {A B} (x y : res A) (f : A -> res B) : agree x y -> agree (bind x f) (bind y f).
Proof. intros H. exact (agree_bind _ _ _ _ H (fun _ _ => agree_refl _)). Qed.

Lemma agree_bind_both {A B C} (x x' : res A) (y y' : res B) (f : A -> B -> res C) :
  agree x x' -> agree y y' -> agree (do a <- x; do b <- y; f a b) (do a <- x'; do b <- y'; f a b).
Proof.
  intros Hx Hy. apply agree_bind; [exact Hx|intros a _]. apply agree_bind_l, Hy.
Qed.

(* the same, the first computation of the left side being itself a sequence *)
Lemma agree_bind2 {A B C} (x : res A) (f : A -> res B) (y : res B) (g : B -> res C) :
  agree (bind x f) y -> agree (do a <- x; do b <- f a; g b) (bind y g).
Proof. intros H. rewrite <- bind_assoc. apply agree_bind_l, H. Qed.

Lemma agree_fails {A} (x y : res A) : agree x y -> ((exists e, x = Err e) <-> (exists e, y = Err e)).
Proof.
  intros H. split; intros [e E]; rewrite E in H; [|apply agree_sym in H]; apply agree_err in H; exact H.
Qed.

Lemma mapM_agree {A B} (f g : A -> res B) l :
  (forall x, In x l -> agree (f x) (g x)) -> agree (mapM f l) (mapM g l).
Proof.
  induction l as [|x t IH]; intros H; [apply agree_refl|]. cbn [mapM].
  apply agree_bind; [exact (H x (or_introl eq_refl))|intros y _].
  apply agree_bind_l, IH. intros z Hz. apply H. right. exact Hz.
Qed.

Lemma filterM_agree {A} (p q : A -> res bool) l :
  (forall x, agree (p x) (q x)) -> agree (filterM p l) (filterM q l).
Proof.
  intros H. induction l as [|x t IH]; [apply agree_refl|]. cbn [filterM].
  apply agree_bind; [exact (H x)|intros b _].
  apply agree_bind_l, IH.
Qed.

Lemma inner_join_agree p q L R : (forall x, agree (p x) (q x)) -> agree (inner_join p L R) (inner_join q L R).
Proof.
  intros H. apply agree_bind_l, mapM_agree. intros l _. apply agree_bind_l, filterM_agree. intros r. apply H.
Qed.

Lemma outer_join_agree {O I} p q (comb : O -> I -> row) pad outer inner :
  (forall x, agree (p x) (q x)) -> agree (outer_join p comb pad outer inner) (outer_join q comb pad outer inner).
Proof.
  intros H. apply agree_bind_l, mapM_agree. intros o _. apply agree_bind_l, filterM_agree. intros i. apply H.
Qed.

Lemma holds_agree (v w : res val) : agree v w -> agree (holds v) (holds w).
Proof. apply agree_bind_l. Qed.

Lemma cond_true_holds v : cond_true v = holds v.
Proof.
  unfold cond_true, holds. destruct v as [x|e]; cbn; [|reflexivity].
  destruct x as [|z|m s|b]; cbn; try reflexivity.
  - destruct (Z.eqb z 0); reflexivity.
  - destruct (Z.eqb m 0); reflexivity.
Qed.

Lemma filter_iter_eq f rows : filter_iter f rows = filterM (fun rw => holds (f rw)) rows.
Proof. induction rows as [|rw t IH]; cbn; [reflexivity|]. rewrite cond_true_holds, IH. reflexivity. Qed.

Lemma filter_iter_true (ev : row -> res val) rows kept :
  filter_iter ev rows = Ok kept -> forall rw, In rw kept <-> (In rw rows /\ cond_true (ev rw) = Ok true).
Proof. rewrite filter_iter_eq. intros H rw. rewrite cond_true_holds. exact (filterM_In _ _ _ H rw). Qed.

Lemma project_iter_eq pr rows : project_iter pr rows = mapM pr rows.
Proof. induction rows as [|rw t IH]; cbn; [reflexivity|]. rewrite IH. reflexivity. Qed.

(* the scan of the secondary rows for one primary row: the matches, or the padded row when a left outer join
   has found none *)
Lemma join_scan_eq f lo wr l R : forall found,
  join_scan f lo wr l R found =
  (do ms <- filterM (fun r => holds (f (l ++ r))) R;
   Ok (match ms with [] => if lo && negb found then [l ++ nulls wr] else [] | _ => map (app l) ms end)).
Proof.
  induction R as [|r t IH]; intros found; cbn [join_scan filterM bind]; [reflexivity|].
  rewrite cond_true_holds. destruct (holds (f (l ++ r))) as [b|e]; cbn [bind]; [|reflexivity].
  destruct b; rewrite IH; destruct (filterM (fun r0 => holds (f (l ++ r0))) t) as [[|m ms]|e]; cbn [bind map]; try reflexivity.
  rewrite andb_false_r. reflexivity.
Qed.

Lemma join_iter_eq f lo wr L R :
  join_iter f lo wr L R =
  if lo then outer_join (fun rw => holds (f rw)) (fun l r => l ++ r) (fun l => l ++ nulls wr) L R
  else inner_join (fun rw => holds (f rw)) L R.
Proof.
  unfold outer_join, inner_join. induction L as [|l t IH]; cbn [join_iter mapM bind]; [destruct lo; reflexivity|].
  rewrite join_scan_eq, IH.
  destruct lo; (destruct (filterM (fun r => holds (f (l ++ r))) R) as [ms|e]; cbn [bind]; [|reflexivity]);
    match goal with |- context [mapM ?F t] => destruct (mapM F t) as [ps|e] end; cbn [bind concat]; try reflexivity.
  destruct ms; reflexivity.
Qed.

Lemma cross_join_ok L R : inner_join (fun _ => Ok true) L R = Ok (cross_iter L R).
Proof.
  unfold inner_join, cross_iter. rewrite (mapM_pure _ (fun l => map (app l) R)).
  - cbn. rewrite flat_map_concat_map. reflexivity.
  - intros l _. rewrite (filterM_pure _ (fun _ => true)) by reflexivity. cbn [bind]. f_equal. f_equal.
    induction R as [|r t IH]; cbn; [reflexivity|]. f_equal. exact IH.
Qed.

(* the transposed right join: B LEFT JOIN A on physical rows r ++ l with the re-indexed condition, then
   transposed, is A RIGHT JOIN B *)
Lemma transpose_app wr r l : length r = wr -> transpose_row wr (r ++ l) = l ++ r.
Proof.
  intros <-. unfold transpose_row. rewrite skipn_app, firstn_app, Nat.sub_diag, skipn_all, firstn_all.
  cbn. rewrite app_nil_r. reflexivity.
Qed.

Lemma filterM_ext {A} (p p' : A -> res bool) l : (forall x, p x = p' x) -> filterM p l = filterM p' l.
Proof. intros H. induction l as [|x t IH]; cbn; [reflexivity|]. rewrite H, IH. reflexivity. Qed.

Lemma transposed_join f wl wr L R :
  (forall r, In r R -> length r = wr) ->
  (do rows <- join_iter (fun x => f (transpose_row wr x)) true wl R L; Ok (map (transpose_row wr) rows)) =
  outer_join (fun rw => holds (f rw)) (fun r l => l ++ r) (fun r => nulls wl ++ r) R L.
Proof.
  intros HW. unfold outer_join. induction R as [|r t IH]; [reflexivity|].
  assert (T : forall l, transpose_row wr (r ++ l) = l ++ r)
    by (intros l; apply transpose_app, HW; left; reflexivity).
  specialize (IH (fun r' Hr' => HW r' (or_intror Hr'))).
  cbn [join_iter mapM]. rewrite join_scan_eq.
  rewrite (filterM_ext _ (fun l => holds (f (l ++ r))) L) by (intros l; rewrite T; reflexivity).
  destruct (filterM (fun l => holds (f (l ++ r))) L) as [ms|e]; cbn [bind]; [|reflexivity].
  destruct (join_iter (fun x => f (transpose_row wr x)) true wl t L) as [rows|e]; match type of IH with _ = bind ?M _ => destruct M as [ps|e'] end;
    cbn [bind] in *; try discriminate; [|exact IH].
  injection IH as IH. cbn [concat]. rewrite map_app, IH. f_equal. f_equal.
  destruct ms as [|m ms]; cbn [map andb negb]; [rewrite T; reflexivity|].
  rewrite T, map_map. f_equal. apply map_ext. exact T.
Qed.

Lemma distinct_iter_dedup seen rows : distinct_iter (map nrow seen) rows = dedup_acc row_eqb seen rows.
Proof.
  revert seen. induction rows as [|rw t IH]; cbn; intros seen; [reflexivity|].
  rewrite existsb_map. unfold mem.
  change (existsb (fun x => row_beq (nrow rw) (nrow x)) seen) with (existsb (row_eqb rw) seen).
  destruct (existsb (row_eqb rw) seen).
  - apply IH.
  - f_equal. apply (IH (rw :: seen)).
Qed.

Lemma distinct_iter_ok rows : distinct_iter [] rows = dedup row_eqb rows.
Proof. exact (distinct_iter_dedup [] rows). Qed.

Lemma limit_iter_firstn rows : forall pos n, limit_iter pos n rows = firstn (n - pos) rows.
Proof.
  induction rows as [|x t IH]; intros pos n; cbn [limit_iter].
  - rewrite firstn_nil. reflexivity.
  - destruct (Nat.leb n pos) eqn:E.
    + apply Nat.leb_le in E. replace (n - pos)%nat with O by lia. reflexivity.
    + apply Nat.leb_gt in E. destruct (n - pos)%nat as [|k] eqn:E2; [lia|]. cbn [firstn]. f_equal.
      rewrite IH. f_equal. lia.
Qed.

Lemma offset_iter_skipn rows : forall k, offset_iter k rows = skipn k rows.
Proof.
  induction rows as [|x t IH]; intros k; cbn.
  - destruct k; reflexivity.
  - destruct k; cbn; [reflexivity|apply IH].
Qed.

Lemma limit_offset_ok n off rows : limit_iter O n (offset_iter off rows) = firstn n (skipn off rows).
Proof. rewrite limit_iter_firstn, offset_iter_skipn, Nat.sub_0_r. reflexivity. Qed.

Definition flag (found sawnull : bool) : tri := if found then TT else if sawnull then TN else TF.

Lemma in_loop_spec x ys : forall found sawnull,
  in_loop x ys found sawnull =
  (do ts <- mapM (cmp3 OEq x) ys; Ok (or3 (flag found sawnull) (fold_right or3 TF ts))).
Proof.
  induction ys as [|y t IH]; cbn [in_loop mapM]; intros f n.
  - cbn. destruct f, n; reflexivity.
  - destruct (cmp3 OEq x y) as [c|e]; cbn [bind]; [|reflexivity].
    destruct c; rewrite IH; destruct (mapM (cmp3 OEq x) t) as [ts|e]; cbn; try reflexivity;
      destruct f, n, (fold_right or3 TF ts); reflexivity.
Qed.

Lemma in_loop_in3 x ys : in_loop x ys false false = in3 x ys.
Proof.
  rewrite in_loop_spec. unfold in3. destruct (mapM (cmp3 OEq x) ys) as [ts|e]; cbn; [|reflexivity].
  destruct (fold_right or3 TF ts); reflexivity.
Qed.

Lemma non_null_cons v t : non_null (v :: t) = if is_null v then non_null t else v :: non_null t.
Proof. destruct v; reflexivity. Qed.

(* the definition folds an accumulator of type [res]; a buffer stops at the first error *)
Lemma fold_left_bind {A B} (g : B -> A -> res B) l x :
  fold_left (fun acc v => do a <- acc; g a v) l x = do a <- x; foldM g l a.
Proof.
  revert x. induction l as [|v t IH]; intros x; cbn [fold_left foldM]; [symmetry; apply bind_ret|].
  rewrite IH. apply bind_assoc.
Qed.

Definition add_num (a : Z * nat) (v : val) : res (Z * nat) :=
  match num_of v with Some b => Ok (num_add a b) | None => Err ErrType end.
Definition pick_one (want : comparison) (a v : val) : res val :=
  do c <- cmp_nn v a; Ok (if comp_eqb c want then v else a).

Lemma sum_stream args : forall isnil acc,
  foldM (buf_update ASum) args (BSum isnil acc) =
  do r <- foldM add_num (non_null args) acc; Ok (BSum (match non_null args with [] => isnil | _ => false end) r).
Proof.
  induction args as [|v t IH]; intros isnil acc; [reflexivity|].
  rewrite non_null_cons. cbn [foldM buf_update]. destruct (is_null v); [apply IH|].
  cbn [foldM]. unfold add_num at 1. destruct (num_of v); cbn [bind]; [|reflexivity].
  rewrite IH. destruct (non_null t); reflexivity.
Qed.

Lemma avg_stream args : forall acc n,
  foldM (buf_update AAvg) args (BAvg acc n) =
  do r <- foldM add_num (non_null args) acc; Ok (BAvg r (n + Z.of_nat (length (non_null args)))).
Proof.
  induction args as [|v t IH]; intros acc n; [cbn; rewrite Z.add_0_r; reflexivity|].
  rewrite non_null_cons. cbn [foldM buf_update]. destruct (is_null v); [apply IH|].
  cbn [foldM]. unfold add_num at 1. destruct (num_of v); cbn [bind]; [|reflexivity].
  rewrite IH. cbn [length]. rewrite Nat2Z.inj_succ, <- Z.add_1_l, Z.add_assoc. reflexivity.
Qed.

(* MIN / MAX: the current extreme is the head of the values still to be compared *)
Lemma ext_stream f want :
  (forall cur v, buf_update f (BExt cur) v = ext_update want cur v) ->
  forall args cur,
  foldM (buf_update f) args (BExt cur) =
  match (match cur with Some a => [a] | None => [] end) ++ non_null args with
  | [] => Ok (BExt None)
  | v :: t => do r <- foldM (pick_one want) t v; Ok (BExt (Some r))
  end.
Proof.
  intros Hf. induction args as [|v t IH]; intros cur; [destruct cur; reflexivity|].
  rewrite non_null_cons. cbn [foldM]. rewrite Hf. unfold ext_update. destruct (is_null v); [apply IH|].
  destruct cur as [a|]; cbn [bind app foldM]; [|apply IH].
  unfold pick_one at 1. destruct (cmp_nn v a); cbn [bind]; [apply IH|reflexivity].
Qed.

Lemma count_star_stream (args : list val) : forall n,
  foldM (buf_update ACountStar) args (BCount n) = Ok (BCount (n + Z.of_nat (length args))).
Proof.
  induction args as [|v t IH]; intros n; cbn [foldM buf_update bind length].
  - rewrite Z.add_0_r. reflexivity.
  - rewrite IH. f_equal. f_equal. lia.
Qed.

Lemma count_stream (args : list val) : forall n,
  foldM (buf_update ACount) args (BCount n) = Ok (BCount (n + Z.of_nat (length (non_null args)))).
Proof.
  induction args as [|v t IH]; intros n.
  - cbn. rewrite Z.add_0_r. reflexivity.
  - rewrite non_null_cons. cbn [foldM buf_update bind]. rewrite IH. destruct (is_null v); cbn [length]; f_equal; f_equal; lia.
Qed.

Lemma count_distinct_stream (args : list val) : forall seen,
  exists seen', foldM (buf_update ACountDistinct) args (BDistinct seen) = Ok (BDistinct seen') /\
                length seen' = (length seen + length (dedup_acc val_eqb seen (non_null args)))%nat.
Proof.
  induction args as [|v t IH]; intros seen.
  - exists seen. cbn. split; [reflexivity|lia].
  - rewrite non_null_cons. cbn [foldM buf_update bind]. destruct (is_null v) eqn:N; cbn [orb].
    + apply IH.
    + cbn [dedup_acc]. destruct (mem val_eqb v seen).
      * apply IH.
      * destruct (IH (v :: seen)) as (s' & E & L). exists s'. split; [exact E|]. cbn [length] in *. lia.
Qed.

Lemma sum_vals_foldM vs : sum_vals vs = foldM add_num vs (0, O).
Proof. unfold sum_vals. rewrite (fold_left_bind add_num). reflexivity. Qed.

Lemma pick_foldM want t v : pick want t v = foldM (pick_one want) t v.
Proof. unfold pick. rewrite (fold_left_bind (pick_one want)). reflexivity. Qed.

Lemma agg_stream f args : (do b <- foldM (buf_update f) args (buf_init f); Ok (buf_eval b)) = agg f args.
Proof.
  destruct f; cbn [agg buf_init]; rewrite ?sum_vals_foldM.
  - rewrite count_star_stream. reflexivity.
  - rewrite count_stream. reflexivity.
  - destruct (count_distinct_stream args []) as (s' & -> & L). cbn. rewrite L. reflexivity.
  - rewrite sum_stream. destruct (non_null args) as [|v t]; [reflexivity|].
    destruct (foldM add_num (v :: t) (0, O)) as [[m s]|e]; reflexivity.
  - rewrite (ext_stream AMin Lt (fun _ _ => eq_refl)). cbn [app]. destruct (non_null args) as [|v t]; [reflexivity|].
    rewrite pick_foldM. destruct (foldM (pick_one Lt) t v); reflexivity.
  - rewrite (ext_stream AMax Gt (fun _ _ => eq_refl)). cbn [app]. destruct (non_null args) as [|v t]; [reflexivity|].
    rewrite pick_foldM. destruct (foldM (pick_one Gt) t v); reflexivity.
  - rewrite avg_stream. destruct (non_null args) as [|v t]; [reflexivity|].
    destruct (foldM add_num (v :: t) (0, O)) as [[m s]|e]; [|reflexivity].
    cbn [bind buf_eval length]. rewrite Z.add_0_l.
    destruct (Z.eqb_spec (Z.of_nat (S (length t))) 0) as [E|_]; [lia|reflexivity].
Qed.

Section GroupBy.
  Context {E : Type}.
  Variables ev ev' : row -> E -> res val.

  (* the definition's aggregate values of a group with members [ms] *)
  Definition def_avs (aggsE : list (aggfn * E)) (ms : list row) : res (list val) :=
    mapM (fun fe : aggfn * E => do args <- mapM (fun rw => ev rw (snd fe)) ms; agg (fst fe) args) aggsE.
  Definition paggs (aggsE : list (aggfn * E)) : list pagg :=
    map (fun fe : aggfn * E => (fst fe, fun rw => ev' rw (snd fe))) aggsE.
End GroupBy.

(* the buffers after feeding the members of a group, row by row *)
Definition bufs_of (aggs : list pagg) (ms : list row) : res (list buf) :=
  foldM (fun bufs rw => update_buffers aggs rw bufs) ms (new_buffers aggs).

(* the group table once the rows of the groups [gs] have gone by *)
Definition table_of (aggs : list pagg) (gs : list (row * list row)) : res gstate :=
  mapM (fun g => do b <- bufs_of aggs (snd g); Ok (fst g, b)) gs.

Lemma bufs_of_snoc aggs ms rw :
  bufs_of aggs (ms ++ [rw]) = do b <- bufs_of aggs ms; update_buffers aggs rw b.
Proof.
  unfold bufs_of. rewrite foldM_app. cbn [foldM].
  destruct (foldM _ ms (new_buffers aggs)); cbn [bind]; [apply bind_ret|reflexivity].
Qed.

(* one row more: get-or-create on the table is [group_insert] on the groups.  The two sides meet the errors of
   the groups in different orders, hence the case analysis on which parts fail. *)
Lemma upsert_table aggs k rw gs :
  agree (do st <- table_of aggs gs; upsert aggs k rw st) (table_of aggs (group_insert k rw gs)).
Proof.
  unfold table_of. induction gs as [|[k' ms] t IH]; cbn [mapM group_insert upsert bind fst snd].
  - unfold bufs_of. cbn [foldM]. destruct (update_buffers aggs rw (new_buffers aggs)); apply agree_refl.
  - destruct (row_eqb k k') eqn:K; cbn [mapM fst snd]; [rewrite bufs_of_snoc|];
      destruct (bufs_of aggs ms) as [b|e]; cbn [bind]; try (apply agree_err; eauto).
    + destruct (mapM _ t) as [t'|e]; cbn [bind upsert]; rewrite ?K;
        destruct (update_buffers aggs rw b); cbn [bind]; try apply agree_refl; apply agree_err; eauto.
    + refine (agree_trans _ (do t' <- _; Ok ((k', b) :: t')) _ _
                (agree_bind_l _ _ _ IH)).
      destruct (mapM _ t) as [t'|e]; cbn [bind upsert]; [rewrite K|]; apply agree_refl.
Qed.

Lemma gb_compute_table aggs kf kept : forall gs,
  agree (do st <- table_of aggs gs; gb_compute kf aggs kept st)
        (do keyed <- mapM (fun rw => do k <- kf rw; Ok (k, rw)) kept;
         table_of aggs (fold_left (fun gs kr => group_insert (fst kr) (snd kr) gs) keyed gs)).
Proof.
  induction kept as [|rw t IH]; intros gs; cbn [gb_compute mapM bind fold_left].
  - rewrite bind_ret. apply agree_refl.
  - destruct (kf rw) as [k|e]; cbn [bind].
    + rewrite bind_assoc. cbn [bind fold_left fst snd].
      exact (agree_trans _ _ _ (agree_bind2 _ _ _ _ (upsert_table aggs k rw gs))
                         (IH (group_insert k rw gs))).
    + destruct (table_of aggs gs); apply agree_err; eauto.
Qed.

(* the buffers of several aggregates, updated row by row, are the buffers of each aggregate over all rows *)
Lemma zip_fold (a : pagg) (aggs : list pagg) ms : forall b0 bs0,
  agree (foldM (fun bufs rw => update_buffers (a :: aggs) rw bufs) ms (b0 :: bs0))
        (do b <- foldM (fun b rw => do v <- snd a rw; buf_update (fst a) b v) ms b0;
         do bs <- foldM (fun bufs rw => update_buffers aggs rw bufs) ms bs0; Ok (b :: bs)).
Proof.
  induction ms as [|rw t IH]; intros b0 bs0; cbn [foldM update_buffers bind]; [apply agree_refl|].
  destruct (snd a rw) as [v|e]; cbn [bind]; [|apply agree_refl].
  destruct (buf_update (fst a) b0 v) as [b1|e]; cbn [bind]; [|apply agree_refl].
  destruct (update_buffers aggs rw bs0) as [bs1|e]; cbn [bind]; [apply IH|].
  apply agree_err. destruct (foldM _ t b1); cbn [bind]; eauto.
Qed.

Lemma bufs_of_nil ms : bufs_of [] ms = Ok [].
Proof. unfold bufs_of. induction ms as [|rw t IH]; cbn; [reflexivity|exact IH]. Qed.

Lemma bufs_of_cons (a : pagg) aggs ms :
  agree (do bufs <- bufs_of (a :: aggs) ms; Ok (eval_buffers bufs))
        (do av <- (do b <- foldM (fun b rw => do v <- snd a rw; buf_update (fst a) b v) ms (buf_init (fst a));
                   Ok (buf_eval b));
         do avs <- (do bs <- bufs_of aggs ms; Ok (eval_buffers bs)); Ok (av :: avs)).
Proof.
  unfold bufs_of. change (new_buffers (a :: aggs)) with (buf_init (fst a) :: new_buffers aggs).
  refine (agree_trans _ _ _ (agree_bind_l _ _ _ (zip_fold a aggs ms _ _)) _).
  destruct (foldM _ ms (buf_init (fst a))), (foldM _ ms (new_buffers aggs)); apply agree_refl.
Qed.

(* a buffer fed row by row with the values of its expression = fed with the column of these values *)
Lemma col_fold f (c : row -> res val) ms : forall b0,
  agree (foldM (fun b rw => do v <- c rw; buf_update f b v) ms b0)
        (do args <- mapM c ms; foldM (buf_update f) args b0).
Proof.
  induction ms as [|rw t IH]; intros b0; cbn [mapM foldM bind]; [apply agree_refl|].
  destruct (c rw) as [v|e0]; cbn [bind]; [|apply agree_refl].
  destruct (buf_update f b0 v) as [b1|e1] eqn:U; cbn [bind].
  - refine (agree_trans _ _ _ (IH b1) _).
    destruct (mapM c t); cbn [bind foldM]; [rewrite U|]; apply agree_refl.
  - apply agree_err. destruct (mapM c t); cbn [bind foldM]; [rewrite U|]; cbn [bind]; eauto.
Qed.

Lemma col_agg f (c : row -> res val) ms :
  agree (do b <- foldM (fun b rw => do v <- c rw; buf_update f b v) ms (buf_init f); Ok (buf_eval b))
        (do args <- mapM c ms; agg f args).
Proof.
  refine (agree_trans _ _ _ (agree_bind_l _ _ _ (col_fold f c ms _)) _).
  rewrite bind_assoc. apply agree_bind; [apply agree_refl|intros args _]. rewrite agg_stream. apply agree_refl.
Qed.

Section GroupByIter.
  Context {E : Type}.
  Variable ev : row -> E -> res val.

  Lemma group_cols aggsE ms :
    agree (do bufs <- bufs_of (paggs ev aggsE) ms; Ok (eval_buffers bufs)) (def_avs ev aggsE ms).
  Proof.
    induction aggsE as [|[f e] t IH]; [rewrite bufs_of_nil; apply agree_refl|].
    exact (agree_trans _ _ _ (bufs_of_cons (f, fun rw => ev rw e) (paggs ev t) ms)
             (agree_bind _ _ _ _ (col_agg f (fun rw => ev rw e) ms)
                (fun av _ => agree_bind_l _ _ (fun avs => Ok (av :: avs)) IH))).
  Qed.

  Lemma table_rows aggsE gs :
    agree (do st <- table_of (paggs ev aggsE) gs; Ok (map (fun s => fst s ++ eval_buffers (snd s)) st))
          (mapM (fun g : row * list row => do avs <- def_avs ev aggsE (snd g); Ok (fst g ++ avs)) gs).
  Proof.
    unfold table_of. rewrite <- (mapM_fmap _ (fun s : row * list buf => fst s ++ eval_buffers (snd s))).
    apply mapM_agree. intros g _. rewrite bind_assoc.
    exact (agree_bind2 _ _ _ (fun avs => Ok (fst g ++ avs)) (group_cols aggsE (snd g))).
  Qed.

  Theorem group_by_agree aggsE kf n kept :
    agree (group_by_iter kf (paggs ev aggsE) n kept)
          (do keyed <- mapM (fun rw => do k <- kf rw; Ok (k, rw)) kept;
           mapM (fun g : row * list row => do avs <- def_avs ev aggsE (snd g); Ok (fst g ++ avs)) (groups_of n keyed)).
  Proof.
    unfold group_by_iter, groups_of.
    refine (agree_trans _ _ _ (agree_bind_l _ _ _ (gb_compute_table _ kf kept [])) _).
    rewrite bind_assoc. apply agree_bind; [apply agree_refl|intros keyed _].
    destruct (fold_left _ keyed []) as [|g gs].
    - destruct n; [|apply agree_refl]. cbn [table_of mapM bind snd fst app].
      rewrite (proj1 (group_cols aggsE [] _) eq_refl). apply agree_refl.
    - refine (agree_trans _ _ _ _ (agree_trans _ _ _ (table_rows aggsE (g :: gs)) _)); [|destruct n; apply agree_refl].
      apply agree_bind; [apply agree_refl|intros st Hst]. apply mapM_length in Hst.
      destruct st; [discriminate|destruct n; apply agree_refl].
  Qed.
End GroupByIter.

(* the same in one direction, for evaluators that return at least what the definition's evaluators return *)
Lemma bind_mono {A B} (x y : res A) (f : A -> res B) v :
  (forall a, x = Ok a -> y = Ok a) -> bind x f = Ok v -> bind y f = Ok v.
Proof. intros S H. inv_bind H. rewrite (S _ Ha). exact H. Qed.

Lemma group_by_ok {E} (ev ev' : row -> E -> res val) aggsE (kf kf' : row -> res row) n kept keyed grows :
  sub kf kf' ->
  (forall fe, In fe aggsE -> sub (fun rw => ev rw (snd fe)) (fun rw => ev' rw (snd fe))) ->
  mapM (fun rw => do k <- kf rw; Ok (k, rw)) kept = Ok keyed ->
  mapM (fun g : row * list row => do avs <- def_avs ev aggsE (snd g); Ok (fst g ++ avs)) (groups_of n keyed) = Ok grows ->
  group_by_iter kf' (paggs ev' aggsE) n kept = Ok grows.
Proof.
  intros Sk Sa HM HG. apply (group_by_agree ev' aggsE kf' n kept).
  rewrite (mapM_sub _ (fun rw => do k <- kf' rw; Ok (k, rw)) _ _ (fun rw _ kr H => bind_mono _ _ _ _ (Sk rw) H) HM).
  cbn [bind]. refine (mapM_sub _ _ _ _ _ HG). intros g _ r. apply bind_mono. intros avs.
  apply mapM_sub. intros fe Hfe av. apply bind_mono. intros args. apply mapM_sub. intros rw _. apply (Sa fe Hfe).
Qed.

Lemma row_beqP a b : reflect (a = b) (row_beq a b).
Proof. apply iff_reflect. symmetry. apply row_beq_spec. Qed.

Lemma row_beq_refl a : row_beq a a = true.
Proof. apply row_beq_spec. reflexivity. Qed.

Lemma cache_get_add k k' c :
  cache_get k (cache_add k' c) = ((if row_beq k k' then 1 else 0) + cache_get k c)%nat.
Proof.
  induction c as [|[k'' n] t IH]; cbn [cache_add cache_get]; [destruct (row_beq k k'); reflexivity|].
  destruct (row_beqP k' k'') as [<-|N]; cbn [cache_get]; [destruct (row_beq k k'); reflexivity|].
  rewrite IH. destruct (row_beqP k k'') as [->|_]; [|reflexivity].
  destruct (row_beqP k'' k'); [congruence|reflexivity].
Qed.

Lemma cache_get_dec k k' c :
  cache_get k (cache_dec k' c) = (cache_get k c - (if row_beq k k' then 1 else 0))%nat.
Proof.
  induction c as [|[k'' n] t IH]; cbn [cache_dec cache_get]; [destruct (row_beq k k'); reflexivity|].
  destruct (row_beqP k' k'') as [<-|N]; cbn [cache_get]; [destruct (row_beq k k'); lia|].
  rewrite IH. destruct (row_beqP k k'') as [->|_]; [|reflexivity].
  destruct (row_beqP k'' k'); [congruence|lia].
Qed.

(* the cache holds, for every row, the number of rows of [r] with its identity *)
Definition counts (cache : list (row * nat)) (r : list row) : Prop :=
  forall x, cache_get (nrow x) cache = count row_eqb x r.

Lemma build_cache_counts r : counts (build_cache r) r.
Proof.
  intros x. unfold build_cache, count.
  assert (G : forall c, cache_get (nrow x) (fold_left (fun c rw => cache_add (nrow rw) c) r c) =
                        (cache_get (nrow x) c + length (filter (row_eqb x) r))%nat).
  { induction r as [|y t IH]; intros c; cbn [fold_left filter length]; [lia|].
    rewrite IH, cache_get_add. unfold row_eqb at 2. destruct (row_beq (nrow x) (nrow y)); cbn [length]; lia. }
  rewrite G. reflexivity.
Qed.

Lemma counts_mem cache r x : counts cache r ->
  mem row_eqb x r = match cache_get (nrow x) cache with O => false | S _ => true end.
Proof. intros C. rewrite (mem_count row_eqb), <- C. destruct (cache_get (nrow x) cache); reflexivity. Qed.

Lemma counts_dec cache r x : counts cache r -> mem row_eqb x r = true ->
  counts (cache_dec (nrow x) cache) (remove_one row_eqb x r).
Proof.
  intros C M y. rewrite cache_get_dec, (count_remove_one row_eqb row_eqb_sym row_eqb_trans), C, M, andb_true_r.
  reflexivity.
Qed.

Lemma intersect_scan_ok l : forall cache r, counts cache r -> intersect_scan cache l = inter_all row_eqb l r.
Proof.
  induction l as [|x t IH]; intros cache r C; cbn [intersect_scan inter_all]; [reflexivity|].
  pose proof (counts_dec cache r x C) as D. rewrite (counts_mem cache r x C) in *.
  destruct (cache_get (nrow x) cache); [apply IH; exact C|f_equal; apply IH, D; reflexivity].
Qed.

Lemma intersect_iter_ok l r : intersect_iter l r = inter_all row_eqb l r.
Proof. apply intersect_scan_ok, build_cache_counts. Qed.

Lemma except_scan_ok l : forall cache r, counts cache r -> except_scan cache l = except_all row_eqb l r.
Proof.
  induction l as [|x t IH]; intros cache r C; cbn [except_scan except_all]; [reflexivity|].
  pose proof (counts_dec cache r x C) as D. rewrite (counts_mem cache r x C) in *.
  destruct (cache_get (nrow x) cache); [f_equal; apply IH; exact C|apply IH, D; reflexivity].
Qed.

(* INTERSECT DISTINCT: the engine de-duplicates the output of IntersectIter; the definition de-duplicates the
   left rows that occur on the right.  Both keep the first occurrence of every row identity present on both sides. *)
Lemma mem_remove_one_other y x r : row_eqb y x = false -> mem row_eqb y (remove_one row_eqb x r) = mem row_eqb y r.
Proof.
  intros E. rewrite !(mem_count row_eqb), (count_remove_one row_eqb row_eqb_sym row_eqb_trans), E. cbn [andb].
  rewrite Nat.sub_0_r. reflexivity.
Qed.

Lemma dedup_inter l : forall seen r r0,
  (forall y, mem row_eqb y seen = false -> mem row_eqb y r = mem row_eqb y r0) ->
  dedup_acc row_eqb seen (inter_all row_eqb l r) =
  dedup_acc row_eqb seen (filter (fun x => mem row_eqb x r0) l).
Proof.
  induction l as [|x t IH]; intros seen r r0 H; cbn [inter_all filter]; [reflexivity|].
  destruct (mem row_eqb x seen) eqn:MS.
  - assert (H' : forall y, mem row_eqb y seen = false ->
                           mem row_eqb y (remove_one row_eqb x r) = mem row_eqb y r0).
    { intros y Hy. rewrite mem_remove_one_other; [exact (H y Hy)|].
      destruct (row_eqb y x) eqn:E; [|reflexivity].
      rewrite (mem_congr row_eqb row_eqb_sym row_eqb_trans y x seen E) in Hy. congruence. }
    destruct (mem row_eqb x r), (mem row_eqb x r0); cbn [dedup_acc]; rewrite ?MS; auto.
  - rewrite (H x MS). destruct (mem row_eqb x r0) eqn:M2.
    + cbn [dedup_acc]. rewrite MS. f_equal. apply IH. intros y Hy.
      rewrite (mem_cons row_eqb) in Hy. apply orb_false_elim in Hy. destruct Hy as [E Hy].
      rewrite mem_remove_one_other by exact E. exact (H y Hy).
    + apply IH. exact H.
Qed.

Lemma intersect_distinct_ok l r :
  distinct_iter [] (intersect_iter l r) = dedup row_eqb (filter (fun x => mem row_eqb x r) l).
Proof. rewrite distinct_iter_ok, intersect_iter_ok. unfold dedup. apply dedup_inter. reflexivity. Qed.

(* EXCEPT DISTINCT: both inputs are de-duplicated first *)
Lemma dedup_acc_ext l : forall s1 s2,
  (forall y, In y l -> mem row_eqb y s1 = mem row_eqb y s2) ->
  dedup_acc row_eqb s1 l = dedup_acc row_eqb s2 l.
Proof.
  induction l as [|x t IH]; intros s1 s2 H; cbn [dedup_acc]; [reflexivity|].
  rewrite <- (H x (or_introl eq_refl)). destruct (mem row_eqb x s1).
  - apply IH. intros y Hy. apply H. right. exact Hy.
  - f_equal. apply IH. intros y Hy. rewrite !(mem_cons row_eqb), (H y (or_intror Hy)). reflexivity.
Qed.

Lemma except_dedup L : forall seen r r0,
  (forall y, mem row_eqb y seen = false -> mem row_eqb y r = mem row_eqb y r0) ->
  except_all row_eqb (dedup_acc row_eqb seen L) r =
  dedup_acc row_eqb seen (filter (fun x => negb (mem row_eqb x r0)) L).
Proof.
  induction L as [|x t IH]; intros seen r r0 H; cbn [dedup_acc filter]; [reflexivity|].
  destruct (mem row_eqb x seen) eqn:MS.
  - destruct (negb (mem row_eqb x r0)); cbn [dedup_acc]; rewrite ?MS; apply IH; exact H.
  - cbn [except_all]. rewrite (H x MS). destruct (mem row_eqb x r0) eqn:M2; cbn [negb].
    + rewrite (IH (x :: seen) (remove_one row_eqb x r) r0).
      * apply dedup_acc_ext. intros y Hy. apply filter_In in Hy. destruct Hy as [_ Hy]. rewrite (mem_cons row_eqb).
        destruct (row_eqb y x) eqn:E; [|reflexivity].
        rewrite (mem_congr row_eqb row_eqb_sym row_eqb_trans y x r0 E), M2 in Hy. discriminate.
      * intros y Hy. rewrite (mem_cons row_eqb) in Hy. apply orb_false_elim in Hy. destruct Hy as [E Hy].
        rewrite mem_remove_one_other by exact E. exact (H y Hy).
    + cbn [dedup_acc]. rewrite MS. f_equal. apply IH. intros y Hy.
      rewrite (mem_cons row_eqb) in Hy. apply orb_false_elim in Hy. destruct Hy as [_ Hy]. exact (H y Hy).
Qed.

Lemma mem_dedup y r : mem row_eqb y (dedup row_eqb r) = mem row_eqb y r.
Proof.
  unfold dedup. rewrite (mem_count row_eqb y (dedup_acc row_eqb [] r)).
  rewrite (count_dedup_acc row_eqb row_eqb_sym row_eqb_trans). cbn [mem existsb].
  destruct (mem row_eqb y r); reflexivity.
Qed.

Lemma except_iter_ok dist l r : except_iter dist l r = set_op SExcept (negb dist) l r.
Proof.
  destruct dist; cbn [except_iter negb set_op]; [|apply except_scan_ok, build_cache_counts].
  rewrite !distinct_iter_ok, (except_scan_ok _ _ _ (build_cache_counts _)).
  unfold dedup at 1 3. apply except_dedup. intros y _. apply mem_dedup.
Qed.

Lemma wf_db_spec d t w rows :
  wf_db d = true -> nth_error d t = Some (w, rows) -> forall r, In r rows -> length r = w.
Proof.
  unfold wf_db. intros H E r Hr. rewrite forallb_forall in H. specialize (H _ (nth_error_In _ _ E)). cbn in H.
  rewrite forallb_forall in H. apply Nat.eqb_eq. exact (H r Hr).
Qed.

Lemma dedup_acc_In {A} (eqb : A -> A -> bool) l : forall seen x, In x (dedup_acc eqb seen l) -> In x l.
Proof.
  induction l as [|y t IH]; intros seen x; cbn [dedup_acc]; [tauto|].
  destruct (mem eqb y seen); intros H; [right; exact (IH _ _ H)|].
  destruct H as [<-|H]; [left; reflexivity|right; exact (IH _ _ H)].
Qed.

Lemma inter_all_In {A} (eqb : A -> A -> bool) l : forall r x, In x (inter_all eqb l r) -> In x l.
Proof.
  induction l as [|y t IH]; intros r x; cbn [inter_all]; [tauto|].
  destruct (mem eqb y r); intros H; [|right; exact (IH _ _ H)].
  destruct H as [<-|H]; [left; reflexivity|right; exact (IH _ _ H)].
Qed.

Lemma except_all_In {A} (eqb : A -> A -> bool) l : forall r x, In x (except_all eqb l r) -> In x l.
Proof.
  induction l as [|y t IH]; intros r x; cbn [except_all]; [tauto|].
  destruct (mem eqb y r); intros H; [right; exact (IH _ _ H)|].
  destruct H as [<-|H]; [left; reflexivity|right; exact (IH _ _ H)].
Qed.

Lemma join_rows_width onf k wl wr L R rows :
  (forall l, In l L -> length l = wl) -> (forall r, In r R -> length r = wr) ->
  join_rows onf k wl wr L R = Ok rows -> forall x, In x rows -> length x = (wl + wr)%nat.
Proof.
  intros HL HR H x Hx.
  assert (Inner : inner_join onf L R = Ok rows -> length x = (wl + wr)%nat).
  { unfold inner_join. intros H0. inv_bind H0. injection H0 as <-.
    apply in_concat in Hx. destruct Hx as (ps & Hps' & Hps). destruct (mapM_In_r _ _ _ Ha _ Hps') as (l & Hl & E).
    inv_bind E. injection E as <-.
    apply in_map_iff in Hps. destruct Hps as (r & <- & Hr). apply (filterM_In _ _ _ Ha0) in Hr.
    rewrite app_length, (HL _ Hl), (HR _ (proj1 Hr)). reflexivity. }
  destruct k; cbn [join_rows] in H; auto.
  - destruct (proj2 (outer_join_spec _ _ _ _ _ _ H) x Hx) as (l & Hl & [(r & Hr & _ & ->)|[_ ->]]);
      rewrite app_length, (HL _ Hl); [rewrite (HR _ Hr)|unfold nulls; rewrite repeat_length]; reflexivity.
  - destruct (proj2 (outer_join_spec _ _ _ _ _ _ H) x Hx) as (r & Hr & [(l & Hl & _ & ->)|[_ ->]]);
      rewrite app_length, (HR _ Hr); [rewrite (HL _ Hl)|unfold nulls; rewrite repeat_length]; reflexivity.
Qed.

Lemma select_tail_width d en cond proj dist rows out r :
  select_tail d en cond proj dist rows = Ok out -> In r out -> length r = length proj.
Proof.
  unfold select_tail. intros H Hr. inv_bind H. inv_bind H. injection H as <-.
  assert (Hr' : In r a0) by (destruct dist; [exact (dedup_acc_In _ _ _ _ Hr)|exact Hr]).
  destruct (mapM_In_r _ _ _ Ha0 _ Hr') as (rw & _ & E). exact (mapM_length _ _ _ E).
Qed.

Lemma query_width d : wf_db d = true ->
  forall q, wt_query d q = true -> forall en rows, eval_query d en q = Ok rows ->
  forall r, In r rows -> length r = qwidth d q.
Proof.
  intros Hd. induction q as [t|k l IHl r0 IHr on|src IHsrc wh proj dist|src IHsrc wh keys aggs hav proj dist
                             |o all l IHl r0 IHr|q IHq keys lim]; intros W en rows H r Hr; cbn [wt_query qwidth] in *.
  - cbn [eval_query] in H. destruct (nth_error d t) as [[w rws]|] eqn:E; [|discriminate].
    injection H as <-. exact (wf_db_spec d t w rws Hd E r Hr).
  - apply andb_prop in W. destruct W as [Wl Wr]. cbn [eval_query] in H. inv_bind H. inv_bind H.
    exact (join_rows_width _ _ _ _ _ _ _ (IHl Wl _ _ Ha) (IHr Wr _ _ Ha0) H r Hr).
  - rewrite select_is_tail in H. inv_bind H. exact (select_tail_width _ _ _ _ _ _ _ r H Hr).
  - rewrite having_is_filter_after_group in H. inv_bind H. exact (select_tail_width _ _ _ _ _ _ _ r H Hr).
  - apply andb_prop in W. destruct W as [W We]. apply andb_prop in W. destruct W as [Wl Wr].
    apply Nat.eqb_eq in We. cbn [eval_query] in H. inv_bind H. inv_bind H. injection H as <-.
    pose proof (IHl Wl _ _ Ha) as HL. pose proof (IHr Wr _ _ Ha0) as HR. rewrite <- We in HR.
    destruct o, all; cbn [set_op] in Hr.
    + apply in_app_or in Hr. destruct Hr; auto.
    + apply dedup_acc_In in Hr. apply in_app_or in Hr. destruct Hr; auto.
    + apply inter_all_In in Hr. auto.
    + apply dedup_acc_In in Hr. apply filter_In in Hr. apply HL. tauto.
    + apply except_all_In in Hr. auto.
    + apply dedup_acc_In in Hr. apply filter_In in Hr. apply HL. tauto.
  - cbn [eval_query] in H. inv_bind H. injection H as <-. apply (IHq W _ _ Ha).
    apply (Permutation_in _ (isort_perm (row_leb keys) a)). unfold order_limit in Hr.
    destruct lim as [[n off]|]; [|exact Hr].
    rewrite <- (firstn_skipn off), <- (firstn_skipn n (skipn off _)). auto using in_or_app.
Qed.

Section ForallAll.
  Context {A : Type} (Q : A -> Prop) (f : forall a, Q a).
  Fixpoint Forall_all (l : list A) : Forall Q l :=
    match l with [] => Forall_nil Q | x :: t => Forall_cons x (f x) (Forall_all t) end.
End ForallAll.

Section ExprQueryInd.
  Variable P : expr -> Prop.
  Variable Q : query -> Prop.
  Hypothesis HConst : forall v, P (EConst v).
  Hypothesis HCol : forall k i, P (ECol k i).
  Hypothesis HCmp : forall o a b, P a -> P b -> P (ECmp o a b).
  Hypothesis HArith : forall o a b, P a -> P b -> P (EArith o a b).
  Hypothesis HAnd : forall a b, P a -> P b -> P (EAnd a b).
  Hypothesis HOr : forall a b, P a -> P b -> P (EOr a b).
  Hypothesis HNot : forall a, P a -> P (ENot a).
  Hypothesis HIsNull : forall a, P a -> P (EIsNull a).
  Hypothesis HIn : forall a l, P a -> Forall P l -> P (EIn a l).
  Hypothesis HExists : forall q, Q q -> P (EExists q).
  Hypothesis HInQ : forall a q, P a -> Q q -> P (EInQ a q).
  Hypothesis HScalar : forall q, Q q -> P (EScalar q).
  Hypothesis HTable : forall t, Q (QTable t).
  Hypothesis HJoin : forall k l r on, Q l -> Q r -> P on -> Q (QJoin k l r on).
  Hypothesis HSelect : forall src wh proj dist, Q src -> P wh -> Forall P proj -> Q (QSelect src wh proj dist).
  Hypothesis HGroup : forall src wh keys aggs hav proj dist,
      Q src -> P wh -> Forall P keys -> Forall (fun fe : aggfn * expr => P (snd fe)) aggs -> P hav -> Forall P proj ->
      Q (QGroup src wh keys aggs hav proj dist).
  Hypothesis HSetOp : forall o all l r, Q l -> Q r -> Q (QSetOp o all l r).
  Hypothesis HOrder : forall q keys lim, Q q -> Q (QOrder q keys lim).

  Fixpoint expr_mut (e : expr) : P e :=
    match e with
    | EConst v => HConst v
    | ECol k i => HCol k i
    | ECmp o a b => HCmp o a b (expr_mut a) (expr_mut b)
    | EArith o a b => HArith o a b (expr_mut a) (expr_mut b)
    | EAnd a b => HAnd a b (expr_mut a) (expr_mut b)
    | EOr a b => HOr a b (expr_mut a) (expr_mut b)
    | ENot a => HNot a (expr_mut a)
    | EIsNull a => HIsNull a (expr_mut a)
    | EIn a l => HIn a l (expr_mut a) (Forall_all P expr_mut l)
    | EExists q => HExists q (query_mut q)
    | EInQ a q => HInQ a q (expr_mut a) (query_mut q)
    | EScalar q => HScalar q (query_mut q)
    end
  with query_mut (q : query) : Q q :=
    match q with
    | QTable t => HTable t
    | QJoin k l r on => HJoin k l r on (query_mut l) (query_mut r) (expr_mut on)
    | QSelect src wh proj dist =>
        HSelect src wh proj dist (query_mut src) (expr_mut wh) (Forall_all P expr_mut proj)
    | QGroup src wh keys aggs hav proj dist =>
        HGroup src wh keys aggs hav proj dist (query_mut src) (expr_mut wh) (Forall_all P expr_mut keys)
               (Forall_all (fun fe : aggfn * expr => P (snd fe)) (fun fe => expr_mut (snd fe)) aggs)
               (expr_mut hav) (Forall_all P expr_mut proj)
    | QSetOp o all l r => HSetOp o all l r (query_mut l) (query_mut r)
    | QOrder q keys lim => HOrder q keys lim (query_mut q)
    end.

  Lemma expr_query_mut : (forall e, P e) /\ (forall q, Q q).
  Proof. split; [exact expr_mut|exact query_mut]. Qed.
End ExprQueryInd.

Lemma pwidth_plan_of d q : pwidth d (plan_of q) = qwidth d q.
Proof.
  revert q. cut ((forall e : expr, True) /\ (forall q, pwidth d (plan_of q) = qwidth d q)); [intros [_ H]; exact H|].
  apply (expr_query_mut (fun _ => True) (fun q => pwidth d (plan_of q) = qwidth d q)); auto.
  - intros k l r on Hl Hr _. destruct k; cbn; lia.
  - intros src wh proj dist _ _ _. destruct dist; cbn; apply map_length.
  - intros src wh keys aggs hav proj dist _ _ _ _ _ _. destruct dist; cbn; apply map_length.
  - intros o all l r Hl _. destruct o; cbn; exact Hl.
  - intros q keys lim Hq. destruct lim as [[n off]|]; cbn; exact Hq.
Qed.

Lemma exec_wrap_distinct d en dist p :
  exec_env d en (wrap_distinct dist p) = do out <- exec_env d en p; Ok (distinct_if dist out).
Proof.
  destruct dist; cbn [wrap_distinct distinct_if exec_env]; [|symmetry; apply bind_ret].
  destruct (exec_env d en p); cbn [bind]; [rewrite distinct_iter_ok|]; reflexivity.
Qed.

Ltac split_wf W :=
  repeat match type of W with
         | (_ && _)%bool = true => let W2 := fresh "W" in apply andb_prop in W; destruct W as [W W2]
         end.

Section Agreement.
  Variable d : db.

  Definition Pe (e : expr) : Prop :=
    ok_expr d e = true -> forall en, agree (eval_pexpr d en (cexpr e)) (eval_expr d en e).
  Definition Pq (q : query) : Prop :=
    ok_query d q = true -> forall en, agree (exec_env d en (plan_of q)) (eval_query d en q).

  Lemma list_agree l : Forall Pe l -> forallb (ok_expr d) l = true ->
    forall en, agree (mapM (eval_pexpr d en) (map cexpr l)) (mapM (eval_expr d en) l).
  Proof.
    intros F W en. rewrite mapM_map. apply mapM_agree. intros e He.
    rewrite Forall_forall in F. rewrite forallb_forall in W. exact (F e He (W e He) en).
  Qed.

  (* WHERE / HAVING, projection and DISTINCT above any input plan *)
  Lemma select_tail_agree wh proj dist p en (x : res (list row)) :
    (forall en, agree (eval_pexpr d en (cexpr wh)) (eval_expr d en wh)) ->
    (forall en, agree (mapM (eval_pexpr d en) (map cexpr proj)) (mapM (eval_expr d en) proj)) ->
    agree (exec_env d en p) x ->
    agree (exec_env d en (wrap_distinct dist (PProject (map cexpr proj) (PFilter (cexpr wh) p))))
          (do rows <- x; select_tail d en wh proj dist rows).
  Proof.
    intros Hwh Hproj Hp. rewrite exec_wrap_distinct. cbn [exec_env]. rewrite !bind_assoc.
    apply agree_bind; [exact Hp|intros rows _]. rewrite filter_iter_eq.
    apply agree_bind; [apply filterM_agree; intros rw; apply holds_agree, Hwh|intros kept _].
    rewrite project_iter_eq.
    apply agree_bind_l, mapM_agree. intros rw _. apply Hproj.
  Qed.

  Theorem exec_agrees_mut : (forall e, Pe e) /\ (forall q, Pq q).
  Proof.
    apply (expr_query_mut Pe Pq); unfold Pe, Pq.
    - (* EConst *) intros v _ en. apply agree_refl.
    - (* ECol *) intros k i _ en. apply agree_refl.
    - (* ECmp *) intros o a b IHa IHb W en. cbn [ok_expr] in W. split_wf W.
      exact (agree_bind_both _ _ _ _ _ (IHa W en) (IHb W0 en)).
    - (* EArith *) intros o a b IHa IHb W en. cbn [ok_expr] in W. split_wf W.
      exact (agree_bind_both _ _ _ _ _ (IHa W en) (IHb W0 en)).
    - (* EAnd *) intros a b IHa IHb W en. cbn [ok_expr] in W. split_wf W.
      exact (agree_bind_both _ _ _ _ _ (IHa W en) (IHb W0 en)).
    - (* EOr *) intros a b IHa IHb W en. cbn [ok_expr] in W. split_wf W.
      exact (agree_bind_both _ _ _ _ _ (IHa W en) (IHb W0 en)).
    - (* ENot *) intros a IHa W en. apply agree_bind_l, IHa, W.
    - (* EIsNull *) intros a IHa W en. cbn [cexpr eval_pexpr eval_expr].
      apply agree_bind; [exact (IHa W en)|intros x _]. destruct x; apply agree_refl.
    - (* EIn *) intros a l IHa IHl W en. cbn [ok_expr] in W. split_wf W. cbn [cexpr eval_pexpr eval_expr].
      apply agree_bind; [exact (IHa W en)|intros x _]. apply agree_bind; [exact (list_agree l IHl W0 en)|intros ys _].
      rewrite in_loop_in3. apply agree_refl.
    - (* EExists *) intros q IHq W en. apply agree_bind_l, IHq, W.
    - (* EInQ *) intros a q IHa IHq W en. cbn [ok_expr] in W. split_wf W. cbn [cexpr eval_pexpr eval_expr].
      apply agree_bind; [exact (IHa W en)|intros x _]. apply agree_bind; [exact (IHq W0 en)|intros rs _].
      apply agree_bind; [apply agree_refl|intros ys _]. rewrite in_loop_in3. apply agree_refl.
    - (* EScalar *) intros q IHq W en. apply agree_bind_l, IHq, W.
    - (* QTable *) intros t _ en. apply agree_refl.
    - (* QJoin *) intros k l r on IHl IHr IHon W en. cbn [ok_query] in W. split_wf W.
      assert (Hon : forall rw, agree (holds (eval_pexpr d (rw :: en) (cexpr on))) (holds (eval_expr d (rw :: en) on)))
        by (intros rw; apply holds_agree, IHon, W0).
      destruct k; cbn [plan_of exec_env eval_query];
        (apply agree_bind; [exact (IHl W2 en)|intros L _]); (apply agree_bind; [exact (IHr W1 en)|intros R HR]);
        cbn [join_rows]; rewrite ?pwidth_plan_of.
      + rewrite join_iter_eq. apply inner_join_agree, Hon.
      + rewrite join_iter_eq. apply outer_join_agree, Hon.
      + apply andb_prop in W. destruct W as [Wd Wt].
        rewrite (transposed_join (fun rw => eval_pexpr d (rw :: en) (cexpr on)) _ _ L R (query_width d Wd r Wt en R HR)).
        apply outer_join_agree, Hon.
      + rewrite cross_join_ok. apply agree_refl.
    - (* QSelect *) intros src wh proj dist IHsrc IHwh IHproj W en. cbn [ok_query] in W. split_wf W.
      exact (select_tail_agree wh proj dist _ en _ (IHwh W1) (list_agree proj IHproj W0) (IHsrc W en)).
    - (* QGroup *) intros src wh keys aggs hav proj dist IHsrc IHwh IHkeys IHaggs IHhav IHproj W en.
      cbn [ok_query] in W. split_wf W. rewrite having_is_filter_after_group.
      apply (select_tail_agree hav proj dist _ en _ (IHhav W1) (list_agree proj IHproj W0)).
      cbn [exec_env]. unfold group_rows. rewrite bind_assoc.
      apply agree_bind; [exact (IHsrc W en)|intros rows _]. rewrite filter_iter_eq.
      apply agree_bind; [apply filterM_agree; intros rw; apply holds_agree, IHwh, W4|intros kept _].
      rewrite map_map, map_length.
      refine (agree_trans _ _ _ (group_by_agree (fun rw e => eval_pexpr d (rw :: en) (cexpr e)) aggs _ _ kept) _).
      apply agree_bind; [apply mapM_agree; intros rw _|intros keyed _].
      { apply agree_bind_l, (list_agree keys IHkeys W3). }
      apply mapM_agree. intros g _. apply agree_bind_l.
      apply mapM_agree. intros fe Hfe. apply agree_bind_l.
      apply mapM_agree. intros rw _. rewrite Forall_forall in IHaggs. rewrite forallb_forall in W2.
      exact (IHaggs fe Hfe (W2 fe Hfe) _).
    - (* QSetOp *) intros o all l r IHl IHr W en. cbn [ok_query] in W. split_wf W.
      destruct o; cbn [plan_of exec_env eval_query];
        (apply agree_bind; [exact (IHl W en)|intros L _]); (apply agree_bind; [exact (IHr W0 en)|intros R _]).
      + destruct all; cbn [negb union_iter set_op]; rewrite ?distinct_iter_ok; apply agree_refl.
      + destruct all; cbn [negb set_op]; [rewrite intersect_iter_ok|rewrite intersect_distinct_ok]; apply agree_refl.
      + rewrite except_iter_ok, negb_involutive. apply agree_refl.
    - (* QOrder *) intros q keys lim IHq W en. cbn [ok_query] in W.
      destruct lim as [[n off]|]; cbn [plan_of exec_env eval_query order_limit]; rewrite ?bind_assoc;
        (apply agree_bind; [exact (IHq W en)|intros rows _]); [|apply agree_refl].
      cbn [bind]. unfold sort_iter. rewrite limit_offset_ok. apply agree_refl.
  Qed.
End Agreement.

(* without RIGHT JOIN the side condition holds for every database *)
Lemma forallb_imp {A} (p q : A -> bool) l :
  Forall (fun x => p x = true -> q x = true) l -> forallb p l = true -> forallb q l = true.
Proof.
  intros F. induction F as [|x t Hx F IH]; cbn [forallb]; intros H; [reflexivity|].
  apply andb_prop in H. destruct H as [H1 H2]. rewrite (Hx H1), (IH H2). reflexivity.
Qed.

Lemma wf_ok_mut d :
  (forall e, wf_expr e = true -> ok_expr d e = true) /\ (forall q, wf_query q = true -> ok_query d q = true).
Proof.
  apply (expr_query_mut (fun e => wf_expr e = true -> ok_expr d e = true)
                        (fun q => wf_query q = true -> ok_query d q = true));
    cbn [wf_expr wf_query ok_expr ok_query]; intros;
    try match goal with k : jkind |- _ => destruct k; try discriminate end;
    repeat match goal with H : (_ && _)%bool = true |- _ => apply andb_prop in H; destruct H end;
    repeat (apply andb_true_intro; split); auto;
    match goal with
    | F : Forall _ ?l, W : forallb ?p ?l = true |- forallb ?q ?l = true => exact (forallb_imp p q l F W)
    end.
Qed.

(* plan and definition agree on every query that satisfies the side condition, in any environment of outer rows
   (so also as a correlated subquery): the same rows, in the same order *)
Theorem exec_agrees_with_definition_ok d en q rows :
  ok_query d q = true -> (exec_env d en (plan_of q) = Ok rows <-> eval_query d en q = Ok rows).
Proof. intros W. exact (proj2 (exec_agrees_mut d) q W en rows). Qed.

Theorem expr_agrees_with_definition_ok d en e v :
  ok_expr d e = true -> (eval_pexpr d en (cexpr e) = Ok v <-> eval_expr d en e = Ok v).
Proof. intros W. exact (proj1 (exec_agrees_mut d) e W en v). Qed.

Theorem exec_refines_definition d en q rows :
  wf_query q = true -> eval_query d en q = Ok rows -> exec_env d en (plan_of q) = Ok rows.
Proof. intros W. apply exec_agrees_with_definition_ok, wf_ok_mut, W. Qed.

Theorem expr_refines_definition d en e v :
  wf_expr e = true -> eval_expr d en e = Ok v -> eval_pexpr d en (cexpr e) = Ok v.
Proof. intros W. apply expr_agrees_with_definition_ok, wf_ok_mut, W. Qed.

(* the two readings the differential run uses: a sequence under ORDER BY, a bag otherwise *)
Corollary exec_refines_bag d q rows :
  ok_query d q = true -> eval_query d [] q = Ok rows ->
  exists out, exec d (plan_of q) = Ok out /\ Permutation out rows /\
              (forall q' keys lim, q = QOrder q' keys lim -> out = rows).
Proof.
  intros W H. exists rows. split; [exact (proj2 (exec_agrees_with_definition_ok d [] q rows W) H)|].
  split; [apply Permutation_refl|reflexivity].
Qed.
