From Coq Require Import List Bool.
Import ListNotations.
From GMS Require Import Base.ListFacts Phys.C01Joins.

Section Proofs.
  Context {L R K : Type}.
  Variable cond : L -> R -> bool.

  (* a scan only sees the rows that match: it emits them, or pads when a left outer join has found none *)
  Lemma nlj_scan_spec lo x ys found :
    nlj_scan cond lo x ys found =
    match filter (cond x) ys with
    | [] => if lo && negb found then [(x, None)] else []
    | m => map (fun y => (x, Some y)) m
    end.
  Proof.
    revert found. induction ys as [|y ys IH]; intros found; cbn; [reflexivity|].
    destruct (cond x y); rewrite IH; [|reflexivity].
    destruct (filter (cond x) ys); [rewrite andb_false_r|]; reflexivity.
  Qed.

  Theorem nlj_inner_correct l r : nlj cond false l r = logical_inner cond l r.
  Proof.
    unfold nlj, logical_inner. apply flat_map_ext. intros x. rewrite nlj_scan_spec.
    destruct (filter (cond x) r); reflexivity.
  Qed.

  Theorem nlj_left_correct l r : nlj cond true l r = logical_left cond l r.
  Proof. unfold nlj, logical_left. apply flat_map_ext. intros x. apply nlj_scan_spec. Qed.

  Lemma exists_scan_spec x ys : exists_scan cond x ys = existsb (cond x) ys.
  Proof. induction ys as [|y ys IH]; cbn; [reflexivity|]. destruct (cond x y); cbn; [reflexivity|exact IH]. Qed.

  Theorem exists_semi_correct l r : exists_semi cond l r = logical_semi cond l r.
  Proof. unfold exists_semi, logical_semi. apply filter_ext. intros x. apply exists_scan_spec. Qed.

  Theorem exists_anti_correct l r : exists_anti cond l r = logical_anti cond l r.
  Proof. unfold exists_anti, logical_anti. apply filter_ext. intros x. rewrite exists_scan_spec. reflexivity. Qed.

  (* hash joins: the planner only builds them when the ON condition implies equal, non-NULL keys *)
  Variable key_l : L -> option K.
  Variable key_r : R -> option K.
  Variable key_eqb : K -> K -> bool.
  Hypothesis key_eqb_refl : forall k, key_eqb k k = true.
  Hypothesis cond_implies_keys :
    forall x y, cond x y = true -> exists k, key_l x = Some k /\ key_r y = Some k.

  (* the probed bucket holds every matching row, so both scans see the same matches *)
  Lemma filter_probe x r : filter (cond x) (probe key_l key_r key_eqb x r) = filter (cond x) r.
  Proof.
    unfold probe, bucket. induction r as [|y r IH]; cbn.
    - destruct (key_l x); reflexivity.
    - destruct (cond x y) eqn:C.
      + destruct (cond_implies_keys x y C) as [k [Hl Hr]]. rewrite Hl in *. cbn. rewrite Hr, key_eqb_refl. cbn.
        rewrite C. f_equal. exact IH.
      + destruct (key_l x) as [k|] eqn:Hl; cbn; [|exact IH].
        destruct (key_r y) as [k'|]; [destruct (key_eqb k k')|]; cbn; rewrite ?C; exact IH.
  Qed.

  Lemma existsb_probe x r : existsb (cond x) (probe key_l key_r key_eqb x r) = existsb (cond x) r.
  Proof.
    rewrite <- (existsb_filter _ (cond x) (probe _ _ _ _ _)) by auto. rewrite filter_probe. apply existsb_filter. auto.
  Qed.

  Lemma hash_join_nlj lo l r : hash_join cond key_l key_r key_eqb lo l r = nlj cond lo l r.
  Proof. apply flat_map_ext. intros x. rewrite !nlj_scan_spec, filter_probe. reflexivity. Qed.

  Theorem hash_inner_correct l r : hash_join cond key_l key_r key_eqb false l r = logical_inner cond l r.
  Proof. rewrite hash_join_nlj. apply nlj_inner_correct. Qed.

  Theorem hash_left_correct l r : hash_join cond key_l key_r key_eqb true l r = logical_left cond l r.
  Proof. rewrite hash_join_nlj. apply nlj_left_correct. Qed.

  Theorem hash_semi_correct l r : hash_semi cond key_l key_r key_eqb l r = logical_semi cond l r.
  Proof. unfold hash_semi, logical_semi. apply filter_ext. intros x. rewrite exists_scan_spec. apply existsb_probe. Qed.

  Theorem hash_anti_correct l r : hash_anti cond key_l key_r key_eqb l r = logical_anti cond l r.
  Proof. unfold hash_anti, logical_anti. apply filter_ext. intros x. rewrite exists_scan_spec, existsb_probe. reflexivity. Qed.
End Proofs.

Theorem anti_include_nulls_is_anti {L R} (c3 : L -> R -> tri) l r :
  anti_include_nulls c3 l r = logical_anti (fun x y => not_false (c3 x y)) l r.
Proof.
  unfold anti_include_nulls, logical_anti. apply filter_ext. intros x.
  induction r as [|y r IH]; cbn; [reflexivity|]. rewrite IH. destruct (c3 x y); reflexivity.
Qed.

(* the hash anti join with NULL keys skipped is NOT the NOT-IN anti join: a NULL probe key must drop the row *)
Example hash_anti_not_in_refuted :
  let c3 := fun (x y : option nat) => match x, y with Some a, Some b => if Nat.eqb a b then TT else TF | _, _ => TN end in
  let cond := fun x y => match c3 x y with TT => true | _ => false end in
  hash_anti cond (fun x => x) (fun y => y) Nat.eqb [None] [Some 1] = [None]
  /\ anti_include_nulls c3 [None] [Some 1] = [].
Proof. split; reflexivity. Qed.
