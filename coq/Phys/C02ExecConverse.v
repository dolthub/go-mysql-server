(* C02 — what the agreement of C02ExecProofs.v gives without RIGHT JOIN and for failure: the executor fails
   exactly when the definition raises an error (which error is not compared).  Then the hash-lookup join, which
   [plan_of] does not build: it returns what the nested-loop join returns when a TRUE ON condition entails equal
   keys without NULL. *)
From Coq Require Import List ZArith NArith Bool.
Import ListNotations.
From GMS Require Import Rel.C02Logical Rel.C02LogicalProofs Phys.C02Exec Phys.C02ExecProofs.
Open Scope Z_scope.

Corollary exec_fails_iff_definition_fails_ok d en q :
  ok_query d q = true ->
  ((exists e, exec_env d en (plan_of q) = Err e) <-> (exists e, eval_query d en q = Err e)).
Proof. intros W. exact (agree_fails _ _ (proj2 (exec_agrees_mut d) q W en)). Qed.

(* without RIGHT JOIN: every database *)
Theorem exec_agrees_with_definition d en q rows :
  wf_query q = true -> (exec_env d en (plan_of q) = Ok rows <-> eval_query d en q = Ok rows).
Proof. intros W. exact (exec_agrees_with_definition_ok d en q rows (proj2 (wf_ok_mut d) q W)). Qed.

Theorem expr_agrees_with_definition d en e v :
  wf_expr e = true -> (eval_pexpr d en (cexpr e) = Ok v <-> eval_expr d en e = Ok v).
Proof. intros W. exact (expr_agrees_with_definition_ok d en e v (proj1 (wf_ok_mut d) e W)). Qed.

Corollary exec_fails_iff_definition_fails d en q :
  wf_query q = true ->
  ((exists e, exec_env d en (plan_of q) = Err e) <-> (exists e, eval_query d en q = Err e)).
Proof. intros W. exact (exec_fails_iff_definition_fails_ok d en q (proj2 (wf_ok_mut d) q W)). Qed.

(* a scan sees only the rows on which the condition is TRUE: rows that a predicate true on all of those
   removes do not matter (unless their condition fails: then only the shorter scan succeeds) *)
Lemma filterM_sublist {A B} (p : B -> res bool) (g : A -> B) (P : A -> bool) l : forall ms,
  (forall x, In x l -> p (g x) = Ok true -> P x = true) ->
  filterM p (map g l) = Ok ms -> filterM p (map g (filter P l)) = Ok ms.
Proof.
  induction l as [|x t IH]; intros ms HP H; [exact H|]. cbn [map filterM filter] in *.
  inv_bind H. inv_bind H. injection H as <-.
  specialize (IH _ (fun y Hy => HP y (or_intror Hy)) Ha0).
  destruct (P x) eqn:Px; [cbn [map filterM]; rewrite Ha, IH; reflexivity|].
  destruct a; [rewrite (HP x (or_introl eq_refl) Ha) in Px; discriminate|exact IH].
Qed.

Lemma keyed_spec (rk : row -> res row) R keyed :
  mapM (fun rw => do k <- hash_key rk rw; Ok (k, rw)) R = Ok keyed ->
  map snd keyed = R /\ forall kr, In kr keyed -> hash_key rk (snd kr) = Ok (fst kr).
Proof.
  intros H. apply mapM_Forall2 in H. induction H as [|r kr R keyed Hr _ [E S]]; [split; [reflexivity|intros kr []]|].
  inv_bind Hr. injection Hr as <-. split; [cbn; rewrite E; reflexivity|].
  intros kr [<-|Hin]; [exact Ha|exact (S kr Hin)].
Qed.

Theorem hash_join_iter_ok on lo wr (lk rk : row -> res row) L R keyed rows :
  mapM (fun rw => do k <- hash_key rk rw; Ok (k, rw)) R = Ok keyed ->
  (forall l, In l L -> exists k, hash_key lk l = Ok k) ->
  (forall l r, In l L -> In r R -> cond_true (on (l ++ r)) = Ok true ->
               exists k, hash_key lk l = Ok (Some k) /\ hash_key rk r = Ok (Some k)) ->
  join_iter on lo wr L R = Ok rows ->
  hash_join_iter on lo wr lk keyed L = Ok rows.
Proof.
  intros HK HT HS. destruct (keyed_spec rk R keyed HK) as [<- SK]. revert rows.
  induction L as [|l t IH]; cbn [join_iter hash_join_iter]; intros rows H; [exact H|].
  inv_bind H. inv_bind H. injection H as <-.
  destruct (HT l (or_introl eq_refl)) as (k & Ek). rewrite Ek. cbn [bind].
  rewrite (IH (fun l' Hin => HT l' (or_intror Hin)) (fun l' r Hin => HS l' r (or_intror Hin)) _ Ha0).
  (* the probed bucket, and the empty list for a NULL key, as a filter of the keyed rows *)
  set (P := fun kr : option row * row =>
              match k, fst kr with Some k', Some k'' => row_beq k' k'' | _, _ => false end).
  replace (match k with Some k' => bucket k' keyed | None => [] end) with (map snd (filter P keyed)).
  - rewrite join_scan_eq in *. inv_bind Ha. injection Ha as <-.
    rewrite (filterM_sublist _ snd P keyed a1); [reflexivity| |exact Ha1].
    intros kr Hin Ht. rewrite <- cond_true_holds in Ht.
    destruct (HS l (snd kr) (or_introl eq_refl) (in_map snd _ _ Hin) Ht) as (k0 & E1 & E2).
    rewrite Ek in E1. injection E1 as ->. rewrite (SK kr Hin) in E2. injection E2 as E2.
    unfold P. rewrite E2. apply row_beq_refl.
  - unfold P, bucket. destruct k; [reflexivity|]. clear. induction keyed as [|x t' IH']; [reflexivity|exact IH'].
Qed.

Lemma mapM_total {A B} (f : A -> res B) l : (forall x, In x l -> exists y, f x = Ok y) -> exists r, mapM f l = Ok r.
Proof.
  induction l as [|x t IH]; intros H; [exists []; reflexivity|].
  destruct (H x (or_introl eq_refl)) as (y & Ey). destruct (IH (fun x' Hin => H x' (or_intror Hin))) as (r & Er).
  exists (y :: r). cbn. rewrite Ey. cbn. rewrite Er. reflexivity.
Qed.

(* plan level: the hash-lookup join returns what the nested-loop join returns, provided the key expressions
   evaluate on the rows of both inputs and a TRUE ON condition entails equal keys without NULL *)
Theorem hash_join_plan_ok d en lo l r lk rk on L R rows :
  exec_env d en l = Ok L -> exec_env d en r = Ok R ->
  (forall x, In x L -> exists k, hash_key (fun rw => mapM (eval_pexpr d (rw :: en)) lk) x = Ok k) ->
  (forall y, In y R -> exists k, hash_key (fun rw => mapM (eval_pexpr d (rw :: en)) rk) y = Ok k) ->
  (forall x y, In x L -> In y R -> cond_true (eval_pexpr d ((x ++ y) :: en) on) = Ok true ->
     exists k, hash_key (fun rw => mapM (eval_pexpr d (rw :: en)) lk) x = Ok (Some k) /\
               hash_key (fun rw => mapM (eval_pexpr d (rw :: en)) rk) y = Ok (Some k)) ->
  exec_env d en (PJoin lo l r on) = Ok rows ->
  exec_env d en (PHashJoin lo l r lk rk on) = Ok rows.
Proof.
  intros HL HR TL TR HS H. cbn [exec_env] in *. rewrite HL, HR in *. cbn [bind] in *.
  destruct (mapM_total (fun rw => do k <- hash_key (fun rw0 => mapM (eval_pexpr d (rw0 :: en)) rk) rw; Ok (k, rw)) R)
    as (keyed & HK).
  { intros y Hy. destruct (TR y Hy) as (k & Ek). exists (k, y). rewrite Ek. reflexivity. }
  rewrite HK. cbn [bind].
  exact (hash_join_iter_ok (fun rw => eval_pexpr d (rw :: en) on) lo (pwidth d r) _ _ L R keyed rows HK TL HS H).
Qed.
