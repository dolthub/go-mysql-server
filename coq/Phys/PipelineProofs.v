(* C35 - proofs about the three-process result pipeline of server/handler.go (model: Phys/Pipeline.v). *)
From Coq Require Import List Arith Bool Lia.
Import ListNotations.
From GMS Require Import Phys.Pipeline.

Section Proofs.
  Variables Row Enc : Type.
  Variable encode : Row -> Enc.
  Variables B c1 c2 : nat.
  Hypothesis HB : 1 <= B.
  Hypothesis Hc1 : 1 <= c1.
  Hypothesis Hc2 : 1 <= c2.
  Variable rows0 : list Row.
  Variable f0 : src_end.

  Notation state := (st Row Enc).
  Notation mk := (Pipeline.mk Row Enc).
  Notation stp := (step Row Enc encode B c1 c2).
  Notation ex1 := (exec1 Row Enc encode B c1 c2).
  Notation exc := (exec Row Enc encode B c1 c2).
  Notation term := (terminal Row Enc).
  Notation cli := (client Row Enc).
  Notation full := (Forall (fun b : list Enc => length b = B)).

  (* The transitions of [step]: one premise for each way an action can be enabled. *)
  Lemma step_cases (P : state -> state -> Prop) :
    (forall fn cn rq bt m rs sd dl,
        P (mk [] fn false cn rq bt m rs sd dl)
          (mk [] fn true (match fn with Fail => true | EOF => cn end) rq bt m rs sd dl)) ->
    (forall r inp fn cn rq bt m rs sd dl,
        P (mk (r :: inp) fn false cn rq bt m rs sd dl) (mk inp fn false cn (rq ++ [r]) bt m rs sd dl)) ->
    (forall inp fn cn bt rs sd dl,
        P (mk inp fn true cn [] bt Filling rs sd dl) (mk inp fn true cn [] bt BDone rs sd dl)) ->
    (forall inp fn rd cn r rq bt rs sd dl,
        P (mk inp fn rd cn (r :: rq) bt Filling rs sd dl)
          (mk inp fn rd cn rq (bt ++ [encode r]) (if length (bt ++ [encode r]) =? B then Sending else Filling)
              rs sd dl)) ->
    (forall inp fn rd cn rq bt rs sd dl,
        P (mk inp fn rd cn rq bt Sending rs sd dl) (mk inp fn rd cn rq [] Filling (rs ++ [bt]) sd dl)) ->
    (forall inp fn rd cn rq bt m b rs dl,
        P (mk inp fn rd cn rq bt m (b :: rs) false dl) (mk inp fn rd cn rq bt m rs false (dl ++ [b]))) ->
    (forall inp fn rd cn rq bt dl,
        P (mk inp fn rd cn rq bt BDone [] false dl) (mk inp fn rd cn rq bt BDone [] true dl)) ->
    (forall inp fn rq bt m rs sd dl,
        P (mk inp fn false true rq bt m rs sd dl) (mk inp fn true true rq bt m rs sd dl)) ->
    (forall inp fn rd rq bt m rs sd dl, m <> BDone ->
        P (mk inp fn rd true rq bt m rs sd dl) (mk inp fn rd true rq bt BDone rs sd dl)) ->
    (forall inp fn rd rq bt m rs dl,
        P (mk inp fn rd true rq bt m rs false dl) (mk inp fn rd true rq bt m rs true dl)) ->
    forall a s s', stp a s = Some s' -> P s s'.
  Proof.
    intros R0 R1 B0 B1 B2 S1 S0 AR AB AS a [inp fn rd cn rq bt m rs sd dl] s' E.
    destruct a; unfold step in E; cbn [delivered resq bat rowq input bm cancelled rdone fin sdone bm_done andb negb] in E.
    - destruct rd; [discriminate|]. destruct inp.
      + injection E as <-. apply R0.
      + destruct (_ <? _); [|discriminate]. injection E as <-. apply R1.
    - destruct m; [| |discriminate].
      + destruct rq.
        * destruct rd; [|discriminate]. injection E as <-. apply B0.
        * injection E as <-. apply B1.
      + destruct (_ <? _); [|discriminate]. injection E as <-. apply B2.
    - destruct sd; [discriminate|]. destruct rs.
      + destruct m; try discriminate. injection E as <-. apply S0.
      + injection E as <-. apply S1.
    - destruct cn, rd; try discriminate. injection E as <-. apply AR.
    - destruct cn; [|discriminate]. destruct m; try discriminate; injection E as <-; apply AB; discriminate.
    - destruct cn, sd; try discriminate. injection E as <-. apply AS.
  Qed.

  Definition conserved (s : state) : Prop :=
    concat (delivered _ _ s) ++ concat (resq _ _ s) ++ bat _ _ s ++ map encode (rowq _ _ s) ++ map encode (input _ _ s)
    = map encode rows0.

  Definition batched (s : state) : Prop :=
    full (delivered _ _ s) /\ full (resq _ _ s) /\
    match bm _ _ s with Sending => length (bat _ _ s) = B | Filling => length (bat _ _ s) < B | BDone => True end.

  (* Without cancellation a process that has returned has drained its input, and the process downstream of a
     running one is still running. *)
  Definition protocol (s : state) : Prop :=
    fin _ _ s = f0 /\
    if cancelled _ _ s then fin _ _ s = Fail else
      (if rdone _ _ s then input _ _ s = [] /\ fin _ _ s = EOF else bm_done (bm _ _ s) = false)
      /\ (if bm_done (bm _ _ s) then length (bat _ _ s) < B /\ rowq _ _ s = [] else sdone _ _ s = false)
      /\ (if sdone _ _ s then resq _ _ s = [] else True).

  Definition Inv (s : state) : Prop := conserved s /\ batched s /\ protocol s.

  Lemma conserved_step : forall a s s', stp a s = Some s' -> conserved s -> conserved s'.
  Proof.
    apply (step_cases (fun s s' => conserved s -> conserved s')); unfold conserved; cbn [delivered resq bat rowq input];
      intros; try assumption; (etransitivity; [|eassumption]);
      repeat (rewrite ?map_app, ?concat_app, <- ?app_assoc; cbn [concat map app]); rewrite ?app_nil_r; reflexivity.
  Qed.

  Lemma batched_step : forall a s s', stp a s = Some s' -> batched s -> batched s'.
  Proof.
    apply (step_cases (fun s s' => batched s -> batched s')); unfold batched; cbn [delivered resq bat bm]; intros; try assumption;
      rewrite ?Forall_app, ?Forall_cons_iff in *; cbn [length]; try solve [intuition auto].
    rewrite app_length. cbn [length]. destruct (Nat.eqb_spec (length bt + 1) B); intuition lia.
  Qed.

  Lemma protocol_step : forall a s s', stp a s = Some s' -> batched s -> protocol s -> protocol s'.
  Proof.
    apply (step_cases (fun s s' => batched s -> protocol s -> protocol s')); unfold batched, protocol;
      cbn [input fin rdone cancelled rowq bat bm resq sdone bm_done]; intros; try assumption.
    1: destruct fn, cn; intuition auto.   (* the reader reaches the end of the rows *)
    all: destruct cn; try assumption; try solve [intuition auto].
    - (* the reader passes a row on: the batcher cannot have finished *)
      destruct m; cbn [bm_done] in *; intuition (auto; try discriminate).
    - (* the batcher takes a row *) destruct (_ =? _); cbn [bm_done]; intuition auto.
    - (* the batcher sends a batch: the sender cannot have finished *)
      destruct sd; intuition (auto; try discriminate).
  Qed.

  Lemma inv_init : Inv (init Row Enc rows0 f0).
  Proof. unfold Inv, conserved, batched, protocol. cbn. repeat split; auto. Qed.

  Lemma inv_step : forall a s s', Inv s -> stp a s = Some s' -> Inv s'.
  Proof.
    intros a s s' (Hc & Hb & Hp) E.
    exact (conj (conserved_step _ _ _ E Hc) (conj (batched_step _ _ _ E Hb) (protocol_step _ _ _ E Hb Hp))).
  Qed.

  Lemma inv_exec : forall sched s, Inv s -> Inv (exc sched s).
  Proof.
    induction sched as [|a l IH]; intros s H; [exact H|]. cbn [exec]. apply IH. unfold exec1.
    destruct (stp a s) eqn:E; [exact (inv_step a s _ H E)|exact H].
  Qed.

  Lemma inv_reach : forall sched, Inv (exc sched (init Row Enc rows0 f0)).
  Proof. intros sched. apply inv_exec, inv_init. Qed.

  Lemma concat_len : forall d : list (list Enc), full d -> length (concat d) = B * length d.
  Proof.
    intros d H. induction H as [|b d Hb _ IH]; [cbn; lia|]. cbn [concat length]. rewrite app_length, IH, Hb. lia.
  Qed.

  Lemma map_len_repeat : forall d : list (list Enc), full d -> map (@length Enc) d = repeat B (length d).
  Proof. intros d H. induction H as [|b d Hb _ IH]; [reflexivity|]. cbn. rewrite Hb, IH. reflexivity. Qed.

  Lemma terminal_parts : forall s, term s = true -> rdone _ _ s = true /\ bm _ _ s = BDone /\ sdone _ _ s = true.
  Proof. intros [inp fn [] cn rq bt [] rs [] dl] [=]. auto. Qed.

  Lemma terminal_ok : forall s, Inv s -> term s = true -> f0 = EOF ->
    cancelled _ _ s = false /\ concat (cli s) = map encode rows0 /\
    map (@length Enc) (cli s) = expected_sizes B (length rows0).
  Proof.
    intros [inp fn rd cn rq bt m rs sd dl] (Hc & (Hd & _) & Hf & Hp) Ht ->.
    destruct (terminal_parts _ Ht) as (Hr & Hm & Hs). cbn in Hr, Hm, Hs. subst rd m sd.
    unfold conserved in Hc. cbn [delivered resq bat rowq input bm cancelled rdone fin sdone bm_done] in *.
    destruct cn; [congruence|]. destruct Hp as ((-> & _) & (Hlt & ->) & ->).
    cbn [concat map app] in Hc. rewrite app_nil_r in Hc.
    assert (length rows0 = B * length dl + length bt) as E
      by (rewrite <- (map_length encode), <- Hc, app_length, concat_len by assumption; reflexivity).
    pose proof (Nat.div_unique _ _ _ _ Hlt E) as Hq. pose proof (Nat.mod_unique _ _ _ _ Hlt E) as Hr.
    split; [reflexivity|]. unfold client, expected_sizes. cbn [cancelled bat delivered]. rewrite <- Hq, <- Hr.
    rewrite <- (map_len_repeat dl Hd).
    (* the epilogue: is the last batch empty, and was anything delivered before it *)
    destruct bt as [|e bt], dl as [|b dl]; cbn [nilb andb negb length Nat.eqb];
      rewrite <- Hc, ?concat_app, ?map_app; cbn [concat map app length]; rewrite ?app_nil_r; auto.
  Qed.

  Lemma terminal_fail : forall s, Inv s -> term s = true -> f0 = Fail ->
    cancelled _ _ s = true /\ cli s = delivered _ _ s /\
    Forall (fun b => length b = B) (cli s) /\ exists rest, concat (cli s) ++ rest = map encode rows0.
  Proof.
    intros [inp fn rd cn rq bt m rs sd dl] (Hc & (Hd & _) & Hf & Hp) Ht ->.
    destruct (terminal_parts _ Ht) as (Hr & _). cbn in Hr. subst rd. unfold client. cbn [delivered bat cancelled rdone fin] in *.
    destruct cn; [|destruct Hp as ((_ & Hp) & _); congruence].
    repeat split; [exact Hd|]. eexists. exact Hc.
  Qed.

  Lemma no_deadlock : forall s, Inv s -> term s = false -> exists a s', stp a s = Some s'.
  Proof.
    intros [inp fn rd cn rq bt m rs sd dl] (_ & _ & _ & Hp) Ht.
    unfold terminal in Ht. cbn [bm cancelled rdone sdone] in *.
    assert (0 <? c1 = true /\ 0 <? c2 = true) as (L1 & L2) by (split; apply Nat.ltb_lt; assumption).
    destruct sd.
    - (* the sender has returned: only a cancelled run can be unfinished *)
      destruct cn.
      + destruct m; try (exists AbortB; eexists; reflexivity).
        destruct rd; [discriminate|]. exists AbortR. eexists. reflexivity.
      + destruct m, rd, Hp as (? & ? & _); discriminate.
    - destruct rs as [|b q]; [|exists Sender; eexists; reflexivity].
      destruct m; [| |exists Sender; eexists; reflexivity].
      + destruct rq as [|r q]; [|exists Batcher; eexists; reflexivity].
        destruct rd; [exists Batcher; eexists; reflexivity|].
        exists Reader. unfold step. cbn [rdone input rowq length]. rewrite L1. destruct inp; eexists; reflexivity.
      + exists Batcher. unfold step. cbn [bm resq length]. rewrite L2. eexists. reflexivity.
  Qed.

  Definition wm (m : bmode) : nat := match m with Filling => 1 | Sending => 3 | BDone => 0 end.
  Fixpoint wq (q : list (list Enc)) : nat := match q with [] => 0 | b :: q' => 2 * length b + 1 + wq q' end.
  Definition measure (s : state) : nat :=
    6 * length (input _ _ s) + 5 * length (rowq _ _ s) + 2 * length (bat _ _ s) + wq (resq _ _ s)
    + (if rdone _ _ s then 0 else 1) + wm (bm _ _ s) + (if sdone _ _ s then 0 else 1).

  Lemma wq_app : forall q b, wq (q ++ [b]) = wq q + 2 * length b + 1.
  Proof. (* [clear]: lia would otherwise carry the section's bounds into the term *)
    clear. induction q as [|x q IH]; intros b; cbn [app wq]; [lia|]. rewrite IH. lia.
  Qed.

  Lemma step_decreases : forall a s s', stp a s = Some s' -> measure s' < measure s.
  Proof.
    clear. apply (step_cases (fun s s' => measure s' < measure s)); unfold measure; intros;
      cbn [input rowq bat resq rdone bm sdone]; rewrite ?app_length, ?wq_app.
    4: destruct (_ =? _).               (* the batcher takes a row: either mode may follow *)
    10: destruct m; [| |congruence].     (* AbortB: the mode left behind was not BDone *)
    all: cbn [length wq wm]; lia.
  Qed.

  Variable sched : nat -> action.
  Definition run (k : nat) : state := exc (map sched (seq 0 k)) (init Row Enc rows0 f0).
  Definition fair : Prop := forall a k, exists k', k <= k' /\ sched k' = a.

  Lemma exec_app : forall l1 l2 s, exc (l1 ++ l2) s = exc l2 (exc l1 s).
  Proof. induction l1 as [|a l IH]; intros l2 s; [reflexivity|]. cbn [app exec]. apply IH. Qed.

  Lemma run_S : forall k, run (S k) = ex1 (sched k) (run k).
  Proof. intros k. unfold run. rewrite seq_S, map_app, exec_app. reflexivity. Qed.

  Lemma inv_run : forall k, Inv (run k).
  Proof. intros k. apply inv_reach. Qed.

  Lemma run_mono : forall k d, run (k + d) = run k \/ measure (run (k + d)) < measure (run k).
  Proof.
    intros k d. induction d as [|d IH]; [left; f_equal; lia|].
    replace (k + S d) with (S (k + d)) by lia. rewrite run_S. unfold exec1.
    destruct (stp (sched (k + d)) (run (k + d))) eqn:E.
    - right. apply step_decreases in E. destruct IH as [IH|IH]; [rewrite IH in E; exact E|lia].
    - exact IH.
  Qed.

  (* An unfinished state has an enabled action; fairness schedules it at some later k', and until then the run has
     either stood still, so the action is still enabled, or already moved: either way the measure has dropped. *)
  Theorem fair_terminates : fair -> exists k, term (run k) = true.
  Proof.
    intros Hfair.
    assert (forall m k, measure (run k) < m -> exists k', term (run k') = true) as H.
    { induction m as [|m IH]; intros k Hm; [lia|].
      destruct (term (run k)) eqn:Et; [exists k; exact Et|].
      destruct (no_deadlock _ (inv_run k) Et) as (a & s' & E).
      destruct (Hfair a k) as (k' & Hle & Hk').
      replace k' with (k + (k' - k)) in Hk' by lia.
      destruct (run_mono k (k' - k)) as [Heq|Hlt].
      - apply (IH (S (k + (k' - k)))). rewrite run_S, Hk', Heq. unfold exec1. rewrite E.
        apply step_decreases in E. lia.
      - apply (IH (k + (k' - k))). lia. }
    exact (H _ 0 (le_n _)).
  Qed.
End Proofs.

Theorem pipeline_exact : forall (Row Enc : Type) (encode : Row -> Enc) (B c1 c2 : nat) (rows : list Row) (sched : list action),
  1 <= B -> 1 <= c1 -> 1 <= c2 ->
  let s := exec Row Enc encode B c1 c2 sched (init Row Enc rows EOF) in
  terminal Row Enc s = true ->
  failed Row Enc s = false /\ concat (client Row Enc s) = map encode rows /\
  map (@length Enc) (client Row Enc s) = expected_sizes B (length rows).
Proof.
  intros Row Enc encode B c1 c2 rows sched HB H1 H2 s Ht.
  eapply terminal_ok; try apply inv_reach; auto.
Qed.

Theorem pipeline_error : forall (Row Enc : Type) (encode : Row -> Enc) (B c1 c2 : nat) (rows : list Row) (sched : list action),
  1 <= B -> 1 <= c1 -> 1 <= c2 ->
  let s := exec Row Enc encode B c1 c2 sched (init Row Enc rows Fail) in
  terminal Row Enc s = true ->
  failed Row Enc s = true /\ client Row Enc s = delivered Row Enc s /\
  Forall (fun b => length b = B) (client Row Enc s) /\
  exists rest, concat (client Row Enc s) ++ rest = map encode rows.
Proof.
  intros Row Enc encode B c1 c2 rows sched HB H1 H2 s Ht.
  eapply terminal_fail; try apply inv_reach; auto.
Qed.

Theorem pipeline_no_deadlock : forall (Row Enc : Type) (encode : Row -> Enc) (B c1 c2 : nat) (rows : list Row) (f : src_end)
  (sched : list action), 1 <= B -> 1 <= c1 -> 1 <= c2 ->
  let s := exec Row Enc encode B c1 c2 sched (init Row Enc rows f) in
  terminal Row Enc s = false -> exists a s', step Row Enc encode B c1 c2 a s = Some s'.
Proof.
  intros Row Enc encode B c1 c2 rows f sched HB H1 H2 s Ht.
  eapply no_deadlock; try apply inv_reach; auto.
Qed.

(* executable sanity: round-robin over 300 rows with B = 128, capacities 2 and 1 *)
Definition rr (n : nat) : list action := concat (repeat [Reader; Batcher; Sender] n).
Lemma pipeline_nonvacuous :
  let s := exec nat nat S 128 2 1 (rr 700) (init nat nat (seq 0 300) EOF) in
  terminal nat nat s = true /\ map (@length nat) (client nat nat s) = [128; 128; 44] /\
  let s' := exec nat nat S 128 2 1 (rr 700) (init nat nat (seq 0 300) Fail) in
  terminal nat nat s' = true /\ failed nat nat s' = true /\ map (@length nat) (client nat nat s') = [128; 128].
Proof. vm_compute. repeat split. Qed.
