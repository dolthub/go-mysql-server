(* C04 — GetTopNRows over any priority queue meeting [heap_spec] returns the first n rows of the stable
   ordering; the list-backed queue meets the spec; CompareRows is a total preorder; both plan shapes, and an
   index scan chosen under [idx_guard], return a window of an ordering consistent with the keys. *)
From Coq Require Import List Arith NArith ZArith Bool Lia Permutation.
Import ListNotations.
From GMS Require Import Base.CorrLib Base.ListFacts Phys.C04Sort Phys.C04SortProofs.

Section TopNProofs.
  Context {A : Type}.
  Variable cmp : A -> A -> comparison.
  Hypothesis PO : preorder cmp.

  Notation tg := (tagged (A:=A)).
  Notation tc := (tcmp cmp).
  Notation tsort := (ssort (tcmp cmp)).
  Notation tins := (sinsert (tcmp cmp)).
  Notation tleb := (leb (tcmp cmp)).
  Notation tsorted := (sorted (tcmp cmp)).

  Lemma tcmp_po : preorder tc.
  Proof.
    apply (lex_po fst snd cmp N.compare PO). split; [apply N.compare_antisym|].
    intros a b c. rewrite !N.compare_le_iff. apply N.le_trans.
  Qed.

  Lemma hless_leb (y x : tg) : hless cmp y x = negb (tleb y x).
  Proof.
    unfold hless, C04Sort.leb, tcmp. destruct (cmp (fst y) (fst x)); try reflexivity.
    unfold N.ltb. rewrite (N.compare_antisym (snd y) (snd x)). destruct (snd y ?= snd x)%N; reflexivity.
  Qed.

  Lemma tcmp_eq_tag (a b : tg) : tc a b = Eq -> snd a = snd b.
  Proof. unfold tcmp. destruct (cmp (fst a) (fst b)); try discriminate. apply N.compare_eq. Qed.

  Lemma nodup_tag_inj (l : list tg) : NoDup (map snd l) -> forall a b, In a l -> In b l -> snd a = snd b -> a = b.
  Proof.
    induction l as [|c t IH]; intros ND a b Ha Hb E; [destruct Ha|].
    cbn [map] in ND. inversion ND as [|? ? Hn ND']; subst.
    destruct Ha as [->|Ha], Hb as [->|Hb]; auto.
    - exfalso. apply Hn. rewrite E. apply in_map. exact Hb.
    - exfalso. apply Hn. rewrite <- E. apply in_map. exact Ha.
  Qed.

  Lemma pointwise_eq (w : list tg) : NoDup (map snd w) -> forall l1 l2,
    Forall2 (eqv tc) l1 l2 -> incl l1 w -> incl l2 w -> l1 = l2.
  Proof.
    intros ND l1 l2 H. induction H as [|a b l1 l2 Hab H IH]; intros I1 I2; [reflexivity|].
    f_equal.
    - apply (nodup_tag_inj w ND); [apply I1; left; reflexivity|apply I2; left; reflexivity|].
      apply tcmp_eq_tag. exact Hab.
    - apply IH; intros z Hz; [apply I1|apply I2]; right; exact Hz.
  Qed.

  (* under distinct arrival numbers a sorted arrangement is unique *)
  Lemma tsorted_unique (l1 l2 : list tg) :
    NoDup (map snd l1) -> tsorted l1 -> tsorted l2 -> Permutation l1 l2 -> l1 = l2.
  Proof.
    intros ND S1 S2 HP. apply (pointwise_eq l1 ND).
    - apply (sorted_perm_pointwise tc tcmp_po); assumption.
    - apply incl_refl.
    - intros z Hz. eapply Permutation_in; [apply Permutation_sym; exact HP|exact Hz].
  Qed.

  Lemma nodup_perm (l1 l2 : list tg) : Permutation l1 l2 -> NoDup (map snd l1) -> NoDup (map snd l2).
  Proof. intros HP. apply Permutation_NoDup. apply Permutation_map. exact HP. Qed.

  Lemma nodup_app_l {B} (l1 l2 : list B) : NoDup (l1 ++ l2) -> NoDup l1.
  Proof.
    induction l1 as [|x t IH]; cbn [app]; intros H; [constructor|].
    inversion H as [|? ? Hn H']; subst. constructor; [|apply IH; exact H'].
    intros Hin. apply Hn. apply in_or_app. left. exact Hin.
  Qed.

  Lemma nodup_firstn n (l : list tg) : NoDup (map snd l) -> NoDup (map snd (firstn n l)).
  Proof.
    intros H. rewrite <- (firstn_skipn n l), map_app in H. eapply nodup_app_l. exact H.
  Qed.

  (* arrival numbers *)
  Fixpoint tag_from (k : N) (xs : list A) : list tg :=
    match xs with [] => [] | x :: t => (x, N.succ k) :: tag_from (N.succ k) t end.

  Lemma tag_from_gt xs : forall k p, In p (tag_from k xs) -> (k < snd p)%N.
  Proof.
    induction xs as [|x t IH]; intros k p H; [destruct H|]. cbn [tag_from] in H.
    destruct H as [<-|H]; [cbn; lia|]. apply IH in H. lia.
  Qed.

  Lemma tag_from_nodup xs : forall k, NoDup (map snd (tag_from k xs)).
  Proof.
    induction xs as [|x t IH]; intros k; cbn [tag_from map]; constructor; [|apply IH].
    intros H. apply in_map_iff in H. destruct H as [p [E Hp]]. apply tag_from_gt in Hp. cbn in E. lia.
  Qed.

  Lemma tag_from_fst xs : forall k, map fst (tag_from k xs) = xs.
  Proof. induction xs as [|x t IH]; intros k; cbn [tag_from map]; [reflexivity|]. rewrite IH. reflexivity. Qed.

  (* the order on tagged rows refines the stable order on rows *)
  Lemma tins_fst (e : tg) : forall l, (forall p, In p l -> (snd e < snd p)%N) ->
    map fst (tins e l) = sinsert cmp (fst e) (map fst l).
  Proof.
    induction l as [|y t IH]; intros H; [reflexivity|]. cbn [C04Sort.sinsert map].
    assert (Hy : (snd e < snd y)%N) by (apply H; left; reflexivity).
    assert (E : tleb e y = leb cmp (fst e) (fst y)).
    { unfold C04Sort.leb, tcmp. destruct (cmp (fst e) (fst y)); try reflexivity.
      apply N.compare_lt_iff in Hy. rewrite Hy. reflexivity. }
    rewrite E. destruct (leb cmp (fst e) (fst y)); [reflexivity|].
    cbn [map]. rewrite IH; [reflexivity|]. intros p Hp. apply H. right. exact Hp.
  Qed.

  Lemma tsort_fst xs : forall k, map fst (tsort (tag_from k xs)) = ssort cmp xs.
  Proof.
    induction xs as [|x t IH]; intros k; [reflexivity|]. cbn [tag_from C04Sort.ssort].
    rewrite tins_fst; [cbn [fst]; rewrite IH; reflexivity|].
    intros p Hp. cbn [snd]. eapply Permutation_in in Hp; [|apply ssort_perm]. apply tag_from_gt in Hp. exact Hp.
  Qed.

  Lemma firstn_sinsert {B} (c : B -> B -> comparison) e : forall n s,
    firstn n (sinsert c e s) = firstn n (sinsert c e (firstn n s)).
  Proof.
    induction n as [|n IH]; intros s; [reflexivity|].
    destruct s as [|y t]; [reflexivity|]. cbn [firstn C04Sort.sinsert].
    destruct (leb c e y).
    - cbn [firstn]. f_equal. destruct n; [reflexivity|].
      rewrite !firstn_cons, firstn_firstn. replace (Nat.min n (S n)) with n by lia. reflexivity.
    - cbn [firstn]. f_equal. apply IH.
  Qed.

  Variable ops : heap_ops (A:=A).
  Hypothesis HS : heap_spec cmp ops.
  Notation elems := (helems ops).

  Lemma tsort_unique (l s : list tg) : NoDup (map snd l) -> tsorted s -> Permutation s l -> tsort l = s.
  Proof.
    intros ND Ss HP. apply tsorted_unique.
    - eapply nodup_perm; [apply Permutation_sym, ssort_perm|exact ND].
    - apply (ssort_sorted tc tcmp_po).
    - exact Ss.
    - rewrite ssort_perm. symmetry. exact HP.
  Qed.

  (* the popped root is the last element of the sorted content *)
  Lemma pop_sorted h x h' : hpop ops h = Some (x, h') -> NoDup (map snd (elems h)) ->
    tsort (elems h) = tsort (elems h') ++ [x].
  Proof.
    intros Ep ND. destruct (hs_pop_some _ _ HS _ _ _ Ep) as [Hperm Hroot]. apply tsort_unique; [exact ND| |].
    - apply (sorted_app tc). split; [apply (ssort_sorted tc tcmp_po)|]. split; [split; [constructor|exact I]|].
      intros a b Ha [<-|[]]. eapply Permutation_in in Ha; [|apply ssort_perm].
      rewrite Forall_forall in Hroot. specialize (Hroot a Ha). rewrite hless_leb in Hroot.
      destruct (tleb a x); [reflexivity|discriminate].
    - rewrite Hperm, <- Permutation_cons_append. apply perm_skip, ssort_perm.
  Qed.

  Lemma feed_inv n : forall xs h k P,
    (forall p, In p P -> (snd p <= k)%N) -> NoDup (map snd P) ->
    Permutation (elems h) (firstn n (tsort P)) ->
    Permutation (elems (topn_feed ops n h k xs)) (firstn n (tsort (P ++ tag_from k xs))).
  Proof.
    induction xs as [|x t IH]; intros h k P Hk ND Inv.
    - cbn [topn_feed tag_from]. rewrite app_nil_r. exact Inv.
    - cbn [topn_feed tag_from]. set (e := (x, N.succ k)).
      change (e :: tag_from (N.succ k) t) with ([e] ++ tag_from (N.succ k) t). rewrite app_assoc.
      assert (fresh : forall P', incl P' P -> NoDup (map snd P') -> NoDup (map snd (e :: P'))).
      { intros P' Hi ND'. cbn [map]. constructor; [|exact ND'].
        intros H. apply in_map_iff in H. destruct H as [p [E Hp]]. apply Hi, Hk in Hp. cbn in E. lia. }
      assert (NDe : NoDup (map snd (P ++ [e]))).
      { eapply nodup_perm; [apply Permutation_cons_append|]. apply fresh; [apply incl_refl|exact ND]. }
      apply IH; [| exact NDe |].
      { intros p Hp. apply in_app_or in Hp. destruct Hp as [Hp|[<-|[]]]; [apply Hk in Hp; lia|cbn; lia]. }
      (* the new element is inserted into the sorted content, of which only the first n places matter *)
      assert (HW : tsort (P ++ [e]) = tins e (tsort P)).
      { apply tsort_unique; [exact NDe|apply (sinsert_sorted tc tcmp_po), (ssort_sorted tc tcmp_po)|].
        rewrite sinsert_perm, ssort_perm. apply Permutation_cons_append. }
      rewrite HW, firstn_sinsert. set (F := firstn n (tsort P)) in *. set (Q := tins e F).
      assert (HQs : tsorted Q).
      { apply (sinsert_sorted tc tcmp_po), (sorted_firstn tc), (ssort_sorted tc tcmp_po). }
      assert (H1 : Permutation Q (elems (hpush ops e h))).
      { rewrite (hs_push _ _ HS). unfold Q. rewrite sinsert_perm. apply perm_skip. symmetry. exact Inv. }
      assert (ND1 : NoDup (map snd (elems (hpush ops e h)))).
      { eapply nodup_perm; [exact H1|]. eapply nodup_perm; [apply Permutation_sym, sinsert_perm|]. apply fresh.
        - intros p Hp. apply in_firstn in Hp. eapply Permutation_in; [apply ssort_perm|exact Hp].
        - apply nodup_firstn. eapply nodup_perm; [apply Permutation_sym, ssort_perm|exact ND]. }
      assert (HQl : length Q <= S n).
      { unfold Q. rewrite (Permutation_length (sinsert_perm tc e F)). cbn [length]. apply le_n_S, firstn_le_length. }
      unfold hlen. rewrite <- (Permutation_length H1).
      destruct (Nat.ltb_spec n (length Q)) as [Hgt|Hle]; [|rewrite firstn_all2 by exact Hle; symmetry; exact H1].
      (* one too many: the root that is popped is the last of the sorted content *)
      destruct (hpop ops (hpush ops e h)) as [[r h']|] eqn:Ep.
      + pose proof (pop_sorted _ _ _ Ep ND1) as E. rewrite (tsort_unique _ Q ND1 HQs H1) in E.
        assert (Hl : length (tsort (elems h')) = n).
        { apply (f_equal (@length _)) in E. rewrite app_length in E. cbn [length] in E. lia. }
        rewrite E, firstn_app, Hl, Nat.sub_diag, <- Hl, firstn_all, app_nil_r. symmetry. apply ssort_perm.
      + apply (hs_pop_none _ _ HS) in Ep. rewrite Ep in H1. apply Permutation_length in H1. cbn in H1. lia.
  Qed.

  Lemma drain_spec : forall fuel h acc,
    fuel = length (elems h) -> NoDup (map snd (elems h)) ->
    drain ops fuel h acc = map fst (tsort (elems h)) ++ acc.
  Proof.
    induction fuel as [|f IH]; intros h acc Hl ND.
    - symmetry in Hl. apply length_zero_iff_nil in Hl. rewrite Hl. reflexivity.
    - cbn [drain]. destruct (hpop ops h) as [[x h']|] eqn:Ep.
      + rewrite (pop_sorted _ _ _ Ep ND), map_app, <- app_assoc.
        destruct (hs_pop_some _ _ HS _ _ _ Ep) as [Hperm _].
        apply IH.
        * apply Permutation_length in Hperm. cbn [length] in Hperm. lia.
        * apply (nodup_perm _ _ Hperm) in ND. cbn [map] in ND. inversion ND; assumption.
      + apply (hs_pop_none _ _ HS) in Ep. rewrite Ep in Hl. discriminate.
  Qed.

  Theorem topn_eq n xs : topn ops n xs = firstn n (ssort cmp xs).
  Proof.
    unfold topn.
    assert (Inv : Permutation (elems (topn_feed ops n (hempty ops) 0%N xs)) (firstn n (tsort (tag_from 0%N xs)))).
    { apply (feed_inv n xs (hempty ops) 0%N []).
      - intros p [].
      - constructor.
      - rewrite (hs_empty _ _ HS). cbn. rewrite firstn_nil. reflexivity. }
    set (hf := topn_feed ops n (hempty ops) 0%N xs) in *.
    assert (NDf : NoDup (map snd (elems hf))).
    { eapply nodup_perm; [apply Permutation_sym; exact Inv|]. apply nodup_firstn.
      eapply nodup_perm; [apply Permutation_sym, ssort_perm|apply tag_from_nodup]. }
    rewrite drain_spec, app_nil_r by (reflexivity || exact NDf).
    rewrite (tsort_unique _ _ NDf (sorted_firstn tc n _ (ssort_sorted tc tcmp_po _)) (Permutation_sym Inv)).
    rewrite <- firstn_map, tsort_fst. reflexivity.
  Qed.
End TopNProofs.

Section ListHeapProofs.
  Context {A : Type}.
  Variable cmp : A -> A -> comparison.
  Hypothesis PO : preorder cmp.
  Notation tleb := (leb (tcmp cmp)).

  Lemma extract_root_spec : forall rest best before r o,
    extract_root cmp best before rest = (r, o) ->
    Forall (fun y => tleb y best = true) before ->
    Permutation (best :: before ++ rest) (r :: o) /\ Forall (fun y => tleb y r = true) o.
  Proof.
    induction rest as [|y t IH]; intros best before r o E Hb; cbn [extract_root] in E.
    - injection E as <- <-. rewrite app_nil_r. split; [reflexivity|exact Hb].
    - destruct (hless cmp y best) eqn:Hl; rewrite (hless_leb cmp) in Hl.
      + apply IH in E.
        * destruct E as [HP HF]. split; [|exact HF]. rewrite <- HP. cbn [app].
          rewrite <- (Permutation_middle before t y). apply perm_swap.
        * assert (Hby : tleb best y = true).
          { apply (leb_total _ (tcmp_po cmp PO)). destruct (tleb y best); [discriminate|reflexivity]. }
          constructor; [exact Hby|]. eapply Forall_impl; [|exact Hb]. cbn. intros z Hz.
          eapply (leb_trans _ (tcmp_po cmp PO)); eassumption.
      + apply IH in E.
        * destruct E as [HP HF]. split; [|exact HF]. rewrite <- HP. apply perm_skip. cbn [app].
          symmetry. apply Permutation_middle.
        * constructor; [|exact Hb]. destruct (tleb y best); [reflexivity|discriminate].
  Qed.

  Theorem list_heap_spec : heap_spec cmp (list_heap cmp).
  Proof.
    split; cbn.
    - reflexivity.
    - reflexivity.
    - intros [|x t] H; [reflexivity|discriminate].
    - intros [|x0 t] x h' H; [discriminate|]. injection H as H.
      apply extract_root_spec in H; [|constructor]. destruct H as [HP HF]. split; [exact HP|].
      eapply Forall_impl; [|exact HF]. cbn. intros z Hz. rewrite (hless_leb cmp), Hz. reflexivity.
  Qed.
End ListHeapProofs.

Lemma bytes_cmp_antisym : forall a b, bytes_cmp b a = CompOpp (bytes_cmp a b).
Proof.
  induction a as [|x a IH]; intros [|y b]; cbn [bytes_cmp]; try reflexivity.
  rewrite (N.compare_antisym x y). destruct (x ?= y)%N; cbn; auto.
Qed.

Lemma bytes_cmp_eq : forall a b, bytes_cmp a b = Eq -> a = b.
Proof.
  induction a as [|x a IH]; intros [|y b]; cbn [bytes_cmp]; try discriminate; [reflexivity|].
  destruct (x ?= y)%N eqn:E; try discriminate. intros H. apply N.compare_eq in E. f_equal; auto.
Qed.

Lemma bytes_cmp_trans : forall a b c, bytes_cmp a b <> Gt -> bytes_cmp b c <> Gt -> bytes_cmp a c <> Gt.
Proof.
  induction a as [|x a IH]; intros [|y b] [|z c]; cbn [bytes_cmp]; try congruence.
  destruct (x ?= y)%N eqn:Exy; destruct (y ?= z)%N eqn:Eyz; intros H1 H2; try congruence.
  - apply N.compare_eq in Exy, Eyz. subst. rewrite N.compare_refl. eapply IH; eassumption.
  - apply N.compare_eq in Exy. subst. rewrite Eyz. discriminate.
  - apply N.compare_eq in Eyz. subst. rewrite Exy. discriminate.
  - rewrite N.compare_lt_iff in Exy, Eyz. assert (E : (x ?= z)%N = Lt) by (apply N.compare_lt_iff; lia).
    rewrite E. discriminate.
Qed.

Lemma ty_compare_antisym t a b : ty_compare t b a = CompOpp (ty_compare t a b).
Proof.
  destruct a as [|x|x], b as [|y|y]; cbn; try reflexivity.
  - apply Z.compare_antisym.
  - destruct t; apply bytes_cmp_antisym.
Qed.

Lemma ty_compare_trans t a b c : ty_compare t a b <> Gt -> ty_compare t b c <> Gt -> ty_compare t a c <> Gt.
Proof.
  destruct a as [|x|x], b as [|y|y], c as [|z|z]; cbn; try congruence.
  - intros H1 H2. apply Z.compare_le_iff. rewrite Z.compare_le_iff in H1, H2. lia.
  - destruct t; apply bytes_cmp_trans.
Qed.

Lemma val_cmp_antisym nf t a b : val_cmp nf t b a = CompOpp (val_cmp nf t a b).
Proof.
  destruct nf, a, b; try reflexivity; apply ty_compare_antisym.
Qed.

Lemma val_cmp_trans nf t a b c : val_cmp nf t a b <> Gt -> val_cmp nf t b c <> Gt -> val_cmp nf t a c <> Gt.
Proof.
  pose proof (ty_compare_trans t a b c) as T.
  destruct nf; destruct a as [|x|x], b as [|y|y], c as [|z|z]; cbn in *; try congruence; exact T.
Qed.

Lemma key_cmp_po k : preorder (key_cmp k).
Proof.
  split.
  - intros a b. unfold key_cmp. destruct (k_desc k); apply val_cmp_antisym.
  - intros a b c. unfold key_cmp. destruct (k_desc k).
    + intros H1 H2. eapply val_cmp_trans; eassumption.
    + apply val_cmp_trans.
Qed.

Lemma compare_rows_po ks : preorder (compare_rows ks).
Proof.
  induction ks as [|k ks IH]; [split; cbn; [reflexivity|congruence]|].
  exact (lex_po (fun r => r) (fun r => r) _ _ (key_cmp_po k) IH).
Qed.

Section PlanProofs.
  Context {A : Type}.
  Variable cmp : A -> A -> comparison.
  Hypothesis PO : preorder cmp.

  Lemma plan_sort_eq n m xs :
    plan_sort cmp (Some (Z.of_nat n)) (Z.of_nat m) xs = firstn n (skipn m (ssort cmp xs)).
  Proof. unfold plan_sort. apply limit_offset_eq. Qed.

  Lemma plan_sort_nolimit_eq m xs : plan_sort cmp None (Z.of_nat m) xs = skipn m (ssort cmp xs).
  Proof. unfold plan_sort. rewrite offset_iter_skipn, Nat2Z.id. reflexivity. Qed.

  Lemma plan_topn_eq n m xs : plan_topn cmp n m xs = firstn n (skipn m (ssort cmp xs)).
  Proof.
    unfold plan_topn. rewrite offset_iter_skipn, Nat2Z.id.
    assert (E : (if Nat.eqb (n + m) 1 then top1 cmp xs else topn (list_heap cmp) (n + m) xs)
                = firstn (n + m) (ssort cmp xs)).
    { destruct (Nat.eqb_spec (n + m) 1) as [H1|H1].
      - rewrite H1. apply (top1_eq cmp PO).
      - apply (topn_eq cmp PO). apply (list_heap_spec cmp PO). }
    rewrite E, skipn_firstn_comm. replace (n + m - m) with n by lia. reflexivity.
  Qed.

  Lemma canonical_is_slice n m xs : is_slice cmp xs m n (firstn n (skipn m (ssort cmp xs))).
  Proof. exists (ssort cmp xs). split; [apply ssort_perm|]. split; [apply (ssort_sorted cmp PO)|reflexivity]. Qed.

  Lemma plans_are_slices n m xs :
    is_slice cmp xs m n (plan_sort cmp (Some (Z.of_nat n)) (Z.of_nat m) xs) /\
    is_slice cmp xs m n (plan_topn cmp n m xs) /\
    is_slice cmp xs m (length xs) (plan_sort cmp None (Z.of_nat m) xs).
  Proof.
    rewrite plan_sort_eq, plan_topn_eq, plan_sort_nolimit_eq. repeat split; try apply canonical_is_slice.
    rewrite <- (firstn_all2 (n := length xs) (skipn m (ssort cmp xs))) at 1; [apply canonical_is_slice|].
    rewrite skipn_length, (ssort_length cmp). lia.
  Qed.
End PlanProofs.

(* NULL placement of a single key: first under ASC, last under DESC (the default NullsFirst ordering) *)
Lemma null_placement col ty a b :
  nth col a VNull = VNull -> nth col b VNull <> VNull ->
  compare_rows [SKey col ty false false] a b = Lt /\ compare_rows [SKey col ty true false] a b = Gt.
Proof.
  intros Ha Hb. unfold compare_rows, key_cmp. cbn [k_col k_ty k_desc k_nulls_last negb]. rewrite Ha.
  destruct (nth col b VNull) as [|z|s]; [congruence| |]; cbn; auto.
Qed.

Lemma sorted_nth {A} (cmp : A -> A -> comparison) (l : list A) : sorted cmp l ->
  forall i j d, i < j -> j < length l -> cmp (nth i l d) (nth j l d) <> Gt.
Proof.
  induction l as [|x t IH]; intros Hs i j d Hij Hj; [cbn in Hj; lia|].
  destruct Hs as [Hx Ht]. destruct j as [|j]; [lia|]. cbn [length] in Hj. destruct i as [|i].
  - cbn [nth]. rewrite Forall_forall in Hx. assert (Hjt : j < length t) by lia. specialize (Hx (nth j t d) (nth_In t d Hjt)).
    unfold leb in Hx. destruct (cmp x (nth j t d)); congruence.
  - cbn [nth]. apply IH; [exact Ht|lia|lia].
Qed.

(* rows: decidable equality for the slice check *)
Definition val_eqb (a b : val) : bool :=
  match a, b with
  | VNull, VNull => true
  | VInt x, VInt y => Z.eqb x y
  | VStr x, VStr y => GMS.Base.CorrLib.list_eqb N.eqb x y
  | _, _ => false
  end.
Definition row_eqb : row -> row -> bool := GMS.Base.CorrLib.list_eqb val_eqb.

Lemma val_eqb_spec a b : val_eqb a b = true <-> a = b.
Proof.
  destruct a as [|x|x], b as [|y|y]; cbn; split; intros H; try reflexivity; try discriminate.
  - apply Z.eqb_eq in H. congruence.
  - injection H as ->. apply Z.eqb_refl.
  - apply (GMS.Base.CorrLib.list_eqb_spec N.eqb N.eqb_eq) in H. congruence.
  - injection H as ->. apply (GMS.Base.CorrLib.list_eqb_spec N.eqb N.eqb_eq). reflexivity.
Qed.

Lemma row_eqb_spec a b : row_eqb a b = true <-> a = b.
Proof. apply GMS.Base.CorrLib.list_eqb_spec. exact val_eqb_spec. Qed.

Lemma compare_rows_flip cs a b :
  compare_rows (map (mk_key true) cs) a b = compare_rows (map (mk_key false) cs) b a.
Proof.
  induction cs as [|c cs IH]; [reflexivity|]. cbn [map compare_rows]. rewrite IH.
  unfold key_cmp, mk_key. cbn [k_col k_ty k_desc k_nulls_last]. reflexivity.
Qed.

Lemma leb_prefix k1 k2 a b : leb (compare_rows (k1 ++ k2)) a b = true -> leb (compare_rows k1) a b = true.
Proof.
  unfold leb. induction k1 as [|k k1 IH]; cbn [app compare_rows]; [reflexivity|].
  destruct (key_cmp k a b); auto.
Qed.

Lemma sorted_weaken {A} (c1 c2 : A -> A -> comparison) l :
  (forall a b, leb c1 a b = true -> leb c2 a b = true) -> sorted c1 l -> sorted c2 l.
Proof.
  intros H. induction l as [|x t IH]; cbn [sorted]; [auto|]. intros [HF HS]. split; [|apply IH; exact HS].
  eapply Forall_impl; [|exact HF]. cbn. intros y. apply H.
Qed.

Lemma sorted_rev {A} (c : A -> A -> comparison) l : sorted c l -> sorted (fun a b => c b a) (rev l).
Proof.
  induction l as [|x t IH]; cbn [sorted rev]; [auto|]. intros [HF HS].
  apply (sorted_app (fun a b => c b a)). split; [apply IH; exact HS|]. split; [split; [constructor|exact I]|].
  intros a b Ha [<-|[]]. apply in_rev in Ha. rewrite Forall_forall in HF. unfold leb in *. apply HF. exact Ha.
Qed.

(* the guard pins the shape of the sort conditions: a prefix of the index columns, all in one direction *)
Lemma guard_shape ks idx : idx_guard ks idx = true ->
  exists n d, ks = map (mk_key d) (firstn n idx) /\ d = match ks with k :: _ => k_desc k | [] => false end.
Proof.
  unfold idx_guard. destruct ks as [|k0 ks0]; [discriminate|]. set (ks := k0 :: ks0). intros H.
  apply andb_prop in H. destruct H as [HD HP]. exists (length ks), (k_desc k0). split; [|reflexivity].
  unfold same_dir in HD. cbn [ks] in HD. fold ks in HD. rewrite forallb_forall in HD.
  clearbody ks. revert idx HP. induction ks as [|k t IH]; intros idx HP; [reflexivity|].
  destruct idx as [|c idx']; [discriminate|]. cbn [prefix_match] in HP. apply andb_prop in HP. destruct HP as [HK HP].
  cbn [length firstn map]. f_equal.
  - unfold key_matches in HK. apply andb_prop in HK. destruct HK as [HK Hn]. apply andb_prop in HK. destruct HK as [Hc Ht].
    pose proof (HD k (or_introl eq_refl)) as Hd. apply Bool.eqb_prop in Hd. apply Nat.eqb_eq in Hc.
    destruct k as [kc kt kd kn]. destruct c as [cc ct]. unfold mk_key. cbn in *. subst.
    destruct kn; [discriminate|]. destruct kt, ct; try discriminate; reflexivity.
  - apply IH; [intros x Hx; apply HD; right; exact Hx|exact HP].
Qed.

Theorem index_scan_sorted ks idx rows : idx_guard ks idx = true ->
  Permutation (plan_index ks idx rows) rows /\ sorted (compare_rows ks) (plan_index ks idx rows).
Proof.
  intros HG. destruct (guard_shape ks idx HG) as [n [d [Eks Ed]]]. unfold plan_index. rewrite <- Ed. clear Ed.
  unfold index_storage, index_scan.
  set (full := map (mk_key false) idx).
  assert (Hsplit : full = map (mk_key false) (firstn n idx) ++ map (mk_key false) (skipn n idx)).
  { unfold full. rewrite <- map_app, firstn_skipn. reflexivity. }
  pose proof (ssort_sorted _ (compare_rows_po full) rows) as HS.
  pose proof (ssort_perm (compare_rows full) rows) as HP.
  assert (HSpre : sorted (compare_rows (map (mk_key false) (firstn n idx))) (ssort (compare_rows full) rows)).
  { eapply sorted_weaken; [|exact HS]. intros a b. rewrite Hsplit. apply leb_prefix. }
  destruct d; subst ks.
  - split; [rewrite <- HP at 2; symmetry; apply Permutation_rev|].
    eapply sorted_weaken; [|apply sorted_rev; exact HSpre].
    intros a b. unfold leb. rewrite compare_rows_flip. auto.
  - split; [exact HP|exact HSpre].
Qed.

(* with LIMIT n OFFSET m on top: a window of an ordering consistent with the keys *)
Theorem index_plan_is_slice ks idx rows m n : idx_guard ks idx = true ->
  is_slice (compare_rows ks) rows m n (firstn n (skipn m (plan_index ks idx rows))).
Proof.
  intros HG. destruct (index_scan_sorted ks idx rows HG) as [HP HS].
  exists (plan_index ks idx rows). split; [exact HP|]. split; [exact HS|reflexivity].
Qed.
