(* C04 — proofs about the generic sorting layer: total preorders, stable insertion sort, merge sort,
   top-1 scan, the slice specification and its decidable characterisation, LimitIter / offsetIter. *)
From Coq Require Import List Arith NArith ZArith Bool Lia Permutation.
Import ListNotations.
From GMS Require Import Phys.C04Sort.

(* a comparator is a total preorder *)
Record preorder {A} (cmp : A -> A -> comparison) : Prop := {
  po_antisym : forall a b, cmp b a = CompOpp (cmp a b);
  po_trans : forall a b c, cmp a b <> Gt -> cmp b c <> Gt -> cmp a c <> Gt
}.

Section SortingProofs.
  Context {A : Type}.
  Variable cmp : A -> A -> comparison.
  Hypothesis PO : preorder cmp.

  Notation leb := (leb cmp).
  Notation sorted := (sorted cmp).
  Notation sortedb := (sortedb cmp).
  Notation sinsert := (sinsert cmp).
  Notation ssort := (ssort cmp).
  Definition eqv (a b : A) : Prop := cmp a b = Eq.

  Lemma cmp_refl a : cmp a a = Eq.
  Proof. pose proof (po_antisym _ PO a a) as H. destruct (cmp a a); cbn in H; congruence. Qed.

  Lemma cmp_leb a b : cmp a b = if leb a b then if leb b a then Eq else Lt else Gt.
  Proof. unfold C04Sort.leb. rewrite (po_antisym _ PO a b). destruct (cmp a b); reflexivity. Qed.

  Lemma leb_refl a : leb a a = true.
  Proof. unfold C04Sort.leb. rewrite cmp_refl. reflexivity. Qed.

  Lemma leb_trans a b c : leb a b = true -> leb b c = true -> leb a c = true.
  Proof.
    assert (L : forall x y, leb x y = true <-> cmp x y <> Gt)
      by (intros x y; unfold C04Sort.leb; destruct (cmp x y); split; congruence).
    rewrite !L. apply (po_trans _ PO).
  Qed.

  Lemma leb_total a b : leb a b = false -> leb b a = true.
  Proof.
    unfold C04Sort.leb. rewrite (po_antisym _ PO a b). destruct (cmp a b); cbn; congruence.
  Qed.

  Lemma leb_false_lt a b : leb a b = false -> cmp b a = Lt.
  Proof. unfold C04Sort.leb. rewrite (po_antisym _ PO a b). destruct (cmp a b); cbn; congruence. Qed.

  Lemma leb_antisym_eqv a b : leb a b = true -> leb b a = true -> eqv a b.
  Proof. unfold eqv. rewrite cmp_leb. intros -> ->. reflexivity. Qed.

  Lemma eqv_leb a b : eqv a b -> leb a b = true /\ leb b a = true.
  Proof. unfold eqv. rewrite cmp_leb. destruct (leb a b), (leb b a); intros [=]. auto. Qed.

  Lemma eqv_refl a : eqv a a.
  Proof. apply cmp_refl. Qed.

  Lemma eqv_sym a b : eqv a b -> eqv b a.
  Proof. unfold eqv. rewrite (po_antisym _ PO a b). intros ->. reflexivity. Qed.

  Lemma leb_eqv a a' b b' : eqv a a' -> eqv b b' -> leb a b = leb a' b'.
  Proof.
    intros Ha Hb. apply eqv_leb in Ha, Hb. apply eq_true_iff_eq.
    split; intros H; (eapply leb_trans; [apply Ha|]; eapply leb_trans; [exact H|apply Hb]).
  Qed.

  Lemma cmp_eqv a a' b b' : eqv a a' -> eqv b b' -> cmp a b = cmp a' b'.
  Proof. intros Ha Hb. rewrite (cmp_leb a b), (cmp_leb a' b'), (leb_eqv _ _ _ _ Ha Hb), (leb_eqv _ _ _ _ Hb Ha). reflexivity. Qed.

  Lemma eqv_trans a b c : eqv a b -> eqv b c -> eqv a c.
  Proof. intros H1 H2. unfold eqv. rewrite (cmp_eqv a a c b (eqv_refl a) (eqv_sym _ _ H2)). exact H1. Qed.

  Lemma lt_trans a b c : cmp a b = Lt -> cmp b c = Lt -> cmp a c = Lt.
  Proof.
    rewrite !cmp_leb. destruct (leb a b) eqn:Hab, (leb b a) eqn:Hba; try discriminate. intros _.
    destruct (leb b c) eqn:Hbc, (leb c b) eqn:Hcb; try discriminate. intros _.
    rewrite (leb_trans _ _ _ Hab Hbc). destruct (leb c a) eqn:Hca; [|reflexivity].
    rewrite (leb_trans _ _ _ Hbc Hca) in Hba. discriminate.
  Qed.

  Lemma sortedb_sorted l : sortedb l = true <-> sorted l.
  Proof.
    induction l as [|x t IH]; cbn [C04Sort.sortedb C04Sort.sorted]; [tauto|].
    destruct t as [|y t'].
    - split; [intros _; split; [constructor|exact I]|reflexivity].
    - rewrite andb_true_iff, IH. split.
      + intros [Hxy Hs]. split; [|exact Hs]. constructor; [exact Hxy|].
        cbn [C04Sort.sorted] in Hs. destruct Hs as [Hy _].
        eapply Forall_impl; [|exact Hy]. cbn. intros z Hz. eapply leb_trans; eassumption.
      + intros [Hf Hs]. split; [inversion Hf; assumption|exact Hs].
  Qed.

  Lemma sorted_app l1 l2 :
    sorted (l1 ++ l2) <-> sorted l1 /\ sorted l2 /\ (forall a b, In a l1 -> In b l2 -> leb a b = true).
  Proof.
    induction l1 as [|x t IH]; cbn [app C04Sort.sorted].
    - split; [intros H; repeat split; auto; intros a b []|tauto].
    - rewrite IH, Forall_app. rewrite !Forall_forall. split.
      + intros [[H1 H2] [H3 [H4 H5]]]. repeat split; auto.
        intros a b [<-|Ha] Hb; auto.
      + intros [[H1 H2] [H3 H4]]. repeat split; auto.
        * intros y Hy. apply H4; [left; reflexivity|exact Hy].
        * intros a b Ha Hb. apply H4; [right; exact Ha|exact Hb].
  Qed.

  Lemma sorted_firstn n l : sorted l -> sorted (firstn n l).
  Proof.
    intros H. rewrite <- (firstn_skipn n l) in H. apply sorted_app in H. tauto.
  Qed.
  Lemma sorted_skipn n l : sorted l -> sorted (skipn n l).
  Proof.
    intros H. rewrite <- (firstn_skipn n l) in H. apply sorted_app in H. tauto.
  Qed.

  Lemma sinsert_perm x l : Permutation (sinsert x l) (x :: l).
  Proof.
    induction l as [|y t IH]; cbn [C04Sort.sinsert]; [reflexivity|].
    destruct (leb x y); [reflexivity|]. rewrite IH. apply perm_swap.
  Qed.

  Lemma sinsert_sorted x l : sorted l -> sorted (sinsert x l).
  Proof.
    induction l as [|y t IH]; cbn [C04Sort.sinsert C04Sort.sorted]; intros Hs.
    - split; [constructor|exact I].
    - destruct Hs as [Hy Ht]. destruct (leb x y) eqn:E.
      + cbn [C04Sort.sorted]. repeat split; auto. constructor; [exact E|].
        eapply Forall_impl; [|exact Hy]. cbn. intros z Hz. eapply leb_trans; eassumption.
      + cbn [C04Sort.sorted]. split; [|apply IH; exact Ht].
        rewrite Forall_forall in *. intros z Hz.
        apply (Permutation_in _ (sinsert_perm x t)) in Hz. destruct Hz as [<-|Hz].
        * apply leb_total. exact E.
        * apply Hy. exact Hz.
  Qed.

  Lemma ssort_perm l : Permutation (ssort l) l.
  Proof.
    induction l as [|x t IH]; cbn [C04Sort.ssort]; [reflexivity|]. rewrite sinsert_perm, IH. reflexivity.
  Qed.

  Lemma ssort_sorted l : sorted (ssort l).
  Proof. induction l as [|x t IH]; cbn [C04Sort.ssort]; [exact I|]. apply sinsert_sorted. exact IH. Qed.

  Lemma ssort_length l : length (ssort l) = length l.
  Proof. apply Permutation_length, ssort_perm. Qed.

  (* stability: the members of every tie class keep their input order *)
  Lemma sinsert_stable p x l :
    sorted l -> filter (eqvb cmp p) (sinsert x l) = filter (eqvb cmp p) (x :: l).
  Proof.
    induction l as [|y t IH]; cbn [C04Sort.sinsert]; intros Hs; [reflexivity|].
    destruct (leb x y) eqn:E; [reflexivity|].
    destruct Hs as [Hy Ht]. cbn [filter]. rewrite (IH Ht). cbn [filter].
    destruct (eqvb cmp p x) eqn:Ex, (eqvb cmp p y) eqn:Ey; try reflexivity.
    (* p ~ x and p ~ y would give x ~ y, contradicting y < x *)
    exfalso. unfold eqvb in Ex, Ey.
    destruct (cmp p x) eqn:Cx; try discriminate. destruct (cmp p y) eqn:Cy; try discriminate.
    assert (Hxy : eqv x y) by (eapply eqv_trans; [apply eqv_sym; exact Cx|exact Cy]).
    apply eqv_leb in Hxy. destruct Hxy as [Hxy _]. congruence.
  Qed.

  Lemma ssort_stable p l : filter (eqvb cmp p) (ssort l) = filter (eqvb cmp p) l.
  Proof.
    induction l as [|x t IH]; cbn [C04Sort.ssort]; [reflexivity|].
    rewrite sinsert_stable by apply ssort_sorted. cbn [filter]. rewrite IH. reflexivity.
  Qed.

  Lemma Forall2_eqv_refl l : Forall2 eqv l l.
  Proof. induction l; constructor; auto using eqv_refl. Qed.

  Lemma Forall2_eqv_trans l1 l2 l3 : Forall2 eqv l1 l2 -> Forall2 eqv l2 l3 -> Forall2 eqv l1 l3.
  Proof.
    intros H. revert l3. induction H as [|a b l1 l2 Hab H IH]; intros l3 H3; inversion H3; subst; constructor.
    - eapply eqv_trans; eassumption.
    - apply IH. assumption.
  Qed.

  Lemma rotate_class a p q : (forall y, In y p -> eqv a y) -> Forall2 eqv (a :: p ++ q) (p ++ a :: q).
  Proof.
    revert a. induction p as [|b p IH]; intros a Hp; cbn [app].
    - apply Forall2_eqv_refl.
    - constructor; [apply Hp; left; reflexivity|].
      assert (Hab : eqv a b) by (apply Hp; left; reflexivity).
      eapply Forall2_eqv_trans with (l2 := a :: p ++ q).
      + constructor; [apply eqv_sym; exact Hab|apply Forall2_eqv_refl].
      + apply IH. intros y Hy. apply Hp. right. exact Hy.
  Qed.

  Lemma sorted_perm_pointwise l1 : forall l2,
    sorted l1 -> sorted l2 -> Permutation l1 l2 -> Forall2 eqv l1 l2.
  Proof.
    induction l1 as [|a t IH]; intros l2 H1 H2 HP.
    - apply Permutation_nil in HP. subst. constructor.
    - assert (Ha : In a l2) by (eapply Permutation_in; [exact HP|left; reflexivity]).
      apply in_split in Ha. destruct Ha as [p [q ->]].
      apply Permutation_cons_app_inv in HP.
      destruct H1 as [Hat Ht]. rewrite Forall_forall in Hat.
      pose proof H2 as H2'. apply sorted_app in H2'. destruct H2' as [Hp [Haq Hpq]].
      assert (Hclass : forall y, In y p -> eqv a y).
      { intros y Hy. apply leb_antisym_eqv.
        - apply Hat. eapply Permutation_in; [apply Permutation_sym; exact HP|]. apply in_or_app. left. exact Hy.
        - apply Hpq; [exact Hy|left; reflexivity]. }
      eapply Forall2_eqv_trans; [|apply rotate_class; exact Hclass].
      constructor; [apply eqv_refl|]. apply IH; [exact Ht| |exact HP].
      apply sorted_app. destruct Haq as [Haq Hq]. repeat split; auto.
      intros x y Hx Hy. apply Hpq; [exact Hx|right; exact Hy].
  Qed.

  Lemma sorted_pointwise l1 l2 : Forall2 eqv l1 l2 -> sorted l1 -> sorted l2.
  Proof.
    intros H. induction H as [|a b l1 l2 Hab H IH]; cbn [C04Sort.sorted]; [auto|].
    intros [Hf Hs]. split; [|apply IH; exact Hs].
    clear IH Hs. induction H as [|c d l1 l2 Hcd H IH]; [constructor|].
    inversion Hf; subst. constructor; [rewrite <- (leb_eqv _ _ _ _ Hab Hcd); assumption|apply IH; assumption].
  Qed.

  Lemma Forall2_firstn {B} (R : B -> B -> Prop) n : forall l1 l2, Forall2 R l1 l2 -> Forall2 R (firstn n l1) (firstn n l2).
  Proof. induction n; intros l1 l2 H; cbn; [constructor|]. destruct H; constructor; auto. Qed.
  Lemma Forall2_skipn {B} (R : B -> B -> Prop) n : forall l1 l2, Forall2 R l1 l2 -> Forall2 R (skipn n l1) (skipn n l2).
  Proof. induction n; intros l1 l2 H; cbn; [exact H|]. destruct H; [constructor|auto]. Qed.

  Definition pick (top r : A) : A := match cmp r top with Lt => r | _ => top end.

  Lemma pick_leb top r : pick top r = if leb top r then top else r.
  Proof. unfold pick, C04Sort.leb. rewrite (po_antisym _ PO top r). destruct (cmp top r); reflexivity. Qed.

  (* the smaller of two with the earlier one winning ties: an associative operation *)
  Lemma pick_assoc a b c : pick (pick a b) c = pick a (pick b c).
  Proof.
    rewrite !pick_leb. destruct (leb a b) eqn:Hab, (leb b c) eqn:Hbc; rewrite ?Hab, ?Hbc; try reflexivity.
    - rewrite (leb_trans _ _ _ Hab Hbc). reflexivity.
    - destruct (leb a c) eqn:Hac; [|reflexivity].
      rewrite (leb_trans _ _ _ Hac (leb_total _ _ Hbc)) in Hab. discriminate.
  Qed.

  Lemma sinsert_nonempty x s : sinsert x s <> [].
  Proof. destruct s as [|y t]; cbn [C04Sort.sinsert]; [discriminate|]. destruct (leb x y); discriminate. Qed.

  Lemma hd_sinsert x s d : hd d (sinsert x s) = match s with [] => x | _ => pick x (hd d s) end.
  Proof. destruct s as [|y t]; cbn [C04Sort.sinsert hd]; [reflexivity|]. rewrite pick_leb. destruct (leb x y); reflexivity. Qed.

  Lemma hd_sinsert2 x y s d : hd d (sinsert x (sinsert y s)) = hd d (sinsert (pick x y) s).
  Proof.
    rewrite (hd_sinsert x). destruct (sinsert y s) eqn:E; [destruct (sinsert_nonempty _ _ E)|].
    rewrite <- E, !hd_sinsert. destruct s; [reflexivity|symmetry; apply pick_assoc].
  Qed.

  Lemma top1_fold t : forall x d, hd d (ssort (x :: t)) = fold_left pick t x.
  Proof.
    induction t as [|y t IH]; intros x d; [reflexivity|].
    cbn [fold_left]. rewrite <- (IH (pick x y) d). cbn [C04Sort.ssort]. apply hd_sinsert2.
  Qed.

  Lemma top1_eq l : top1 cmp l = firstn 1 (ssort l).
  Proof.
    destruct l as [|x t]; [reflexivity|]. unfold top1. fold pick.
    rewrite <- (top1_fold t x x). cbn [C04Sort.ssort].
    destruct (sinsert x (ssort t)) eqn:E; [exfalso; eapply sinsert_nonempty; exact E|reflexivity].
  Qed.

  Lemma merge_nil_r l : merge cmp l [] = l.
  Proof. destruct l; reflexivity. Qed.

  Lemma merge_nil_l l : merge cmp [] l = l.
  Proof. destruct l; reflexivity. Qed.
  Lemma merge_cons a l1 b l2 :
    merge cmp (a :: l1) (b :: l2) = if leb a b then a :: merge cmp l1 (b :: l2) else b :: merge cmp (a :: l1) l2.
  Proof. reflexivity. Qed.

  Lemma sinsert_merge x : forall s1 s2,
    sorted s1 -> sinsert x (merge cmp s1 s2) = merge cmp (sinsert x s1) s2.
  Proof.
    induction s1 as [|a s1 IH1]; intros s2 Hs1.
    - rewrite merge_nil_l. cbn [C04Sort.sinsert]. induction s2 as [|b s2 IH2]; [reflexivity|].
      cbn [C04Sort.sinsert]. rewrite merge_cons. destruct (leb x b); [rewrite merge_nil_l; reflexivity|].
      rewrite IH2. reflexivity.
    - induction s2 as [|b s2 IH2].
      + rewrite !merge_nil_r. reflexivity.
      + destruct Hs1 as [Ha Hs1]. rewrite merge_cons. destruct (leb a b) eqn:Eab.
        * cbn [C04Sort.sinsert]. destruct (leb x a) eqn:Exa.
          -- assert (Exb : leb x b = true) by (eapply leb_trans; eassumption).
             rewrite !merge_cons, Exb, Eab. reflexivity.
          -- rewrite merge_cons, Eab. f_equal. apply IH1. exact Hs1.
        * cbn [C04Sort.sinsert]. destruct (leb x a) eqn:Exa.
          -- rewrite merge_cons. destruct (leb x b) eqn:Exb.
             ++ rewrite merge_cons, Eab. reflexivity.
             ++ f_equal. cbn [C04Sort.sinsert] in IH2. rewrite Exa in IH2. apply IH2.
          -- assert (Exb : leb x b = false).
             { destruct (leb x b) eqn:Exb; [|reflexivity].
               pose proof (leb_total _ _ Eab) as Hba.
               assert (leb x a = true) by (eapply leb_trans; eassumption). congruence. }
             rewrite Exb. rewrite merge_cons, Eab. f_equal.
             cbn [C04Sort.sinsert] in IH2. rewrite Exa in IH2. apply IH2.
  Qed.

  Lemma ssort_app l1 l2 : ssort (l1 ++ l2) = merge cmp (ssort l1) (ssort l2).
  Proof.
    induction l1 as [|x l1 IH]; cbn [app C04Sort.ssort].
    - destruct (ssort l2); reflexivity.
    - rewrite IH. apply sinsert_merge. apply ssort_sorted.
  Qed.

  Lemma msort_fuel_eq fuel : forall l, msort_fuel cmp fuel l = ssort l.
  Proof.
    induction fuel as [|f IH]; intros l; [reflexivity|].
    cbn [C04Sort.msort_fuel]. destruct l as [|x [|y t]]; [reflexivity|reflexivity|].
    rewrite !IH, <- ssort_app, firstn_skipn. reflexivity.
  Qed.

  Lemma msort_eq l : msort cmp l = ssort l.
  Proof. apply msort_fuel_eq. Qed.
End SortingProofs.

Lemma lex_po {A B C} (f : A -> B) (g : A -> C) c1 c2 : preorder c1 -> preorder c2 ->
  preorder (fun a b => match c1 (f a) (f b) with Eq => c2 (g a) (g b) | c => c end).
Proof.
  intros P1 P2. split.
  - intros a b. rewrite (po_antisym _ P1 (f a) (f b)). destruct (c1 (f a) (f b)); cbn; auto using (po_antisym _ P2).
  - intros a b c. destruct (c1 (f a) (f b)) eqn:Eab, (c1 (f b) (f c)) eqn:Ebc; try congruence.
    + rewrite (eqv_trans _ P1 _ _ _ Eab Ebc). apply (po_trans _ P2).
    + rewrite (cmp_eqv _ P1 _ _ _ _ Eab (eqv_refl _ P1 _)), Ebc. discriminate.
    + rewrite <- (cmp_eqv _ P1 _ _ _ _ (eqv_refl _ P1 _) Ebc), Eab. discriminate.
    + rewrite (lt_trans _ P1 _ _ _ Eab Ebc). discriminate.
Qed.

Section SliceProofs.
  Context {A : Type}.
  Variable cmp : A -> A -> comparison.
  Hypothesis PO : preorder cmp.
  Variable eqb : A -> A -> bool.
  Hypothesis eqb_spec : forall a b, eqb a b = true <-> a = b.

  Lemma remove1_perm x : forall l l', remove1 eqb x l = Some l' -> Permutation l (x :: l').
  Proof.
    induction l as [|y t IH]; intros l' H; cbn [remove1] in H; [discriminate|].
    destruct (eqb x y) eqn:E.
    - apply eqb_spec in E. subst y. injection H as <-. reflexivity.
    - destruct (remove1 eqb x t) as [t'|] eqn:R; [|discriminate]. injection H as <-.
      rewrite (IH t' eq_refl). apply perm_swap.
  Qed.

  Lemma remove1_complete x : forall l, In x l -> exists l', remove1 eqb x l = Some l'.
  Proof.
    induction l as [|y t IH]; intros H; [destruct H|]. cbn [remove1].
    destruct (eqb x y) eqn:E; [eexists; reflexivity|].
    destruct H as [->|H]; [assert (eqb x x = true) by (apply eqb_spec; reflexivity); congruence|].
    destruct (IH H) as [t' ->]. eexists; reflexivity.
  Qed.

  Lemma msub_perm o : forall xs r, msub eqb xs o = Some r -> Permutation xs (o ++ r).
  Proof.
    induction o as [|x o IH]; intros xs r H; cbn [msub] in H.
    - injection H as <-. reflexivity.
    - destruct (remove1 eqb x xs) as [xs'|] eqn:R; [|discriminate].
      rewrite (remove1_perm _ _ _ R). cbn [app]. apply perm_skip. apply IH. exact H.
  Qed.

  Lemma msub_complete o : forall xs r0, Permutation xs (o ++ r0) -> exists r, msub eqb xs o = Some r /\ Permutation r r0.
  Proof.
    induction o as [|x o IH]; intros xs r0 HP; cbn [msub].
    - exists xs. split; [reflexivity|exact HP].
    - assert (Hin : In x xs) by (eapply Permutation_in; [apply Permutation_sym; exact HP|left; reflexivity]).
      destruct (remove1_complete x xs Hin) as [xs' R]. rewrite R. apply IH.
      apply remove1_perm in R. rewrite R in HP. cbn [app] in HP. eapply Permutation_cons_inv. exact HP.
  Qed.

  Lemma window_split (m n : nat) (l : list A) :
    let b0 := firstn m l in let a0 := skipn n (skipn m l) in
    firstn m (b0 ++ a0) = b0 /\ skipn m (b0 ++ a0) = a0.
  Proof.
    cbn zeta. destruct (le_lt_dec m (length l)) as [Hle|Hlt].
    - assert (Hb : length (firstn m l) = m) by (apply firstn_length_le; exact Hle).
      rewrite firstn_app, skipn_app, Hb, Nat.sub_diag. cbn [firstn skipn].
      rewrite firstn_all2 by lia. rewrite skipn_all2 by lia. rewrite app_nil_r. auto.
    - rewrite (skipn_all2 l) by lia. rewrite skipn_nil, app_nil_r.
      rewrite (firstn_all2 l) by lia. rewrite firstn_all2 by lia. rewrite skipn_all2 by lia. auto.
  Qed.

  Theorem valid_slice_iff xs m n o : valid_slice cmp eqb xs m n o = true <-> is_slice cmp xs m n o.
  Proof.
    unfold valid_slice, is_slice. split.
    - destruct (msub eqb xs o) as [r|] eqn:E; [|discriminate]. intros H.
      apply andb_true_iff in H. destruct H as [Hlen Hs]. apply Nat.eqb_eq in Hlen.
      apply (sortedb_sorted cmp PO) in Hs. pose proof (msub_perm _ _ _ E) as HP.
      pose proof (ssort_perm cmp r) as Hsp. pose proof (ssort_length cmp r) as Hsl.
      set (s := ssort cmp r) in *.
      exists (firstn m s ++ o ++ skipn m s). split; [|split; [exact Hs|]].
      + rewrite Permutation_app_swap_app, firstn_skipn, Hsp. symmetry. exact HP.
      + apply Permutation_length in HP. rewrite app_length in HP.
        destruct (le_lt_dec (length xs) m) as [Hge|Hlt].
        * assert (Ho : o = []) by (apply length_zero_iff_nil; lia). subst o. cbn [app].
          rewrite firstn_skipn. rewrite skipn_all2 by lia. rewrite firstn_nil. reflexivity.
        * assert (Hb : length (firstn m s) = m) by (apply firstn_length_le; lia).
          rewrite skipn_app, Hb, Nat.sub_diag. rewrite (skipn_all2 (firstn m s)) by lia.
          cbn [skipn app]. rewrite firstn_app.
          destruct (Nat.eq_dec (length o) n) as [Hn|Hn].
          -- rewrite Hn, Nat.sub_diag. cbn [firstn]. rewrite firstn_all2 by lia. rewrite app_nil_r. reflexivity.
          -- rewrite (skipn_all2 s) by lia. rewrite firstn_nil, app_nil_r. rewrite firstn_all2 by lia. reflexivity.
    - intros [l [HP [Hs Ho]]].
      pose proof (window_split m n l) as Hw. cbn zeta in Hw.
      set (b0 := firstn m l) in *. set (a0 := skipn n (skipn m l)) in *.
      assert (Hl : l = b0 ++ o ++ a0).
      { subst o b0 a0. rewrite (firstn_skipn n (skipn m l)). rewrite firstn_skipn. reflexivity. }
      assert (HP2 : Permutation xs (o ++ (b0 ++ a0))).
      { rewrite <- HP, Hl. apply Permutation_app_swap_app. }
      destruct (msub_complete o xs (b0 ++ a0) HP2) as [r [E Hr]]. rewrite E.
      apply andb_true_iff. split.
      + apply Nat.eqb_eq. rewrite Ho, firstn_length, skipn_length. apply Permutation_length in HP. lia.
      + apply (sortedb_sorted cmp PO).
        rewrite Hl in Hs. pose proof Hs as Hs0.
        apply (sorted_app cmp) in Hs. destruct Hs as [Hb [Hoa Hc1]].
        apply (sorted_app cmp) in Hoa. destruct Hoa as [Ho' [Ha Hc2]].
        assert (Hba : sorted cmp (b0 ++ a0)).
        { apply (sorted_app cmp). repeat split; auto. intros x y Hx Hy. apply Hc1; [exact Hx|].
          apply in_or_app. right. exact Hy. }
        assert (HF : Forall2 (eqv cmp) (b0 ++ a0) (ssort cmp r)).
        { apply (sorted_perm_pointwise cmp PO); [exact Hba|apply (ssort_sorted cmp PO)|].
          rewrite (ssort_perm cmp r). symmetry. exact Hr. }
        destruct Hw as [Hw1 Hw2].
        eapply (sorted_pointwise cmp PO); [|exact Hs0].
        apply Forall2_app; [|apply Forall2_app].
        * rewrite <- Hw1 at 1. apply Forall2_firstn. exact HF.
        * apply (Forall2_eqv_refl cmp PO).
        * rewrite <- Hw2 at 1. apply Forall2_skipn. exact HF.
  Qed.
End SliceProofs.

Section IterProofs.
  Context {A : Type}.

  Lemma limit_iter_firstn (child : list A) : forall pos limit,
    limit_iter pos limit child = firstn (Z.to_nat (limit - pos)) child.
  Proof.
    induction child as [|x t IH]; intros pos limit; cbn [limit_iter].
    - rewrite firstn_nil. reflexivity.
    - destruct (Z.geb_spec pos limit) as [H|H].
      + replace (Z.to_nat (limit - pos)) with 0 by lia. reflexivity.
      + replace (Z.to_nat (limit - pos)) with (S (Z.to_nat (limit - (pos + 1)))) by lia.
        cbn [firstn]. rewrite IH. reflexivity.
  Qed.

  Lemma offset_iter_skipn (child : list A) : forall skip, offset_iter skip child = skipn (Z.to_nat skip) child.
  Proof.
    induction child as [|x t IH]; intros skip; cbn [offset_iter].
    - rewrite skipn_nil. reflexivity.
    - destruct (Z.gtb_spec skip 0) as [H|H].
      + replace (Z.to_nat skip) with (S (Z.to_nat (skip - 1))) by lia. cbn [skipn]. apply IH.
      + replace (Z.to_nat skip) with 0 by lia. reflexivity.
  Qed.

  Lemma limit_offset_eq (n m : nat) (child : list A) :
    limit_iter 0 (Z.of_nat n) (offset_iter (Z.of_nat m) child) = firstn n (skipn m child).
  Proof. rewrite limit_iter_firstn, offset_iter_skipn, Z.sub_0_r, !Nat2Z.id. reflexivity. Qed.
End IterProofs.
