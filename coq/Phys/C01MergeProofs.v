From Coq Require Import List ZArith Bool Sorted Lia.
Import ListNotations.
From GMS Require Import Phys.C01Joins Phys.C01Merge.
Open Scope Z_scope.

Section Proofs.
  Context {L R : Type}.
  Variable key_l : L -> option Z.
  Variable key_r : R -> option Z.
  Variable sel : L -> R -> bool.

  Notation sorted_r := (StronglySorted (fun a b : R => key_le (key_r a) (key_r b))).
  Notation sorted_l := (StronglySorted (fun a b : L => key_le (key_l a) (key_l b))).

  Lemma drop_before_sorted k r : sorted_r r -> sorted_r (drop_before key_r k r).
  Proof.
    induction r as [|y r IH]; cbn; intros H; [constructor|].
    destruct (before key_r k y); [apply IH; inversion H; assumption|assumption].
  Qed.

  (* dropped rows never match a key >= k *)
  Lemma filter_drop_before k k' r : k <= k' ->
    filter (at_key key_r k') (drop_before key_r k r) = filter (at_key key_r k') r.
  Proof.
    intros Hk. induction r as [|y r IH]; cbn; [reflexivity|].
    destruct (before key_r k y) eqn:B; [|reflexivity].
    rewrite IH. unfold before, at_key in *. destruct (key_r y) as [b|]; [|reflexivity].
    apply Z.ltb_lt in B. destruct (b =? k') eqn:E; [apply Z.eqb_eq in E; lia|reflexivity].
  Qed.

  (* in a sorted list whose first row is not before k, the rows with key k form a prefix *)
  Lemma take_block_filter k r : sorted_r r ->
    match r with y :: _ => before key_r k y = false | [] => True end ->
    take_block key_r k r = filter (at_key key_r k) r.
  Proof.
    induction r as [|y r IH]; cbn; intros HS HB; [reflexivity|].
    inversion HS as [|? ? HS' HA]; subst.
    (* every later row z has a key >= that of y, which is >= k *)
    assert (HF : forall z, In z r -> before key_r k z = false /\ (at_key key_r k y = false -> at_key key_r k z = false)).
    { rewrite Forall_forall in HA. intros z Hz. specialize (HA z Hz).
      unfold before, at_key, key_le in *. destruct (key_r y) as [b|]; [|discriminate].
      destruct (key_r z) as [c|]; [|contradiction]. apply Z.ltb_ge in HB.
      split; [apply Z.ltb_ge; lia|]. rewrite !Z.eqb_neq. lia. }
    destruct (at_key key_r k y) eqn:E.
    - f_equal. apply IH; [assumption|]. destruct r as [|z r']; [exact I|]. apply HF. left. reflexivity.
    - clear - HF. induction r as [|z r IH]; cbn; [reflexivity|].
      rewrite (proj2 (HF z (or_introl eq_refl)) eq_refl). apply IH. intros w Hw. apply HF. right. assumption.
  Qed.

  Lemma drop_before_head k r :
    match drop_before key_r k r with y :: _ => before key_r k y = false | [] => True end.
  Proof. induction r as [|y r IH]; cbn; [exact I|]. destruct (before key_r k y) eqn:B; [exact IH|exact B]. Qed.

  Lemma filter_merge_cond x r :
    filter (merge_cond key_l key_r sel x) r =
    match key_l x with Some k => filter (sel x) (filter (at_key key_r k) r) | None => [] end.
  Proof.
    induction r as [|y r IH]; [destruct (key_l x); reflexivity|].
    cbn [filter]. rewrite IH. unfold merge_cond, at_key. destruct (key_l x) as [k|]; [|reflexivity].
    destruct (key_r y) as [b|]; [|reflexivity].
    destruct (b =? k); cbn; [destruct (sel x y); reflexivity|reflexivity].
  Qed.

  (* [r0] is the whole right input, [r] what the cursor has left of it: nothing the remaining left rows need is gone *)
  Lemma merge_join_spec lo l : forall r r0,
    sorted_l l -> sorted_r r ->
    (forall x k, In x l -> key_l x = Some k -> filter (at_key key_r k) r = filter (at_key key_r k) r0) ->
    merge_join key_l key_r sel lo l r =
    flat_map (fun x => match filter (merge_cond key_l key_r sel x) r0 with
                       | [] => if lo then [(x, None)] else []
                       | m => map (fun y => (x, Some y)) m end) l.
  Proof.
    induction l as [|x l IH]; intros r r0 HL HR Hinv; cbn [merge_join flat_map]; [reflexivity|].
    inversion HL as [|? ? HL' HA]; subst. rewrite filter_merge_cond.
    destruct (key_l x) as [k|] eqn:Kx; f_equal.
    - unfold emit. rewrite take_block_filter by (apply drop_before_sorted, HR || apply drop_before_head).
      rewrite (filter_drop_before k k r (Z.le_refl k)), (Hinv x k (or_introl eq_refl) Kx). reflexivity.
    - apply IH; [assumption|apply drop_before_sorted, HR|].
      intros x' k' Hin Kx'. rewrite filter_drop_before; [exact (Hinv x' k' (or_intror Hin) Kx')|].
      rewrite Forall_forall in HA. specialize (HA x' Hin). unfold key_le in HA. rewrite Kx' in HA. exact HA.
    - apply IH; [assumption|assumption|]. intros x' k' Hin. exact (Hinv x' k' (or_intror Hin)).
  Qed.

  (* the merge join over sorted inputs is the logical join on "keys equal and not NULL, and the other filters" —
     as a SEQUENCE (left order, then right order), hence as a bag *)
  Theorem merge_inner_correct l r : sorted_l l -> sorted_r r ->
    merge_join key_l key_r sel false l r = logical_inner (merge_cond key_l key_r sel) l r.
  Proof.
    intros HL HR. rewrite (merge_join_spec false l r r HL HR) by reflexivity.
    unfold logical_inner. apply flat_map_ext. intros x. destruct (filter _ r); reflexivity.
  Qed.

  Theorem merge_left_correct l r : sorted_l l -> sorted_r r ->
    merge_join key_l key_r sel true l r = logical_left (merge_cond key_l key_r sel) l r.
  Proof.
    intros HL HR. rewrite (merge_join_spec true l r r HL HR) by reflexivity. reflexivity.
  Qed.
End Proofs.
