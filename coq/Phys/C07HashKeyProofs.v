(* Proofs for C07: when do two values get the same canonical hash key? *)
From Coq Require Import List ZArith NArith Bool Lia Ascii String DecimalString DecimalZ DecimalN DecimalPos.
Import ListNotations.
From GMS Require Import Base.ListFacts Phys.C07HashKey.
Open Scope Z_scope.

Lemma bytes_of_string_inj a b : bytes_of_string a = bytes_of_string b -> a = b.
Proof.
  unfold bytes_of_string. intros H. apply (map_inj _ N_of_ascii_inj) in H.
  rewrite <- (string_of_list_ascii_of_string a), <- (string_of_list_ascii_of_string b), H. reflexivity.
Qed.

Lemma int_text_inj x y : int_text x = int_text y -> x = y.
Proof.
  unfold int_text. intros H. apply bytes_of_string_inj in H.
  apply DecimalZ.to_int_inj.
  assert (E : Some (Z.to_int x) = Some (Z.to_int y)) by (rewrite <- !NilEmpty.isi, H; reflexivity).
  injection E as E. exact E.
Qed.

Lemma utext_inj x y : utext x = utext y -> x = y.
Proof.
  unfold utext. intros H. apply bytes_of_string_inj in H.
  apply DecimalN.Unsigned.to_uint_inj.
  assert (E : Some (N.to_uint x) = Some (N.to_uint y)) by (rewrite <- !NilEmpty.usu, H; reflexivity).
  injection E as E. exact E.
Qed.

Lemma utext_head n : exists c r, utext n = c :: r /\ c <> 45%N.
Proof.
  unfold utext.
  assert (Hn : N.to_uint n <> Decimal.Nil).
  { destruct n; cbn; [discriminate|apply DecimalPos.Unsigned.to_uint_nonnil]. }
  destruct (N.to_uint n); try congruence; cbn; eexists _, _; (split; [reflexivity|]); vm_compute; discriminate.
Qed.

Lemma fd_length k r : List.length (fd k r) = k.
Proof. revert r. induction k as [|k IH]; intros r; cbn; [reflexivity|]. rewrite List.app_length, IH. cbn. lia. Qed.

Lemma fd_inj k : forall r r', fd k r = fd k r' -> (r mod 10 ^ N.of_nat k = r' mod 10 ^ N.of_nat k)%N.
Proof.
  induction k as [|k IH]; intros r r' H.
  - cbn. rewrite !N.mod_1_r. reflexivity.
  - cbn [fd] in H. apply app_inj_tail in H. destruct H as [H1 H2].
    apply IH in H1. assert (H3 : (r mod 10 = r' mod 10)%N) by lia.
    rewrite Nat2N.inj_succ, N.pow_succ_r'.
    rewrite !N.mod_mul_r by (try apply N.pow_nonzero; discriminate). rewrite H1, H3. reflexivity.
Qed.

Lemma app_eq_len_tail {X} (l1 l1' l2 l2' : list X) :
  l1 ++ l2 = l1' ++ l2' -> List.length l2 = List.length l2' -> l1 = l1' /\ l2 = l2'.
Proof.
  revert l1'. induction l1 as [|x l1 IH]; intros [|y l1'] H L; cbn in H.
  - auto.
  - exfalso. subst l2. cbn in L. rewrite List.app_length in L. lia.
  - exfalso. subst l2'. cbn in L. rewrite List.app_length in L. lia.
  - injection H as -> H. destruct (IH _ H L) as [-> ->]. auto.
Qed.

Lemma dec_text_inj m m' s : dec_text m s = dec_text m' s -> m = m'.
Proof.
  unfold dec_text. intros H.
  set (a := Z.to_N (Z.abs m)) in *. set (a' := Z.to_N (Z.abs m')) in *. set (p := (10 ^ s)%N) in *.
  assert (Hp : p <> 0%N) by (apply N.pow_nonzero; discriminate).
  rewrite !app_assoc in H.
  apply app_eq_len_tail in H.
  2:{ destruct (N.eqb s 0); [reflexivity|]. cbn. rewrite !fd_length. reflexivity. }
  destruct H as [H1 H2].
  assert (Hq : (m <? 0) = (m' <? 0) /\ (a / p = a' / p)%N).
  { destruct (utext_head (a / p)) as (c & r & E & Hc). destruct (utext_head (a' / p)) as (c' & r' & E' & Hc').
    destruct (m <? 0), (m' <? 0); cbn in H1.
    - injection H1 as H1. split; [reflexivity|apply utext_inj; exact H1].
    - rewrite E' in H1. injection H1 as H1 _. congruence.
    - rewrite E in H1. injection H1 as H1 _. congruence.
    - split; [reflexivity|apply utext_inj; exact H1]. }
  destruct Hq as [Hs Hq].
  assert (Hr : (a mod p = a' mod p)%N).
  { destruct (N.eqb_spec s 0) as [->|Hs0].
    - subst p. cbn. rewrite !N.mod_1_r. reflexivity.
    - injection H2 as H2. apply fd_inj in H2. rewrite N2Nat.id in H2. fold p in H2.
      rewrite !N.mod_mod in H2 by exact Hp. exact H2. }
  assert (Ha : a = a').
  { rewrite (N.div_mod a p Hp), (N.div_mod a' p Hp), Hq, Hr. reflexivity. }
  subst a a'. apply (f_equal Z.of_N) in Ha. rewrite !Z2N.id in Ha by apply Z.abs_nonneg.
  destruct (Z.ltb_spec m 0), (Z.ltb_spec m' 0); try discriminate; lia.
Qed.

Lemma le4_inj x y : (x < 4294967296)%N -> (y < 4294967296)%N -> le4 x = le4 y -> x = y.
Proof.
  intros Hx Hy H. unfold le4 in H. injection H as H0 H1 H2 H3.
  assert (R : forall z, (z < 4294967296 ->
     z = z mod 256 + 256 * ((z / 256) mod 256) + 65536 * ((z / 65536) mod 256) + 16777216 * ((z / 16777216) mod 256))%N).
  { intros z Hz.
    pose proof (N.div_mod z 256 ltac:(discriminate)) as E0.
    pose proof (N.div_mod (z / 256) 256 ltac:(discriminate)) as E1.
    pose proof (N.div_mod (z / 256 / 256) 256 ltac:(discriminate)) as E2.
    rewrite !N.div_div in E1, E2 by discriminate. rewrite N.div_div in E2 by discriminate.
    change (256 * 256)%N with 65536%N in *. change (65536 * 256)%N with 16777216%N in *.
    assert (Hs : (z / 16777216 < 256)%N) by (apply N.div_lt_upper_bound; [discriminate|exact Hz]).
    rewrite (N.mod_small _ _ Hs). lia. }
  rewrite (R x Hx), (R y Hy), H0, H1, H2, H3. reflexivity.
Qed.

Lemma weight_string_map w s : weight_string w s = flat_map le4 (map w s).
Proof. induction s as [|c s IH]; [reflexivity|]. cbn [weight_string flat_map map]. f_equal. exact IH. Qed.

Lemma weight_string_eq_iff w :
  (forall c, (w c < 4294967296)%N) -> forall a b, weight_string w a = weight_string w b <-> map w a = map w b.
Proof.
  intros Hw a b. split.
  - revert b. induction a as [|x a IH]; intros [|y b] H; cbn in H; try discriminate; [reflexivity|].
    injection H as H0 H1 H2 H3 H. cbn. f_equal.
    + apply le4_inj; try apply Hw. unfold le4. congruence.
    + apply IH. exact H.
  - intros H. rewrite !weight_string_map, H. reflexivity.
Qed.

Lemma bytes_eqb_spec a : forall b, bytes_eqb a b = true <-> a = b.
Proof.
  induction a as [|x a IH]; intros [|y b]; cbn; split; intros H; try discriminate; try reflexivity.
  - apply andb_prop in H. destruct H as [H1 H2]. apply N.eqb_eq in H1. apply IH in H2. congruence.
  - injection H as -> ->. rewrite N.eqb_refl. apply IH. reflexivity.
Qed.

Lemma key_int_iff w x y : key1 w CNone (HInt x) = key1 w CNone (HInt y) <-> sql_eq w (HInt x) (HInt y) = true.
Proof. cbn. rewrite Z.eqb_eq. split; [apply int_text_inj|intros ->; reflexivity]. Qed.

Lemma key_str_schema_iff w :
  (forall c, (w c < 4294967296)%N) ->
  forall a b, key1 w CStr (HStr a) = key1 w CStr (HStr b) <-> sql_eq w (HStr a) (HStr b) = true.
Proof.
  intros Hw a b. cbn. rewrite (weight_string_eq_iff w Hw). symmetry. apply bytes_eqb_spec.
Qed.

Lemma key_dec_same_scale_iff w m m' s :
  key1 w CNone (HDec m s) = key1 w CNone (HDec m' s) <-> sql_eq w (HDec m s) (HDec m' s) = true.
Proof.
  cbn. rewrite Z.eqb_eq. split.
  - intros H. apply dec_text_inj in H. subst. reflexivity.
  - intros H. assert (m = m') by (apply Z.mul_reg_r in H; [exact H|apply Z.pow_nonzero; lia]). subst. reflexivity.
Qed.

Lemma key_dec_refuted w :
  exists m1 s1 m2 s2, sql_eq w (HDec m1 s1) (HDec m2 s2) = true /\ key1 w CNone (HDec m1 s1) <> key1 w CNone (HDec m2 s2).
Proof. exists 100, 2%N, 10000, 4%N. split; [reflexivity|vm_compute; discriminate]. Qed.

Lemma key_int_dec_refuted w :
  exists x m s, sql_eq w (HInt x) (HDec m s) = true /\ key1 w CNone (HDec x 0) <> key1 w CNone (HDec m s).
Proof. exists 1, 100, 2%N. split; [reflexivity|vm_compute; discriminate]. Qed.

(* without a schema the raw bytes are hashed: any collation that identifies two different strings is not respected *)
Lemma key_str_raw_refuted w :
  w 97%N = w 65%N ->
  exists a b, sql_eq w (HStr a) (HStr b) = true /\ key1 w CNone (HStr a) <> key1 w CNone (HStr b).
Proof.
  intros H. exists [97%N], [65%N]. split; [|cbn; discriminate].
  cbn. rewrite H, N.eqb_refl. reflexivity.
Qed.

(* the NUL separator does not separate raw strings that contain NUL *)
Lemma row_key_separator_refuted w :
  exists r1 r2, List.length r1 = List.length r2 /\
    Forall2 (fun a b => sql_eq w a b = false) r1 r2 /\ row_key w [] r1 = row_key w [] r2.
Proof.
  exists [HStr [97;0]%N; HStr [98]%N], [HStr [97]%N; HStr [0;98]%N]. split; [reflexivity|]. split; [|reflexivity].
  repeat constructor; cbn; rewrite ?andb_false_r; reflexivity.
Qed.

(* the same collision with weight strings (GROUP BY passes a schema): the NUL rune has weight 0, i.e. four zero bytes *)
Lemma row_key_separator_schema_refuted w :
  w 0%N = 0%N ->
  row_key w [CStr; CStr] [HStr [97;0]%N; HStr [98]%N] = row_key w [CStr; CStr] [HStr [97]%N; HStr [0;98]%N].
Proof. intros H. cbn. rewrite H. reflexivity. Qed.

(* the row with no values (what ExceptIter hashes at the end of its right input) has the key of the row ('') *)
Lemma row_key_eof_refuted w : row_key w [] [] = row_key w [] [HStr []].
Proof. reflexivity. Qed.

(* COUNT(DISTINCT a, b): the "," terminator does not separate strings that contain "," *)
Lemma cd_key_separator_refuted :
  exists r1 r2, r1 <> r2 /\ cd_key r1 = cd_key r2.
Proof. exists [HStr [97;44]%N; HStr [98]%N], [HStr [97]%N; HStr [44;98]%N]. split; [discriminate|reflexivity]. Qed.

Lemma cd_key_dec_refuted w :
  exists a b, sql_eq w a b = true /\ cd_key [a] <> cd_key [b].
Proof. exists (HDec 100 2), (HDec 10000 4). split; [reflexivity|vm_compute; discriminate]. Qed.

Section DedupFacts.
  Context {A K : Type} (key : A -> K) (keq : K -> K -> bool).
  Hypothesis keq_spec : forall a b, keq a b = true <-> a = b.

  Lemma existsb_keq k seen : existsb (keq k) seen = true <-> In k seen.
  Proof.
    rewrite existsb_exists. split.
    - intros (x & Hx & E). apply keq_spec in E. subst. exact Hx.
    - intros H. exists k. split; [exact H|apply keq_spec; reflexivity].
  Qed.

  Lemma dedup_go_sound l : forall seen x, In x (dedup_go key keq seen l) -> In x l /\ ~ In (key x) seen.
  Proof.
    induction l as [|y l IH]; intros seen x H; cbn in H; [contradiction|].
    destruct (existsb (keq (key y)) seen) eqn:E.
    - destruct (IH _ _ H) as [H1 H2]. split; [right; exact H1|exact H2].
    - destruct H as [->|H].
      + split; [left; reflexivity|]. intros Hin. apply existsb_keq in Hin. congruence.
      + destruct (IH _ _ H) as [H1 H2]. split; [right; exact H1|]. intros Hin. apply H2. right. exact Hin.
  Qed.

  Lemma dedup_go_nodup l : forall seen, NoDup (map key (dedup_go key keq seen l)).
  Proof.
    induction l as [|y l IH]; intros seen; cbn; [constructor|].
    destruct (existsb (keq (key y)) seen); [apply IH|].
    cbn. constructor; [|apply IH]. intros Hin. apply in_map_iff in Hin. destruct Hin as (x & Hk & Hx).
    apply dedup_go_sound in Hx. destruct Hx as [_ Hx]. apply Hx. left. symmetry. exact Hk.
  Qed.

  Lemma dedup_go_complete l : forall seen x, In x l -> In (key x) seen \/ In (key x) (map key (dedup_go key keq seen l)).
  Proof.
    induction l as [|y l IH]; intros seen x H; [contradiction|]. cbn.
    destruct (existsb (keq (key y)) seen) eqn:E.
    - destruct H as [->|H]; [left; apply existsb_keq; exact E|apply IH; exact H].
    - destruct H as [->|H]; [right; left; reflexivity|].
      destruct (IH (key y :: seen) x H) as [[Hk|Hk]|Hk].
      + right. left. exact Hk.
      + left. exact Hk.
      + right. right. exact Hk.
  Qed.

  (* if key equality coincides with an equivalence R, the output holds exactly one representative per R-class *)
  Theorem dedup_classes (R : A -> A -> Prop) :
    (forall x y, key x = key y <-> R x y) ->
    forall l,
      (forall x, In x (dedup key keq l) -> In x l) /\
      (forall x, In x l -> exists y, In y (dedup key keq l) /\ R x y) /\
      (forall (i j : nat) d, (i < j < List.length (dedup key keq l))%nat -> ~ R (nth i (dedup key keq l) d) (nth j (dedup key keq l) d)).
  Proof.
    intros HR l. unfold dedup. split; [|split].
    - intros x H. apply dedup_go_sound in H. tauto.
    - intros x H. destruct (dedup_go_complete l [] x H) as [[]|Hk].
      apply in_map_iff in Hk. destruct Hk as (y & E & Hy). exists y. split; [exact Hy|apply HR; symmetry; exact E].
    - intros i j d Hij HRij. apply HR in HRij.
      pose proof (dedup_go_nodup l []) as ND.
      rewrite (NoDup_nth (map key (dedup_go key keq [] l)) (key d)) in ND.
      assert (i = j); [|lia]. apply ND; rewrite ?map_length; try lia.
      rewrite !map_nth. exact HRij.
  Qed.
End DedupFacts.
