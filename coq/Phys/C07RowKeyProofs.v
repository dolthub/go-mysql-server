(* C07: row-level injectivity of the HashOf key (values joined by one NUL byte, NULL as "<nil>") on the fragment where
   every column is of a per-value-injective kind and no value can imitate the separator. *)
From Coq Require Import List ZArith NArith Bool Lia Ascii String DecimalString DecimalZ DecimalN DecimalPos.
Import ListNotations.
From GMS Require Import Phys.C07HashKey Phys.C07HashKeyProofs.
Open Scope N_scope.

Lemma sep_split (c : N) : forall (k1 k2 x y : list N),
  ~ In c k1 -> ~ In c k2 -> k1 ++ c :: x = k2 ++ c :: y -> k1 = k2 /\ x = y.
Proof.
  induction k1 as [|a k1 IH]; intros [|b k2] x y H1 H2 E; cbn in E.
  - injection E as E. auto.
  - injection E as E1 E2. exfalso. apply H2. left. congruence.
  - injection E as E1 E2. exfalso. apply H1. left. congruence.
  - injection E as -> E. destruct (IH k2 x y) as [-> ->]; auto.
    + intros Hin. apply H1. right. exact Hin.
    + intros Hin. apply H2. right. exact Hin.
Qed.

Definition numch (c : N) : Prop := c = 45 \/ c = 46 \/ (48 <= c <= 57).

Lemma uint_chars d : Forall numch (bytes_of_string (NilEmpty.string_of_uint d)).
Proof. induction d; cbn; constructor; try assumption; unfold numch; cbn; lia. Qed.

Lemma utext_chars n : Forall numch (utext n).
Proof. apply uint_chars. Qed.

Lemma int_text_split z :
  int_text z = (if (z <? 0)%Z then [45] else []) ++ utext (Z.to_N (Z.abs z)).
Proof. destruct z; reflexivity. Qed.

Lemma int_text_chars z : Forall numch (int_text z).
Proof.
  rewrite int_text_split. apply Forall_app. split; [|apply utext_chars].
  destruct (z <? 0)%Z; constructor; [left; reflexivity|constructor].
Qed.

Lemma fd_chars k : forall r, Forall numch (fd k r).
Proof.
  induction k as [|k IH]; intros r; cbn [fd]; [constructor|].
  apply Forall_app. split; [apply IH|]. constructor; [|constructor].
  right. right. pose proof (N.mod_upper_bound r 10 ltac:(discriminate)) as Hm. set (q := r mod 10) in *. clearbody q. lia.
Qed.

Lemma dec_text_chars m s : Forall numch (dec_text m s).
Proof.
  unfold dec_text. apply Forall_app. split.
  - destruct (m <? 0)%Z; constructor; [left; reflexivity|constructor].
  - apply Forall_app. split; [apply utext_chars|].
    destruct (s =? 0); constructor; [right; left; reflexivity|apply fd_chars].
Qed.

Lemma numch_not c x : numch x -> (c < 45 \/ c = 47 \/ 57 < c) -> x <> c.
Proof. unfold numch. lia. Qed.

Lemma chars_notin c l : Forall numch l -> (c < 45 \/ c = 47 \/ 57 < c) -> ~ In c l.
Proof.
  intros H Hc Hin. rewrite Forall_forall in H. apply H in Hin. eapply numch_not; eauto.
Qed.

Lemma int_text_nonempty z : int_text z <> [].
Proof.
  rewrite int_text_split. destruct (utext_head (Z.to_N (Z.abs z))) as (c & r & E & _). rewrite E.
  destruct (z <? 0)%Z; discriminate.
Qed.

Lemma dec_text_nonempty m s : dec_text m s <> [].
Proof.
  unfold dec_text. destruct (utext_head (Z.to_N (Z.abs m) / 10 ^ s)) as (c & r & E & _). rewrite E.
  destruct (m <? 0)%Z; discriminate.
Qed.

Lemma chars_not_nil l : Forall numch l -> l <> nil_text.
Proof.
  intros H E. subst l. inversion H as [|? ? H1 _]. unfold numch in H1. lia.
Qed.

Section Rows.
  Variable w : N -> N.
  Hypothesis Hw : forall c, w c < 4294967296.

  (* a value under a schema entry: numbers and NULL without a string schema; a raw string has no NUL byte, is not the
     five bytes "<nil>" and is alone in its collation class (binary collation); a string under a string schema has
     rune weights below 2^24 whose low byte is not zero (no weight chunk starts like the separator) *)
  Definition val_ok (c : hcol) (v : hv) : Prop :=
    match v with
    | HNull => True
    | HInt _ | HDec _ _ => c = CNone
    | HStr b => match c with
                | CNone => ~ In 0 b /\ b <> nil_text /\ (forall b', map w b' = map w b -> b' = b)
                | CStr => Forall (fun r => w r mod 256 <> 0 /\ w r < 16777216) b
                end
    end.
  (* two values of one column: same kind, decimals of the same scale *)
  Definition compat (a b : hv) : Prop :=
    match a, b with
    | HNull, _ | _, HNull => True
    | HInt _, HInt _ => True
    | HDec _ s, HDec _ s' => s = s'
    | HStr _, HStr _ => True
    | _, _ => False
    end.
  (* the class relation of grouping: NULL with NULL, otherwise '=' TRUE *)
  Definition same_class (a b : hv) : bool :=
    match a, b with
    | HNull, HNull => true
    | HNull, _ | _, HNull => false
    | _, _ => sql_eq w a b
    end.

  Fixpoint rows_ok (sch : list hcol) (r1 r2 : list hv) : Prop :=
    match r1, r2 with
    | [], [] => True
    | a :: r1', b :: r2' =>
        val_ok (hd CNone sch) a /\ val_ok (hd CNone sch) b /\ compat a b /\ rows_ok (tl sch) r1' r2'
    | _, _ => False
    end.
  Fixpoint rows_eqb (r1 r2 : list hv) : bool :=
    match r1, r2 with
    | [], [] => true
    | a :: r1', b :: r2' => same_class a b && rows_eqb r1' r2'
    | _, _ => false
    end.

  Notation wok := (Forall (fun r => w r mod 256 <> 0 /\ w r < 16777216)).

  Lemma ws_cons r b : weight_string w (r :: b) =
    w r mod 256 :: (w r / 256) mod 256 :: (w r / 65536) mod 256 :: (w r / 16777216) mod 256 :: weight_string w b.
  Proof. reflexivity. Qed.

  (* the fourth byte of "<nil>" is not zero; that of a weight chunk below 2^24 is *)
  Lemma nil_ws_prefix b x y : wok b -> nil_text ++ x = weight_string w b ++ y -> b = [].
  Proof.
    intros H E. destruct b as [|r b]; [reflexivity|].
    rewrite ws_cons in E. injection E as _ _ _ E3 _.
    inversion H as [|? ? [_ Hr] _]. rewrite (N.div_small _ _ Hr) in E3. discriminate.
  Qed.

  Lemma key1_not_nil c v : val_ok c v -> v <> HNull -> key1 w c v <> nil_text.
  Proof.
    destruct v as [|z|m s|b]; cbn [val_ok key1]; intros H N; [congruence| | |].
    - subst c. apply chars_not_nil, int_text_chars.
    - subst c. apply chars_not_nil, dec_text_chars.
    - destruct c; [apply H|]. intros E. symmetry in E.
      rewrite <- (app_nil_r nil_text), <- (app_nil_r (weight_string w b)) in E.
      pose proof (nil_ws_prefix _ _ _ H E) as ->. discriminate E.
  Qed.

  Lemma key1_iff c a b : val_ok c a -> val_ok c b -> compat a b ->
    (key1 w c a = key1 w c b <-> same_class a b = true).
  Proof.
    intros Ha Hb Hc.
    (* NULL against a value: different keys, different classes *)
    assert (N : forall v', val_ok c v' -> v' <> HNull -> (key1 w c HNull = key1 w c v' <-> false = true)
                                                         /\ (key1 w c v' = key1 w c HNull <-> false = true)).
    { intros v' Hv Hn. pose proof (key1_not_nil c v' Hv Hn). cbn [key1]. split; split; congruence. }
    destruct a as [|x|m s|x], b as [|y|m' s'|y]; cbn [compat] in Hc; try contradiction; cbn [same_class];
      try (apply N; [assumption|discriminate]); cbn [val_ok] in Ha, Hb; subst.
    - split; reflexivity.
    - apply key_int_iff.
    - apply key_dec_same_scale_iff.
    - destruct c; [|apply key_str_schema_iff, Hw].
      cbn [key1 sql_eq]. rewrite bytes_eqb_spec. split; [intros ->; reflexivity|]. apply Hb.
  Qed.

  Lemma ws_sep b1 : forall b2 x y, wok b1 -> wok b2 ->
    weight_string w b1 ++ 0 :: x = weight_string w b2 ++ 0 :: y ->
    weight_string w b1 = weight_string w b2 /\ x = y.
  Proof.
    induction b1 as [|r1 b1 IH]; intros [|r2 b2] x y H1 H2 E.
    - cbn in E. injection E as E. auto.
    - exfalso. rewrite ws_cons in E. cbn in E. injection E as E _. inversion H2 as [|? ? [Hr _] _]. congruence.
    - exfalso. rewrite ws_cons in E. cbn in E. injection E as E _. inversion H1 as [|? ? [Hr _] _]. congruence.
    - rewrite !ws_cons in E. cbn in E. injection E as E0 E1 E2 E3 E.
      inversion H1 as [|? ? _ H1']. inversion H2 as [|? ? _ H2']. subst.
      destruct (IH b2 x y H1' H2' E) as [Ews ->]. split; [|reflexivity].
      rewrite !ws_cons. congruence.
  Qed.

  Lemma key1_nul_free v : val_ok CNone v -> ~ In 0 (key1 w CNone v).
  Proof.
    destruct v as [|z|m s|b]; cbn [val_ok key1]; intros H.
    - cbn. intros [E|[E|[E|[E|[E|[]]]]]]; discriminate.
    - apply chars_notin; [apply int_text_chars|lia].
    - apply chars_notin; [apply dec_text_chars|lia].
    - tauto.
  Qed.

  (* per value: the key cannot absorb the separator *)
  Lemma key1_sep c a b x y : val_ok c a -> val_ok c b ->
    key1 w c a ++ 0 :: x = key1 w c b ++ 0 :: y -> key1 w c a = key1 w c b /\ x = y.
  Proof.
    intros Ha Hb E. destruct c.
    - apply (sep_split 0); auto using key1_nul_free.
    - destruct a as [|?|? ?|b1], b as [|?|? ?|b2]; cbn [val_ok] in Ha, Hb; try discriminate; cbn [key1] in *.
      + apply (sep_split 0) in E; [exact E| |]; apply (key1_nul_free HNull I).
      + pose proof (nil_ws_prefix _ _ _ Hb E) as ->. discriminate E.
      + symmetry in E. pose proof (nil_ws_prefix _ _ _ Ha E) as ->. discriminate E.
      + apply ws_sep; assumption.
  Qed.

  Lemma row_key_cons sch a a' r :
    row_key w sch (a :: a' :: r) = key1 w (hd CNone sch) a ++ 0 :: row_key w (tl sch) (a' :: r).
  Proof. reflexivity. Qed.

  (* rows: equal keys exactly when the rows agree class-wise in every column *)
  Theorem row_key_injective_on_classes : forall r1 r2 sch,
    rows_ok sch r1 r2 -> (row_key w sch r1 = row_key w sch r2 <-> rows_eqb r1 r2 = true).
  Proof.
    induction r1 as [|a r1 IH]; intros [|b r2] sch Hok; cbn [rows_ok] in Hok; try contradiction.
    - split; reflexivity.
    - destruct Hok as (Ha & Hb & Hc & Hok). cbn [rows_eqb]. rewrite andb_true_iff.
      destruct r1 as [|a' r1], r2 as [|b' r2]; cbn [rows_ok] in Hok; try contradiction.
      + cbn [row_key rows_eqb]. rewrite (key1_iff _ _ _ Ha Hb Hc). tauto.
      + rewrite !row_key_cons. rewrite <- (IH (b' :: r2) (tl sch) Hok), <- (key1_iff _ _ _ Ha Hb Hc). split.
        * intros E. apply key1_sep in E; assumption.
        * intros [-> ->]. reflexivity.
  Qed.
End Rows.

(* nonvacuous: a row pair inside the fragment (a number, a raw string, a NULL) *)
Example rows_ok_example :
  rows_ok (fun c => c) [] [HInt 1; HStr [97]; HNull] [HInt 1; HStr [97]; HNull].
Proof.
  cbn. repeat split; try discriminate; try (intros [H|[]]; discriminate).
  all: intros b' H; rewrite !map_id in H; exact H.
Qed.
