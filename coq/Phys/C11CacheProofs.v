(* C11 — proofs about unkeyed plan-node caches and statement histories (model in C11Cache.v). *)
From Coq Require Import List ZArith NArith Bool Lia.
Import ListNotations.
From GMS Require Import Rel.C02Logical Rel.C02LogicalProofs Phys.C11Cache.

Section Transparent.
  Context {B : Type}.
  Variables (sub : row -> res (list row)) (k : row -> list row -> res B) (exhausts : row -> list row -> bool).
  Hypothesis indep : outer_independent sub.

  (* invariant: an occupied cache holds what the subtree returns for every outer row *)
  Definition cache_ok (st : option (list row)) : Prop :=
    match st with None => True | Some c => forall r, sub r = Ok c end.

  Lemma loop_cached_transparent st outer :
    cache_ok st -> loop_cached sub k exhausts st outer = loop_uncached sub k outer.
  Proof.
    revert st. induction outer as [|r t IH]; intros st Hst; [reflexivity|].
    cbn [loop_cached loop_uncached mapM]. unfold cached_call. destruct st as [c|].
    - cbn [bind fst snd]. rewrite (Hst r). cbn [bind]. destruct (k r c) as [b|e]; [|reflexivity]. cbn [bind].
      rewrite (IH (Some c) Hst). reflexivity.
    - destruct (sub r) as [s|e] eqn:E; [|reflexivity]. cbn [bind fst snd].
      destruct (k r s) as [b|e]; [|reflexivity]. cbn [bind]. rewrite IH; [reflexivity|].
      destruct (exhausts r s); cbn; [|exact I]. intros r'. rewrite (indep r' r). exact E.
  Qed.

  Theorem cache_transparent outer :
    loop_cached sub k exhausts None outer = loop_uncached sub k outer.
  Proof. apply loop_cached_transparent. exact I. Qed.
End Transparent.

(* without the guard an unkeyed cache returns stale rows: the subtree "rows equal to the outer row" *)
Definition corr_sub (r : row) : res (list row) := Ok [r].
Definition id_k (_ : row) (s : list row) : res (list row) := Ok s.

Theorem cache_unsound_without_guard :
  exists (sub : row -> res (list row)) outer,
    loop_cached sub id_k (fun _ _ => true) None outer <> loop_uncached sub id_k outer.
Proof. exists corr_sub, [[VInt 1]; [VInt 2]]. vm_compute. discriminate. Qed.

(* a node that finalizes after a partial read (the parent stopped early) is unsound even under the guard *)
Fixpoint loop_eager {B} (sub : row -> res (list row)) (k : row -> list row -> res B) (readn : row -> list row -> nat)
         (st : option (list row)) (outer : list row) : res (list B) :=
  match outer with
  | [] => Ok []
  | r :: t =>
      do sc <- cached_call_eager sub readn st r;
      do b <- k r (fst sc);
      do bs <- loop_eager sub k readn (snd sc) t;
      Ok (b :: bs)
  end.

Theorem finalize_only_at_eof_needed :
  exists (sub : row -> res (list row)) readn outer,
    outer_independent sub /\
    loop_eager sub id_k readn None outer <> loop_uncached sub id_k outer.
Proof.
  exists (fun _ => Ok [[VInt 1]; [VInt 2]]), (fun _ _ => 1%nat), [[VInt 0]; [VInt 0]].
  split; [intros r r'; reflexivity|]. vm_compute. discriminate.
Qed.

(* WHERE a IN (q) with a result cache on q returns what the definition returns when q does not
   depend on the outer row (Subquery.canCacheResults: no correlated columns) *)
Theorem in_subquery_cache_transparent d en a q rows bs :
  (forall r r', eval_query d (r :: en) q = eval_query d (r' :: en) q) ->
  in_filter_plain d en a q rows = Ok bs ->
  in_filter_cached d en a q rows = Ok bs.
Proof.
  intros Hind H. unfold in_filter_cached. rewrite cache_transparent by exact Hind.
  unfold loop_uncached. unfold in_filter_plain in H. revert H. apply mapM_sub.
  intros r _ b Hb. unfold holds in Hb. inv_bind Hb. inv_bind Hb. injection Hb as <-.
  apply eval_inq in Ha. destruct Ha as (x & S & ys & t & Hx & HS & Hys & Ht & ->).
  rewrite tri_of_val_of_tri in Ha0. injection Ha0 as <-.
  rewrite HS. cbn [bind]. rewrite Hx. cbn [bind]. rewrite Hys. cbn [bind]. rewrite Ht. reflexivity.
Qed.

(* a nested-loop join whose right child is a CachedResults node is the inner join of the definition when
   the right child does not depend on the left row *)
Theorem nlj_cache_transparent onf right L R :
  (forall l, right l = Ok R) ->
  nlj_cached onf right L = inner_join onf L R.
Proof.
  intros HR. unfold nlj_cached, inner_join. rewrite cache_transparent.
  - unfold loop_uncached. f_equal.
    assert (E : forall l0, mapM (fun r => do s <- right r; do ms <- filterM (fun r0 => onf (r ++ r0)) s; Ok (map (app r) ms)) l0 =
                           mapM (fun l => do ms <- filterM (fun r => onf (l ++ r)) R; Ok (map (app l) ms)) l0).
    { induction l0 as [|x t IH]; [reflexivity|]. cbn [mapM]. rewrite (HR x). cbn [bind]. rewrite IH. reflexivity. }
    rewrite E. reflexivity.
  - intros r r'. rewrite !HR. reflexivity.
Qed.

Section Histories.
  Variable exec : db -> query -> res (list row).

  Lemma run_cons st o t :
    run exec st (o :: t) =
    (fst (run exec (fst (step exec st o)) t),
     match snd (step exec st o) with Some r => [r] | None => [] end ++ snd (run exec (fst (step exec st o)) t)).
  Proof. cbn [run]. destruct (step exec st o) as [st1 [r|]]; cbn [fst snd]; destruct (run exec st1 t); reflexivity. Qed.

  Lemma run_app st h1 h2 :
    run exec st (h1 ++ h2) =
    (fst (run exec (fst (run exec st h1)) h2), snd (run exec st h1) ++ snd (run exec (fst (run exec st h1)) h2)).
  Proof.
    revert st. induction h1 as [|o t IH]; intros st; cbn [app]; [cbn [run fst snd app]; destruct (run exec st h2); reflexivity|].
    rewrite !run_cons, IH. cbn [fst snd]. rewrite app_assoc. reflexivity.
  Qed.

  Lemma step_db st o : sdb (fst (step exec st o)) = apply_dml o (sdb st).
  Proof. destruct o; reflexivity. Qed.

  Lemma run_db st h : sdb (fst (run exec st h)) = db_after (sdb st) h.
  Proof.
    revert st. induction h as [|o t IH]; intros st; [reflexivity|].
    rewrite run_cons. cbn [fst db_after fold_left]. rewrite IH, step_db. reflexivity.
  Qed.

  (* the result of a query depends on the history only through the current table contents *)
  Theorem no_cross_statement_state st h sid q :
    snd (run exec st (h ++ [OQuery sid q])) = snd (run exec st h) ++ [exec (db_after (sdb st) h) q].
  Proof. rewrite run_app. cbn [run step snd]. rewrite run_db. reflexivity. Qed.

  (* a read-only query run twice in a row returns the same result *)
  Theorem deterministic_requery st h sid sid' q :
    exists r, snd (run exec st (h ++ [OQuery sid q; OQuery sid' q])) = snd (run exec st h) ++ [r; r].
  Proof. rewrite run_app. cbn [run step snd]. eexists. reflexivity. Qed.

  Definition no_reprepare (sid n : nat) (h : list op) : bool :=
    forallb (fun o => match o with OPrepare s m _ => negb (Nat.eqb s sid && Nat.eqb m n) | _ => true end) h.

  Lemma lookup_preserved sid n q st h :
    lookup sid n (prepared st) = Some q -> no_reprepare sid n h = true ->
    lookup sid n (prepared (fst (run exec st h))) = Some q.
  Proof.
    revert st. induction h as [|o t IH]; intros st Hl Hn; [assumption|].
    cbn [no_reprepare forallb] in Hn. apply andb_prop in Hn. destruct Hn as [Ho Ht].
    rewrite run_cons. cbn [fst]. apply IH; [|exact Ht].
    destruct o; cbn; try assumption. apply negb_true_iff in Ho. rewrite Ho. assumption.
  Qed.

  (* executing a prepared statement uses the data current at EXECUTE time, not at PREPARE time *)
  Theorem prepared_uses_current_data st h1 h2 sid n q :
    no_reprepare sid n h2 = true ->
    snd (run exec st (h1 ++ OPrepare sid n q :: h2 ++ [OExecute sid n])) =
    snd (run exec st (h1 ++ OPrepare sid n q :: h2)) ++ [exec (db_after (sdb st) (h1 ++ OPrepare sid n q :: h2)) q].
  Proof.
    intros Hn. rewrite app_comm_cons, app_assoc, run_app. cbn [run step snd].
    rewrite run_db. replace (lookup _ _ _) with (Some q); [reflexivity|]. symmetry.
    rewrite run_app, run_cons. cbn [fst step]. apply lookup_preserved; [|exact Hn].
    cbn. rewrite !Nat.eqb_refl. reflexivity.
  Qed.
End Histories.
