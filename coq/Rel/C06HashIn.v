(* C06: HashInTuple (sql/expression/in.go NewHashInTuple / newInMap / HashInTuple.Eval, built by applyHashIn for static
   lists in filters) against InTuple.  The hash key is modelled by its canonical form: hash.HashOfSimple converts the
   value to the comparison type and writes its decimal text with trailing fraction zeros removed (C07 shows the texts are
   injective).  The comparison type is GetCompareType(left type, type of the FIRST element) -- the defect mirrored here:
   with an integer left operand and an integer first element every later decimal element is rounded to an integer. *)
From Coq Require Import List ZArith NArith Bool Lia.
Import ListNotations.
From GMS Require Import Base.ListFacts Expr.C05Expr Expr.C05ExprProofs Rel.C06Equiv.
Open Scope Z_scope.

Inductive cty := CTInt | CTDec | CTStr.

(* types.GetCompareType on the classes of [ty]; None = outside the model (first element NULL with an integer left
   operand gives Float64; string/number mixtures) *)
Definition cmp_type (lt ft : ty) : option cty :=
  match lt, ft with
  | TyStr, TyStr => Some CTStr
  | TyDec, TyStr | TyStr, _ | _, TyStr => None
  | TyDec, _ => Some CTDec
  | (TyInt | TyBool), TyDec => Some CTDec
  | (TyInt | TyBool), (TyInt | TyBool) => Some CTInt
  | _, _ => None
  end.

Inductive hkey := KInt (z : Z) | KDec (m : Z) (s : N) | KStr (b : list N) | KBad.

Definition hkey_eqb (a b : hkey) : bool :=
  match a, b with
  | KInt x, KInt y => Z.eqb x y
  | KDec m s, KDec m' s' => Z.eqb m m' && N.eqb s s'
  | KStr x, KStr y => list_eqb N.eqb x y
  | _, _ => false
  end.

(* conversion of a decimal to BIGINT: round half away from zero *)
Definition round_half_away (m : Z) (s : N) : Z :=
  let p := 10 ^ Z.of_N s in
  let a := Z.abs m in
  let q := a / p in
  let q' := if 2 * (a mod p) >=? p then q + 1 else q in
  if m <? 0 then - q' else q'.

(* "remove trailing 0s after '.'" *)
Fixpoint strip (fuel : nat) (m : Z) (s : N) : Z * N :=
  match fuel with
  | O => (m, s)
  | S f => if N.eqb s 0 then (m, s) else if Z.eqb (m mod 10) 0 then strip f (m / 10) (s - 1)%N else (m, s)
  end.

Definition dec_of (v : val) : Z * N := match v with VInt z => (z, 0%N) | VDec m s => (m, s) | _ => (0, 0%N) end.

Definition key_of (c : cty) (v : val) : hkey :=
  match c, v with
  | CTInt, VInt z => KInt z
  | CTInt, VDec m s => KInt (round_half_away m s)
  | CTDec, (VInt _ | VDec _ _) => let '(m, s) := dec_of v in let '(m', s') := strip (N.to_nat s) m s in KDec m' s'
  | CTStr, VStr b => KStr b
  | _, _ => KBad
  end.

Definition is_null (v : val) : bool := match v with VNull => true | _ => false end.

(* HashInTuple.Eval with the map built by newInMap; [es] = the literal elements with their static types *)
Definition hash_in (lt : ty) (a : val) (es : list (val * ty)) : tri :=
  match a with
  | VNull => TN
  | _ =>
      match es with
      | [] => TF
      | (_, ft) :: _ =>
          match cmp_type lt ft with
          | None => TN
          | Some c =>
              let vs := map fst es in
              let keys := map (key_of c) (filter (fun v => negb (is_null v)) vs) in
              if existsb (hkey_eqb (key_of c a)) keys then TT
              else if existsb is_null vs then TN else TF
          end
      end
  end.

(* InTuple in the same shape *)
Definition eqv (a v : val) : bool := match cmp_val a v with Eq => true | _ => false end.

Lemma cmp3_eq_cases a v : a <> VNull -> cmp3 CEq a v = if is_null v then TN else if eqv a v then TT else TF.
Proof. intros Ha. unfold cmp3, eqv. destruct a, v; try congruence; try reflexivity; cbn [is_null]; destruct (cmp_val _ _); reflexivity. Qed.

Lemma in_list_char a vs hn :
  a <> VNull ->
  in_list a vs hn =
  if existsb (eqv a) (filter (fun v => negb (is_null v)) vs) then TT
  else if (hn || existsb is_null vs)%bool then TN else TF.
Proof.
  intros Ha. revert hn. induction vs as [|v vs IH]; intros hn.
  - cbn. destruct hn; reflexivity.
  - rewrite (in_list_cons a v vs hn Ha), (cmp3_eq_cases a v Ha). cbn [filter existsb].
    destruct (is_null v); cbn [negb existsb orb].
    + rewrite IH, orb_true_r. destruct (existsb _ _); reflexivity.
    + destruct (eqv a v); cbn [orb]; [reflexivity|apply IH].
Qed.

Lemma pow10_pos s : 0 < pow10 s. Proof. unfold pow10. apply Z.pow_pos_nonneg; lia. Qed.
Lemma pow10_succ s : pow10 (N.succ s) = 10 * pow10 s.
Proof. unfold pow10. rewrite N2Z.inj_succ, Z.pow_succ_r by lia. reflexivity. Qed.
Lemma pow10_add a b : pow10 (a + b) = pow10 a * pow10 b.
Proof. unfold pow10. rewrite N2Z.inj_add, Z.pow_add_r by lia. reflexivity. Qed.

Definition normal (m : Z) (s : N) : Prop := s = 0%N \/ m mod 10 <> 0.

Lemma strip_spec fuel : forall m s, (N.to_nat s <= fuel)%nat ->
  let '(m', s') := strip fuel m s in m * pow10 s' = m' * pow10 s /\ normal m' s'.
Proof.
  induction fuel as [|f IH]; intros m s Hf.
  - cbn. assert (s = 0%N) by lia. subst. split; [reflexivity|left; reflexivity].
  - cbn [strip]. destruct (N.eqb_spec s 0) as [->|Hs].
    + split; [reflexivity|left; reflexivity].
    + destruct (Z.eqb_spec (m mod 10) 0) as [Hm|Hm].
      * specialize (IH (m / 10) (s - 1)%N ltac:(lia)).
        destruct (strip f (m / 10) (s - 1)%N) as [m' s']. destruct IH as [IH1 IH2]. split; [|exact IH2].
        assert (Hs' : pow10 s = 10 * pow10 (s - 1)) by (rewrite <- pow10_succ; f_equal; lia). rewrite Hs'.
        assert (Hd : m = 10 * (m / 10)) by (pose proof (Z.div_mod m 10 ltac:(lia)); lia).
        rewrite Hd at 1. nia.
      * split; [reflexivity|right; exact Hm].
Qed.

(* the same value at a smaller scale has a mantissa divisible by 10 *)
Lemma normal_scale_le m1 s1 m2 s2 : normal m2 s2 -> m1 * pow10 s2 = m2 * pow10 s1 -> (s2 <= s1)%N.
Proof.
  intros N2 H. apply N.le_ngt. intros L. replace s2 with (s1 + N.succ (s2 - s1 - 1))%N in H by lia.
  rewrite pow10_add, pow10_succ in H. pose proof (pow10_pos s1).
  assert (Hm : m2 = m1 * pow10 (s2 - s1 - 1) * 10) by nia.
  destruct N2 as [->|N2]; [lia|]. apply N2. rewrite Hm. apply Z.mod_mul. lia.
Qed.

Lemma normal_canonical m1 s1 m2 s2 :
  normal m1 s1 -> normal m2 s2 -> m1 * pow10 s2 = m2 * pow10 s1 -> m1 = m2 /\ s1 = s2.
Proof.
  intros N1 N2 H. assert (s1 = s2) as -> by (apply N.le_antisymm; eapply normal_scale_le; eauto).
  pose proof (pow10_pos s2). split; [nia|reflexivity].
Qed.

(* a key is the value in lowest terms *)
Lemma kdec_eq m1 s1 m2 s2 :
  hkey_eqb (let '(a, b) := strip (N.to_nat s1) m1 s1 in KDec a b) (let '(c, d) := strip (N.to_nat s2) m2 s2 in KDec c d)
  = match cmp_num m1 s1 m2 s2 with Eq => true | _ => false end.
Proof.
  pose proof (strip_spec (N.to_nat s1) m1 s1 ltac:(lia)) as H1.
  pose proof (strip_spec (N.to_nat s2) m2 s2 ltac:(lia)) as H2.
  destruct (strip (N.to_nat s1) m1 s1) as [a b]. destruct (strip (N.to_nat s2) m2 s2) as [c d].
  destruct H1 as [V1 N1]. destruct H2 as [V2 N2]. cbn [hkey_eqb].
  enough (I : (a =? c) && (b =? d)%N = true <-> cmp_num m1 s1 m2 s2 = Eq).
  { destruct (cmp_num m1 s1 m2 s2), ((a =? c) && (b =? d)%N); intuition congruence. }
  unfold cmp_num. rewrite Z.compare_eq_iff, andb_true_iff, Z.eqb_eq, N.eqb_eq.
  pose proof (pow10_pos s1). pose proof (pow10_pos s2). pose proof (pow10_pos d). split.
  - (* equal keys: both values are c / 10^d *)
    intros [-> ->]. apply (Z.mul_reg_r _ _ (pow10 d)); [lia|].
    rewrite (Z.mul_shuffle0 m1), V1, (Z.mul_shuffle0 m2), V2. ring.
  - intros E. apply normal_canonical; try assumption.
    apply (Z.mul_reg_r _ _ (pow10 s1 * pow10 s2)); [nia|].
    transitivity ((a * pow10 s1) * (pow10 d * pow10 s2)); [ring|]. rewrite <- V1.
    transitivity (m1 * pow10 s2 * (pow10 b * pow10 d)); [ring|]. rewrite E.
    transitivity ((m2 * pow10 d) * (pow10 s1 * pow10 b)); [ring|]. rewrite V2. ring.
Qed.

Lemma cmp_num_int x y : cmp_num x 0 y 0 = (x ?= y).
Proof. unfold cmp_num, pow10. cbn. rewrite !Z.mul_1_r. reflexivity. Qed.

Lemma cmp_bytes_eq a : forall b, list_eqb N.eqb a b = match cmp_bytes a b with Eq => true | _ => false end.
Proof.
  induction a as [|x a IH]; intros [|y b]; cbn; try reflexivity.
  destruct (N.compare_spec x y) as [->|L|L]; [rewrite N.eqb_refl; apply IH|..];
    (destruct (N.eqb_spec x y); [lia|reflexivity]).
Qed.

(* the guard: every non-NULL operand lies in the class of the comparison type *)
Definition in_class (c : cty) (v : val) : bool :=
  match c, v with
  | _, VNull => true
  | CTInt, VInt _ => true
  | CTDec, (VInt _ | VDec _ _) => true
  | CTStr, VStr _ => true
  | _, _ => false
  end.

Lemma key_eq c a v :
  a <> VNull -> v <> VNull -> in_class c a = true -> in_class c v = true ->
  hkey_eqb (key_of c a) (key_of c v) = eqv a v.
Proof.
  intros Ha Hv Ca Cv. unfold eqv.
  destruct c, a as [|x|m s|x], v as [|y|m' s'|y]; try congruence; try discriminate; cbn [key_of dec_of cmp_val].
  - cbn. destruct (Z.compare_spec x y); destruct (Z.eqb_spec x y); try reflexivity; lia.
  - rewrite <- cmp_num_int. apply (kdec_eq x 0 y 0).
  - apply (kdec_eq x 0 m' s').
  - apply (kdec_eq m s y 0).
  - apply (kdec_eq m s m' s').
  - cbn. apply cmp_bytes_eq.
Qed.

Lemma keys_exists c a vs : a <> VNull -> in_class c a = true -> forallb (in_class c) vs = true ->
  existsb (hkey_eqb (key_of c a)) (map (key_of c) (filter (fun v => negb (is_null v)) vs))
  = existsb (eqv a) (filter (fun v => negb (is_null v)) vs).
Proof.
  intros Ha Ca. rewrite existsb_map. induction vs as [|v vs IH]; intros Hvs; [reflexivity|].
  cbn [forallb] in Hvs. apply andb_prop in Hvs. destruct Hvs as [Cv Hvs]. cbn [filter].
  destruct (is_null v) eqn:Nv; cbn [negb existsb]; rewrite (IH Hvs); [reflexivity|].
  rewrite key_eq; trivial. intros ->. discriminate Nv.
Qed.

Theorem hash_in_eq_in lt a es c ft v0 rest :
  es = (v0, ft) :: rest -> cmp_type lt ft = Some c ->
  forallb (in_class c) (a :: map fst es) = true ->
  hash_in lt a es = match a with VNull => TN | _ => in_list a (map fst es) false end.
Proof.
  intros -> Hc Hcl. cbn [forallb] in Hcl. apply andb_prop in Hcl. destruct Hcl as [Ca Hvs].
  destruct a; [reflexivity|..];
    (rewrite in_list_char by discriminate; unfold hash_in; cbv beta iota; rewrite Hc, keys_exists by (assumption || discriminate);
     reflexivity).
Qed.

(* without the guard: INT left operand, first element INT, then 1.500: the hashed IN says TRUE for 2, IN says FALSE *)
Lemma hash_in_refuted :
  exists lt a es, hash_in lt a es = TT /\ in_list a (map fst es) false = TF.
Proof. exists TyInt, (VInt 2), [(VInt 0, TyInt); (VDec 1500 3, TyDec)]. split; vm_compute; reflexivity. Qed.
