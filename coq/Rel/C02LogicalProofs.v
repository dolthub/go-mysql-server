(* C02 — theorems about the SQL definition in C02Logical.v (so that it is the right oracle). *)
From Coq Require Import List ZArith NArith Bool Lia Permutation Sorted Arith.
Import ListNotations.
From GMS Require Import Rel.C02Logical.
Open Scope Z_scope.

Lemma bind_ok {A B} (x : res A) (f : A -> res B) (v : B) :
  bind x f = Ok v -> exists a, x = Ok a /\ f a = Ok v.
Proof. destruct x as [a|e]; cbn; intros H; [exists a; auto | discriminate]. Qed.

Ltac inv_bind H :=
  let a := fresh "a" in let Ha := fresh "Ha" in
  apply bind_ok in H; destruct H as [a [Ha H]].

Lemma mapM_Forall2 {A B} (f : A -> res B) l l' :
  mapM f l = Ok l' -> Forall2 (fun x y => f x = Ok y) l l'.
Proof.
  revert l'. induction l as [|x t IH]; cbn; intros l' H.
  - injection H as <-. constructor.
  - inv_bind H. inv_bind H. injection H as <-. constructor; auto.
Qed.

Lemma mapM_length {A B} (f : A -> res B) l l' : mapM f l = Ok l' -> length l' = length l.
Proof. intros H. apply mapM_Forall2 in H. induction H; cbn; congruence. Qed.

Lemma mapM_pure {A B} (f : A -> res B) (g : A -> B) l :
  (forall x, In x l -> f x = Ok (g x)) -> mapM f l = Ok (map g l).
Proof.
  induction l as [|x t IH]; cbn; intros H; [reflexivity|].
  rewrite H by auto. cbn. rewrite IH by auto. reflexivity.
Qed.

Lemma mapM_sub {A B} (f g : A -> res B) l r :
  (forall x, In x l -> forall v, f x = Ok v -> g x = Ok v) -> mapM f l = Ok r -> mapM g l = Ok r.
Proof.
  revert r. induction l as [|x t IH]; cbn; intros r S H; [exact H|].
  inv_bind H. inv_bind H. injection H as <-.
  rewrite (S x (or_introl eq_refl) _ Ha). cbn. rewrite (IH _ (fun y Hy => S y (or_intror Hy)) Ha0). reflexivity.
Qed.

Lemma filterM_In {A} (p : A -> res bool) l l' :
  filterM p l = Ok l' -> forall x, In x l' <-> (In x l /\ p x = Ok true).
Proof.
  revert l'. induction l as [|y t IH]; cbn; intros l' H x.
  - injection H as <-. cbn. tauto.
  - inv_bind H. inv_bind H. injection H as <-. specialize (IH _ Ha0 x).
    destruct a; cbn; rewrite IH; split.
    + intros [->|[? ?]]; auto.
    + intros [[->|?] ?]; auto.
    + intros [? ?]; auto.
    + intros [[->|?] E]; auto. rewrite Ha in E. discriminate.
Qed.

Lemma filterM_pure {A} (p : A -> res bool) (g : A -> bool) l :
  (forall x, In x l -> p x = Ok (g x)) -> filterM p l = Ok (filter g l).
Proof.
  induction l as [|x t IH]; cbn; intros H; [reflexivity|].
  rewrite H by auto. cbn. rewrite IH by auto. cbn. reflexivity.
Qed.

Lemma filterM_total {A} (p : A -> res bool) l l' :
  filterM p l = Ok l' -> forall x, In x l -> exists b, p x = Ok b.
Proof.
  revert l'. induction l as [|y t IH]; cbn; intros l' H x Hx; [contradiction|].
  inv_bind H. inv_bind H. destruct Hx as [->|Hx]; eauto.
Qed.

Lemma mapM_In_l {A B} (f : A -> res B) l l' : mapM f l = Ok l' -> forall x, In x l -> exists y, In y l' /\ f x = Ok y.
Proof.
  intros H. apply mapM_Forall2 in H. induction H as [|x0 y0 l l' H0 _ IH]; intros x Hx; [contradiction|].
  destruct Hx as [<-|Hx]; [exists y0|destruct (IH x Hx) as [y [Hy E]]; exists y]; auto using in_eq, in_cons.
Qed.
Lemma mapM_In_r {A B} (f : A -> res B) l l' : mapM f l = Ok l' -> forall y, In y l' -> exists x, In x l /\ f x = Ok y.
Proof.
  intros H. apply mapM_Forall2 in H. induction H as [|x0 y0 l l' H0 _ IH]; intros y Hy; [contradiction|].
  destruct Hy as [<-|Hy]; [exists x0|destruct (IH y Hy) as [x [Hx E]]; exists x]; auto using in_eq, in_cons.
Qed.

Lemma tri_of_val_of_tri t : tri_of_val (val_of_tri t) = Ok t.
Proof. destruct t; reflexivity. Qed.

Lemma cmp3_null_l o y : cmp3 o VNull y = Ok TN.
Proof. reflexivity. Qed.
Lemma cmp3_null_r o x : cmp3 o x VNull = Ok TN.
Proof. destruct x; reflexivity. Qed.

Lemma fold_or3_TF ts : fold_right or3 TF ts = TF <-> forall t, In t ts -> t = TF.
Proof.
  induction ts as [|t ts IH]; cbn [fold_right In]; [tauto|]. split.
  - intros H. destruct t, (fold_right or3 TF ts); try discriminate H. intros t' [<-|Ht']; [reflexivity|apply IH; trivial].
  - intros H. rewrite (H t), (proj2 IH) by auto. reflexivity.
Qed.

Lemma fold_or3_TT ts : fold_right or3 TF ts = TT <-> In TT ts.
Proof.
  induction ts as [|t ts IH]; cbn [fold_right In]; [split; [discriminate|tauto]|]. rewrite <- IH.
  destruct t, (fold_right or3 TF ts); cbn; intuition discriminate.
Qed.

Lemma in3_true_iff x ys t :
  in3 x ys = Ok t -> (t = TT <-> exists y, In y ys /\ cmp3 OEq x y = Ok TT).
Proof.
  unfold in3. intros H. inv_bind H. injection H as <-. rewrite fold_or3_TT. split.
  - intros E. exact (mapM_In_r _ _ _ Ha _ E).
  - intros [y [Hin Hc]]. destruct (mapM_In_l _ _ _ Ha _ Hin) as [t [Ht Hc']]. congruence.
Qed.

(* IN is FALSE, so NOT IN is TRUE: the condition of the null-aware anti-join *)
Lemma in3_false_iff x ys t :
  in3 x ys = Ok t -> (t = TF <-> forall y, In y ys -> cmp3 OEq x y = Ok TF).
Proof.
  unfold in3. intros H. inv_bind H. injection H as <-. rewrite fold_or3_TF. split.
  - intros E y Hin. destruct (mapM_In_l _ _ _ Ha _ Hin) as [t [Ht Hc]]. rewrite Hc, (E t Ht). reflexivity.
  - intros E t Ht. destruct (mapM_In_r _ _ _ Ha _ Ht) as [y [Hin Hc]]. rewrite (E y Hin) in Hc. congruence.
Qed.

Lemma in3_null_elem x ys t : in3 x ys = Ok t -> In VNull ys -> t <> TF.
Proof.
  intros H Hin E. subst t. pose proof (proj1 (in3_false_iff _ _ _ H) eq_refl _ Hin) as C.
  rewrite cmp3_null_r in C. discriminate.
Qed.
Lemma not_in3_null x ys t : in3 x ys = Ok t -> In VNull ys -> val_of_tri (not3 t) <> VInt 1.
Proof. intros H Hin. pose proof (in3_null_elem _ _ _ H Hin). destruct t; cbn; congruence. Qed.

Lemma fold_or3_all_TN {A} (l : list A) : fold_right or3 TF (map (fun _ => TN) l) = match l with [] => TF | _ => TN end.
Proof.
  induction l as [|z zs IH]; [reflexivity|]. cbn [map fold_right]. rewrite IH. destruct zs; reflexivity.
Qed.

Lemma in3_null_lhs ys : in3 VNull ys = Ok (match ys with [] => TF | _ => TN end).
Proof.
  unfold in3. rewrite (mapM_pure _ (fun _ => TN)) by reflexivity. cbn [bind]. rewrite fold_or3_all_TN. reflexivity.
Qed.

Lemma in3_empty x : in3 x [] = Ok TF.
Proof. reflexivity. Qed.

Lemma eval_not_inv d en e v :
  eval_expr d en (ENot e) = Ok v -> exists x t, eval_expr d en e = Ok x /\ tri_of_val x = Ok t /\ v = val_of_tri (not3 t).
Proof. cbn [eval_expr]. intros H. inv_bind H. inv_bind H. injection H as <-. eauto. Qed.

Lemma eval_in_list d en a l v :
  eval_expr d en (EIn a l) = Ok v ->
  exists x ys t, eval_expr d en a = Ok x /\ mapM (eval_expr d en) l = Ok ys /\ in3 x ys = Ok t /\ v = val_of_tri t.
Proof. cbn [eval_expr]. intros H. inv_bind H. inv_bind H. inv_bind H. injection H as <-. eauto 10. Qed.

Lemma eval_inq d en a q v :
  eval_expr d en (EInQ a q) = Ok v ->
  exists x rs ys t, eval_expr d en a = Ok x /\ eval_query d en q = Ok rs /\ mapM first_col rs = Ok ys /\
                    in3 x ys = Ok t /\ v = val_of_tri t.
Proof.
  cbn [eval_expr]. intros H. inv_bind H. inv_bind H. inv_bind H. inv_bind H. injection H as <-. eauto 10.
Qed.

Theorem not_in_null_never_true d en a l v :
  eval_expr d en (ENot (EIn a l)) = Ok v ->
  (exists e, In e l /\ eval_expr d en e = Ok VNull) ->
  v <> VInt 1.
Proof.
  intros H [e [Hin He]]. apply eval_not_inv in H. destruct H as (v' & t' & H & Hv & ->).
  apply eval_in_list in H. destruct H as (x & ys & t & Hx & Hys & Ht & ->).
  rewrite tri_of_val_of_tri in Hv. injection Hv as <-. apply (not_in3_null _ _ _ Ht).
  destruct (mapM_In_l _ _ _ Hys _ Hin) as [y [Hy Hey]]. congruence.
Qed.

Theorem not_in_subquery_null_never_true d en a q v rs r :
  eval_expr d en (ENot (EInQ a q)) = Ok v ->
  eval_query d en q = Ok rs -> In (VNull :: r) rs ->
  v <> VInt 1.
Proof.
  intros H Hq Hin. apply eval_not_inv in H. destruct H as (v' & t' & H & Hv & ->).
  apply eval_inq in H. destruct H as (x & rs' & ys & t & Hx & Hq' & Hys & Ht & ->).
  rewrite tri_of_val_of_tri in Hv. injection Hv as <-. apply (not_in3_null _ _ _ Ht).
  rewrite Hq in Hq'. injection Hq' as <-. destruct (mapM_In_l _ _ _ Hys _ Hin) as [y [Hy Hey]].
  cbn in Hey. congruence.
Qed.

Theorem exists_iff_nonempty d en q v :
  eval_expr d en (EExists q) = Ok v ->
  exists rs, eval_query d en q = Ok rs /\ (v = VInt 1 <-> rs <> []) /\ (v = VInt 0 <-> rs = []).
Proof.
  cbn [eval_expr]. intros H. inv_bind H. injection H as <-. exists a. split; [assumption|].
  destruct a; split; split; intros; try congruence; try discriminate.
Qed.

Theorem scalar_subquery_cardinality d en q rs :
  eval_query d en q = Ok rs ->
  eval_expr d en (EScalar q) =
    match rs with [] => Ok VNull | [r] => first_col r | _ => Err ErrCard end.
Proof. intros H. cbn [eval_expr]. rewrite H. reflexivity. Qed.

Definition sub_col (d : db) (en : env) (a : expr) (q : query) (rw : row) (x : val) (ys : list val) : Prop :=
  exists S, eval_expr d (rw :: en) a = Ok x /\ eval_query d (rw :: en) q = Ok S /\ mapM first_col S = Ok ys.

Lemma sub_col_det d en a q rw x ys x' ys' : sub_col d en a q rw x ys -> sub_col d en a q rw x' ys' -> x = x' /\ ys = ys'.
Proof. intros (S & Hx & HS & Hys) (S' & Hx' & HS' & Hys'). split; congruence. Qed.

(* a block without DISTINCT keeps the source rows on which its condition holds, whatever characterises that *)
Lemma select_filter_iff d en src cond proj out rows (Q : row -> Prop) :
  eval_query d en (QSelect src cond proj false) = Ok out ->
  eval_query d en src = Ok rows ->
  (forall rw b, holds (eval_expr d (rw :: en) cond) = Ok b -> (b = true <-> Q rw)) ->
  exists kept, mapM (fun rw => mapM (eval_expr d (rw :: en)) proj) kept = Ok out /\ forall rw, In rw kept <-> In rw rows /\ Q rw.
Proof.
  cbn [eval_query]. intros H Hsrc HQ. rewrite Hsrc in H. cbn [bind] in H.
  inv_bind H. inv_bind H. injection H as <-. exists a. split; [assumption|].
  intros rw. rewrite (filterM_In _ _ _ Ha rw). split.
  - intros [Hin Hh]. split; [assumption|]. apply (HQ rw true Hh). reflexivity.
  - intros [Hin Hq]. split; [assumption|]. destruct (filterM_total _ _ _ Ha rw Hin) as [b Hb].
    rewrite Hb. f_equal. apply (HQ rw b Hb). exact Hq.
Qed.

(* ... and for [x IN (subquery)] or its negation that is a property [R] of the subquery's column: [f] reads the
   condition off the truth value of the IN *)
Lemma sub_col_filter d en a q rw (f : tri -> bool) (R : val -> list val -> Prop) b :
  (forall x ys t, in3 x ys = Ok t -> (f t = true <-> R x ys)) ->
  (exists x ys t, sub_col d en a q rw x ys /\ in3 x ys = Ok t /\ b = f t) ->
  (b = true <-> exists x ys, sub_col d en a q rw x ys /\ R x ys).
Proof.
  intros HR (x & ys & t & Hs & Ht & ->). rewrite (HR _ _ _ Ht). split; [eauto|].
  intros (x' & ys' & Hs' & Hr). destruct (sub_col_det _ _ _ _ _ _ _ _ _ Hs Hs') as [-> ->]. exact Hr.
Qed.

Lemma holds_inq d en a q rw b :
  holds (eval_expr d (rw :: en) (EInQ a q)) = Ok b ->
  exists x ys t, sub_col d en a q rw x ys /\ in3 x ys = Ok t /\ b = is_true t.
Proof.
  unfold holds. intros H. inv_bind H. inv_bind H. injection H as <-.
  apply eval_inq in Ha. destruct Ha as (x & S & ys & t & Hx & HS & Hys & Ht & ->).
  rewrite tri_of_val_of_tri in Ha0. injection Ha0 as <-. exists x, ys, t. split; [exists S|]; auto.
Qed.

Lemma holds_not_inq d en a q rw b :
  holds (eval_expr d (rw :: en) (ENot (EInQ a q))) = Ok b ->
  exists x ys t, sub_col d en a q rw x ys /\ in3 x ys = Ok t /\ b = is_true (not3 t).
Proof.
  unfold holds. intros H. inv_bind H. inv_bind H. injection H as <-.
  apply eval_not_inv in Ha. destruct Ha as (v & t' & Ha & Hv & ->).
  apply eval_inq in Ha. destruct Ha as (x & S & ys & t & Hx & HS & Hys & Ht & ->).
  rewrite tri_of_val_of_tri in Hv, Ha0. injection Hv as <-. injection Ha0 as <-.
  exists x, ys, t. split; [exists S|]; auto.
Qed.

Theorem in_subquery_is_semijoin d en src a q proj out rows :
  eval_query d en (QSelect src (EInQ a q) proj false) = Ok out ->
  eval_query d en src = Ok rows ->
  exists kept,
    mapM (fun rw => mapM (eval_expr d (rw :: en)) proj) kept = Ok out /\
    forall rw, In rw kept <->
      (In rw rows /\ exists x ys, sub_col d en a q rw x ys /\ exists y, In y ys /\ cmp3 OEq x y = Ok TT).
Proof.
  intros H Hsrc. apply (select_filter_iff _ _ _ _ _ _ _ _ H Hsrc). intros rw b Hb.
  apply (sub_col_filter _ _ _ _ _ is_true); [|exact (holds_inq _ _ _ _ _ _ Hb)].
  intros x ys t Ht. rewrite <- (in3_true_iff _ _ _ Ht). destruct t; cbn; intuition discriminate.
Qed.

Theorem not_in_subquery_is_null_aware_antijoin d en src a q proj out rows :
  eval_query d en (QSelect src (ENot (EInQ a q)) proj false) = Ok out ->
  eval_query d en src = Ok rows ->
  exists kept,
    mapM (fun rw => mapM (eval_expr d (rw :: en)) proj) kept = Ok out /\
    forall rw, In rw kept <->
      (In rw rows /\ exists x ys, sub_col d en a q rw x ys /\ forall y, In y ys -> cmp3 OEq x y = Ok TF).
Proof.
  intros H Hsrc. apply (select_filter_iff _ _ _ _ _ _ _ _ H Hsrc). intros rw b Hb.
  apply (sub_col_filter _ _ _ _ _ (fun t => is_true (not3 t))); [|exact (holds_not_inq _ _ _ _ _ _ Hb)].
  intros x ys t Ht. rewrite <- (in3_false_iff _ _ _ Ht). destruct t; cbn; intuition discriminate.
Qed.

Section OuterJoin.
  Context {O I : Type}.
  Variables (onf : row -> res bool) (comb : O -> I -> row) (pad : O -> row).

  Definition oj_row (inner : list I) (o : O) : res (list row) :=
    do ms <- filterM (fun i => onf (comb o i)) inner;
    Ok (match ms with [] => [pad o] | _ => map (comb o) ms end).

  (* the rows one outer row contributes: its matches, or its padding when it has none *)
  Lemma oj_row_spec inner o part : oj_row inner o = Ok part ->
    forall r, In r part <->
      (exists i, In i inner /\ onf (comb o i) = Ok true /\ r = comb o i) \/
      ((forall i, In i inner -> onf (comb o i) = Ok false) /\ r = pad o).
  Proof.
    unfold oj_row. intros H r. inv_bind H. injection H as <-.
    pose proof (filterM_In _ _ _ Ha) as M.
    assert (L : (exists i, In i inner /\ onf (comb o i) = Ok true /\ r = comb o i) <-> In r (map (comb o) a)).
    { rewrite in_map_iff. split.
      - intros (i & Hi & Hon & ->). exists i. split; [reflexivity|]. apply M. auto.
      - intros (i & <- & [Hi Hon]%M). eauto. }
    destruct a as [|m ms].
    - (* no match: every test answered, and none with true *)
      rewrite L. cbn [map In]. split; [intros [<-|[]]; right|intros [[]|[_ ->]]; left; reflexivity].
      split; [|reflexivity]. intros i Hi. destruct (filterM_total _ _ _ Ha i Hi) as [[|] Hb]; [|exact Hb].
      destruct (proj2 (M i) (conj Hi Hb)).
    - (* a match m rules the padding out *)
      rewrite <- L. split; [auto|]. intros [Hl|[Hnone _]]; [exact Hl|].
      destruct (proj1 (M m) (or_introl eq_refl)) as [Hi Hon]. rewrite (Hnone m Hi) in Hon. discriminate.
  Qed.

  (* every outer row is kept: with each of its matches, or padded when it has none; and every output row is such a
     matching pair or padding *)
  Lemma outer_join_spec outer inner rows :
    outer_join onf comb pad outer inner = Ok rows ->
    (forall o, In o outer ->
       (forall i, In i inner -> onf (comb o i) = Ok true -> In (comb o i) rows) /\
       ((forall i, In i inner -> onf (comb o i) = Ok false) -> In (pad o) rows)) /\
    (forall r, In r rows -> exists o, In o outer /\
       ((exists i, In i inner /\ onf (comb o i) = Ok true /\ r = comb o i) \/
        ((forall i, In i inner -> onf (comb o i) = Ok false) /\ r = pad o))).
  Proof.
    unfold outer_join. intros H. inv_bind H. injection H as <-. change (mapM (oj_row inner) outer = Ok a) in Ha. split.
    - intros o Ho. destruct (mapM_In_l _ _ _ Ha _ Ho) as (part & Hpart & Hf).
      split; intros; apply in_concat; exists part; (split; [exact Hpart|]); apply (oj_row_spec _ _ _ Hf); eauto 6.
    - intros r (part & Hpart & Hr)%in_concat. destruct (mapM_In_r _ _ _ Ha _ Hpart) as (o & Ho & Hf).
      exists o. split; [exact Ho|]. apply (oj_row_spec _ _ _ Hf). exact Hr.
  Qed.
End OuterJoin.

Definition on_true (d : db) (en : env) (on : expr) (rw : row) : res bool := holds (eval_expr d (rw :: en) on).

(* LEFT JOIN: every left row is kept; unmatched ones are padded with [qwidth r] NULLs *)
Theorem left_join_pads_null d en l r on L R rows :
  eval_query d en l = Ok L -> eval_query d en r = Ok R ->
  eval_query d en (QJoin JLeft l r on) = Ok rows ->
  (forall lr, In lr L ->
     (forall rr, In rr R -> on_true d en on (lr ++ rr) = Ok true -> In (lr ++ rr) rows) /\
     ((forall rr, In rr R -> on_true d en on (lr ++ rr) = Ok false) -> In (lr ++ nulls (qwidth d r)) rows)) /\
  (forall rw, In rw rows -> exists lr, In lr L /\
     ((exists rr, In rr R /\ on_true d en on (lr ++ rr) = Ok true /\ rw = lr ++ rr) \/
      ((forall rr, In rr R -> on_true d en on (lr ++ rr) = Ok false) /\ rw = lr ++ nulls (qwidth d r)))).
Proof.
  intros HL HR H. cbn [eval_query] in H. rewrite HL, HR in H. exact (outer_join_spec _ _ _ _ _ _ H).
Qed.

(* RIGHT JOIN is the mirror image: every right row is kept, the left side is padded *)
Theorem right_join_mirror d en l r on L R rows :
  eval_query d en l = Ok L -> eval_query d en r = Ok R ->
  eval_query d en (QJoin JRight l r on) = Ok rows ->
  (forall rr, In rr R ->
     (forall lr, In lr L -> on_true d en on (lr ++ rr) = Ok true -> In (lr ++ rr) rows) /\
     ((forall lr, In lr L -> on_true d en on (lr ++ rr) = Ok false) -> In (nulls (qwidth d l) ++ rr) rows)) /\
  (forall rw, In rw rows -> exists rr, In rr R /\
     ((exists lr, In lr L /\ on_true d en on (lr ++ rr) = Ok true /\ rw = lr ++ rr) \/
      ((forall lr, In lr L -> on_true d en on (lr ++ rr) = Ok false) /\ rw = nulls (qwidth d l) ++ rr))).
Proof.
  intros HL HR H. cbn [eval_query] in H. rewrite HL, HR in H. exact (outer_join_spec _ _ _ _ _ _ H).
Qed.

(* the rows a grouped block produces before HAVING: one row (keys ++ aggregate values) per group *)
Definition group_rows (d : db) (en : env) (src : query) (wh : expr) (keys : list expr) (aggs : list (aggfn * expr))
  : res (list row) :=
  do rows <- eval_query d en src;
  do kept <- filterM (fun rw => holds (eval_expr d (rw :: en) wh)) rows;
  do keyed <- mapM (fun rw => do k <- mapM (eval_expr d (rw :: en)) keys; Ok (k, rw)) kept;
  mapM (fun g : row * list row =>
          do avs <- mapM (fun fe : aggfn * expr =>
                            do args <- mapM (fun rw => eval_expr d (rw :: en) (snd fe)) (snd g);
                            agg (fst fe) args) aggs;
          Ok (fst g ++ avs))
       (groups_of (length keys) keyed).

(* filter, project, de-duplicate: the part of a block after its row source *)
Definition select_tail (d : db) (en : env) (cond : expr) (proj : list expr) (dist : bool) (rows : list row)
  : res (list row) :=
  do kept <- filterM (fun rw => holds (eval_expr d (rw :: en) cond)) rows;
  do out <- mapM (fun rw => mapM (eval_expr d (rw :: en)) proj) kept;
  Ok (distinct_if dist out).

Lemma select_is_tail d en src wh proj dist :
  eval_query d en (QSelect src wh proj dist) = do rows <- eval_query d en src; select_tail d en wh proj dist rows.
Proof. reflexivity. Qed.

Theorem having_is_filter_after_group d en src wh keys aggs hav proj dist :
  eval_query d en (QGroup src wh keys aggs hav proj dist) =
  do grows <- group_rows d en src wh keys aggs; select_tail d en hav proj dist grows.
Proof.
  cbn [eval_query]. unfold group_rows, select_tail.
  destruct (eval_query d en src) as [rows|e]; [|reflexivity]. cbn [bind].
  destruct (filterM _ rows) as [kept|e]; [|reflexivity]. cbn [bind].
  destruct (mapM _ kept) as [keyed|e]; [|reflexivity]. cbn [bind].
  reflexivity.
Qed.

Theorem limit_offset_slice d en q keys n off :
  eval_query d en (QOrder q keys (Some (n, off))) =
  do rows <- eval_query d en (QOrder q keys None); Ok (firstn n (skipn off rows)).
Proof.
  cbn [eval_query]. destruct (eval_query d en q) as [rows|e]; reflexivity.
Qed.

Section SortFacts.
  Context {A : Type} (leb : A -> A -> bool).
  Hypothesis leb_total : forall a b, leb a b = false -> leb b a = true.

  Lemma insert_perm x l : Permutation (insert leb x l) (x :: l).
  Proof.
    induction l as [|y t IH]; cbn; [reflexivity|].
    destruct (leb x y); [reflexivity|]. rewrite IH. apply perm_swap.
  Qed.

  Lemma isort_perm l : Permutation (isort leb l) l.
  Proof.
    induction l as [|x t IH]; cbn; [reflexivity|]. rewrite insert_perm. constructor. assumption.
  Qed.

  Lemma insert_sorted x l :
    Sorted (fun a b => leb a b = true) l -> Sorted (fun a b => leb a b = true) (insert leb x l).
  Proof.
    induction l as [|y t IH]; cbn; intros H.
    - constructor; constructor.
    - destruct (leb x y) eqn:E.
      + constructor; [assumption|constructor; assumption].
      + inversion H as [|? ? Ht Hhd]; subst. constructor; [auto|].
        destruct t as [|z t']; cbn.
        * constructor. auto.
        * destruct (leb x z); constructor; auto. inversion Hhd; assumption.
  Qed.

  Lemma isort_sorted l : Sorted (fun a b => leb a b = true) (isort leb l).
  Proof. induction l as [|x t IH]; cbn; [constructor|apply insert_sorted; assumption]. Qed.
End SortFacts.

Lemma str_cmp_antisym a b : str_cmp b a = CompOpp (str_cmp a b).
Proof.
  revert b. induction a as [|x a IH]; intros [|y b]; cbn; try reflexivity.
  rewrite (N.compare_antisym x y). destruct (N.compare x y); cbn; auto.
Qed.

Lemma num_cmp_antisym a b : num_cmp b a = CompOpp (num_cmp a b).
Proof. destruct a as [m1 s1], b as [m2 s2]. unfold num_cmp. apply Z.compare_antisym. Qed.

Lemma val_cmp_antisym x y : val_cmp y x = CompOpp (val_cmp x y).
Proof.
  destruct x, y; cbn [val_cmp num_of CompOpp]; try reflexivity; try apply num_cmp_antisym; apply str_cmp_antisym.
Qed.

Lemma keys_cmp_antisym keys a b : keys_cmp keys b a = CompOpp (keys_cmp keys a b).
Proof.
  induction keys as [|[i desc] t IH]; cbn; [reflexivity|].
  rewrite (val_cmp_antisym (nth i a VNull) (nth i b VNull)).
  destruct desc, (val_cmp (nth i a VNull) (nth i b VNull)); cbn; auto.
Qed.

Lemma row_leb_total keys a b : row_leb keys a b = false -> row_leb keys b a = true.
Proof.
  unfold row_leb. rewrite (keys_cmp_antisym keys a b). destruct (keys_cmp keys a b); cbn; congruence.
Qed.

Theorem order_by_sorts d en q keys rows :
  eval_query d en q = Ok rows ->
  exists sorted, eval_query d en (QOrder q keys None) = Ok sorted /\
    Permutation sorted rows /\ Sorted (fun a b => row_leb keys a b = true) sorted.
Proof.
  intros H. cbn [eval_query]. rewrite H. cbn. eexists. split; [reflexivity|]. split.
  - apply isort_perm.
  - apply isort_sorted. apply row_leb_total.
Qed.

Section BagFacts.
  Context {A : Type} (eqb : A -> A -> bool).
  Hypothesis eqb_sym : forall a b, eqb a b = eqb b a.
  Hypothesis eqb_trans : forall a b c, eqb a b = true -> eqb b c = true -> eqb a c = true.

  Lemma eqb_congr x y z : eqb x y = true -> eqb x z = eqb y z.
  Proof.
    intros H. destruct (eqb y z) eqn:E.
    - eapply eqb_trans; eauto.
    - destruct (eqb x z) eqn:E'; [|reflexivity]. rewrite eqb_sym in H.
      rewrite (eqb_trans _ _ _ H E') in E. discriminate.
  Qed.

  Lemma eqb_congr_r x y z : eqb y z = true -> eqb x y = eqb x z.
  Proof. rewrite (eqb_sym x y), (eqb_sym x z). apply eqb_congr. Qed.

  Notation count := (count eqb).

  Lemma count_cons x y l : count x (y :: l) = ((if eqb x y then 1 else 0) + count x l)%nat.
  Proof. unfold C02Logical.count. cbn. destruct (eqb x y); reflexivity. Qed.

  Lemma count_app x l r : count x (l ++ r) = (count x l + count x r)%nat.
  Proof. unfold C02Logical.count. rewrite filter_app, app_length. reflexivity. Qed.

  Lemma mem_cons x y l : mem eqb x (y :: l) = eqb x y || mem eqb x l.
  Proof. reflexivity. Qed.

  Lemma mem_count x l : mem eqb x l = negb (Nat.eqb (count x l) 0).
  Proof.
    induction l as [|y t IH]; [reflexivity|]. rewrite count_cons, mem_cons, IH.
    destruct (eqb x y); reflexivity.
  Qed.

  Lemma count_congr x y l : eqb x y = true -> count x l = count y l.
  Proof. intros E. unfold C02Logical.count. f_equal. apply filter_ext. intros w. apply eqb_congr. exact E. Qed.

  Lemma mem_congr a b l : eqb a b = true -> mem eqb a l = mem eqb b l.
  Proof. intros E. rewrite !mem_count, (count_congr a b l E). reflexivity. Qed.

  (* membership of [y], read as a bound on the count of an equivalent [x] *)
  Lemma mem_count_congr x y l : eqb x y = true -> mem eqb y l = negb (Nat.eqb (count x l) 0).
  Proof. intros E. rewrite (count_congr x y l E). apply mem_count. Qed.

  Lemma count_remove_one x y l :
    count x (remove_one eqb y l) = (count x l - (if eqb x y && mem eqb y l then 1 else 0))%nat.
  Proof.
    induction l as [|z t IH]; cbn [remove_one].
    - destruct (eqb x y); reflexivity.
    - rewrite mem_cons, !count_cons. destruct (eqb y z) eqn:E; cbn [orb].
      + rewrite andb_true_r, <- (eqb_congr_r x y z E). destruct (eqb x y); lia.
      + rewrite count_cons, IH. destruct (eqb x y) eqn:E2; cbn [andb]; [|lia].
        rewrite (eqb_congr _ _ _ E2), E, (mem_count_congr x y t E2). destruct (count x t); cbn; lia.
  Qed.

  Theorem union_all_adds x l r : count x (l ++ r) = (count x l + count x r)%nat.
  Proof. apply count_app. Qed.

  Theorem intersect_all_min x l r : count x (inter_all eqb l r) = Nat.min (count x l) (count x r).
  Proof.
    revert r. induction l as [|y t IH]; intros r; [reflexivity|]. cbn [inter_all].
    destruct (mem eqb y r) eqn:M; rewrite ?count_cons, IH, ?count_remove_one, ?M, ?andb_true_r;
      (destruct (eqb x y) eqn:E; [|lia]); rewrite (mem_count_congr x y r E) in M; destruct (count x r); try discriminate M; lia.
  Qed.

  Theorem except_all_monus x l r : count x (except_all eqb l r) = (count x l - count x r)%nat.
  Proof.
    revert r. induction l as [|y t IH]; intros r; [reflexivity|]. cbn [except_all].
    destruct (mem eqb y r) eqn:M; rewrite ?count_cons, IH, ?count_remove_one, ?M, ?andb_true_r;
      (destruct (eqb x y) eqn:E; [|lia]); rewrite (mem_count_congr x y r E) in M; destruct (count x r); try discriminate M; lia.
  Qed.

  Lemma count_dedup_acc x seen l :
    count x (dedup_acc eqb seen l) = if mem eqb x seen then 0%nat else if mem eqb x l then 1%nat else 0%nat.
  Proof.
    revert seen. induction l as [|y t IH]; intros seen; cbn [dedup_acc].
    - cbn. destruct (mem eqb x seen); reflexivity.
    - rewrite (mem_cons x y t). destruct (mem eqb y seen) eqn:M; rewrite ?count_cons, IH, ?(mem_cons x y seen);
        (destruct (eqb x y) eqn:E; [rewrite (mem_congr x y seen E), M|]; cbn [orb]; [reflexivity|]);
        destruct (mem eqb x seen); reflexivity.
  Qed.

  Theorem distinct_keeps_one x l : count x (dedup eqb l) = if mem eqb x l then 1%nat else 0%nat.
  Proof. unfold dedup. rewrite count_dedup_acc. reflexivity. Qed.

  Lemma count_filter_mem x l (f : A -> bool) :
    (forall a b, eqb a b = true -> f a = f b) ->
    count x (filter f l) = if f x then count x l else 0%nat.
  Proof.
    intros Hf. induction l as [|y t IH]; cbn [filter]; [destruct (f x); reflexivity|].
    destruct (f y) eqn:Fy; rewrite ?count_cons, IH; destruct (f x) eqn:Fx; try reflexivity;
      destruct (eqb x y) eqn:E; try reflexivity; rewrite (Hf _ _ E) in Fx; congruence.
  Qed.

  Lemma mem_filter x l (f : A -> bool) :
    (forall a b, eqb a b = true -> f a = f b) -> mem eqb x (filter f l) = f x && mem eqb x l.
  Proof.
    intros Hf. rewrite !mem_count, (count_filter_mem x l f Hf). destruct (f x); reflexivity.
  Qed.
End BagFacts.

(* row identity is an equivalence: equality of normalised rows *)
Lemma str_eqb_spec a b : str_eqb a b = true <-> a = b.
Proof.
  revert b. induction a as [|x a IH]; intros [|y b]; cbn; try easy.
  rewrite andb_true_iff, N.eqb_eq, IH. intuition congruence.
Qed.

Lemma val_beq_spec a b : val_beq a b = true <-> a = b.
Proof.
  destruct a, b; cbn; try easy; rewrite ?andb_true_iff, ?Z.eqb_eq, ?Nat.eqb_eq, ?str_eqb_spec; intuition congruence.
Qed.

Lemma row_beq_spec a b : row_beq a b = true <-> a = b.
Proof.
  revert b. induction a as [|x a IH]; intros [|y b]; cbn; try easy.
  rewrite andb_true_iff, val_beq_spec, IH. intuition congruence.
Qed.

Lemma row_eqb_spec a b : row_eqb a b = true <-> nrow a = nrow b.
Proof. apply row_beq_spec. Qed.

Lemma row_eqb_refl a : row_eqb a a = true.
Proof. apply row_eqb_spec. reflexivity. Qed.
Lemma row_eqb_sym a b : row_eqb a b = row_eqb b a.
Proof. apply eq_true_iff_eq. rewrite !row_eqb_spec. split; congruence. Qed.
Lemma row_eqb_trans a b c : row_eqb a b = true -> row_eqb b c = true -> row_eqb a c = true.
Proof. rewrite !row_eqb_spec. congruence. Qed.

Notation rcount := (count row_eqb).

Theorem set_op_multiplicities x l r :
  rcount x (set_op SUnion true l r) = (rcount x l + rcount x r)%nat /\
  rcount x (set_op SIntersect true l r) = Nat.min (rcount x l) (rcount x r) /\
  rcount x (set_op SExcept true l r) = (rcount x l - rcount x r)%nat /\
  rcount x (set_op SUnion false l r) = (if mem row_eqb x l || mem row_eqb x r then 1 else 0)%nat /\
  rcount x (set_op SIntersect false l r) = (if mem row_eqb x l && mem row_eqb x r then 1 else 0)%nat /\
  rcount x (set_op SExcept false l r) = (if mem row_eqb x l && negb (mem row_eqb x r) then 1 else 0)%nat.
Proof.
  pose proof row_eqb_sym as S. pose proof row_eqb_trans as T.
  cbn [set_op]. repeat split.
  - apply count_app.
  - apply intersect_all_min; assumption.
  - apply except_all_monus; assumption.
  - rewrite (distinct_keeps_one row_eqb S T). unfold mem. rewrite existsb_app. reflexivity.
  - rewrite (distinct_keeps_one row_eqb S T).
    rewrite (mem_filter row_eqb x l (fun y => mem row_eqb y r)).
    + rewrite andb_comm. reflexivity.
    + intros a b E. apply (mem_congr row_eqb S T). assumption.
  - rewrite (distinct_keeps_one row_eqb S T).
    rewrite (mem_filter row_eqb x l (fun y => negb (mem row_eqb y r))).
    + rewrite andb_comm. reflexivity.
    + intros a b E. f_equal. apply (mem_congr row_eqb S T). assumption.
Qed.

Theorem distinct_multiplicity x rows :
  rcount x (distinct_if true rows) = (if mem row_eqb x rows then 1 else 0)%nat.
Proof. apply (distinct_keeps_one row_eqb row_eqb_sym row_eqb_trans). Qed.
