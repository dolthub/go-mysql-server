(* C09 — witnesses: inputs on which the type / nullability rules of the code (mirrored in Expr/C09Typing and
   Rel/C09Rel) report a schema the produced value does not conform to; and the integer generalisation lemma. *)
From Coq Require Import List ZArith Bool Lia.
Import ListNotations.
From GMS Require Import Expr.C09Typing Expr.C09TypingProofs Rel.C09Rel.
Open Scope Z_scope.

(* generalizeNumberTypes on two integer kinds: the generalised type holds every value of both operands *)
Lemma generalize_integers_sound ka kb :
  holds (TInt ka) (generalize (TInt ka) (TInt kb)) = true /\ holds (TInt kb) (generalize (TInt ka) (TInt kb)) = true.
Proof. destruct ka, kb; vm_compute; split; reflexivity. Qed.
Lemma generalize_bool_sound k :
  holds TBool (generalize TBool (TInt k)) = true /\ holds (TInt k) (generalize TBool (TInt k)) = true /\
  holds TBool (generalize (TInt k) TBool) = true /\ holds (TInt k) (generalize (TInt k) TBool) = true.
Proof. destruct k; vm_compute; repeat split; reflexivity. Qed.

Definition violates (s : schema) (r : row) (e : expr) : Prop :=
  conforms s r = true /\ exists x, eval s r e = Ok x /\ conforms_col (Col (type_of s e) (nullable s e)) x = false.
Lemma violates_intro s r e x : conforms s r = true -> eval s r e = Ok x ->
  conforms_col (Col (type_of s e) (nullable s e)) x = false -> violates s r e.
Proof. intros C E V. exact (conj C (ex_intro _ x (conj E V))). Qed.

(* (a * (4 % a)) with a = 6: typed DECIMAL(1,0), value 24 *)
Lemma times_mod_refuted : violates [Col (TInt I64) false] [VInt 6]
  (EArith Mul (EField 0) (EMod (ELit (VInt 4)) (EField 0))).
Proof. eapply violates_intro; reflexivity. Qed.
(* ((a + 100) % b) with a = 5000, b = 10000: typed DECIMAL(3,0) by the digits of the literal, value 5100 *)
Lemma mod_digits_refuted : violates [Col (TInt I64) false; Col (TInt I64) true] [VInt 5000; VInt 10000]
  (EMod (EArith Add (EField 0) (ELit (VInt 100))) (EField 1)).
Proof. eapply violates_intro; reflexivity. Qed.
(* d + a with d DECIMAL(4,2) = 1.50 and a BIGINT = 1000: typed DECIMAL(4,2), value 1001.50 *)
Lemma decimal_plus_int_refuted : violates [Col (TDec 4 2) false; Col (TInt I64) false] [VDec 150 2; VInt 1000]
  (EArith Add (EField 0) (EField 1)).
Proof. eapply violates_intro; reflexivity. Qed.
(* -t for a TINYINT UNSIGNED column holding 5: typed TINYINT UNSIGNED, value -5 *)
Lemma neg_unsigned_refuted : violates [Col (TInt U8) false] [VInt 5] (ENeg (EField 0)).
Proof. eapply violates_intro; reflexivity. Qed.
(* -500 DIV 128: the literal 128 is TINYINT UNSIGNED, so the result is typed BIGINT UNSIGNED; value -3 *)
Lemma intdiv_mixed_refuted : violates [] [] (EIntDiv (ELit (VInt (-500))) (ELit (VInt 128))).
Proof. eapply violates_intro; reflexivity. Qed.
(* CASE WHEN a > 1 THEN d ELSE a END with d DECIMAL(50,0) = 10^40: typed DECIMAL(65,30) (35 integer digits) *)
Lemma generalize_decimal_refuted : violates [Col (TDec 50 0) false; Col (TInt I64) false] [VDec (10 ^ 40) 0; VInt 3]
  (ECase [(ECmp Gt (EField 1) (ELit (VInt 1)), EField 0)] (Some (EField 1))).
Proof. eapply violates_intro; reflexivity. Qed.

(* relational layer under the rules of the code *)
Definition rel_violates (q : rel) : Prop :=
  wf_rel q = true /\ exists rows r, eval_rel q = Some rows /\ In r rows /\ conforms (schema_of false q) r = false.
(* in every witness below it is the first produced row that does not conform *)
Lemma rel_violates_head q r rows : wf_rel q = true -> eval_rel q = Some (r :: rows) ->
  conforms (schema_of false q) r = false -> rel_violates q.
Proof. intros W E V. exact (conj W (ex_intro _ _ (ex_intro _ r (conj E (conj (or_introl eq_refl) V))))). Qed.
(* t(a BIGINT NOT NULL) = {1}, u(a BIGINT NOT NULL) = {2}:  t LEFT JOIN u ON t.a = u.a  pads u.a, reported NOT NULL *)
Lemma left_join_code_rule_refuted : rel_violates
  (RJoin JLeft (ECmp Eq (EField 0) (EField 1)) (RTable [Col (TInt I64) false] [[VInt 1]]) (RTable [Col (TInt I64) false] [[VInt 2]])).
Proof. eapply rel_violates_head; reflexivity. Qed.
Lemma right_join_code_rule_refuted : rel_violates
  (RJoin JRight (ECmp Eq (EField 0) (EField 1)) (RTable [Col (TInt I64) false] [[VInt 1]]) (RTable [Col (TInt I64) false] [[VInt 2]])).
Proof. eapply rel_violates_head; reflexivity. Qed.
(* SELECT SUM(x), MIN(x), MAX(x) FROM t over an empty t: one row of NULLs in columns reported NOT NULL *)
Lemma aggregate_code_rule_refuted : rel_violates
  (RGroup [] [(ASum, 0%nat); (AMin, 0%nat); (AMax, 0%nat)] (RTable [Col (TInt I64) true] [])).
Proof. eapply rel_violates_head; reflexivity. Qed.
(* a group whose values are all NULL *)
Lemma aggregate_all_null_group_refuted : rel_violates
  (RGroup [0%nat] [(AMax, 1%nat)] (RTable [Col (TInt I64) false; Col (TInt I64) true] [[VInt 1; VNull]; [VInt 2; VInt 5]])).
Proof. eapply rel_violates_head; reflexivity. Qed.
(* a derived column of such an aggregate: SELECT m FROM (SELECT MAX(x) AS m FROM t) q *)
Lemma derived_aggregate_code_rule_refuted : rel_violates
  (RProject [EField 0] (RGroup [] [(AMax, 0%nat)] (RTable [Col (TInt I64) true] []))).
Proof. eapply rel_violates_head; reflexivity. Qed.

(* the reported type and the decimal digits of an expression depend on the schema through the column types only *)
Lemma fold_left_ext_Forall {A B C} (g : A -> C -> A) (f1 f2 : B -> C) l : Forall (fun x => f1 x = f2 x) l ->
  forall a, fold_left (fun acc x => g acc (f1 x)) l a = fold_left (fun acc x => g acc (f2 x)) l a.
Proof. induction 1 as [|x l E _ IH]; intros a; cbn [fold_left]; [reflexivity|]. rewrite E. apply IH. Qed.

Section SameColumnTypes.
  Variables s1 s2 : schema.
  Hypothesis N : forall i, c_ty (nth i s1 dflt) = c_ty (nth i s2 dflt).

  Lemma mod_digits_ext e : mod_digits s1 e = mod_digits s2 e.
  Proof.
    induction e using expr_rect'; cbn [mod_digits]; rewrite ?N, ?IHe, ?IHe1, ?IHe2, ?IHe3; try congruence.
    - apply (fold_left_ext_Forall dmax (mod_digits s1) (mod_digits s2)). assumption.
    - rewrite (fold_left_ext_Forall dmax (fun p => dmax (mod_digits s1 (fst p)) (mod_digits s1 (snd p)))
                 (fun p => dmax (mod_digits s2 (fst p)) (mod_digits s2 (snd p)))).
      + destruct els; cbn [opt_P] in *; congruence.
      + eapply Forall_impl; [|eassumption]. intros p [-> ->]. reflexivity.
  Qed.

  Lemma type_of_ext e : type_of s1 e = type_of s2 e.
  Proof.
    induction e using expr_rect'; cbn [type_of]; rewrite ?N, ?mod_digits_ext, ?IHe, ?IHe1, ?IHe2, ?IHe3; try congruence.
    rewrite (fold_left_ext_Forall generalize (fun p => type_of s1 (snd p)) (fun p => type_of s2 (snd p))).
    - destruct els; cbn [opt_P] in *; congruence.
    - eapply Forall_impl; [|eassumption]. intros p [_ E]. exact E.
  Qed.
End SameColumnTypes.

Lemma nth_c_ty s1 s2 : map c_ty s1 = map c_ty s2 -> forall i, c_ty (nth i s1 dflt) = c_ty (nth i s2 dflt).
Proof. intros E i. rewrite <- (map_nth c_ty s1), <- (map_nth c_ty s2), E. reflexivity. Qed.

Lemma union_schema_types a : forall b,
  map c_ty (union_schema a b) = map (fun p => generalize (fst p) (snd p)) (combine (map c_ty a) (map c_ty b)).
Proof. unfold union_schema. induction a as [|x a IH]; intros [|y b]; cbn [combine map]; [reflexivity..|]. rewrite IH. reflexivity. Qed.

Lemma rules_same_types : forall q, map c_ty (schema_of false q) = map c_ty (schema_of true q).
Proof.
  induction q as [s rows0|es q IH|c q IH|k c l IHl r IHr|a IHa b IHb|keys aggs q IH|q IH|n q IH]; cbn [schema_of]; auto.
  - unfold project_schema. rewrite !map_map. apply map_ext. intros e. apply type_of_ext, nth_c_ty, IH.
  - destruct k; rewrite !map_app; unfold make_nullable; rewrite ?map_map; cbn [c_ty]; rewrite IHl, IHr; reflexivity.
  - rewrite !union_schema_types, IHa, IHb. reflexivity.
  - unfold group_schema. rewrite !map_app, !map_map. cbn [c_ty].
    f_equal; apply map_ext; intros x; rewrite (nth_c_ty _ _ IH); reflexivity.
Qed.
