(* C06: equivalent formulations over the C05 expression model and a small relational layer. *)
From Coq Require Import List ZArith NArith Bool Lia.
Import ListNotations.
From GMS Require Import Base.ListFacts Expr.C05Expr Expr.C05ExprProofs.
Open Scope Z_scope.

Fixpoint or_chain (a x : expr) (l : list expr) : expr :=
  match l with
  | [] => Cmp CEq a x
  | y :: l' => Or (Cmp CEq a x) (or_chain a y l')
  end.

Fixpoint or_fold (a : val) (x : val) (l : list val) : tri :=
  match l with
  | [] => cmp3 CEq a x
  | y :: l' => or3 (cmp3 CEq a x) (or_fold a y l')
  end.

Lemma or_chain_eval r a x l :
  to_tri (eval r (or_chain a x l)) = or_fold (eval r a) (eval r x) (map (eval r) l).
Proof.
  revert x. induction l as [|y l IH]; intros x; cbn [or_chain map or_fold eval].
  - apply to_tri_of_tri.
  - rewrite !to_tri_of_tri, IH. reflexivity.
Qed.

Lemma in_list_cons a x rest hn :
  a <> VNull ->
  in_list a (x :: rest) hn =
  match cmp3 CEq a x with TT => TT | TN => in_list a rest true | TF => in_list a rest hn end.
Proof.
  intros Ha. destruct a; try congruence; destruct x; cbn [in_list]; try reflexivity;
    unfold cmp3; match goal with |- context [cmp_val ?p ?q] => destruct (cmp_val p q) end; reflexivity.
Qed.

Lemma in_list_or_fold a x l hn :
  a <> VNull ->
  in_list a (x :: l) hn = or3 (if hn then TN else TF) (or_fold a x l).
Proof.
  intros Ha. revert x hn. induction l as [|y l IH]; intros x hn; rewrite (in_list_cons a x _ hn Ha); cbn [or_fold].
  - cbn [in_list]. destruct (cmp3 CEq a x), hn; reflexivity.
  - rewrite !IH. destruct (cmp3 CEq a x), hn, (or_fold a y l); reflexivity.
Qed.

Lemma or_fold_null x l : or_fold VNull x l = TN.
Proof. revert x. induction l as [|y l IH]; intros x; cbn [or_fold]; [reflexivity|]. rewrite IH. reflexivity. Qed.

Theorem in_as_or r a x l : eval r (In a (x :: l)) = eval r (or_chain a x l).
Proof.
  assert (H : eval r (or_chain a x l) = of_tri (to_tri (eval r (or_chain a x l)))).
  { destruct l; cbn [or_chain eval]; rewrite !to_tri_of_tri; reflexivity. }
  rewrite H, or_chain_eval. cbn [eval map].
  destruct (eval r a) eqn:Ea; [rewrite or_fold_null; reflexivity|..];
    rewrite in_list_or_fold by discriminate; cbn; destruct (or_fold _ _ _); reflexivity.
Qed.

Theorem between_as_pair r v lo hi :
  eval r (Between v lo hi) = eval r (And (Cmp CGe v lo) (Cmp CLe v hi)).
Proof.
  cbn [eval]. rewrite !to_tri_of_tri.
  rewrite (cmp3_flip CLe (eval r lo) (eval r v)), (cmp3_flip CGe (eval r hi) (eval r v)). reflexivity.
Qed.

Theorem const_fold r e t : closed e = true -> eval r (Lit (eval [] e) t) = eval r e.
Proof. intros H. cbn [eval]. symmetry. apply eval_closed. exact H. Qed.

Fixpoint inline (r : row) (e : expr) : expr :=
  match e with
  | Lit _ _ => e
  | Col i t => Lit (nth i r VNull) t
  | Cmp op a b => Cmp op (inline r a) (inline r b)
  | NsEq a b => NsEq (inline r a) (inline r b)
  | Arith op a b => Arith op (inline r a) (inline r b)
  | Neg a => Neg (inline r a)
  | And a b => And (inline r a) (inline r b)
  | Or a b => Or (inline r a) (inline r b)
  | Xor a b => Xor (inline r a) (inline r b)
  | Not a => Not (inline r a)
  | IsNull a => IsNull (inline r a)
  | IsTrue i a => IsTrue i (inline r a)
  | In a l => In (inline r a) (map (inline r) l)
  | Between a b c => Between (inline r a) (inline r b) (inline r c)
  | Case a b c => Case (inline r a) (inline r b) (inline r c)
  end.

Theorem literal_vs_column r r' e : eval r' (inline r e) = eval r e.
Proof.
  induction e using expr_ind'; cbn [inline eval];
    repeat match goal with IH : eval r' (inline r ?a) = _ |- _ => rewrite IH; clear IH end; try reflexivity.
  assert (Hl : map (eval r') (map (inline r) l) = map (eval r) l).
  { induction H as [|x l Hx Hl IH]; [reflexivity|]. cbn. rewrite Hx, IH. reflexivity. }
  rewrite Hl. reflexivity.
Qed.

Lemma sigma_and p q l : sigma (And p q) l = sigma q (sigma p l).
Proof.
  unfold sigma. induction l as [|r l IH]; [reflexivity|]. cbn [filter]. rewrite is_true_and.
  destruct (is_true (eval r p)); cbn [andb filter]; [destruct (is_true (eval r q))|]; rewrite IH; reflexivity.
Qed.

(* JOIN .. ON p WHERE q  =  cross join WHERE p AND q  =  JOIN .. ON (p AND q) *)
Theorem on_vs_where_inner p q A B :
  sigma q (nlj p A B) = sigma (And p q) (cross A B) /\ nlj (And p q) A B = sigma (And p q) (cross A B).
Proof. rewrite !nlj_eq, sigma_and. split; reflexivity. Qed.

Definition in_subquery (x y : expr) (R S : list row) : list row :=
  filter (fun r => is_true (eval r (In x (map (fun s => Lit (eval s y) TyNull) S)))) R.
Definition semi_join (x y : expr) (R S : list row) : list row :=
  filter (fun r => existsb (fun s => is_true (of_tri (cmp3 CEq (eval r x) (eval s y)))) S) R.

Lemma in_list_is_true a vs hn : a <> VNull ->
  is_true (of_tri (in_list a vs hn)) = existsb (fun v => is_true (of_tri (cmp3 CEq a v))) vs.
Proof.
  intros Ha. revert hn. induction vs as [|v vs IH]; intros hn.
  - cbn. destruct hn; reflexivity.
  - rewrite (in_list_cons a v vs hn Ha). cbn [existsb]. destruct (cmp3 CEq a v); cbn [orb of_tri]; try reflexivity; apply IH.
Qed.

Theorem semi_as_in x y R S : in_subquery x y R S = semi_join x y R S.
Proof.
  unfold in_subquery, semi_join. apply filter_ext. intros r. cbn [eval].
  rewrite map_map. cbn [eval].
  destruct (eval r x) eqn:Ex; [|rewrite in_list_is_true by discriminate; rewrite existsb_map; reflexivity..].
  cbn. symmetry. induction S as [|s S IH]; [reflexivity|]. cbn. exact IH.
Qed.

Inductive query :=
| QTable (t : nat)
| QRef (n : nat)                          (* reference to a CTE / derived-table name *)
| QFilter (p : expr) (q : query)
| QProject (es : list expr) (q : query)
| QJoin (p : expr) (a b : query)
| QUnionAll (a b : query)
| QWith (n : nat) (body main : query).    (* WITH n AS (body) main *)

Definition upd (env : nat -> list row) (n : nat) (v : list row) : nat -> list row :=
  fun k => if Nat.eqb k n then v else env k.

Fixpoint qeval (db env : nat -> list row) (q : query) : list row :=
  match q with
  | QTable t => db t
  | QRef n => env n
  | QFilter p q => sigma p (qeval db env q)
  | QProject es q => map (fun r => map (eval r) es) (qeval db env q)
  | QJoin p a b => nlj p (qeval db env a) (qeval db env b)
  | QUnionAll a b => qeval db env a ++ qeval db env b
  | QWith n body main => qeval db (upd env n (qeval db env body)) main
  end.

(* replace every reference to n by the body (main must not itself bind names: non-nested WITH) *)
Fixpoint qsubst (n : nat) (body q : query) : query :=
  match q with
  | QTable t => q
  | QRef k => if Nat.eqb k n then body else q
  | QFilter p q' => QFilter p (qsubst n body q')
  | QProject es q' => QProject es (qsubst n body q')
  | QJoin p a b => QJoin p (qsubst n body a) (qsubst n body b)
  | QUnionAll a b => QUnionAll (qsubst n body a) (qsubst n body b)
  | QWith k b' m' => q
  end.

Fixpoint with_free (q : query) : bool :=
  match q with
  | QTable _ | QRef _ => true
  | QFilter _ q' | QProject _ q' => with_free q'
  | QJoin _ a b | QUnionAll a b => with_free a && with_free b
  | QWith _ _ _ => false
  end.

Theorem cte_inline db env n body main :
  with_free main = true ->
  qeval db env (QWith n body main) = qeval db env (qsubst n body main).
Proof.
  intros H. cbn [qeval]. induction main; cbn [with_free] in H; cbn [qsubst qeval]; try discriminate.
  - reflexivity.
  - unfold upd. destruct (Nat.eqb n0 n); reflexivity.
  - rewrite IHmain by exact H. reflexivity.
  - rewrite IHmain by exact H. reflexivity.
  - apply andb_prop in H. destruct H as [H1 H2]. rewrite IHmain1, IHmain2 by assumption. reflexivity.
  - apply andb_prop in H. destruct H as [H1 H2]. rewrite IHmain1, IHmain2 by assumption. reflexivity.
Qed.

(* the two spellings keep the same rows also after the analyzer's filter rewrites (uses C05's guarded soundness) *)
Lemma in_as_or_after_rewrite a x l q :
  Forall (fun r => bool_ok r (In a (x :: l)) = true) q -> Forall (fun r => bool_ok r (or_chain a x l) = true) q ->
  sigma (push_not (simplify (In a (x :: l)))) q = sigma (push_not (simplify (or_chain a x l))) q.
Proof.
  intros H1 H2. rewrite (rewrite_sigma _ _ H1), (rewrite_sigma _ _ H2).
  apply sigma_ext. intros r _. apply in_as_or.
Qed.
