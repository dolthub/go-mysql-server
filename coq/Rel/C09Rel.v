(* C09 — relational layer: result schema and evaluation of projection, filter, inner/left/right join, UNION, GROUP BY
   with COUNT/SUM/MIN/MAX/AVG, DISTINCT and LIMIT over the typed expressions of Expr/C09Typing.

   Two schema rules: [schema_of false] is the rule of the code — plan/join.go keeps the nullability of the NULL-padded
   side of an outer join, the generated aggregates of unary_aggs.og.go report IsNullable() = false for SUM/MIN/MAX
   (true for AVG, false for COUNT), planbuilder/set_op.go mergeSetOpScopeColumns takes types.GeneralizeTypes of the two
   column types and nullable = left || right — and [schema_of true] is the rule under which the property holds (padded
   side nullable, SUM/MIN/MAX nullable).  The two rules differ in nullability only, never in types. *)
From Coq Require Import List ZArith Bool Lia.
Import ListNotations.
From GMS Require Import Expr.C09Typing Expr.C09TypingProofs.
Open Scope Z_scope.

Inductive agg := ACount | ASum | AMin | AMax | AAvg.
Inductive jkind := JInner | JLeft | JRight.
Inductive rel :=
| RTable (s : schema) (rows : list row)
| RProject (es : list expr) (q : rel)
| RFilter (c : expr) (q : rel)
| RJoin (k : jkind) (c : expr) (l r : rel)
| RUnion (a b : rel)
| RGroup (keys : list nat) (aggs : list (agg * nat)) (q : rel)
| RDistinct (q : rel)
| RLimit (n : nat) (q : rel).

Definition make_nullable (s : schema) : schema := map (fun c => Col (c_ty c) true) s.
Definition agg_ty (a : agg) (t : ty) : ty := match a with ACount => TInt I64 | ASum | AAvg => TDbl | AMin | AMax => t end.
Definition agg_nullable (correct : bool) (a : agg) : bool := match a with ACount => false | AAvg => true | _ => correct end.
Definition union_col (p : col * col) : col :=
  Col (generalize (c_ty (fst p)) (c_ty (snd p))) (c_nullable (fst p) || c_nullable (snd p)).
Definition union_schema (a b : schema) : schema := map union_col (combine a b).
Definition group_schema (correct : bool) (s : schema) (keys : list nat) (aggs : list (agg * nat)) : schema :=
  map (fun i => nth i s dflt) keys ++ map (fun p => Col (agg_ty (fst p) (c_ty (nth (snd p) s dflt))) (agg_nullable correct (fst p))) aggs.

Fixpoint schema_of (correct : bool) (q : rel) : schema :=
  match q with
  | RTable s _ => s
  | RProject es q => project_schema (schema_of correct q) es
  | RFilter _ q | RDistinct q | RLimit _ q => schema_of correct q
  | RJoin k _ l r =>
    let sl := schema_of correct l in let sr := schema_of correct r in
    match k with
    | JInner => sl ++ sr
    | JLeft => sl ++ (if correct then make_nullable sr else sr)
    | JRight => (if correct then make_nullable sl else sl) ++ sr
    end
  | RUnion a b => union_schema (schema_of correct a) (schema_of correct b)
  | RGroup keys aggs q => group_schema correct (schema_of correct q) keys aggs
  end.

(* evaluation; None: an expression error or a situation outside the model *)
Fixpoint project_rows (s : schema) (es : list expr) (rows : list row) : option (list row) :=
  match rows with
  | [] => Some []
  | r :: t => match eval_all s r es, project_rows s es t with Some x, Some xs => Some (x :: xs) | _, _ => None end
  end.
Fixpoint filter_rows (s : schema) (c : expr) (rows : list row) : option (list row) :=
  match rows with
  | [] => Some []
  | r :: t =>
    match eval s r c, filter_rows s c t with
    | Ok v, Some t' => match truth v with Some (Some true) => Some (r :: t') | Some _ => Some t' | None => None end
    | _, _ => None
    end
  end.
Definition nulls (n : nat) : row := repeat VNull n.
Fixpoint left_join (s : schema) (c : expr) (nr : nat) (ls rs : list row) : option (list row) :=
  match ls with
  | [] => Some []
  | l :: t =>
    match filter_rows s c (map (fun r => l ++ r) rs), left_join s c nr t rs with
    | Some [], Some t' => Some ((l ++ nulls nr) :: t')
    | Some m, Some t' => Some (m ++ t')
    | _, _ => None
    end
  end.
Fixpoint right_join (s : schema) (c : expr) (nl : nat) (ls rs : list row) : option (list row) :=
  match rs with
  | [] => Some []
  | r :: t =>
    match filter_rows s c (map (fun l => l ++ r) ls), right_join s c nl ls t with
    | Some [], Some t' => Some ((nulls nl ++ r) :: t')
    | Some m, Some t' => Some (m ++ t')
    | _, _ => None
    end
  end.
Definition conv_row (u : schema) (r : row) : row := map (fun p => conv_to (c_ty (fst p)) (snd p)) (combine u r).

Definition val_eqb (a b : val) : bool :=
  match a, b with
  | VNull, VNull => true
  | VNull, _ | _, VNull => false
  | _, _ => match cmp_vals a b with Some Datatypes.Eq => true | _ => false end
  end.
Fixpoint row_eqb (a b : row) : bool :=
  match a, b with [], [] => true | x :: a', y :: b' => val_eqb x y && row_eqb a' b' | _, _ => false end.
Fixpoint dedupe (l : list row) : list row :=
  match l with [] => [] | x :: t => x :: filter (fun y => negb (row_eqb x y)) (dedupe t) end.

Definition col_vals (i : nat) (rows : list row) : list val := filter notnull (map (fun r => nth i r VNull) rows).
Fixpoint sum_ints (vs : list val) : option Z :=
  match vs with [] => Some 0 | VInt z :: t => option_map (Z.add z) (sum_ints t) | _ => None end.
Definition better (want : comparison) (v m : val) : option val :=
  match m with
  | VNull => Some v
  | _ => match cmp_vals v m with Some c => Some (if match c, want with Datatypes.Lt, Datatypes.Lt | Datatypes.Gt, Datatypes.Gt => true | _, _ => false end then v else m) | None => None end
  end.
Fixpoint extremum (want : comparison) (vs : list val) (acc : val) : option val :=
  match vs with [] => Some acc | v :: t => match better want v acc with Some a => extremum want t a | None => None end end.
Definition agg_val (a : agg) (vs : list val) : option val :=
  match a with
  | ACount => match fit I64 (Z.of_nat (length vs)) with Ok v => Some v | Err => None end
  | ASum => match vs with [] => Some VNull | _ => option_map VInt (sum_ints vs) end
  | AAvg => match vs with [] => Some VNull | _ => option_map (fun z => VDbl z (Z.of_nat (length vs))) (sum_ints vs) end
  | AMin => extremum Datatypes.Lt vs VNull
  | AMax => extremum Datatypes.Gt vs VNull
  end.
Fixpoint agg_row (aggs : list (agg * nat)) (rows : list row) : option row :=
  match aggs with
  | [] => Some []
  | p :: t => match agg_val (fst p) (col_vals (snd p) rows), agg_row t rows with Some v, Some vs => Some (v :: vs) | _, _ => None end
  end.
Definition key_of (keys : list nat) (r : row) : row := map (fun i => nth i r VNull) keys.
Fixpoint group_rows (keys : list nat) (aggs : list (agg * nat)) (rows : list row) (ks : list row) : option (list row) :=
  match ks with
  | [] => Some []
  | k :: t =>
    match agg_row aggs (filter (fun r => row_eqb (key_of keys r) k) rows), group_rows keys aggs rows t with
    | Some a, Some t' => Some ((k ++ a) :: t')
    | _, _ => None
    end
  end.

Fixpoint eval_rel (q : rel) : option (list row) :=
  match q with
  | RTable _ rows => Some rows
  | RProject es q => match eval_rel q with Some rows => project_rows (schema_of true q) es rows | None => None end
  | RFilter c q => match eval_rel q with Some rows => filter_rows (schema_of true q) c rows | None => None end
  | RJoin k c l r =>
    match eval_rel l, eval_rel r with
    | Some ls, Some rs =>
      let s := schema_of true l ++ schema_of true r in
      match k with
      | JInner => filter_rows s c (flat_map (fun x => map (fun y => x ++ y) rs) ls)
      | JLeft => left_join s c (length (schema_of true r)) ls rs
      | JRight => right_join s c (length (schema_of true l)) ls rs
      end
    | _, _ => None
    end
  | RUnion a b =>
    match eval_rel a, eval_rel b with
    | Some ra, Some rb => let u := schema_of true q in Some (map (conv_row u) ra ++ map (conv_row u) rb)
    | _, _ => None
    end
  | RGroup keys aggs q =>
    match eval_rel q with
    | Some rows =>
      match keys with
      | [] => match agg_row aggs rows with Some a => Some [a] | None => None end    (* one row even for an empty input *)
      | _ => group_rows keys aggs rows (dedupe (map (key_of keys) rows))
      end
    | None => None
    end
  | RDistinct q => option_map dedupe (eval_rel q)
  | RLimit n q => option_map (firstn n) (eval_rel q)
  end.

(* well-formed statements: tables hold conforming rows, expressions are well typed, UNION sides can be held by the merged types *)
Fixpoint wf_rel (q : rel) : bool :=
  match q with
  | RTable s rows => forallb (conforms s) rows
  | RProject es q => wf_rel q && forallb (well_typed (schema_of true q)) es
  | RFilter c q => wf_rel q
  | RJoin _ c l r => wf_rel l && wf_rel r
  | RUnion a b =>
    wf_rel a && wf_rel b && Nat.eqb (length (schema_of true a)) (length (schema_of true b)) &&
    forallb (fun p => holds (c_ty (fst p)) (c_ty (union_col p)) && holds (c_ty (snd p)) (c_ty (union_col p)))
            (combine (schema_of true a) (schema_of true b))
  | RGroup keys aggs q => wf_rel q
  | RDistinct q | RLimit _ q => wf_rel q
  end.

Lemma conforms_app a : forall b ra rb, conforms a ra = true -> conforms b rb = true -> conforms (a ++ b) (ra ++ rb) = true.
Proof.
  induction a as [|c a IH]; intros b [|x ra] rb HA HB; cbn [conforms app] in *; try discriminate; [exact HB|].
  apply andb_prop in HA. destruct HA as [H1 H2]. rewrite H1. cbn [andb]. apply IH; assumption.
Qed.
Lemma make_nullable_conforms s : forall r, conforms s r = true -> conforms (make_nullable s) r = true.
Proof.
  unfold make_nullable. induction s as [|c s IH]; intros [|x r] H; cbn [map conforms] in *; try discriminate; [reflexivity|].
  apply andb_prop in H. destruct H as [H1 H2]. rewrite (IH r H2), andb_true_r.
  unfold conforms_col in *. cbn [c_ty c_nullable]. apply andb_prop in H1. destruct H1 as [T _]. rewrite T. reflexivity.
Qed.
Lemma nulls_conform s : conforms (make_nullable s) (nulls (length s)) = true.
Proof. unfold make_nullable, nulls. induction s as [|c s IH]; cbn [map length repeat conforms]; [reflexivity|]. rewrite IH. reflexivity. Qed.

Definition all_conform (s : schema) (rows : list row) : Prop := Forall (fun r => conforms s r = true) rows.
Lemma all_conform_In s rows : all_conform s rows -> forall r, In r rows -> conforms s r = true.
Proof. apply Forall_forall. Qed.

Lemma project_rows_conform s es : forallb (well_typed s) es = true -> forall rows out, all_conform s rows ->
  project_rows s es rows = Some out -> all_conform (project_schema s es) out.
Proof.
  intros W. induction rows as [|r t IH]; intros out A E; cbn [project_rows] in E.
  - injection E as <-. constructor.
  - inversion A as [|? ? Ar At]; subst. destruct (eval_all s r es) as [x|] eqn:Ex; [|discriminate].
    destruct (project_rows s es t) as [xs|]; [|discriminate]. injection E as <-.
    constructor; [eapply project_conforms; eauto|apply IH; auto].
Qed.
(* a filter keeps a sublist *)
Lemma filter_rows_forall (P : row -> Prop) s c : forall rows out, Forall P rows -> filter_rows s c rows = Some out -> Forall P out.
Proof.
  induction rows as [|r t IH]; intros out A E; cbn [filter_rows] in E.
  - injection E as <-. constructor.
  - inversion A as [|? ? Ar At]; subst. destruct (eval s r c) as [v|]; [|discriminate].
    destruct (filter_rows s c t) as [t'|]; [|discriminate]. specialize (IH t' At eq_refl).
    destruct (truth v) as [[[|]|]|]; try discriminate; injection E as <-; auto.
Qed.

(* both outer joins are one loop over the rows [os] of the preserved side: the matches of each row among [is], or its
   padding when there is none; [comb] puts the two halves in the order of the statement *)
Fixpoint pad_join (s : schema) (c : expr) (comb : row -> row -> row) (pad : row -> row) (os is : list row) : option (list row) :=
  match os with
  | [] => Some []
  | o :: t =>
    match filter_rows s c (map (comb o) is), pad_join s c comb pad t is with
    | Some [], Some t' => Some (pad o :: t')
    | Some m, Some t' => Some (m ++ t')
    | _, _ => None
    end
  end.
Lemma left_join_pad s c nr ls rs : left_join s c nr ls rs = pad_join s c (@app val) (fun l => l ++ nulls nr) ls rs.
Proof. induction ls as [|l t IH]; cbn [left_join pad_join]; [|rewrite IH]; reflexivity. Qed.
Lemma right_join_pad s c nl ls rs : right_join s c nl ls rs = pad_join s c (fun r l => l ++ r) (fun r => nulls nl ++ r) rs ls.
Proof. induction rs as [|r t IH]; cbn [right_join pad_join]; [|rewrite IH]; reflexivity. Qed.
Lemma pad_join_forall (P : row -> Prop) s c comb pad is : forall os out,
  (forall o i, In o os -> In i is -> P (comb o i)) -> (forall o, In o os -> P (pad o)) ->
  pad_join s c comb pad os is = Some out -> Forall P out.
Proof.
  induction os as [|o t IH]; intros out HC HP E; cbn [pad_join] in E; [injection E as <-; constructor|].
  destruct (filter_rows s c (map (comb o) is)) as [m|] eqn:F; [|discriminate].
  destruct (pad_join s c comb pad t is) as [t'|]; [|destruct m; discriminate].
  assert (T : Forall P t') by (apply IH; auto using in_cons).
  assert (M : Forall P m).
  { eapply filter_rows_forall; [|exact F]. apply Forall_map, Forall_forall. intros i Hi. apply HC; [left; reflexivity|exact Hi]. }
  destruct m as [|m0 m]; injection E as <-.
  - constructor; [apply HP; left; reflexivity|exact T].
  - apply (proj2 (Forall_app P (m0 :: m) t')). split; assumption.
Qed.

(* UNION: a value of a column of either side, converted, is a value of the merged column ... *)
Lemma conv_conforms_col c u x : holds (c_ty c) (c_ty u) = true -> (c_nullable c = true -> c_nullable u = true) ->
  conforms_col c x = true -> conforms_col u (conv_to (c_ty u) x) = true.
Proof.
  unfold conforms_col. intros H N C. apply andb_prop in C. destruct C as [T NN].
  rewrite (holds_sound _ _ _ H T), conv_notnull. cbn [andb].
  destruct (c_nullable c); [rewrite N; reflexivity|]. cbn [orb] in NN. rewrite NN. apply orb_true_r.
Qed.
(* ... and so a row of either side, converted, conforms to the merged schema *)
Lemma union_conform : forall a b r, length a = length b ->
  forallb (fun p => holds (c_ty (fst p)) (c_ty (union_col p)) && holds (c_ty (snd p)) (c_ty (union_col p))) (combine a b) = true ->
  conforms a r = true \/ conforms b r = true -> conforms (union_schema a b) (conv_row (union_schema a b) r) = true.
Proof.
  induction a as [|ca a IH]; intros [|cb b] r L H C; try discriminate L.
  - destruct r; [reflexivity|destruct C; discriminate].
  - destruct r as [|x r]; [destruct C; discriminate|]. injection L as L.
    cbn [combine forallb] in H. apply andb_prop in H. destruct H as [H1 H2]. apply andb_prop in H1. destruct H1 as [Ha Hb].
    cbn [conforms] in C. rewrite !andb_true_iff in C.
    unfold union_schema, conv_row in *. cbn [combine map conforms fst snd]. rewrite (IH b r L H2) by tauto. rewrite andb_true_r.
    destruct C as [[C _]|[C _]]; revert C; apply conv_conforms_col; trivial; cbn [union_col c_nullable fst snd]; intros ->;
      [reflexivity|apply orb_true_r].
Qed.

Lemma extremum_typed want t : forall vs acc v, Forall (fun x => has_type t x = true) vs -> has_type t acc = true ->
  extremum want vs acc = Some v -> has_type t v = true.
Proof.
  induction vs as [|x vs IH]; intros acc v F A E; cbn [extremum] in E; [injection E as <-; exact A|].
  inversion F as [|? ? Fx Fr]; subst. destruct (better want x acc) as [a|] eqn:B; [|discriminate].
  apply (IH a v Fr); [|exact E]. unfold better in B. destruct acc; try (injection B as <-; exact Fx);
  (destruct (cmp_vals x _) as [c|]; [|discriminate]); injection B as <-;
  match goal with |- has_type t (if ?c then _ else _) = true => destruct c end; assumption.
Qed.
Lemma col_vals_typed s i rows : all_conform s rows -> Forall (fun x => has_type (c_ty (nth i s dflt)) x = true) (col_vals i rows).
Proof.
  intros A. unfold col_vals. apply Forall_forall. intros x Hx. apply filter_In in Hx. destruct Hx as [Hx _].
  apply in_map_iff in Hx. destruct Hx as [r [<- Hr]].
  pose proof (conforms_nth s r i (all_conform_In _ _ A _ Hr)) as C. unfold conforms_col in C. apply andb_prop in C. tauto.
Qed.
Lemma agg_val_conform s a i rows v : all_conform s rows -> agg_val a (col_vals i rows) = Some v ->
  conforms_col (Col (agg_ty a (c_ty (nth i s dflt))) (agg_nullable true a)) v = true.
Proof.
  intros A E. unfold conforms_col. cbn [c_ty c_nullable].
  assert (X : forall want, extremum want (col_vals i rows) VNull = Some v -> has_type (c_ty (nth i s dflt)) v = true).
  { intros want. apply extremum_typed; [apply col_vals_typed, A|destruct (c_ty (nth i s dflt)); reflexivity]. }
  destruct a; cbn [agg_val agg_ty agg_nullable] in *; try (rewrite (X _ E); reflexivity).
  1: { destruct (fit I64 _) as [w|] eqn:F; [|discriminate]. injection E as <-. apply fit_typed in F. destruct F as [T N]. rewrite T, N. reflexivity. }
  (* SUM, AVG: NULL over no values, a double otherwise *)
  all: destruct (col_vals i rows); [injection E as <-; reflexivity|].
  all: destruct (sum_ints _); [|discriminate]. all: injection E as <-; reflexivity.
Qed.
Lemma agg_row_conform s rows : all_conform s rows -> forall aggs out, agg_row aggs rows = Some out ->
  conforms (map (fun p => Col (agg_ty (fst p) (c_ty (nth (snd p) s dflt))) (agg_nullable true (fst p))) aggs) out = true.
Proof.
  intros A. induction aggs as [|p t IH]; intros out E; cbn [agg_row] in E; [injection E as <-; reflexivity|].
  destruct (agg_val (fst p) (col_vals (snd p) rows)) as [v|] eqn:V; [|discriminate].
  destruct (agg_row t rows) as [vs|]; [|discriminate]. injection E as <-. cbn [map conforms].
  rewrite (agg_val_conform s _ _ rows v A V), (IH vs eq_refl). reflexivity.
Qed.
Lemma key_conform s r keys : conforms s r = true -> conforms (map (fun i => nth i s dflt) keys) (key_of keys r) = true.
Proof.
  intros C. unfold key_of. induction keys as [|i t IH]; cbn [map conforms]; [reflexivity|]. rewrite (conforms_nth s r i C), IH. reflexivity.
Qed.
Lemma dedupe_incl : forall l, incl (dedupe l) l.
Proof.
  induction l as [|y t IH]; intros x Hx; cbn [dedupe] in Hx; [contradiction|]. destruct Hx as [->|Hx]; [left; reflexivity|].
  right. apply IH. apply filter_In in Hx. tauto.
Qed.
Lemma group_rows_conform s keys aggs rows : all_conform s rows -> forall ks out,
  (forall k, In k ks -> exists r, In r rows /\ k = key_of keys r) ->
  group_rows keys aggs rows ks = Some out -> all_conform (group_schema true s keys aggs) out.
Proof.
  intros A. induction ks as [|k t IH]; intros out K E; cbn [group_rows] in E; [injection E as <-; constructor|].
  destruct (agg_row aggs _) as [a|] eqn:G; [|discriminate]. destruct (group_rows keys aggs rows t) as [t'|]; [|discriminate].
  injection E as <-. constructor; [|apply IH; [intros k' Hk'; apply K; right; exact Hk'|reflexivity]].
  destruct (K k (or_introl eq_refl)) as [r [Hr ->]]. unfold group_schema. apply conforms_app.
  - apply key_conform. exact (all_conform_In _ _ A _ Hr).
  - eapply agg_row_conform; [|exact G]. exact (incl_Forall (incl_filter _ rows) A).
Qed.

Theorem rel_conforms : forall q rows, wf_rel q = true -> eval_rel q = Some rows -> all_conform (schema_of true q) rows.
Proof.
  induction q as [s rows0|es q IH|c q IH|k c l IHl r IHr|a IHa b IHb|keys aggs q IH|q IH|n q IH]; intros rows W E; cbn [wf_rel eval_rel schema_of] in *.
  - injection E as <-. apply Forall_forall. intros x Hx. rewrite forallb_forall in W. auto.
  - apply andb_prop in W. destruct W as [Wq We]. destruct (eval_rel q) as [rs|]; [|discriminate].
    eapply project_rows_conform; eauto.
  - destruct (eval_rel q) as [rs|]; [|discriminate]. eapply filter_rows_forall; [|exact E]. apply IH; auto.
  - apply andb_prop in W. destruct W as [Wl Wr]. destruct (eval_rel l) as [ls|]; [|discriminate]. destruct (eval_rel r) as [rs|]; [|discriminate].
    specialize (IHl ls Wl eq_refl). specialize (IHr rs Wr eq_refl).
    pose proof (all_conform_In _ _ IHl) as Il. pose proof (all_conform_In _ _ IHr) as Ir. destruct k.
    + eapply filter_rows_forall; [|exact E]. apply Forall_flat_map, Forall_forall. intros x Hx. apply Forall_map, Forall_forall. intros y Hy.
      apply conforms_app; auto.
    + rewrite left_join_pad in E. eapply pad_join_forall; [| |exact E]; intros; apply conforms_app; auto using make_nullable_conforms, nulls_conform.
    + rewrite right_join_pad in E. eapply pad_join_forall; [| |exact E]; intros; apply conforms_app; auto using make_nullable_conforms, nulls_conform.
  - apply andb_prop in W. destruct W as [W H]. apply andb_prop in W. destruct W as [W L]. apply andb_prop in W. destruct W as [Wa Wb].
    apply Nat.eqb_eq in L. destruct (eval_rel a) as [ra|]; [|discriminate]. destruct (eval_rel b) as [rb|]; [|discriminate]. injection E as <-.
    specialize (IHa ra Wa eq_refl). specialize (IHb rb Wb eq_refl).
    apply Forall_app. split; apply Forall_map, Forall_forall; intros x Hx; apply union_conform; auto.
    + left. exact (all_conform_In _ _ IHa x Hx).
    + right. exact (all_conform_In _ _ IHb x Hx).
  - destruct (eval_rel q) as [rs|]; [|discriminate]. specialize (IH rs W eq_refl). destruct keys as [|k0 keys].
    + destruct (agg_row aggs rs) as [a|] eqn:G; [|discriminate]. injection E as <-. constructor; [|constructor].
      unfold group_schema. cbn [map app]. eapply agg_row_conform; eauto.
    + eapply group_rows_conform; [exact IH| |exact E]. intros k Hk. apply dedupe_incl in Hk. apply in_map_iff in Hk.
      destruct Hk as [r [<- Hr]]. eauto.
  - destruct (eval_rel q) as [rs|]; [|discriminate]. injection E as <-. exact (incl_Forall (dedupe_incl rs) (IH rs W eq_refl)).
  - destruct (eval_rel q) as [rs|]; [|discriminate]. injection E as <-. specialize (IH rs W eq_refl).
    unfold all_conform in *. rewrite <- (firstn_skipn n rs) in IH. apply Forall_app in IH. tauto.
Qed.
