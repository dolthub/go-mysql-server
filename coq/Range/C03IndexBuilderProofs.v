(* C03 proofs: the ranges the builder produces for a conjunction of comparisons on an INT column contain a
   column value exactly when every comparison is TRUE of it (completeness and precision), for all literals. *)
From Coq Require Import List ZArith Bool Lia.
Import ListNotations.
From GMS Require Import Range.Cut Range.CutProofs Range.C03IndexBuilder.
Open Scope Z_scope.

Lemma p10_pos s : 0 < p10 s.
Proof. unfold p10. apply Z.pow_pos_nonneg; lia. Qed.

Lemma lit_bounds n s x :
  (x <= lit_floor (n, s) <-> x * p10 s <= n) /\ (lit_ceil (n, s) <= x <-> n <= x * p10 s) /\
  lit_ceil (n, s) = if lit_integral (n, s) then lit_floor (n, s) else lit_floor (n, s) + 1.
Proof.
  unfold lit_floor, lit_ceil, lit_integral. cbn [fst snd]. pose proof (p10_pos s) as Pp. set (p := p10 s) in *.
  assert (F : forall a y, y <= a / p <-> y * p <= a).
  { intros a y. pose proof (Z.mul_div_le a p Pp) as M. split; intros H; [nia|apply Z.div_le_lower_bound; lia]. }
  split; [apply F|]. split.
  - pose proof (F (- n) (- x)). lia.
  - destruct (Z.eqb_spec (n mod p) 0) as [E|E]; [rewrite (Z_div_zero_opp_full n p E)|rewrite (Z_div_nz_opp_full n p ltac:(lia) E)]; lia.
Qed.

Ltac bz :=
  repeat match goal with
  | |- context [?a >? ?b] => rewrite (Z.gtb_ltb a b)
  | |- context [?a <? ?b] => destruct (Z.ltb_spec a b)
  | |- context [?a <=? ?b] => destruct (Z.leb_spec a b)
  | |- context [?a =? ?b] => destruct (Z.eqb_spec a b)
  end.

(* every comparison of x * 10^s with n is a comparison of x with the floor or the ceiling, so once the literal's three
   facts are in place only linear arithmetic over x, floor, ceiling and the int32 bounds is left *)
Lemma potential_exact o v : in_i32 v -> lookup_has (potential o) v = op_true o v.
Proof.
  intros R. destruct o as [[n s]|[n s]|[n s]|[n s]|[n s]|[n s]| |]; try (destruct v; reflexivity);
  unfold potential, conv, op_true;
  (destruct v as [x|]; [|destruct (lit_integral (n, s)); cbn [negb]; bz; reflexivity]);
  destruct (lit_bounds n s x) as (F & C & I); cbn in R; unfold i32min, i32max in *;
  set (q := lit_floor (n, s)) in *; set (c := lit_ceil (n, s)) in *; set (xp := x * p10 s) in *; clearbody q c xp;
  destruct (lit_integral (n, s)); cbn [negb]; bz;
  unfold lookup_has, contains, closed_rce, gt_rce, ge_rce, lt_rce, le_rce, notnull_rce, empty_rce;
  cbn [existsb lo hi below negb andb orb]; bz; try reflexivity; exfalso; lia.
Qed.

Lemma update_inner_exact c pot v :
  existsb (fun r => contains r v) (flat_map (fun p => let '(n, ok) := try_intersect c p in
      if ok && negb (is_empty n) then [n] else []) pot) = contains c v && existsb (fun r => contains r v) pot.
Proof.
  induction pot as [|p pot IH]; cbn [flat_map existsb]; [rewrite andb_false_r; reflexivity|].
  rewrite existsb_app, IH. clear IH.
  pose proof (try_intersect_exact c p v) as TE. pose proof (try_intersect_ok c p) as TO.
  destruct (try_intersect c p) as [n ok]. cbn [fst snd] in *.
  destruct ok; cbn [andb].
  - destruct (is_empty n) eqn:E; cbn [negb existsb].
    + rewrite (is_empty_sound n v E) in TE.
      destruct (contains c v), (contains p v), (existsb _ pot); cbn in *; congruence.
    + rewrite TE, orb_false_r. destruct (contains c v), (contains p v), (existsb _ pot); reflexivity.
  - rewrite (TO eq_refl) in TE. cbn in TE. cbn [existsb].
    destruct (contains c v), (contains p v), (existsb _ pot); cbn in *; congruence.
Qed.
Lemma update_col_exact cur pot v : lookup_has (update_col cur pot) v = lookup_has cur v && lookup_has pot v.
Proof.
  unfold lookup_has, update_col. induction cur as [|c cur IH]; cbn [flat_map existsb]; [reflexivity|].
  rewrite existsb_app, IH, update_inner_exact.
  destruct (contains c v), (existsb _ cur), (existsb _ pot); reflexivity.
Qed.

Lemma rce_insert_exact x l v : existsb (fun r => contains r v) (rce_insert x l) = contains x v || existsb (fun r => contains r v) l.
Proof.
  induction l as [|y l IH]; cbn; [reflexivity|]. destruct (rce_less y x); cbn; [rewrite IH|];
  destruct (contains x v), (contains y v); reflexivity.
Qed.
Lemma rce_sort_exact l v : existsb (fun r => contains r v) (rce_sort l) = existsb (fun r => contains r v) l.
Proof. induction l as [|x l IH]; cbn; [reflexivity|]. rewrite rce_insert_exact. unfold rce_sort in IH. rewrite IH. reflexivity. Qed.
Lemma try_union_none_nonempty cur r : try_union cur r = None -> is_empty cur = false.
Proof. unfold try_union. destruct (is_empty r); [discriminate|]. destruct (is_empty cur); [discriminate|reflexivity]. Qed.
Lemma simplify_fold_exact v l : forall res cur res' cur',
  fold_left simplify_step l (res, cur) = (res', cur') ->
  existsb (fun r => contains r v) (cur' :: res') =
  existsb (fun r => contains r v) (cur :: res) || existsb (fun r => contains r v) l.
Proof.
  induction l as [|r l IH]; intros res cur res' cur'; cbn [fold_left].
  - intros [= <- <-]. rewrite orb_false_r. reflexivity.
  - unfold simplify_step at 2. destruct (try_union cur r) as [m|] eqn:U.
    + intros H. rewrite (IH _ _ _ _ H). cbn. rewrite (try_union_exact cur r m v U).
      destruct (contains cur v), (contains r v), (existsb _ res); reflexivity.
    + rewrite (try_union_none_nonempty cur r U). cbn [negb]. intros H. rewrite (IH _ _ _ _ H). cbn.
      destruct (contains cur v), (contains r v), (existsb _ res); reflexivity.
Qed.
Lemma existsb_rev' {A} (f : A -> bool) l : existsb f (rev l) = existsb f l.
Proof. induction l as [|x l IH]; cbn; [reflexivity|]. rewrite existsb_app, IH. cbn. rewrite orb_false_r. apply orb_comm. Qed.
(* Ranges() drops the empty ranges and emits the first element last *)
Lemma existsb_filter_negb {A} (f e : A -> bool) l : (forall x, e x = true -> f x = false) ->
  existsb f (filter (fun x => negb (e x)) l) = existsb f l.
Proof.
  intros H. induction l as [|x l IH]; cbn; [reflexivity|]. destruct (e x) eqn:E; cbn; rewrite IH; [rewrite (H x E)|]; reflexivity.
Qed.
Lemma existsb_rotate {A} (f : A -> bool) h t : existsb f (t ++ [h]) = existsb f (h :: t).
Proof. rewrite existsb_app. cbn. rewrite orb_false_r. apply orb_comm. Qed.
Theorem simplify_range_column_exact l v :
  existsb (fun r => contains r v) (simplify_range_column l) = existsb (fun r => contains r v) l.
Proof.
  unfold simplify_range_column. destruct l as [|x l]; [reflexivity|].
  destruct (fold_left simplify_step (rce_sort (x :: l)) ([], empty_rce)) as [res cur] eqn:F.
  pose proof (simplify_fold_exact v _ _ _ _ _ F) as H. rewrite rce_sort_exact in H. cbn [existsb] in H.
  rewrite contains_empty in H. cbn [orb] in H. cbn [existsb]. rewrite <- H.
  destruct (is_empty cur) eqn:E; cbn [negb]; rewrite existsb_rev'; cbn [existsb].
  - rewrite (is_empty_sound cur v E). reflexivity.
  - reflexivity.
Qed.

(* the state agrees with the boolean b = "every comparison so far is TRUE of v" *)
Definition sgood (v : key) (st : bstate) (b : bool) : Prop :=
  if snd st then b = false else lookup_has (fst st) v = b.

Lemma apply_op_good v st o b : in_i32 v -> sgood v st b -> sgood v (apply_op st o) (b && op_true o v).
Proof.
  intros R. destruct st as [cur [|]]; unfold sgood; cbn [fst snd apply_op]; [intros ->; reflexivity|intros <-].
  pose proof (update_col_exact cur (potential o) v) as U. rewrite (potential_exact o v R) in U.
  destruct (update_col cur (potential o)) as [|n new] eqn:E; [symmetry; exact U|].
  destruct o; cbn [fst snd]; try exact U. destruct (negb (lit_integral l)); cbn [fst snd]; [exact U|].
  pose proof (simplify_range_column_exact (n :: new) v) as S. fold (lookup_has (n :: new) v) in S. rewrite U in S.
  destruct (simplify_range_column (n :: new)); cbn [fst snd]; [symmetry|]; exact S.
Qed.
Lemma run_good v ops : in_i32 v -> forall st b, sgood v st b -> sgood v (fold_left apply_op ops st) (b && filter_true ops v).
Proof.
  intros R. induction ops as [|o ops IH]; intros st b G; cbn [fold_left filter_true forallb].
  - rewrite andb_true_r. exact G.
  - rewrite andb_assoc. apply IH, apply_op_good; assumption.
Qed.

Lemma result_exact st v : snd st = false -> lookup_has (result st) v = lookup_has (fst st) v.
Proof.
  destruct st as [cur inv]. cbn [fst snd]. intros ->. unfold result.
  assert (H : lookup_has (filter (fun r => negb (is_empty r)) (rotate1 cur)) v = lookup_has cur v).
  { unfold lookup_has. rewrite existsb_filter_negb by (intros x; apply is_empty_sound).
    destruct cur as [|h t]; [reflexivity|apply existsb_rotate]. }
  destruct (filter _ (rotate1 cur)); [|exact H]. rewrite <- H. reflexivity.
Qed.

(* completeness and precision together: the lookup contains the column value iff the whole conjunction is TRUE *)
Theorem lookup_exact ops v : in_i32 v -> lookup_has (result (run ops)) v = filter_true ops v.
Proof.
  intros R. pose proof (run_good v ops R binit true eq_refl) as G. fold (run ops) in G. unfold sgood in G.
  destruct (snd (run ops)) eqn:E; [|rewrite (result_exact _ v E); exact G].
  destruct (run ops) as [cur inv]. cbn in E. subst inv. symmetry. exact G.
Qed.
