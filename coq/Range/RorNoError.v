(* C46 proofs, part 4: with well-formed inputs (no empty column) and complete FindConnections observations,
   RemoveOverlappingRanges never reports "overlapping ranges". *)
From Coq Require Import List ZArith Bool Lia PeanoNat.
Import ListNotations.
From GMS Require Import Range.Cut Range.CutProofs Range.MRange Range.MRangeProofs Range.MRangeMore.
Open Scope nat_scope.

(* pairwise non-overlap at the cut level (what validateRangeCollection tests) *)
Inductive sep : list range -> Prop :=
| sep_nil : sep []
| sep_cons r rs : Forall (fun q => r_overlaps r q = false) rs -> sep rs -> sep (r :: rs).
Definition cross (xs ys : list range) : Prop := forall x y, In x xs -> In y ys -> r_overlaps x y = false.

Lemma any_overlap_sep rs : sep rs -> any_overlap rs = false.
Proof.
  induction 1 as [|r rs F S IH]; cbn; [reflexivity|]. rewrite IH, orb_false_r.
  destruct (existsb (r_overlaps r) rs) eqn:E; [|reflexivity]. apply existsb_exists in E. destruct E as [q [Iq Oq]].
  rewrite Forall_forall in F. rewrite (F q Iq) in Oq. discriminate.
Qed.
Lemma sep_app xs ys : sep xs -> sep ys -> cross xs ys -> sep (xs ++ ys).
Proof.
  induction 1 as [|r rs F S IH]; intros Sy C; cbn; [exact Sy|]. constructor.
  - apply Forall_app. split; [exact F|]. apply Forall_forall. intros y Iy. apply C; [left; reflexivity|exact Iy].
  - apply IH; [exact Sy|]. intros x y Ix Iy. apply C; [right; exact Ix|exact Iy].
Qed.
Lemma sep_rev l : sep l -> sep (rev l).
Proof.
  induction 1 as [|r rs F S IH]; cbn; [constructor|]. apply sep_app; [exact IH|constructor; [constructor|constructor]|].
  intros x y Ix [<-|[]]. rewrite r_overlaps_sym. rewrite Forall_forall in F. apply F. apply in_rev. exact Ix.
Qed.
Lemma sep_tail r rs : sep (r :: rs) -> sep rs.
Proof. inversion 1; assumption. Qed.
Lemma sep_head r rs q : sep (r :: rs) -> In q rs -> r_overlaps r q = false.
Proof. inversion 1 as [|? ? F]; subst. rewrite Forall_forall in F. apply F. Qed.

Lemma collect_sep n : forall tr acc emp res emp',
  Forall (wf n) acc -> Forall (wf n) tr -> sep acc -> sep tr -> cross acc tr ->
  collect tr acc emp = (res, emp') -> sep res.
Proof.
  induction tr as [|r tr IH]; intros acc emp res emp' Wa Wt Sa St C; cbn [collect].
  - intros [= <- _]. apply sep_rev. exact Sa.
  - inversion Wt as [|? ? Wr Wt']; subst.
    assert (C' : cross acc tr) by (intros x y Ix Iy; apply C; [exact Ix|right; exact Iy]).
    destruct (r_is_empty r).
    + apply IH; auto. eapply sep_tail; eauto.
    + destruct acc as [|last acc'].
      * apply IH; auto; [constructor; [constructor|constructor]|eapply sep_tail; eauto|].
        intros x y [<-|[]] Iy. eapply sep_head; eauto.
      * inversion Wa as [|? ? Wl Wa']; subst.
        destruct (try_merge last r) as [m|] eqn:M.
        -- pose proof (try_merge_wf n last r m Wl Wr M) as Wm.
           assert (MO : forall o, wf n o -> r_overlaps last o = false -> r_overlaps r o = false -> r_overlaps m o = false).
           { intros o Wo H1 H2. destruct (r_overlaps m o) eqn:E; [|reflexivity].
             destruct (try_merge_overlap last r m o (proj2 Wl) (proj2 Wr) (proj2 Wo) M E); congruence. }
           apply IH; auto.
           ++ constructor; [|eapply sep_tail; eauto]. apply Forall_forall. intros p Ip.
              rewrite Forall_forall in Wa'. apply MO; [apply Wa'; exact Ip|eapply sep_head; eauto|].
              rewrite r_overlaps_sym. apply C; [right; exact Ip|left; reflexivity].
           ++ eapply sep_tail; eauto.
           ++ intros x y [<-|Ix] Iy.
              ** rewrite Forall_forall in Wt'. apply MO; [apply Wt'; exact Iy|apply C; [left; reflexivity|right; exact Iy]|].
                 eapply sep_head; eauto.
              ** apply C'; [right; exact Ix|exact Iy].
        -- apply IH; auto.
           ++ constructor; [|exact Sa]. apply Forall_forall. intros p Ip. rewrite r_overlaps_sym. apply C; [exact Ip|left; reflexivity].
           ++ eapply sep_tail; eauto.
           ++ intros x y [<-|Ix] Iy; [eapply sep_head; eauto|apply C'; assumption].
Qed.
Lemma get_range_collection_sep n tr : Forall (wf n) tr -> sep tr -> any_overlap (get_range_collection tr) = false.
Proof.
  intros W S. unfold get_range_collection. destruct (collect tr [] []) as [res emp] eqn:E.
  pose proof (collect_sep n tr [] [] res emp (Forall_nil _) W sep_nil S (fun x y I => match I with end) E) as R.
  destruct res; [reflexivity|]. apply any_overlap_sep. exact R.
Qed.

Lemma tree_insert_sep r tr : sep tr -> (forall t, In t tr -> r_overlaps t r = false) -> sep (tree_insert r tr).
Proof.
  induction 1 as [|y tr F S IH]; intros H; cbn; [constructor; [constructor|constructor]|].
  destruct (r_equals r y); [constructor; assumption|]. destruct (r_lt r y).
  - constructor; [|constructor; assumption]. apply Forall_forall. intros q Iq. rewrite r_overlaps_sym. apply H. exact Iq.
  - constructor.
    + apply Forall_forall. intros q Iq. destruct (tree_insert_in _ _ _ Iq) as [->|Iq'].
      * apply H. left. reflexivity.
      * rewrite Forall_forall in F. apply F. exact Iq'.
    + apply IH. intros t It. apply H. right. exact It.
Qed.
Lemma tree_remove_sep c tr : sep tr -> sep (tree_remove c tr).
Proof.
  induction 1 as [|y tr F S IH]; cbn; [constructor|]. destruct (r_equals c y); [exact S|].
  constructor; [|exact IH]. apply Forall_forall. intros q Iq. rewrite Forall_forall in F. apply F.
  eapply tree_remove_in; eauto.
Qed.

Theorem ror_loop_no_error n fuel : forall finds tr work c res,
  Forall (wf n) tr -> Forall (wf n) work -> sep tr ->
  ror_loop fuel finds tr work c = (res, true) -> res <> RErrOverlap.
Proof.
  intros finds tr work c res Wt Ww S H.
  destruct (ror_loop_inv (fun tr w => Forall (wf n) tr /\ Forall (wf n) w /\ sep tr) true) with (4 := H)
    as [->|[->|[tr' [[Wt' [_ S']] ->]]]]; try discriminate; auto.
  - (* rang is stored: every stored range that overlaps it was reported, and no reported one overlaps it *)
    intros tr0 rang w0 found [W0 [Ww0 S0]] NO FC. inversion Ww0; subst.
    repeat split; [apply Forall_tree_insert; assumption|assumption|]. apply tree_insert_sep; [exact S0|].
    intros t It. specialize (FC eq_refl). unfold find_complete in FC. rewrite forallb_forall in FC.
    specialize (FC t It). apply orb_prop in FC. destruct FC as [FC|FC].
    + destruct (r_overlaps t rang); [discriminate|reflexivity].
    + apply NO, tree_mem_in, FC.
  - intros tr0 rang w0 cn news [W0 [Ww0 S0]] Hc RO. inversion Ww0 as [|? ? Wr Ww']; subst.
    repeat split; [apply Forall_tree_remove; exact W0| |apply tree_remove_sep; exact S0].
    apply Forall_app. split; [exact Ww'|]. rewrite Forall_forall in W0.
    exact (remove_overlap_wf n _ _ _ _ _ (W0 cn Hc) Wr RO).
  - rewrite (get_range_collection_sep n tr' Wt' S'). discriminate.
Qed.
Theorem remove_overlapping_ranges_no_error n fuel finds rs res :
  Forall (wf n) rs -> remove_overlapping_ranges fuel finds rs = (res, true) -> res <> RErrOverlap.
Proof.
  destruct rs as [|r0 rest]; cbn [remove_overlapping_ranges]; [intros _ [= <-]; discriminate|].
  intros W. inversion W; subst. apply (ror_loop_no_error n); auto. constructor; [constructor|constructor].
Qed.
