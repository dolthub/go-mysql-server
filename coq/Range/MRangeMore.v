(* C46 proofs, part 3: pairwise disjointness of RemoveOverlap's output; well-formedness (no empty column) is
   preserved by TryMerge and RemoveOverlap, and a merged range overlaps only what one of its sources overlaps. *)
From Coq Require Import List ZArith Bool Lia PeanoNat.
Import ListNotations.
From GMS Require Import Range.Cut Range.CutProofs Range.MRange Range.MRangeProofs.
Open Scope nat_scope.

Lemma disjoint_sym p q : disjoint p q -> disjoint q p.
Proof. intros H t. rewrite andb_comm. apply H. Qed.
Lemma pd_app xs ys : pairwise_disjoint xs -> pairwise_disjoint ys ->
  (forall x y, In x xs -> In y ys -> disjoint x y) -> pairwise_disjoint (xs ++ ys).
Proof.
  induction xs as [|x xs IH]; intros Hx Hy Hxy; cbn; [exact Hy|]. inversion Hx as [|? ? F P]; subst.
  constructor.
  - apply Forall_app. split; [exact F|]. apply Forall_forall. intros y Iy. apply Hxy; [left; reflexivity|exact Iy].
  - apply IH; auto. intros x' y Ix Iy. apply Hxy; [right; exact Ix|exact Iy].
Qed.

Lemma subtract_piece_sound r o p v : In p (subtract r o) -> contains p v = true ->
  contains r v = true /\ contains o v = false.
Proof.
  intros I C. pose proof (subtract_exact r o v) as E.
  assert (X : existsb (fun p => contains p v) (subtract r o) = true) by (apply existsb_exists; eauto).
  rewrite X in E. symmetry in E. apply andb_prop in E. destruct E as [E1 E2]. split; [exact E1|].
  destruct (contains o v); [discriminate|reflexivity].
Qed.
Lemma subtract_pairwise r o : is_empty o = false ->
  ForallOrdPairs (fun p q => forall v, contains p v && contains q v = false) (subtract r o).
Proof.
  intros NE. pose proof (fun p q v => subtract_disjoint r o p q v NE) as D.
  destruct (snd (overlaps r o)) eqn:Ov; [rewrite (subtract_overlap r o Ov) in *|unfold subtract; rewrite Ov; repeat constructor].
  destruct (cmp_lt _), (cmp_lt _); repeat constructor. intros v. apply D. reflexivity.
Qed.

Lemma no_empty_col_Forall a : no_empty_col a = true <-> Forall (fun c => is_empty c = false) a.
Proof.
  unfold no_empty_col. rewrite forallb_forall, Forall_forall. split; intros H c Ic; apply negb_true_iff, H, Ic.
Qed.
Lemma no_empty_nth a i : i < length a -> no_empty_col a = true -> is_empty (nth i a empty_rce) = false.
Proof. intros L H. apply no_empty_col_Forall in H. apply Forall_nth; assumption. Qed.
Lemma no_empty_replace a i c : is_empty c = false -> no_empty_col a = true -> no_empty_col (replace i c a) = true.
Proof. rewrite !no_empty_col_Forall. exact (Forall_replace (fun c => is_empty c = false) i c a). Qed.
Lemma no_empty_replaced a i c : i < length a -> no_empty_col (replace i c a) = true -> is_empty c = false.
Proof. rewrite no_empty_col_Forall. exact (Forall_replaced (fun c => is_empty c = false) i c a). Qed.

Lemma pieces_disjoint i a pcs : i < length a ->
  ForallOrdPairs (fun p q => forall v, contains p v && contains q v = false) pcs ->
  pairwise_disjoint (map (fun c => replace i c a) pcs).
Proof.
  intros L. induction 1 as [|p pcs F _ IH]; cbn [map]; constructor; [|exact IH].
  apply Forall_map. eapply Forall_impl; [|exact F]. intros q D t.
  rewrite (rcontains_replace i p a t L), (rcontains_replace i q a t L). specialize (D (nth i t None)).
  destruct (contains p _), (contains q _), (rcontains _ t); reflexivity || discriminate.
Qed.

Theorem remove_overlap_disjoint fuel : forall a b out ok, no_empty_col a = true -> no_empty_col b = true ->
  remove_overlap fuel a b = Some (out, ok) -> pairwise_disjoint out.
Proof.
  intros a b out ok Ga Gb H. revert fuel a b out ok H Ga Gb.
  apply (remove_overlap_ind (fun a b out _ => no_empty_col a = true -> no_empty_col b = true -> pairwise_disjoint out)).
  - repeat constructor.
  - intros a b _ O _ _. repeat constructor. intros t. apply r_overlaps_false. exact O.
  - intros a b i rs ok f _ _ La Lb x y ov OV R IH Ga Gb.
    assert (NEo : is_empty ov = false) by (apply overlaps_nonempty; [exact (no_empty_nth a i La Ga)|exact (no_empty_nth b i Lb Gb)|exact OV]).
    (* a tuple in a piece of a (or of b) has column i outside the overlap; a tuple in the recursion's result has it inside *)
    assert (PO : forall z d c t, i < length d -> In c (subtract z ov) -> rcontains (replace i c d) t = true ->
                   contains z (nth i t None) = true /\ contains ov (nth i t None) = false).
    { intros z d c t L Ic C. rewrite (rcontains_replace i c d t L) in C. apply andb_prop in C.
      exact (subtract_piece_sound z ov c _ Ic (proj1 C)). }
    assert (RS : forall r t, In r rs -> rcontains r t = true -> contains ov (nth i t None) = true).
    { intros r t Ir Cr. pose proof (remove_overlap_exact _ _ _ _ _ t R) as EX.
      rewrite (ucontains_in r rs t Ir Cr), (rcontains_replace i ov a t La), (rcontains_replace i ov b t Lb) in EX.
      destruct (contains ov (nth i t None)); [reflexivity|discriminate]. }
    apply pd_app; [apply pieces_disjoint; [exact La|apply subtract_pairwise; exact NEo]| |].
    + apply pd_app; [apply pieces_disjoint; [exact Lb|apply subtract_pairwise; exact NEo]| |].
      * apply IH; apply no_empty_replace; assumption.
      * intros p r Ip Ir t. apply in_map_iff in Ip. destruct Ip as [c [<- Ic]].
        destruct (rcontains (replace i c b) t) eqn:C1; [|reflexivity]. destruct (rcontains r t) eqn:C2; [|reflexivity].
        destruct (PO y b c t Lb Ic C1) as [_ N]. rewrite (RS r t Ir C2) in N. discriminate.
    + intros p r Ip Ir t. apply in_map_iff in Ip. destruct Ip as [c [<- Ic]].
      destruct (rcontains (replace i c a) t) eqn:C1; [|reflexivity]. destruct (rcontains r t) eqn:C2; [|reflexivity].
      destruct (PO x a c t La Ic C1) as [Cx N]. apply in_app_or in Ir. destruct Ir as [Ir|Ir].
      * apply in_map_iff in Ir. destruct Ir as [c' [<- Ic']]. destruct (PO y b c' t Lb Ic' C2) as [Cy _].
        unfold ov in N. rewrite (overlaps_true x y _ OV), Cx, Cy in N. discriminate.
      * rewrite (RS r t Ir C2) in N. discriminate.
Qed.

Lemma r_overlaps_sym a b : r_overlaps a b = r_overlaps b a.
Proof.
  revert b. induction a as [|x a IH]; intros [|y b]; cbn; try reflexivity. rewrite IH, (overlaps_comm x y). reflexivity.
Qed.

Definition wf (n : nat) (r : range) : Prop := length r = n /\ no_empty_col r = true.

(* A property of columns that Overlaps, Subtract and TryUnion keep is kept, together with the column count, by TryMerge
   and by every range RemoveOverlap returns. *)
Section ColumnInvariant.
Variable P : rce -> Prop.
Hypothesis P_overlaps : forall x y, P x -> P y -> snd (overlaps x y) = true -> P (fst (overlaps x y)).
Hypothesis P_subtract : forall x o p, P x -> P o -> In p (subtract x o) -> P p.
Hypothesis P_union : forall x y u, P x -> P y -> try_union x y = Some u -> P u.
Definition colinv (n : nat) (r : range) : Prop := length r = n /\ Forall P r.

Lemma try_merge_colinv n a b m : colinv n a -> colinv n b -> try_merge a b = Some m -> colinv n m.
Proof.
  intros [La Fa] [Lb Fb] M. destruct (try_merge_some a b m M) as [_ [[_ ->]|[[_ ->]|M']]]; [split; assumption ..|].
  destruct (merge_one_some a b m M') as (i & y & u & L & -> & U & ->). split; [rewrite replace_length; exact La|].
  apply Forall_replace; [|exact Fa].
  apply (P_union (nth i a empty_rce) y u); [apply Forall_nth; assumption|exact (Forall_replaced P i y a L Fb)|exact U].
Qed.
Lemma remove_overlap_colinv n fuel : forall a b out ok, colinv n a -> colinv n b ->
  remove_overlap fuel a b = Some (out, ok) -> Forall (colinv n) out.
Proof.
  intros a b out ok Ca Cb H. revert fuel a b out ok H Ca Cb.
  apply (remove_overlap_ind (fun a b out _ => colinv n a -> colinv n b -> Forall (colinv n) out)).
  - intros a b m M Ca Cb. constructor; [exact (try_merge_colinv n a b m Ca Cb M)|constructor].
  - intros a b _ _ Ca Cb. constructor; [exact Ca|constructor; [exact Cb|constructor]].
  - intros a b i rs ok f _ _ La Lb x y ov OV _ IH [Na Fa] [Nb Fb].
    assert (Px : P x) by (apply Forall_nth; assumption). assert (Py : P y) by (apply Forall_nth; assumption).
    assert (Po : P ov) by (apply P_overlaps; assumption).
    assert (R : forall d c, colinv n d -> P c -> colinv n (replace i c d)).
    { intros d c [Nd Fd] Pc. split; [rewrite replace_length; exact Nd|apply Forall_replace; assumption]. }
    rewrite !Forall_app, !Forall_map. repeat split.
    + apply Forall_forall. intros c Ic. apply R; [split; assumption|exact (P_subtract x ov c Px Po Ic)].
    + apply Forall_forall. intros c Ic. apply R; [split; assumption|exact (P_subtract y ov c Py Po Ic)].
    + apply IH; apply R; try split; assumption.
Qed.
End ColumnInvariant.

Lemma wf_colinv n r : wf n r <-> colinv (fun c => is_empty c = false) n r.
Proof. unfold wf, colinv. rewrite no_empty_col_Forall. reflexivity. Qed.
Lemma try_merge_wf n a b m : wf n a -> wf n b -> try_merge a b = Some m -> wf n m.
Proof. rewrite !wf_colinv. apply try_merge_colinv. exact try_union_nonempty. Qed.
Lemma remove_overlap_wf n fuel a b out ok : wf n a -> wf n b ->
  remove_overlap fuel a b = Some (out, ok) -> Forall (wf n) out.
Proof.
  rewrite !wf_colinv. intros Ca Cb H. eapply Forall_impl; [intros r; apply wf_colinv|].
  exact (remove_overlap_colinv _ overlaps_nonempty (fun x o p Px _ => subtract_pieces_nonempty x o p Px) try_union_nonempty
           n fuel a b out ok Ca Cb H).
Qed.

Lemma all2_replace f i c c' a o : i < length a -> all2 f (replace i c a) o = true -> f c' (nth i o empty_rce) = true ->
  all2 f (replace i c' a) o = true.
Proof.
  rewrite !all2_nth_iff, !replace_length. intros L [Len N] H. split; [exact Len|]. intros j Lj. specialize (N j Lj).
  rewrite nth_replace in * by exact L. destruct (Nat.eqb_spec j i) as [E|_]; [rewrite E in *|]; assumption.
Qed.
Lemma try_merge_overlap a b m o : no_empty_col a = true -> no_empty_col b = true -> no_empty_col o = true ->
  try_merge a b = Some m -> r_overlaps m o = true -> r_overlaps a o = true \/ r_overlaps b o = true.
Proof.
  intros Ga Gb Go M. destruct (try_merge_some a b m M) as [_ [[_ ->]|[[_ ->]|M']]]; auto.
  destruct (merge_one_some a b m M') as (i & y & u & L & -> & U & ->). intros O.
  destruct (proj1 (all2_nth_iff _ _ _) O) as [Len N]. rewrite replace_length in *. specialize (N i L).
  rewrite (nth_replace_same i u a L) in N.
  destruct (try_union_overlap _ y u _ (no_empty_nth a i L Ga) (no_empty_replaced a i y L Gb)
              (no_empty_nth o i ltac:(lia) Go) U N) as [H|H]; [left|right].
  - rewrite <- (replace_nth i a). exact (all2_replace _ i u _ a o L O H).
  - exact (all2_replace _ i u y a o L O H).
Qed.

