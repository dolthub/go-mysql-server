(* C46 proofs, part 6: SimplifyRangeColumn returns non-empty ranges in ascending order, each strictly above the
   previous one with a gap (upper bound < next lower bound), so they are pairwise disconnected and disjoint. *)
From Coq Require Import List ZArith Bool Lia PeanoNat Sorted.
Import ListNotations.
From GMS Require Import Range.Cut Range.CutProofs.

Definition lo_le (x y : rce) : Prop := cut_cmp (lo x) (lo y) <> Gt.
Definition gap (x y : rce) : Prop := cut_cmp (hi x) (lo y) = Lt.        (* x entirely below y, not even adjacent *)

Lemma rce_less_false_lo y x : rce_less y x = false -> lo_le x y.
Proof.
  unfold rce_less, lo_le. rewrite (cut_cmp_antisym y.(lo) x.(lo)). destruct (cut_cmp (lo y) (lo x)); cbn; congruence.
Qed.
Lemma rce_less_true_lo y x : rce_less y x = true -> lo_le y x.
Proof. unfold rce_less, lo_le. destruct (cut_cmp (lo y) (lo x)); congruence. Qed.
Lemma lo_le_trans x y z : lo_le x y -> lo_le y z -> lo_le x z.
Proof. apply cut_cmp_le_trans. Qed.
Lemma rce_insert_in z x l : In z (rce_insert x l) -> z = x \/ In z l.
Proof.
  induction l as [|y l IH]; cbn; [intros [<-|[]]; auto|]. destruct (rce_less y x); cbn; intros [<-|H]; auto.
  destruct (IH H); auto.
Qed.
Lemma rce_insert_sorted x l : StronglySorted lo_le l -> StronglySorted lo_le (rce_insert x l).
Proof.
  induction 1 as [|y l S IH F]; cbn; [repeat constructor|]. destruct (rce_less y x) eqn:E.
  - constructor; [exact IH|]. apply Forall_forall. intros z Iz. destruct (rce_insert_in _ _ _ Iz) as [->|Iz'].
    + apply rce_less_true_lo. exact E.
    + rewrite Forall_forall in F. auto.
  - pose proof (rce_less_false_lo _ _ E) as XY. constructor; [constructor; assumption|].
    constructor; [exact XY|]. apply Forall_forall. intros z Iz. rewrite Forall_forall in F. eapply lo_le_trans; eauto.
Qed.
Lemma rce_sort_sorted l : StronglySorted lo_le (rce_sort l).
Proof. induction l as [|x l IH]; cbn; [constructor|]. apply rce_insert_sorted. exact IH. Qed.

Lemma step_union cur r m : is_empty cur = false -> is_empty r = false -> lo_le cur r -> try_union cur r = Some m ->
  lo m = lo cur /\ is_empty m = false.
Proof.
  intros Ec Er L U. split; [|exact (try_union_nonempty cur r m Ec Er U)]. revert U.
  rewrite (try_union_connected cur r Ec Er). destruct (is_connected cur r); [|discriminate]. intros [= <-]. cbn [lo].
  destruct (cut_min_spec (lo cur) (lo r)) as [[H _]|[_ ->]]; [destruct (cut_lt_not_le _ _ H L)|reflexivity].
Qed.
(* not connected: r starts above the end of cur (it cannot end below the start of cur, lo cur <= lo r < hi r) *)
Lemma step_gap cur r : is_empty cur = false -> is_empty r = false -> lo_le cur r -> try_union cur r = None -> gap cur r.
Proof.
  intros Ec Er L. rewrite (try_union_connected cur r Ec Er). destruct (is_connected cur r) eqn:C; [discriminate|]. intros _.
  apply is_connected_false in C. destruct C as [C|C]; [|exact C]. apply is_empty_false in Er.
  destruct (cut_lt_not_le _ _ C (cut_lt_le _ _ (cut_le_lt_trans _ _ _ L Er))).
Qed.
Lemma gap_lo_le b cur r : gap b cur -> lo_le cur r -> gap b r.
Proof. apply cut_lt_le_trans. Qed.

(* the state (res reversed, cur) against the remaining sorted input *)
Record inv (res : list rce) (cur : rce) (rest : list rce) : Prop := {
  i_nonempty : Forall (fun b => is_empty b = false) res;
  i_sorted : StronglySorted (fun a b => gap b a) res;
  i_cur : is_empty cur = false -> Forall (fun b => gap b cur) res;
  i_init : is_empty cur = true -> res = [];
  i_rest : is_empty cur = false -> Forall (lo_le cur) rest }.

Lemma simplify_fold_inv rest : StronglySorted lo_le rest -> forall res cur res' cur',
  inv res cur rest -> fold_left simplify_step rest (res, cur) = (res', cur') -> inv res' cur' [].
Proof.
  induction 1 as [|r rest S IH F]; intros res cur res' cur' I; cbn [fold_left].
  - intros [= <- <-]. exact I.
  - destruct I as [I1 I2 I3 I4 I5]. destruct (simplify_step (res, cur) r) as [res1 cur1] eqn:ST.
    intros H. refine (IH _ _ _ _ _ H). clear H IH. revert ST. unfold simplify_step.
    destruct (is_empty r) eqn:Er.
    { assert (try_union cur r = Some cur) as -> by (unfold try_union; rewrite Er; reflexivity).
      intros [= <- <-]. constructor; auto. intros Ec. specialize (I5 Ec). inversion I5; assumption. }
    destruct (is_empty cur) eqn:Ec.
    { assert (try_union cur r = Some r) as -> by (unfold try_union; rewrite Er, Ec; reflexivity).
      intros [= <- <-]. rewrite (I4 eq_refl). constructor; auto; try constructor; try congruence. }
    specialize (I3 eq_refl). specialize (I5 eq_refl). inversion I5 as [|? ? Lr I5']; subst.
    destruct (try_union cur r) as [m|] eqn:U.
    + destruct (step_union cur r m Ec Er Lr U) as [Lm Em]. intros [= <- <-]. constructor; auto.
      * intros _. eapply Forall_impl; [|exact I3]. intros b G. unfold gap in *. rewrite Lm. exact G.
      * intros X; congruence.
      * intros _. eapply Forall_impl; [|exact I5']. intros z. unfold lo_le. rewrite Lm. auto.
    + cbn [negb]. pose proof (step_gap cur r Ec Er Lr U) as G. intros [= <- <-]. constructor.
      * constructor; assumption.
      * constructor; assumption.
      * intros _. constructor; [exact G|]. eapply Forall_impl; [|exact I3]. intros b Gb. exact (gap_lo_le b cur r Gb Lr).
      * intros X; congruence.
      * intros _. exact F.
Qed.

Lemma ss_rev (l : list rce) : StronglySorted (fun a b => gap b a) l -> StronglySorted gap (rev l).
Proof.
  induction 1 as [|x l S IH F]; cbn; [constructor|].
  assert (A : forall xs, StronglySorted gap xs -> Forall (fun b => gap b x) xs -> StronglySorted gap (xs ++ [x])).
  { induction 1 as [|y ys Sy IHy Fy]; intros Fx; cbn; [repeat constructor|]. inversion Fx; subst.
    constructor; [apply IHy; assumption|]. apply Forall_app. split; [exact Fy|repeat constructor; assumption]. }
  apply A; [exact IH|]. apply Forall_forall. intros b Ib. rewrite Forall_forall in F. apply F. apply in_rev. exact Ib.
Qed.

Theorem simplify_range_column_sorted l :
  StronglySorted gap (simplify_range_column l) /\ Forall (fun b => is_empty b = false) (simplify_range_column l).
Proof.
  unfold simplify_range_column. destruct l as [|x l]; [split; constructor|].
  destruct (fold_left simplify_step (rce_sort (x :: l)) ([], empty_rce)) as [res cur] eqn:E.
  assert (I0 : inv [] empty_rce (rce_sort (x :: l))) by (constructor; try constructor; intros; try reflexivity; discriminate).
  destruct (simplify_fold_inv _ (rce_sort_sorted (x :: l)) _ _ _ _ I0 E) as [I1 I2 I3 I4 I5].
  destruct (is_empty cur) eqn:Ec; cbn [negb].
  - split; [apply ss_rev; exact I2|]. apply Forall_rev. exact I1.
  - split; [apply ss_rev; constructor; auto|]. apply Forall_rev. constructor; assumption.
Qed.
Lemma gap_disconnected x y : gap x y ->
  is_connected x y = false /\ snd (overlaps x y) = false /\ forall v, contains x v && contains y v = false.
Proof.
  intros G. assert (O : snd (overlaps x y) = false) by (apply overlaps_snd_false; right; exact (cut_lt_le _ _ G)).
  split; [apply is_connected_false; right; exact G|]. split; [exact O|]. intros v. apply overlaps_false. exact O.
Qed.
