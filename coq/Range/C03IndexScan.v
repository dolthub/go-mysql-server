(* C03 model + proofs, part 4: the in-memory index scan (memory/table.go indexScanRowIter.Next over the index storage
   of memory/table_data.go): the storage of a secondary index holds one entry per table row — the index key tuple of
   the row followed by the row's location — the iterator walks the storage, keeps the entries whose key tuple lies
   in the lookup's ranges (the range filter expression of memory/index.go is the denotation of the ranges, C03
   mutant (d)) and dereferences the location.  Storage shape as in the C16 model: partitions are abstracted
   to one list of rows, a location is a position in it. *)
From Coq Require Import List ZArith Bool Lia PeanoNat Permutation.
Import ListNotations.
From GMS Require Import Base.ListFacts Range.Cut Range.MRange.
Open Scope nat_scope.

Definition trow : Type := tuple.                          (* a table row: all column values *)
Definition ientry : Type := (tuple * nat)%type.            (* index storage entry: key tuple, row location *)

Section IndexScan.
Variable kcols : nat.                                      (* the index covers the first kcols columns (after projection) *)
Definition key_of (r : trow) : tuple := firstn kcols r.

(* rowToIndexStorage for every row: what a consistent index storage contains *)
Fixpoint entries_from (n : nat) (rows : list trow) : list ientry :=
  match rows with
  | [] => []
  | r :: rows' => (key_of r, n) :: entries_from (S n) rows'
  end.
Definition storage_consistent (rows : list trow) (storage : list ientry) : Prop :=
  Permutation storage (entries_from 0 rows).

(* indexScanRowIter: iterate the storage, filter by the ranges, dereference *)
Definition index_read (rows : list trow) (storage : list ientry) (ranges : list range) : list trow :=
  flat_map (fun e => if ucontains ranges (fst e) then match nth_error rows (snd e) with Some r => [r] | None => [] end else [])
           storage.

Lemma index_read_entries pre rows ranges :
  index_read (pre ++ rows) (entries_from (length pre) rows) ranges = filter (fun r => ucontains ranges (key_of r)) rows.
Proof.
  revert pre. induction rows as [|r rows IH]; intros pre; cbn [entries_from index_read flat_map filter]; [reflexivity|].
  cbn [fst snd]. rewrite nth_error_app2 by lia. rewrite Nat.sub_diag. cbn [nth_error].
  specialize (IH (pre ++ [r])). rewrite app_length in IH. cbn [length] in IH. rewrite Nat.add_1_r in IH.
  rewrite <- app_assoc in IH. cbn [app] in IH. unfold index_read in IH. rewrite IH.
  destruct (ucontains ranges (key_of r)); reflexivity.
Qed.
(* the scan returns, as a bag, exactly the rows whose key tuple lies in the ranges *)
Theorem index_read_exact rows storage ranges : storage_consistent rows storage ->
  Permutation (index_read rows storage ranges) (filter (fun r => ucontains ranges (key_of r)) rows).
Proof.
  intros C. rewrite <- (index_read_entries [] rows ranges). apply Permutation_flat_map. exact C.
Qed.

(* composition with a residual Filter node: if, row by row, "the whole filter is TRUE" = "key in ranges" && "residual
   TRUE", then Filter(residual, IndexedTableAccess) returns the same bag as Filter(whole, full scan) *)
Theorem index_scan_then_residual_eq_filtered_scan rows storage ranges (whole residual : trow -> bool) :
  storage_consistent rows storage ->
  (forall r, In r rows -> whole r = ucontains ranges (key_of r) && residual r) ->
  Permutation (filter residual (index_read rows storage ranges)) (filter whole rows).
Proof.
  intros C H. eapply Permutation_trans; [apply filter_perm; apply index_read_exact; exact C|].
  clear C. induction rows as [|r rows IH]; cbn [filter]; [constructor|].
  rewrite (H r (or_introl eq_refl)). assert (IH' := IH (fun r' I => H r' (or_intror I))).
  destruct (ucontains ranges (key_of r)); cbn [filter andb]; [destruct (residual r); [apply perm_skip|]; exact IH'|exact IH'].
Qed.
End IndexScan.
