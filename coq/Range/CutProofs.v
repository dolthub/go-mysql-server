(* C46 proofs, part 1: the cut order is a total order compatible with [below]; set laws of the
   single-column operations over the denotation [contains], for all cuts and all keys. *)
From Coq Require Import List ZArith Bool Lia.
Import ListNotations.
From GMS Require Import Range.Cut.
Open Scope Z_scope.

Lemma cut_cmp_refl a : cut_cmp a a = Eq.
Proof. destruct a; cbn; rewrite ?Z.compare_refl; reflexivity. Qed.
Lemma cut_cmp_antisym a b : cut_cmp b a = CompOpp (cut_cmp a b).
Proof.
  destruct a as [| |x|x|], b as [| |y|y|]; cbn; try reflexivity;
    rewrite ?(Z.compare_antisym x y); destruct (x ?= y); reflexivity.
Qed.
Lemma cut_cmp_Eq_eq a b : cut_cmp a b = Eq <-> a = b.
Proof.
  split; [|intros ->; apply cut_cmp_refl].
  destruct a, b; cbn; try discriminate; try reflexivity; try (destruct (_ ?= _); discriminate);
    intros H; apply Z.compare_eq in H; congruence.
Qed.
Lemma cut_cmp_Gt a b : cut_cmp a b = Gt <-> cut_cmp b a = Lt.
Proof. rewrite (cut_cmp_antisym a b). destruct (cut_cmp a b); cbn; split; congruence. Qed.

(* transitivity: a cut sits at (band, offset) on one line, ordered lexicographically *)
Definition cband (c : cut) : Z := match c with BelowNull | AboveNull => 0 | Below _ | Above _ => 1 | AboveAll => 2 end.
Definition coff (c : cut) : Z :=
  match c with BelowNull => 0 | AboveNull => 2 | Below k => 3 * k | Above k => 3 * k + 2 | AboveAll => 0 end.
Lemma cut_cmp_Lt a b : cut_cmp a b = Lt <-> cband a < cband b \/ (cband a = cband b /\ coff a < coff b).
Proof.
  destruct a, b; cbn -[Z.mul Z.add];
  repeat match goal with |- context [?x ?= ?y] => destruct (Z.compare_spec x y) end;
  split; intros HH; try discriminate HH; try reflexivity; lia.
Qed.
Lemma cut_cmp_trans a b c : cut_cmp a b = Lt -> cut_cmp b c = Lt -> cut_cmp a c = Lt.
Proof. rewrite !cut_cmp_Lt. lia. Qed.

(* a <= b is written [cut_cmp a b <> Gt], as the Go code tests it *)
Lemma cut_le_lt_trans a b c : cut_cmp a b <> Gt -> cut_cmp b c = Lt -> cut_cmp a c = Lt.
Proof.
  intros H. destruct (cut_cmp a b) eqn:E; [|apply cut_cmp_trans; exact E|congruence].
  apply cut_cmp_Eq_eq in E. subst b. auto.
Qed.
Lemma cut_lt_le_trans a b c : cut_cmp a b = Lt -> cut_cmp b c <> Gt -> cut_cmp a c = Lt.
Proof.
  intros H1 H. destruct (cut_cmp b c) eqn:E; [|apply (cut_cmp_trans a b c); assumption|congruence].
  apply cut_cmp_Eq_eq in E. subst c. exact H1.
Qed.
Lemma cut_cmp_le_trans a b c : cut_cmp a b <> Gt -> cut_cmp b c <> Gt -> cut_cmp a c <> Gt.
Proof.
  intros H1 H2 H3. apply cut_cmp_Gt in H3. apply H1, cut_cmp_Gt. exact (cut_le_lt_trans b c a H2 H3).
Qed.
Lemma cut_lt_le a b : cut_cmp a b = Lt -> cut_cmp a b <> Gt.
Proof. congruence. Qed.
Lemma cut_lt_not_le a b : cut_cmp a b = Lt -> cut_cmp b a <> Gt -> False.
Proof. intros H N. apply N, cut_cmp_Gt, H. Qed.
Lemma cut_lt_or_le a b : cut_cmp a b = Lt \/ cut_cmp b a <> Gt.
Proof. rewrite (cut_cmp_antisym a b). destruct (cut_cmp a b); cbn; auto; right; discriminate. Qed.
#[export] Hint Resolve cut_cmp_trans cut_le_lt_trans cut_lt_le_trans cut_cmp_le_trans cut_lt_le : cuts.

(* the documented chain BelowNull < AboveNull < Below k < Above k < AboveAll, and keys in between *)
Lemma cut_chain k k' : cut_cmp BelowNull AboveNull = Lt /\ cut_cmp AboveNull (Below k) = Lt /\
  cut_cmp (Below k) (Above k) = Lt /\ cut_cmp (Above k) AboveAll = Lt /\
  (k < k' -> cut_cmp (Above k) (Below k') = Lt).
Proof.
  repeat split; try reflexivity.
  - cbn. rewrite Z.compare_refl. reflexivity.
  - intros H. cbn. rewrite (proj2 (Z.compare_lt_iff k k') H). reflexivity.
Qed.

(* GetMySQLRangeCutMax / Min and OrderedCuts are the maximum and the minimum of this order *)
Lemma cut_max_spec a b : (cut_cmp a b = Lt /\ cut_max a b = b) \/ (cut_cmp b a <> Gt /\ cut_max a b = a).
Proof.
  unfold cut_max. rewrite (cut_cmp_antisym a b).
  destruct (cut_cmp a b); cbn; [right|left|right]; split; reflexivity || discriminate.
Qed.
Lemma cut_min_spec a b : (cut_cmp b a = Lt /\ cut_min a b = b) \/ (cut_cmp a b <> Gt /\ cut_min a b = a).
Proof.
  unfold cut_min. rewrite (cut_cmp_antisym a b).
  destruct (cut_cmp a b); cbn; [right|right|left]; split; reflexivity || discriminate.
Qed.
Lemma cut_max_ge a b : cut_cmp a (cut_max a b) <> Gt /\ cut_cmp b (cut_max a b) <> Gt.
Proof.
  destruct (cut_max_spec a b) as [[H ->]|[H ->]]; split; auto using cut_lt_le; rewrite cut_cmp_refl; discriminate.
Qed.
Lemma cut_min_le a b : cut_cmp (cut_min a b) a <> Gt /\ cut_cmp (cut_min a b) b <> Gt.
Proof.
  destruct (cut_min_spec a b) as [[H ->]|[H ->]]; split; auto using cut_lt_le; rewrite cut_cmp_refl; discriminate.
Qed.
Lemma cut_max_comm a b : cut_max a b = cut_max b a.
Proof.
  unfold cut_max. rewrite (cut_cmp_antisym a b). destruct (cut_cmp a b) eqn:E; cbn; try reflexivity.
  apply cut_cmp_Eq_eq in E. congruence.
Qed.
Lemma cut_min_comm a b : cut_min a b = cut_min b a.
Proof.
  unfold cut_min. rewrite (cut_cmp_antisym a b). destruct (cut_cmp a b) eqn:E; cbn; try reflexivity.
  apply cut_cmp_Eq_eq in E. congruence.
Qed.
Lemma ordered_cuts_min_max l r : ordered_cuts l r = (cut_min l r, cut_max l r).
Proof.
  unfold ordered_cuts, cut_min, cut_max. destruct (cut_cmp l r) eqn:E; cbn; try reflexivity.
  apply cut_cmp_Eq_eq in E. congruence.
Qed.

(* the tests of range_column_expr.go, read as statements of the order *)
Lemma cmp_ge_lt c : cmp_ge c = negb (cmp_lt c).
Proof. destruct c; reflexivity. Qed.
Lemma cut_ltb_true a b : cmp_lt (cut_cmp a b) = true <-> cut_cmp a b = Lt.
Proof. destruct (cut_cmp a b); cbn; split; congruence. Qed.
Lemma cut_ltb_false a b : cmp_lt (cut_cmp a b) = false <-> cut_cmp b a <> Gt.
Proof. rewrite (cut_cmp_antisym a b). destruct (cut_cmp a b); cbn; split; congruence. Qed.
Lemma is_empty_false r : is_empty r = false <-> cut_cmp (lo r) (hi r) = Lt.
Proof. unfold is_empty. rewrite cmp_ge_lt, negb_false_iff. apply cut_ltb_true. Qed.
Lemma is_empty_true r : is_empty r = true <-> cut_cmp (hi r) (lo r) <> Gt.
Proof. unfold is_empty. rewrite cmp_ge_lt, negb_true_iff. apply cut_ltb_false. Qed.
Lemma is_connected_true r o : is_connected r o = true <-> cut_cmp (lo r) (hi o) <> Gt /\ cut_cmp (lo o) (hi r) <> Gt.
Proof.
  unfold is_connected, cmp_gt, cmp_le.
  destruct (cut_cmp (lo r) (hi o)), (cut_cmp (lo o) (hi r)); split; try intros [? ?]; repeat split; congruence.
Qed.
Lemma is_connected_false r o : is_connected r o = false <-> cut_cmp (hi o) (lo r) = Lt \/ cut_cmp (hi r) (lo o) = Lt.
Proof.
  unfold is_connected, cmp_gt, cmp_le. rewrite (cut_cmp_antisym (lo r) (hi o)), (cut_cmp_antisym (lo o) (hi r)).
  destruct (cut_cmp (lo r) (hi o)), (cut_cmp (lo o) (hi r)); cbn; split; try intros [?|?]; auto; congruence.
Qed.
Lemma overlaps_snd x y : snd (overlaps x y) = cmp_lt (cut_cmp (lo x) (hi y)) && cmp_lt (cut_cmp (lo y) (hi x)).
Proof. unfold overlaps. rewrite !cmp_ge_lt. destruct (cmp_lt _), (cmp_lt _); reflexivity. Qed.
Lemma overlaps_snd_true x y : snd (overlaps x y) = true <-> cut_cmp (lo x) (hi y) = Lt /\ cut_cmp (lo y) (hi x) = Lt.
Proof. rewrite overlaps_snd, andb_true_iff, !cut_ltb_true. reflexivity. Qed.
Lemma overlaps_snd_false x y : snd (overlaps x y) = false <-> cut_cmp (hi y) (lo x) <> Gt \/ cut_cmp (hi x) (lo y) <> Gt.
Proof. rewrite overlaps_snd, andb_false_iff, !cut_ltb_false. reflexivity. Qed.
Lemma overlaps_fst x y : snd (overlaps x y) = true ->
  fst (overlaps x y) = mkR (cut_max (lo x) (lo y)) (cut_min (hi x) (hi y)).
Proof. unfold overlaps. destruct (cmp_ge _); [discriminate|]. destruct (cmp_ge _); [discriminate|reflexivity]. Qed.
Lemma overlaps_comm x y : overlaps y x = overlaps x y.
Proof.
  unfold overlaps. rewrite (cut_max_comm (lo y)), (cut_min_comm (hi y)).
  destruct (cmp_ge (cut_cmp (lo x) (hi y))), (cmp_ge (cut_cmp (lo y) (hi x))); reflexivity.
Qed.
Lemma is_subset_true r o : is_subset_of r o = true <-> cut_cmp (lo o) (lo r) <> Gt /\ cut_cmp (hi r) (hi o) <> Gt.
Proof.
  unfold is_subset_of, cmp_lt, cmp_gt. rewrite (cut_cmp_antisym (lo r) (lo o)).
  destruct (cut_cmp (lo r) (lo o)), (cut_cmp (hi r) (hi o)); cbn; split; try intros [? ?]; repeat split; congruence.
Qed.
Lemma subtract_overlap r o : snd (overlaps r o) = true ->
  subtract r o = (if cmp_lt (cut_cmp (lo r) (lo o)) then [mkR (lo r) (lo o)] else []) ++
                 (if cmp_lt (cut_cmp (hi o) (hi r)) then [mkR (hi o) (hi r)] else []).
Proof.
  intros H. unfold subtract. rewrite H, (cut_cmp_antisym (hi r) (hi o)).
  destruct (cut_cmp (lo r) (lo o)), (cut_cmp (hi r) (hi o)); reflexivity.
Qed.
Lemma subtract_in r o p : In p (subtract r o) ->
  (snd (overlaps r o) = false /\ p = r) \/
  (snd (overlaps r o) = true /\ ((cut_cmp (lo r) (lo o) = Lt /\ p = mkR (lo r) (lo o)) \/
                                 (cut_cmp (hi o) (hi r) = Lt /\ p = mkR (hi o) (hi r)))).
Proof.
  destruct (snd (overlaps r o)) eqn:Ov; [rewrite (subtract_overlap r o Ov)|unfold subtract; rewrite Ov; intros [<-|[]]; auto].
  intros I. right. split; [reflexivity|]. apply in_app_or in I.
  destruct I as [I|I]; [left|right]; (destruct (cmp_lt _) eqn:E in I; [apply cut_ltb_true in E|destruct I]);
    destruct I as [<-|[]]; auto.
Qed.
Lemma rce_equals_eq r o : rce_equals r o = true <-> r = o.
Proof.
  destruct r as [l u], o as [l' u']. unfold rce_equals, cmp_eq. cbn [lo hi]. split.
  - destruct (cut_cmp l l') eqn:E1; try discriminate. destruct (cut_cmp u u') eqn:E2; try discriminate.
    apply cut_cmp_Eq_eq in E1, E2. congruence.
  - intros [= -> ->]. rewrite !cut_cmp_refl. reflexivity.
Qed.

Lemma try_union_connected r o : is_empty r = false -> is_empty o = false ->
  try_union r o = if is_connected r o then Some (mkR (cut_min (lo r) (lo o)) (cut_max (hi r) (hi o))) else None.
Proof.
  intros Er Eo. unfold try_union. rewrite Er, Eo, !ordered_cuts_min_max. destruct (is_connected r o); reflexivity.
Qed.

Lemma overlaps_nonempty x y : is_empty x = false -> is_empty y = false -> snd (overlaps x y) = true ->
  is_empty (fst (overlaps x y)) = false.
Proof.
  intros Ex Ey O. rewrite (overlaps_fst x y O). apply overlaps_snd_true in O. destruct O.
  apply is_empty_false in Ex, Ey. apply is_empty_false. cbn [lo hi].
  destruct (cut_max_spec (lo x) (lo y)) as [[_ ->]|[_ ->]], (cut_min_spec (hi x) (hi y)) as [[_ ->]|[_ ->]]; assumption.
Qed.
Lemma subtract_pieces_nonempty r o p : is_empty r = false -> In p (subtract r o) -> is_empty p = false.
Proof.
  intros NE I. destruct (subtract_in r o p I) as [[_ ->]|[_ [[L ->]|[L ->]]]]; [exact NE| |]; apply is_empty_false; exact L.
Qed.
(* lo u <= lo x < hi x <= hi u *)
Lemma try_union_nonempty x y u : is_empty x = false -> is_empty y = false -> try_union x y = Some u ->
  is_empty u = false.
Proof.
  intros Ex Ey. rewrite (try_union_connected x y Ex Ey). destruct (is_connected x y); [|discriminate]. intros [= <-].
  apply is_empty_false in Ex. apply is_empty_false. cbn [lo hi].
  apply (cut_le_lt_trans _ (lo x)); [apply cut_min_le|]. apply (cut_lt_le_trans _ (hi x)); [exact Ex|apply cut_max_ge].
Qed.
(* x and y are connected, so z cannot lie in a gap between them *)
Lemma try_union_overlap x y u z : is_empty x = false -> is_empty y = false -> is_empty z = false ->
  try_union x y = Some u -> snd (overlaps u z) = true -> snd (overlaps x z) = true \/ snd (overlaps y z) = true.
Proof.
  intros Ex Ey Ez. rewrite (try_union_connected x y Ex Ey). destruct (is_connected x y) eqn:C; [|discriminate].
  intros [= <-]. apply is_connected_true in C. destruct C as [C1 C2]. apply is_empty_false in Ez.
  rewrite !overlaps_snd_true. cbn [lo hi]. intros [O1 O2].
  destruct (cut_min_spec (lo x) (lo y)) as [[_ E]|[_ E]], (cut_max_spec (hi x) (hi y)) as [[_ E']|[_ E']];
    rewrite E in O1; rewrite E' in O2; auto.
  - destruct (cut_lt_or_le (lo x) (hi z)) as [A|A]; [auto|]. destruct (cut_lt_or_le (lo z) (hi y)) as [B|B]; [auto|].
    destruct (cut_lt_not_le _ _ (cut_lt_le_trans _ _ _ (cut_le_lt_trans _ _ _ B Ez) A) C1).
  - destruct (cut_lt_or_le (lo y) (hi z)) as [A|A]; [auto|]. destruct (cut_lt_or_le (lo z) (hi x)) as [B|B]; [auto|].
    destruct (cut_lt_not_le _ _ (cut_lt_le_trans _ _ _ (cut_le_lt_trans _ _ _ B Ez) A) C2).
Qed.

(* a key lies just below the cut above it, so [below c v] is c < that cut *)
Definition kcut (v : key) : cut := match v with None => AboveNull | Some x => Above x end.
Lemma below_kcut c v : below c v = cmp_lt (cut_cmp c (kcut v)).
Proof.
  destruct c as [| |k|k|], v as [x|]; cbn; try reflexivity.
  unfold Z.leb. rewrite (Z.compare_antisym k x). destruct (k ?= x); reflexivity.
Qed.
Lemma below_mono a b v : cut_cmp a b <> Gt -> below b v = true -> below a v = true.
Proof.
  rewrite !below_kcut. unfold cmp_lt. intros H. destruct (cut_cmp b (kcut v)) eqn:E; try discriminate.
  rewrite (cut_le_lt_trans _ _ _ H E). reflexivity.
Qed.
Lemma below_le a b v : cut_cmp a b <> Gt -> implb (below b v) (below a v) = true.
Proof. intros H. destruct (below b v) eqn:B; [|reflexivity]. exact (below_mono a b v H B). Qed.
Lemma null_lowest c : below c None = true <-> c = BelowNull.
Proof. destruct c; cbn; split; intros; try discriminate; reflexivity. Qed.
Lemma below_max a b v : below (cut_max a b) v = below a v && below b v.
Proof.
  destruct (cut_max_spec a b) as [[H ->]|[H ->]]; [apply cut_lt_le in H|]; apply (below_le _ _ v) in H;
    destruct (below a v), (below b v); reflexivity || discriminate.
Qed.
Lemma below_min a b v : below (cut_min a b) v = below a v || below b v.
Proof.
  destruct (cut_min_spec a b) as [[H ->]|[H ->]]; [apply cut_lt_le in H|]; apply (below_le _ _ v) in H;
    destruct (below a v), (below b v); reflexivity || discriminate.
Qed.

Lemma contains_empty v : contains empty_rce v = false.
Proof. reflexivity. Qed.
Lemma is_empty_sound r v : is_empty r = true -> contains r v = false.
Proof.
  intros H. apply is_empty_true, (below_le _ _ v) in H. unfold contains.
  destruct (below (lo r) v), (below (hi r) v); reflexivity || discriminate.
Qed.
Lemma contains_unordered a b v : cmp_lt (cut_cmp a b) = false -> contains (mkR a b) v = false.
Proof. intros E. apply is_empty_sound. unfold is_empty. cbn [lo hi]. rewrite cmp_ge_lt, E. reflexivity. Qed.
Lemma contains_meet r o v :
  contains (mkR (cut_max (lo r) (lo o)) (cut_min (hi r) (hi o))) v = contains r v && contains o v.
Proof.
  unfold contains. cbn [lo hi]. rewrite below_max, below_min.
  destruct (below (lo r) v), (below (lo o) v), (below (hi r) v), (below (hi o) v); reflexivity.
Qed.
Lemma contains_join r o v : is_connected r o = true ->
  contains (mkR (cut_min (lo r) (lo o)) (cut_max (hi r) (hi o))) v = contains r v || contains o v.
Proof.
  intros C. apply is_connected_true in C. destruct C as [C1 C2].
  apply (below_le _ _ v) in C1, C2. unfold contains. cbn [lo hi]. rewrite below_max, below_min.
  destruct (below (lo r) v), (below (lo o) v), (below (hi r) v), (below (hi o) v); reflexivity || discriminate.
Qed.
Lemma overlaps_true r o v : snd (overlaps r o) = true ->
  contains (fst (overlaps r o)) v = contains r v && contains o v.
Proof. intros H. rewrite (overlaps_fst r o H). apply contains_meet. Qed.
Lemma overlaps_false r o v : snd (overlaps r o) = false -> contains r v && contains o v = false.
Proof.
  intros H. apply overlaps_snd_false in H. unfold contains.
  destruct H as [H|H]; apply (below_le _ _ v) in H;
    destruct (below (lo r) v), (below (lo o) v), (below (hi r) v), (below (hi o) v); reflexivity || discriminate.
Qed.
Lemma try_intersect_exact r o v : contains (fst (try_intersect r o)) v = contains r v && contains o v.
Proof.
  rewrite <- contains_meet. unfold try_intersect. rewrite !ordered_cuts_min_max. cbn [fst snd].
  destruct (cmp_lt _) eqn:E; [reflexivity|]. symmetry. exact (contains_unordered _ _ v E).
Qed.
Lemma try_intersect_ok r o : snd (try_intersect r o) = false -> fst (try_intersect r o) = empty_rce.
Proof. unfold try_intersect. destruct (cmp_lt _); cbn; intros; congruence. Qed.
Lemma try_union_exact r o m v : try_union r o = Some m -> contains m v = contains r v || contains o v.
Proof.
  destruct (is_empty o) eqn:Eo; [|destruct (is_empty r) eqn:Er].
  - unfold try_union. rewrite Eo. intros [= <-]. rewrite (is_empty_sound o v Eo). symmetry. apply orb_false_r.
  - unfold try_union. rewrite Eo, Er. intros [= <-]. rewrite (is_empty_sound r v Er). reflexivity.
  - rewrite (try_union_connected r o Er Eo). destruct (is_connected r o) eqn:C; [|discriminate].
    intros [= <-]. apply contains_join. exact C.
Qed.
Lemma try_union_some_iff r o : (exists m, try_union r o = Some m) <-> (is_empty o = true \/ is_empty r = true \/ is_connected r o = true).
Proof.
  unfold try_union. destruct (is_empty o); [split; eauto|]. destruct (is_empty r); [split; eauto|].
  destruct (is_connected r o); cbn; split; eauto.
  intros [m H]; discriminate. intros [H|[H|H]]; discriminate.
Qed.
Lemma is_subset_sound r o v : is_subset_of r o = true -> contains r v = true -> contains o v = true.
Proof.
  intros H. apply is_subset_true in H. destruct H as [H1 H2]. apply (below_le _ _ v) in H1, H2. unfold contains.
  destruct (below (lo r) v), (below (lo o) v), (below (hi r) v), (below (hi o) v); auto; discriminate.
Qed.
Lemma existsb_piece a b v :
  existsb (fun q => contains q v) (if cmp_lt (cut_cmp a b) then [mkR a b] else []) = contains (mkR a b) v.
Proof.
  destruct (cmp_lt (cut_cmp a b)) eqn:E; cbn [existsb]; [apply orb_false_r|]. symmetry. exact (contains_unordered a b v E).
Qed.
Lemma subtract_exact r o v : existsb (fun p => contains p v) (subtract r o) = contains r v && negb (contains o v).
Proof.
  destruct (snd (overlaps r o)) eqn:Ov.
  - rewrite (subtract_overlap r o Ov), existsb_app, !existsb_piece.
    apply overlaps_snd_true in Ov. destruct Ov as [O1 O2]. apply cut_lt_le, (below_le _ _ v) in O1, O2.
    unfold contains. cbn [lo hi].
    destruct (below (lo r) v), (below (lo o) v), (below (hi r) v), (below (hi o) v); reflexivity || discriminate.
  - unfold subtract. rewrite Ov. cbn. rewrite orb_false_r. pose proof (overlaps_false r o v Ov) as H.
    destruct (contains r v), (contains o v); cbn in *; congruence.
Qed.
Lemma subtract_disjoint r o p q v : is_empty o = false -> subtract r o = [p; q] -> contains p v && contains q v = false.
Proof.
  intros NE. apply is_empty_false, cut_lt_le, (below_le _ _ v) in NE.
  destruct (snd (overlaps r o)) eqn:Ov; [rewrite (subtract_overlap r o Ov)|unfold subtract; rewrite Ov; discriminate].
  destruct (cmp_lt _), (cmp_lt _); try discriminate. intros [= <- <-]. unfold contains. cbn [lo hi].
  destruct (below (lo r) v), (below (lo o) v), (below (hi r) v), (below (hi o) v); reflexivity || discriminate.
Qed.
(* without [is_empty o = false] the two pieces can overlap: subtracting the inverted (empty) range (5,3) from [0,10] *)
Lemma subtract_pieces_overlap_on_inverted :
  subtract (closed_rce 0 10) (open_rce 5 3) = [mkR (Below 0) (Above 5); mkR (Below 3) (Above 10)].
Proof. reflexivity. Qed.
