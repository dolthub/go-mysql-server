(* C03 proofs, part 3: what the index scan returns, filtered by the expressions the range builder leaves over, is
   exactly what the filter tree selects — for every include set, as long as every node that is not exact is marked
   imprecise.  Leaves have an abstract truth Tl; the builder call of a leaf over-approximates it and is exact when
   the leaf is flagged precise. *)
From Coq Require Import List ZArith Bool Lia PeanoNat.
Import ListNotations.
From GMS Require Import Base.ListFacts Range.Cut Range.CutProofs Range.MRange Range.MRangeProofs
  Range.C03IndexBuilder Range.C03IndexBuilderProofs Range.C03Multi Range.C03MultiProofs Range.C03Scan.
Open Scope nat_scope.

Definition haslen (n : nat) (r : range) : Prop := length r = n.

Lemma product_length cols r : In r (product cols) -> length r = length cols.
Proof.
  revert r. induction cols as [|c cs IH]; intros r; cbn [product]; [intros [<-|[]]; reflexivity|].
  intros H. apply in_flat_map in H. destruct H as [tail [It Ir]]. apply in_map_iff in Ir. destruct Ir as [x [<- _]].
  cbn. f_equal. apply IH. exact It.
Qed.
Lemma mresult_shape st : mresult st <> [] /\ Forall (haslen (length (fst st))) (mresult st).
Proof.
  destruct st as [cols inv]. cbn [fst]. unfold mresult.
  assert (E : haslen (length cols) (map (fun _ : list rce => empty_rce) cols)) by (unfold haslen; apply map_length).
  destruct inv; [split; [discriminate|repeat constructor; exact E]|].
  destruct (filter _ (rotate_ranges (product cols))) as [|r l] eqn:F; [split; [discriminate|repeat constructor; exact E]|].
  split; [discriminate|]. rewrite <- F. apply Forall_forall. intros x Ix. apply filter_In in Ix. destruct Ix as [Ix _].
  apply product_length. destruct (product cols) as [|h tl]; [destruct Ix|]. cbn [rotate_ranges] in Ix.
  apply in_app_or in Ix. destruct Ix as [Ix|[<-|[]]]; [right; exact Ix|left; reflexivity].
Qed.

(* [u] holds whenever the truth [t] does, and equals it when the exactness flag [e] is set *)
Definition approx (e t u : bool) : Prop := (t = true -> u = true) /\ (e = true -> u = t).
Lemma approx_and e1 t1 u1 e2 t2 u2 : approx e1 t1 u1 -> approx e2 t2 u2 -> approx (e1 && e2) (t1 && t2) (u1 && u2).
Proof.
  intros [A1 B1] [A2 B2]. split; intros H; apply andb_prop in H; destruct H as [H1 H2];
    [rewrite (A1 H1), (A2 H2)|rewrite (B1 H1), (B2 H2)]; reflexivity.
Qed.
Lemma approx_or e1 t1 u1 e2 t2 u2 : approx e1 t1 u1 -> approx e2 t2 u2 -> approx (e1 && e2) (t1 || t2) (u1 || u2).
Proof.
  intros [A1 B1] [A2 B2]. split; intros H.
  - apply orb_prop in H. destruct H as [H|H]; [rewrite (A1 H)|rewrite (A2 H), orb_true_r]; reflexivity.
  - apply andb_prop in H. destruct H as [H1 H2]. rewrite (B1 H1), (B2 H2). reflexivity.
Qed.
(* The equation  scan && leftovers = accumulated && rest  when one more conjunct with truth t is taken from the rest:
   it is left over; or it enters the scan exactly; or it enters the scan as some u that holds whenever t does, and is
   left over as well. *)
Lemma conj_leftover (a b c d t : bool) : b && d = a && c -> b && (t && d) = a && (t && c).
Proof. intros H. destruct t; cbn [andb]; [exact H|]. rewrite !andb_false_r. reflexivity. Qed.
Lemma conj_exact (a b c d t : bool) : b && d = (a && t) && c -> b && d = a && (t && c).
Proof. intros ->. symmetry. apply andb_assoc. Qed.
Lemma conj_marked (a b c d t u : bool) : (t = true -> u = true) -> b && d = (a && u) && c -> b && (t && d) = a && (t && c).
Proof.
  intros C H. destruct t; cbn [andb]; [|rewrite !andb_false_r; reflexivity].
  rewrite (C eq_refl), andb_true_r in H. exact H.
Qed.

Section Sound.
Variable k : nat.
Variable include imprecise : list nat.
Variable ror : list range -> option (list range).
Hypothesis k_pos : 1 <= k.
Hypothesis ror_spec : forall rs out, ror rs = Some out ->
  (forall t, ucontains out t = ucontains rs t) /\ (rs <> [] -> out <> []) /\ (Forall (haslen k) rs -> Forall (haslen k) out).
Variable Tl : bop -> tuple -> bool.        (* what a leaf expression really evaluates to (TRUE or not) *)
Variable precise_b : bop -> bool.          (* expression.PreciseComparison of the leaf *)
Variable row : tuple.
Hypothesis row_ok : Forall in_i32 row.
Hypothesis row_len : k <= length row.
Let key := firstn k row.
Hypothesis Tl_complete : forall b, wf_bop key b -> Tl b row = true -> bop_true b key = true.
Hypothesis Tl_exact : forall b, wf_bop key b -> precise_b b = true -> Tl b row = bop_true b key.

Lemma key_len : length key = k.
Proof. unfold key. rewrite firstn_length. lia. Qed.
Lemma key_ok : Forall in_i32 key.
Proof. unfold key. apply Forall_forall. intros x Ix. rewrite Forall_forall in row_ok. apply row_ok. eapply in_firstn; eauto. Qed.
Lemma key_ne : key <> [].
Proof. intros E. pose proof key_len as L. rewrite E in L. cbn in L. lia. Qed.

(* a collection as the range builder passes it around: not nil, every range over the k columns *)
Definition shape (rs : list range) : Prop := rs <> [] /\ Forall (haslen k) rs.

Lemma good_result st b : good key st b -> ucontains (mresult st) key = b.
Proof.
  intros [L G]. destruct st as [cols inv]. cbn [fst snd] in *.
  rewrite (mresult_exact cols inv key key_ne L). destruct inv; [symmetry|]; exact G.
Qed.
Lemma good_shape st b : good key st b -> shape (mresult st).
Proof. intros [L _]. destruct (mresult_shape st) as [A B]. rewrite L, key_len in B. split; assumption. Qed.
Lemma init_ok : good key (minit k) true.
Proof. rewrite <- key_len. apply init_good. Qed.
Lemma leaf_approx b : wf_bop key b -> approx (precise_b b) (Tl b row) (bop_true b key).
Proof. intros W. split; [apply Tl_complete; exact W|]. intros P. symmetry. apply Tl_exact; assumption. Qed.

Fixpoint feval (f : ftree) : bool :=
  match f with
  | FLeaf _ b => Tl b row
  | FAnd _ ls ors => forallb (fun l => Tl (snd l) row) ls && forallb feval ors
  | FOr _ cs => existsb feval cs
  end.
(* every leaf below is flagged precise *)
Fixpoint ex (f : ftree) : bool :=
  match f with
  | FLeaf _ b => precise_b b
  | FAnd _ ls ors => forallb (fun l => precise_b (snd l)) ls && forallb ex ors
  | FOr _ cs => forallb ex cs
  end.
(* every leaf below addresses an index column (and IN lists are not empty), no node id below is in |imprecise| *)
Fixpoint scan_wf (f : ftree) : Prop :=
  match f with
  | FLeaf id b => wf_bop key b /\ mem id imprecise = false
  | FAnd id ls ors => mem id imprecise = false /\ Forall (fun l => wf_bop key (snd l) /\ mem (fst l) imprecise = false) ls /\
                      (fix all (l : list ftree) : Prop := match l with [] => True | o :: l' => scan_wf o /\ all l' end) ors
  | FOr id cs => mem id imprecise = false /\ cs <> [] /\
                 (fix all (l : list ftree) : Prop := match l with [] => True | o :: l' => scan_wf o /\ all l' end) cs
  end.

Lemma default_leaf_scan st id b inScan lo : wf_bop key b -> mark_leftover include id inScan = false ->
  default_leaf k include imprecise st (id, b) inScan lo = Some (apply_bop st b, mark_imprecise imprecise id lo).
Proof.
  intros [Lc _] ML. unfold default_leaf. rewrite ML. rewrite key_len in Lc. rewrite (proj2 (Nat.ltb_lt _ _) Lc). reflexivity.
Qed.
Lemma leaves_in_scan ls : forall st b lo, good key st b ->
  Forall (fun l => wf_bop key (snd l) /\ mem (fst l) imprecise = false) ls ->
  exists st', leaves_fold k include imprecise st ls true lo = Some (st', lo) /\
              good key st' (b && forallb (fun l => bop_true (snd l) key) ls).
Proof.
  induction ls as [|[id o] ls IH]; intros st b lo G W; cbn [leaves_fold forallb].
  - exists st. rewrite andb_true_r. auto.
  - destruct (Forall_inv W) as [Wo Wi]. cbn [fst snd] in *. rewrite (default_leaf_scan st id o true lo Wo eq_refl).
    unfold mark_imprecise. rewrite Wi, andb_assoc.
    exact (IH _ _ lo (apply_bop_good key key_ok st b o Wo G) (Forall_inv_tail W)).
Qed.
Lemma leaf_truths ls : Forall (fun l => wf_bop key (snd l) /\ mem (fst l) imprecise = false) ls ->
  approx (forallb (fun l => precise_b (snd l)) ls) (forallb (fun l => Tl (snd l) row) ls)
         (forallb (fun l => bop_true (snd l) key) ls).
Proof.
  induction 1 as [|[id b] ls [W _] F IH]; cbn [forallb snd]; [split; auto|]. apply approx_and; [apply leaf_approx; exact W|exact IH].
Qed.

(* MySQLRangeCollection.Intersect *)
Lemma collection_pairs_exact xs ys t : t <> [] ->
  ucontains (collection_pairs xs ys) t = ucontains xs t && ucontains ys t.
Proof.
  intros NE. unfold collection_pairs, ucontains. rewrite existsb_flat_map.
  induction xs as [|x xs IH]; cbn [existsb]; [reflexivity|]. rewrite IH. clear IH. rewrite andb_orb_distrib_l. f_equal.
  rewrite existsb_flat_map. induction ys as [|y ys IH]; cbn [existsb]; [rewrite andb_false_r; reflexivity|].
  rewrite IH, andb_orb_distrib_r. f_equal. clear IH.
  destruct (Nat.eq_dec (length x) (length y)) as [L|L].
  - pose proof (r_intersect_exact x y t L) as E. pose proof (r_intersect_length x y L) as LL.
    destruct (Nat.ltb_spec 0 (length (r_intersect x y))); cbn [existsb]; [rewrite orb_false_r; exact E|].
    rewrite <- E. assert (r_intersect x y = []) as -> by (destruct (r_intersect x y); [reflexivity|cbn in *; lia]).
    destruct t; [congruence|reflexivity].
  - assert (r_intersect x y = []) as ->.
    { unfold r_intersect. destruct (Nat.eqb_spec (length x) (length y)); [contradiction|reflexivity]. }
    cbn. symmetry. destruct (rcontains x t) eqn:Cx; [|reflexivity]. destruct (rcontains y t) eqn:Cy; [|reflexivity].
    exfalso. apply L. rewrite (rcontains_length _ _ Cx), (rcontains_length _ _ Cy). reflexivity.
Qed.
Lemma collection_pairs_shape xs ys : shape xs -> shape ys -> shape (collection_pairs xs ys).
Proof.
  intros [Nx Fx] [Ny Fy]. split.
  - destruct xs as [|x xs]; [congruence|]. destruct ys as [|y ys]; [congruence|]. inversion Fx; subst. inversion Fy; subst.
    unfold collection_pairs. cbn [flat_map]. unfold haslen in *.
    rewrite (proj2 (Nat.ltb_lt 0 _)) by (rewrite r_intersect_length; lia). discriminate.
  - apply Forall_forall. intros r Ir. unfold collection_pairs in Ir. apply in_flat_map in Ir. destruct Ir as [x [Ix Ir]].
    apply in_flat_map in Ir. destruct Ir as [y [Iy Ir]]. rewrite Forall_forall in Fx, Fy. specialize (Fx x Ix). specialize (Fy y Iy).
    unfold haslen in *. destruct (Nat.ltb 0 (length (r_intersect x y))); [|destruct Ir]. destruct Ir as [<-|[]].
    rewrite r_intersect_length; lia.
Qed.
(* what rangeBuildAnd does with the ranges of one more conjunct: the first ones are taken as they are, later ones are
   intersected with what has been collected *)
Definition meet (ret : rres) (rs : list range) : option rres :=
  match ret with None => Some (Some rs) | Some x => collection_intersect ror x rs end.
Definition rden (ret : rres) : bool := match ret with None => true | Some x => ucontains x key end.
Definition rshape (ret : rres) : Prop := match ret with None => True | Some x => shape x end.
Lemma meet_ok ret rs r : rshape ret -> shape rs -> meet ret rs = Some r ->
  exists rs', r = Some rs' /\ shape rs' /\ ucontains rs' key = rden ret && ucontains rs key.
Proof.
  destruct ret as [x|]; cbn [meet rshape rden]; [|intros _ S [= <-]; exists rs; auto].
  intros Sx Sr. unfold collection_intersect. destruct (ror (collection_pairs x rs)) as [out|] eqn:E; [|discriminate].
  intros [= <-]. destruct (ror_spec _ _ E) as [S1 [S2 S3]]. destruct (collection_pairs_shape x rs Sx Sr) as [P1 P2].
  specialize (S2 P1). exists out. unfold as_res. destruct out; [congruence|].
  repeat split; auto. rewrite S1. apply collection_pairs_exact. exact key_ne.
Qed.
Lemma and_go_nil rec inScan ls ret lo : and_go k include imprecise ror rec inScan ls [] ret lo =
  match leaves_fold k include imprecise (minit k) ls inScan lo with
  | None => None
  | Some (st, lo') => match meet ret (mresult st) with None => None | Some r => Some (r, lo') end
  end.
Proof. cbn [and_go]. destruct (leaves_fold _ _ _ _ _ _ _) as [[st lo']|]; [|reflexivity]. destruct ret; reflexivity. Qed.
Lemma and_go_cons rec inScan ls o ors ret lo : and_go k include imprecise ror rec inScan ls (o :: ors) ret lo =
  match rec o inScan lo with
  | None => None
  | Some (None, lo') => and_go k include imprecise ror rec inScan ls ors ret lo'
  | Some (Some rs, lo') =>
    match meet ret rs with None => None | Some r => and_go k include imprecise ror rec inScan ls ors r lo' end
  end.
Proof. cbn [and_go]. destruct (rec o inScan lo) as [[[rs|] lo']|]; try reflexivity. destruct ret; reflexivity. Qed.

(* a subtree that is entirely in the scan: nothing is left over, and its ranges say what the subtree says, exactly
   when every leaf below is flagged precise *)
Definition node_ok (f : ftree) (r : rres) : Prop :=
  exists rs, r = Some rs /\ shape rs /\ approx (ex f) (feval f) (ucontains rs key).

Definition all_wf (l : list ftree) : Prop :=
  (fix all (l : list ftree) : Prop := match l with [] => True | o :: l' => scan_wf o /\ all l' end) l.
Lemma all_wf_cons o l : all_wf (o :: l) <-> scan_wf o /\ all_wf l.
Proof. reflexivity. Qed.
Definition maxdepth (l : list ftree) : nat := fold_right (fun o m => Nat.max (depth o) m) 0 l.
Lemma maxdepth_in f l n : In f l -> maxdepth l <= n -> depth f <= n.
Proof.
  induction l as [|x l IH]; [intros []|]. cbn [maxdepth fold_right]. fold (maxdepth l). intros [->|I] D; [lia|apply IH; [exact I|lia]].
Qed.

(* the recursive call behaves well on the in-scan subtrees of a list *)
Definition rec_ok (rec : ftree -> bool -> list nat -> option (rres * list nat)) (l : list ftree) : Prop :=
  forall f lo r lo', In f l -> scan_wf f -> rec f true lo = Some (r, lo') -> lo' = lo /\ node_ok f r.
Lemma rec_ok_tail rec o l : rec_ok rec (o :: l) -> rec_ok rec l.
Proof. intros HR f lo r lo' I. apply HR. right. exact I. Qed.

Lemma or_go_ok rec : forall cs acc lo r lo', rec_ok rec cs -> all_wf cs -> Forall (haslen k) acc ->
  or_go rec cs acc lo = Some (r, lo') ->
  lo' = lo /\ exists rest, r = as_res (acc ++ rest) /\ Forall (haslen k) rest /\ (cs <> [] -> rest <> []) /\
    approx (forallb ex cs) (existsb feval cs) (ucontains rest key).
Proof.
  induction cs as [|c cs IHc]; intros acc lo r lo' HR Wa Fa; cbn [or_go].
  - intros [= <- <-]. split; [reflexivity|]. exists []. rewrite app_nil_r. repeat split; auto; congruence.
  - apply all_wf_cons in Wa. destruct Wa as [Wc1 Wa'].
    destruct (rec c true lo) as [[rc lo1]|] eqn:RB; [|discriminate].
    destruct (HR c lo rc lo1 (or_introl eq_refl) Wc1 RB) as [-> [rs [-> [[N1 N2] N3]]]]. intros H.
    destruct (IHc (acc ++ rs) lo r lo' (rec_ok_tail _ _ _ HR) Wa' ltac:(apply Forall_app; split; assumption) H)
      as [E [rest [E2 [Q1 [_ Q3]]]]].
    split; [exact E|]. exists (rs ++ rest). rewrite app_assoc. split; [exact E2|]. split; [|split].
    + apply Forall_app. split; assumption.
    + intros _ C. apply app_eq_nil in C. tauto.
    + cbn [existsb forallb]. rewrite ucontains_app. apply approx_or; assumption.
Qed.
Lemma or_node_ok rec id cs lo r lo' : rec_ok rec cs -> all_wf cs -> cs <> [] ->
  or_go rec cs [] lo = Some (r, lo') -> lo' = lo /\ node_ok (FOr id cs) r.
Proof.
  intros HR Wa Nc H. destruct (or_go_ok rec cs [] lo r lo' HR Wa (Forall_nil _) H) as [E [rest [-> [Q1 [Q2 Q3]]]]].
  split; [exact E|]. cbn [app]. specialize (Q2 Nc). exists rest. unfold as_res. destruct rest; [congruence|].
  split; [reflexivity|]. split; [split; assumption|exact Q3].
Qed.

Lemma and_go_in_scan rec ls : Forall (fun l => wf_bop key (snd l) /\ mem (fst l) imprecise = false) ls ->
  forall ors ret lo r lo' (fv exv : bool), rec_ok rec ors -> all_wf ors -> rshape ret -> approx exv fv (rden ret) ->
  and_go k include imprecise ror rec true ls ors ret lo = Some (r, lo') ->
  lo' = lo /\ exists rs, r = Some rs /\ shape rs /\
    approx (exv && (forallb ex ors && forallb (fun l => precise_b (snd l)) ls))
           (fv && (forallb feval ors && forallb (fun l => Tl (snd l) row) ls)) (ucontains rs key).
Proof.
  intros Wl. induction ors as [|o ors IHo]; intros ret lo r lo' fv exv HR Wa RS A.
  - rewrite and_go_nil. destruct (leaves_in_scan ls (minit k) true lo init_ok Wl) as [st' [-> G]]. cbn [andb] in G.
    destruct (meet ret (mresult st')) as [rr|] eqn:M; [|discriminate]. intros [= <- <-]. split; [reflexivity|].
    destruct (meet_ok _ _ _ RS (good_shape _ _ G) M) as [rs [-> [S' U]]]. exists rs. split; [reflexivity|]. split; [exact S'|].
    rewrite U, (good_result _ _ G). cbn [forallb andb]. apply approx_and; [exact A|apply leaf_truths; exact Wl].
  - rewrite and_go_cons. apply all_wf_cons in Wa. destruct Wa as [Wo1 Wa'].
    destruct (rec o true lo) as [[ro lo1]|] eqn:RB; [|discriminate].
    destruct (HR o lo ro lo1 (or_introl eq_refl) Wo1 RB) as [-> [rs [-> [N1 N2]]]].
    destruct (meet ret rs) as [rr|] eqn:M; [|discriminate]. destruct (meet_ok _ _ _ RS N1 M) as [rs' [-> [S' U]]]. intros H.
    destruct (IHo (Some rs') lo r lo' (fv && feval o) (exv && ex o) (rec_ok_tail _ _ _ HR) Wa' S') as [E [rs2 [E2 [Q1 Q2]]]]; auto.
    { cbn [rden]. rewrite U. apply approx_and; assumption. }
    split; [exact E|]. exists rs2. cbn [forallb]. rewrite <- !andb_assoc in *. auto.
Qed.

Lemma rb_in_scan n : forall f lo r lo', scan_wf f -> depth f <= n ->
  rb k include imprecise ror n f true lo = Some (r, lo') -> lo' = lo /\ node_ok f r.
Proof.
  induction n as [|n IH]; intros f lo r lo' W D; [destruct f; cbn in D; lia|].
  assert (HRl : forall l, maxdepth l <= n -> rec_ok (rb k include imprecise ror n) l).
  { intros l Dl f' l1 r1 l2 I Wf. apply IH; [exact Wf|exact (maxdepth_in f' l n I Dl)]. }
  destruct f as [id b|id ls ors|id cs]; cbn [rb].
  - destruct W as [Wb Wi]. rewrite (default_leaf_scan _ id b true lo Wb eq_refl). unfold mark_imprecise. rewrite Wi.
    intros [= <- <-]. split; [reflexivity|].
    pose proof (apply_bop_good key key_ok _ _ b Wb init_ok) as G. cbn [andb] in G.
    exists (mresult (apply_bop (minit k) b)). split; [reflexivity|]. split; [exact (good_shape _ _ G)|].
    rewrite (good_result _ _ G). apply leaf_approx. exact Wb.
  - destruct W as [Wi [Wl Wo]]. fold (all_wf ors) in Wo. cbn [orb depth] in *. fold (maxdepth ors) in D. intros H.
    destruct (and_go_in_scan _ ls Wl ors None lo r lo' true true (HRl ors ltac:(lia)) Wo I (conj (fun H => H) (fun H => H)) H)
      as [E [rs [-> [Q1 Q2]]]].
    split; [exact E|]. exists rs. cbn [feval ex andb] in *. rewrite !(andb_comm (forallb _ ors)) in Q2.
    split; [reflexivity|split; [exact Q1|exact Q2]].
  - destruct W as [Wi [Nc Wc]]. fold (all_wf cs) in Wc. unfold mark_leftover, mark_imprecise. cbn [negb andb]. rewrite Wi.
    cbn [depth] in D. fold (maxdepth cs) in D. apply (or_node_ok _ id cs); auto. apply HRl. lia.
Qed.

Section Top.
Variable S : bool.          (* inScan of the root AND: its own id is in the include set *)
Variable ls : list (nat * bop).
Variable ors : list ftree.

(* a top-level leaf is either left over, or addresses an index column and is precise or marked imprecise *)
Definition tl_ok (l : nat * bop) : Prop :=
  mark_leftover include (fst l) S = true \/
  (wf_bop key (snd l) /\ (precise_b (snd l) = true \/ mem (fst l) imprecise = true)).
(* a top-level OR is either left over, or all of its subtree can go into the scan and it is exact or marked imprecise *)
Definition to_ok (o : ftree) : Prop :=
  match o with
  | FOr i cs => mark_leftover include i S = true \/ (cs <> [] /\ all_wf cs /\ (forallb ex cs = true \/ mem i imprecise = true))
  | _ => False
  end.
(* what a left-over id stands for: a top-level leaf or OR, with its truth on the row *)
Definition entry (e : nat * bool) : Prop :=
  (exists b, In (fst e, b) ls /\ snd e = Tl b row) \/ (exists o, In o ors /\ fid o = fst e /\ snd e = feval o).

(* the leaves: the builder state times the leftovers is the previous state times the leaves' truth *)
Lemma top_leaves : forall ls' st bv lo st' lo', (forall l, In l ls' -> In l ls) -> good key st bv -> Forall tl_ok ls' ->
  leaves_fold k include imprecise st ls' S lo = Some (st', lo') ->
  exists L bv', lo' = lo ++ map fst L /\ Forall entry L /\ good key st' bv' /\
    bv' && forallb snd L = bv && forallb (fun l => Tl (snd l) row) ls'.
Proof.
  induction ls' as [|[i b] ls' IH]; intros st bv lo st' lo' Sub G W; cbn [leaves_fold].
  - intros [= <- <-]. exists [], bv. rewrite app_nil_r. split; [reflexivity|]. split; [constructor|]. split; [exact G|reflexivity].
  - pose proof (Forall_inv W) as W1. pose proof (Forall_inv_tail W) as W'. unfold tl_ok in W1. cbn [fst snd] in W1.
    assert (Sub' : forall l, In l ls' -> In l ls) by (intros l I; apply Sub; right; exact I).
    assert (EN : entry (i, Tl b row)) by (left; exists b; split; [apply Sub; left|]; reflexivity).
    cbn [forallb snd]. destruct (mark_leftover include i S) eqn:ML.
    + unfold default_leaf. rewrite ML. intros H.
      destruct (IH st bv (lo ++ [i]) st' lo' Sub' G W' H) as (L & bv' & -> & F & G' & Q).
      exists ((i, Tl b row) :: L), bv'. rewrite <- app_assoc. split; [reflexivity|]. split; [constructor; assumption|].
      split; [exact G'|]. apply conj_leftover. exact Q.
    + destruct W1 as [W1|[Wb Wp]]; [congruence|]. rewrite (default_leaf_scan st i b S lo Wb ML).
      pose proof (apply_bop_good key key_ok st bv b Wb G) as G1. unfold mark_imprecise. destruct (mem i imprecise) eqn:MI.
      * intros H. destruct (IH _ _ (lo ++ [i]) st' lo' Sub' G1 W' H) as (L & bv' & -> & F & G' & Q).
        exists ((i, Tl b row) :: L), bv'. rewrite <- app_assoc. split; [reflexivity|]. split; [constructor; assumption|].
        split; [exact G'|]. exact (conj_marked _ _ _ _ _ _ (Tl_complete b Wb) Q).
      * destruct Wp as [Wp|Wp]; [|congruence]. intros H.
        destruct (IH _ _ lo st' lo' Sub' G1 W' H) as (L & bv' & E & F & G' & Q).
        exists L, bv'. split; [exact E|]. split; [exact F|]. split; [exact G'|].
        apply conj_exact. rewrite (Tl_exact b Wb Wp). exact Q.
Qed.

(* a top-level OR: left over; or in the scan with its exact meaning; or in the scan and left over as well *)
Lemma top_or n o lo ro lo1 : to_ok o -> depth o <= n -> rb k include imprecise ror n o S lo = Some (ro, lo1) ->
  (ro = None /\ lo1 = lo ++ [fid o]) \/
  (exists rs, ro = Some rs /\ shape rs /\
     ((lo1 = lo /\ ucontains rs key = feval o) \/ (lo1 = lo ++ [fid o] /\ (feval o = true -> ucontains rs key = true)))).
Proof.
  destruct o as [|? ? ?|i cs]; cbn [to_ok]; try tauto. intros W D. destruct n as [|n]; [cbn in D; lia|]. cbn [rb fid].
  destruct (mark_leftover include i S) eqn:ML; [intros [= <- <-]; left; auto|].
  destruct W as [W|[Nc [Wc Wm]]]; [congruence|]. cbn [depth] in D. fold (maxdepth cs) in D.
  assert (HR : rec_ok (rb k include imprecise ror n) cs).
  { intros f' l1 r1 l2 I Wf. apply rb_in_scan; [exact Wf|apply (maxdepth_in f' cs n I); lia]. }
  intros H. destruct (or_node_ok _ i cs _ ro lo1 HR Wc Nc H) as [E [rs [-> [Q1 [Q2 Q3]]]]].
  right. exists rs. split; [reflexivity|]. split; [exact Q1|]. unfold mark_imprecise in E. destruct (mem i imprecise).
  - right. auto.
  - left. split; [exact E|]. destruct Wm as [Wm|Wm]; [auto|discriminate].
Qed.

(* the loop of the root AND: the resulting ranges times the leftovers is what had been collected times the truth of the
   remaining OR children and of the leaves *)
Lemma top_and_go n : forall ors' ret lo r lo', (forall o, In o ors' -> In o ors) ->
  Forall to_ok ors' -> maxdepth ors' <= n -> Forall tl_ok ls -> rshape ret ->
  and_go k include imprecise ror (rb k include imprecise ror n) S ls ors' ret lo = Some (r, lo') ->
  exists rs L, r = Some rs /\ shape rs /\ lo' = lo ++ map fst L /\ Forall entry L /\
    ucontains rs key && forallb snd L = rden ret && (forallb feval ors' && forallb (fun l => Tl (snd l) row) ls).
Proof.
  induction ors' as [|o ors' IHo]; intros ret lo r lo' Sub Wo Dm Wl RS.
  - rewrite and_go_nil. destruct (leaves_fold _ _ _ _ _ _ _) as [[st' lo1]|] eqn:LF; [|discriminate].
    destruct (top_leaves ls (minit k) true lo st' lo1 (fun l I => I) init_ok Wl LF) as (L & bv' & -> & F & G & Q).
    destruct (meet ret (mresult st')) as [rr|] eqn:M; [|discriminate]. intros [= <- <-].
    destruct (meet_ok _ _ _ RS (good_shape _ _ G) M) as [rs [-> [S' U]]]. exists rs, L. repeat split; auto; try apply S'.
    rewrite U, (good_result _ _ G), <- andb_assoc, Q. reflexivity.
  - rewrite and_go_cons. pose proof (Forall_inv Wo) as Wo1. pose proof (Forall_inv_tail Wo) as Wo'.
    cbn [maxdepth fold_right] in Dm. fold (maxdepth ors') in Dm.
    assert (Sub' : forall o', In o' ors' -> In o' ors) by (intros o' I; apply Sub; right; exact I).
    assert (EN : entry (fid o, feval o)) by (right; exists o; split; [apply Sub; left|]; auto).
    destruct (rb k include imprecise ror n o S lo) as [[ro lo1]|] eqn:RB; [|discriminate].
    cbn [forallb]. rewrite <- (andb_assoc (feval o)).
    destruct (top_or n o lo ro lo1 Wo1 ltac:(lia) RB) as [[-> ->] | [rs [-> [N1 N2]]]].
    + intros H. destruct (IHo ret _ r lo' Sub' Wo' ltac:(lia) Wl RS H) as (rs & L & -> & S' & -> & F & Q).
      exists rs, ((fid o, feval o) :: L). rewrite <- app_assoc. repeat split; auto; try apply S'.
      cbn [forallb snd]. apply conj_leftover. exact Q.
    + destruct (meet ret rs) as [rr|] eqn:M; [|discriminate]. destruct (meet_ok _ _ _ RS N1 M) as [rs' [-> [S' U]]].
      intros H. destruct (IHo (Some rs') _ r lo' Sub' Wo' ltac:(lia) Wl S' H) as (rs0 & L & -> & S0 & E & F & Q).
      cbn [rden] in Q. rewrite U in Q. destruct N2 as [[-> N2]|[-> N2]].
      * exists rs0, L. repeat split; auto; try apply S0. apply conj_exact. rewrite <- N2. exact Q.
      * exists rs0, ((fid o, feval o) :: L). rewrite E, <- app_assoc. repeat split; auto; try apply S0.
        cbn [forallb snd]. exact (conj_marked _ _ _ _ _ _ N2 Q).
Qed.
End Top.

(* The root AND: for every include set, the row satisfies the whole tree iff its key tuple is in the ranges and every
   expression the range builder left over is TRUE of it. *)
Theorem root_and_sound id ls ors r lo :
  Forall (tl_ok (mem id include)) ls -> Forall (to_ok (mem id include)) ors ->
  rb k include imprecise ror (depth (FAnd id ls ors)) (FAnd id ls ors) (mem id include) [] = Some (r, lo) ->
  exists rs L, r = Some rs /\ rs <> [] /\ Forall (haslen k) rs /\ lo = map fst L /\ Forall (entry ls ors) L /\
    feval (FAnd id ls ors) = ucontains rs key && forallb snd L.
Proof.
  intros Wl Wo. cbn [depth rb]. fold (maxdepth ors). rewrite orb_diag. intros H.
  destruct (top_and_go (mem id include) ls ors (maxdepth ors) ors None [] r lo (fun o I => I) Wo (le_n _) Wl I H)
    as (rs & L & E & [Q1 Q2] & Q3 & Q4 & Q5).
  exists rs, L. cbn [app feval rden andb] in *. repeat split; auto. rewrite Q5. apply andb_comm.
Qed.
End Sound.
