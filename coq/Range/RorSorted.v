(* C46 proofs, part 5: the collection returned by RemoveOverlappingRanges is strictly sorted by MySQLRange.Compare. *)
From Coq Require Import List ZArith Bool Lia PeanoNat Sorted.
Import ListNotations.
From GMS Require Import Range.Cut Range.CutProofs Range.MRange Range.MRangeProofs Range.MRangeMore.
Open Scope nat_scope.

(* one column of MySQLRange.Compare: lower bounds, then upper bounds *)
Definition pcmp (x y : rce) : comparison :=
  match cut_cmp (lo x) (lo y) with Eq => cut_cmp (hi x) (hi y) | c => c end.
Lemma r_compare_cons x a y b : length a = length b ->
  r_compare (x :: a) (y :: b) = match pcmp x y with Eq => r_compare a b | c => Some c end.
Proof.
  intros L. cbn [r_compare]. rewrite L, Nat.eqb_refl. cbn [negb]. unfold pcmp.
  destruct (cut_cmp (lo x) (lo y)); try reflexivity; destruct (cut_cmp (hi x) (hi y)); reflexivity.
Qed.
Lemma r_compare_len a b c : r_compare a b = Some c -> length a = length b.
Proof.
  revert b c. induction a as [|x a IH]; intros [|y b] c; cbn [r_compare]; try discriminate; [reflexivity|].
  destruct (Nat.eqb_spec (length a) (length b)) as [E|E]; cbn [negb]; [|discriminate]. intros _. cbn. f_equal. exact E.
Qed.
Lemma pcmp_eq x y : pcmp x y = Eq <-> x = y.
Proof.
  destruct x as [l u], y as [l' u']. unfold pcmp. cbn [lo hi]. split.
  - destruct (cut_cmp l l') eqn:E1; try discriminate. intros E2. apply cut_cmp_Eq_eq in E1, E2. congruence.
  - intros [= -> ->]. rewrite !cut_cmp_refl. reflexivity.
Qed.
Lemma pcmp_trans x y z : pcmp x y = Lt -> pcmp y z = Lt -> pcmp x z = Lt.
Proof.
  destruct x as [l u], y as [l' u'], z as [l'' u'']. unfold pcmp. cbn [lo hi].
  destruct (cut_cmp l l') eqn:E1; try discriminate; (destruct (cut_cmp l' l'') eqn:E2; try discriminate); intros H1 H2;
    try (apply cut_cmp_Eq_eq in E1; subst l'); try (apply cut_cmp_Eq_eq in E2; subst l'').
  - rewrite cut_cmp_refl. exact (cut_cmp_trans _ _ _ H1 H2).
  - rewrite E2. reflexivity.
  - rewrite E1. reflexivity.
  - rewrite (cut_cmp_trans _ _ _ E1 E2). reflexivity.
Qed.
Lemma pcmp_antisym x y : pcmp y x = CompOpp (pcmp x y).
Proof.
  destruct x as [l u], y as [l' u']. unfold pcmp. cbn [lo hi]. rewrite (cut_cmp_antisym l l'), (cut_cmp_antisym u u').
  destruct (cut_cmp l l'); reflexivity.
Qed.

Definition rlt (a b : range) : Prop := r_compare a b = Some Lt.
Definition rle (a b : range) : Prop := rlt a b \/ a = b.

Lemma rlt_trans a b c : rlt a b -> rlt b c -> rlt a c.
Proof.
  unfold rlt. revert b c. induction a as [|x a IH]; intros [|y b] [|z c] H1 H2; try discriminate.
  pose proof (r_compare_len _ _ _ H1) as L1. pose proof (r_compare_len _ _ _ H2) as L2. cbn in L1, L2.
  rewrite r_compare_cons in * by lia.
  destruct (pcmp x y) eqn:P1; try discriminate; destruct (pcmp y z) eqn:P2; try discriminate.
  - apply pcmp_eq in P1, P2. subst. rewrite (proj2 (pcmp_eq z z) eq_refl). eauto.
  - apply pcmp_eq in P1. subst. rewrite P2. reflexivity.
  - apply pcmp_eq in P2. subst. rewrite P1. reflexivity.
  - rewrite (pcmp_trans x y z P1 P2). reflexivity.
Qed.
Lemma rle_lt_trans a b c : rle a b -> rlt b c -> rlt a c.
Proof. intros [H| ->] H2; [eapply rlt_trans; eauto|exact H2]. Qed.
Lemma rlt_le_trans a b c : rlt a b -> rle b c -> rlt a c.
Proof. intros H1 [H| <-]; [eapply rlt_trans; eauto|exact H1]. Qed.
Lemma r_compare_eq a b : r_compare a b = Some Eq -> a = b.
Proof.
  revert b. induction a as [|x a IH]; intros [|y b] H; try discriminate; [reflexivity|].
  pose proof (r_compare_len _ _ _ H) as L. cbn in L. rewrite r_compare_cons in H by lia.
  destruct (pcmp x y) eqn:P; try discriminate. apply pcmp_eq in P. subst. f_equal. auto.
Qed.
Lemma r_compare_antisym a b : length a = length b -> r_compare b a = option_map CompOpp (r_compare a b).
Proof.
  revert b. induction a as [|x a IH]; intros [|y b] L; cbn in L; try discriminate; [reflexivity|].
  rewrite !r_compare_cons by lia. rewrite (pcmp_antisym x y). destruct (pcmp x y); cbn; try reflexivity. apply IH. lia.
Qed.
Lemma r_compare_total a b : length a = length b -> exists c, r_compare a b = Some c.
Proof.
  revert b. induction a as [|x a IH]; intros [|y b] L; cbn in L; try discriminate; [eexists; reflexivity|].
  rewrite r_compare_cons by lia. destruct (pcmp x y); eauto.
Qed.
Lemma r_compare_replace i c c' a : i < length a -> r_compare (replace i c a) (replace i c' a) = Some (pcmp c c').
Proof.
  revert i. induction a as [|x a IH]; intros i L; cbn in L; [lia|]. destruct i as [|i]; cbn [replace].
  - rewrite r_compare_cons by reflexivity. destruct (pcmp c c') eqn:P; try reflexivity.
    clear. induction a as [|x a IH]; [reflexivity|]. rewrite r_compare_cons, (proj2 (pcmp_eq x x) eq_refl); auto.
  - rewrite r_compare_cons, (proj2 (pcmp_eq x x) eq_refl) by (rewrite !replace_length; reflexivity). apply IH. lia.
Qed.
Lemma rlt_total a b : length a = length b -> r_equals a b = false -> r_lt a b = false -> rlt b a.
Proof.
  intros L E NL. unfold rlt. rewrite (r_compare_antisym a b L). destruct (r_compare_total a b L) as [c Hc].
  unfold r_lt in NL. rewrite Hc in *. destruct c; cbn; try reflexivity; try discriminate.
  apply r_compare_eq in Hc. subst. rewrite (proj2 (r_equals_eq b b) eq_refl) in E. discriminate.
Qed.
Lemma r_lt_rlt a b : r_lt a b = true -> rlt a b.
Proof. unfold r_lt, rlt. destruct (r_compare a b) as [[]|]; congruence. Qed.

Definition ssorted := StronglySorted rlt.

Lemma ssorted_app_inv xs ys : ssorted (xs ++ ys) -> ssorted xs /\ ssorted ys /\ forall x y, In x xs -> In y ys -> rlt x y.
Proof.
  induction xs as [|x xs IH]; cbn; intros H.
  - repeat split; [constructor|exact H|intros ? ? []].
  - inversion H as [|? ? S F]; subst. destruct (IH S) as [S1 [S2 C]]. apply Forall_app in F. destruct F as [F1 F2].
    repeat split; [constructor; assumption|exact S2|]. intros a b [<-|Ia] Ib; [|auto]. rewrite Forall_forall in F2. auto.
Qed.
Lemma ssorted_app xs ys : ssorted xs -> ssorted ys -> (forall x y, In x xs -> In y ys -> rlt x y) -> ssorted (xs ++ ys).
Proof.
  induction 1 as [|x xs S IH F]; intros Sy C; cbn; [exact Sy|]. constructor.
  - apply IH; [exact Sy|]. intros a b Ia Ib. apply C; [right; exact Ia|exact Ib].
  - apply Forall_app. split; [exact F|]. apply Forall_forall. intros y Iy. apply C; [left; reflexivity|exact Iy].
Qed.
Lemma ssorted_drop xs r ys : ssorted (xs ++ r :: ys) -> ssorted (xs ++ ys).
Proof.
  intros H. destruct (ssorted_app_inv _ _ H) as [S1 [S2 C]]. inversion S2; subst.
  apply ssorted_app; auto. intros x y Ix Iy. apply C; [exact Ix|right; exact Iy].
Qed.
Lemma ssorted_merge xs a b m ys : ssorted (xs ++ a :: b :: ys) -> rle a m -> rle m b -> ssorted (xs ++ m :: ys).
Proof.
  intros H A B. destruct (ssorted_app_inv _ _ H) as [S1 [S2 C]].
  inversion S2 as [|? ? S3 F2]; subst. inversion S3 as [|? ? S4 F3]; subst.
  apply ssorted_app; [exact S1| |].
  - constructor; [exact S4|]. apply Forall_forall. intros y Iy. rewrite Forall_forall in F3. eapply rle_lt_trans; eauto.
  - intros x y Ix [<-|Iy].
    + eapply rlt_le_trans; [|exact A]. apply C; [exact Ix|left; reflexivity].
    + apply C; [exact Ix|right; right; exact Iy].
Qed.

Lemma try_union_between x y u : pcmp x y = Lt -> try_union x y = Some u ->
  (pcmp x u = Lt \/ x = u) /\ (pcmp u y = Lt \/ u = y).
Proof.
  intros P. destruct (is_empty y) eqn:Ey; [unfold try_union; rewrite Ey; intros [= <-]; auto|].
  destruct (is_empty x) eqn:Ex; [unfold try_union; rewrite Ey, Ex; intros [= <-]; auto|].
  rewrite (try_union_connected x y Ex Ey). destruct (is_connected x y); [|discriminate]. intros [= <-]. revert P.
  destruct x as [l u], y as [l' u']. unfold pcmp, cut_min, cut_max. cbn [lo hi].
  destruct (cut_cmp l l') eqn:E1; try discriminate.
  - apply cut_cmp_Eq_eq in E1. subst l'. intros E2. rewrite E2. cbn. rewrite cut_cmp_refl, E2. auto.
  - intros _. destruct (cut_cmp u u') eqn:E2; cbn [cmp_gt cmp_lt lo hi]; rewrite ?cut_cmp_refl, ?E1, ?E2; auto.
Qed.
Lemma try_merge_between a b m : rlt a b -> try_merge a b = Some m -> rle a m /\ rle m b.
Proof.
  intros H M. destruct (try_merge_some a b m M) as [_ [[_ ->]|[[_ ->]|M']]]; [split; [right|left]; auto|split; [left|right]; auto|].
  destruct (merge_one_some a b m M') as (i & y & u & L & -> & U & ->). unfold rle, rlt in *.
  rewrite <- (replace_nth i a) in H at 1. rewrite (r_compare_replace i _ y a L) in H. injection H as P.
  destruct (try_union_between _ y u P U) as [A B]. split.
  - destruct A as [A| <-]; [left|right; apply eq_sym, replace_nth].
    rewrite <- (replace_nth i a) at 1. rewrite (r_compare_replace i _ u a L), A. reflexivity.
  - destruct B as [B| <-]; [left|right; reflexivity]. rewrite (r_compare_replace i u y a L), B. reflexivity.
Qed.

Lemma collect_sorted : forall tr acc emp res emp',
  ssorted (rev acc ++ tr) -> collect tr acc emp = (res, emp') -> ssorted res.
Proof.
  induction tr as [|r tr IH]; intros acc emp res emp' S; cbn [collect].
  - intros [= <- _]. rewrite app_nil_r in S. exact S.
  - destruct (r_is_empty r).
    + apply IH. eapply ssorted_drop; eauto.
    + destruct acc as [|last acc'].
      * apply IH. exact S.
      * cbn [rev] in S. rewrite <- app_assoc in S. cbn [app] in S.
        destruct (try_merge last r) as [m|] eqn:M.
        -- apply IH. cbn [rev]. rewrite <- app_assoc. cbn [app].
           assert (LR : rlt last r).
           { destruct (ssorted_app_inv _ _ S) as [_ [S2 _]]. inversion S2 as [|? ? _ F]; subst.
             rewrite Forall_forall in F. apply F. left. reflexivity. }
           destruct (try_merge_between last r m LR M) as [A B]. eapply ssorted_merge; eauto.
        -- apply IH. cbn [rev]. rewrite <- !app_assoc. cbn [app]. exact S.
Qed.
Lemma get_range_collection_sorted tr : ssorted tr -> ssorted (get_range_collection tr).
Proof.
  intros S. unfold get_range_collection. destruct (collect tr [] []) as [res emp] eqn:E.
  pose proof (collect_sorted tr [] [] res emp S E) as R. destruct res; [repeat constructor|exact R].
Qed.

Lemma tree_insert_sorted n r tr : length r = n -> Forall (fun t => length t = n) tr -> ssorted tr -> ssorted (tree_insert r tr).
Proof.
  intros Lr. induction tr as [|y tr IH]; intros W S; cbn [tree_insert]; [repeat constructor|].
  inversion W as [|? ? Ly W']; subst. inversion S as [|? ? S' F]; subst.
  destruct (r_equals r y) eqn:E; [exact S|]. destruct (r_lt r y) eqn:LT.
  - apply r_lt_rlt in LT. constructor; [exact S|]. constructor; [exact LT|].
    apply Forall_forall. intros q Iq. rewrite Forall_forall in F. eapply rlt_trans; eauto.
  - constructor; [apply IH; assumption|]. apply Forall_forall. intros q Iq.
    destruct (tree_insert_in _ _ _ Iq) as [->|Iq']; [apply rlt_total; auto|]. rewrite Forall_forall in F. auto.
Qed.
Lemma tree_remove_sorted c tr : ssorted tr -> ssorted (tree_remove c tr).
Proof.
  induction 1 as [|y tr S IH F]; cbn; [constructor|]. destruct (r_equals c y); [exact S|].
  constructor; [exact IH|]. apply Forall_forall. intros q Iq. rewrite Forall_forall in F. apply F. eapply tree_remove_in; eauto.
Qed.

(* only the column count matters (empty columns allowed) *)
Lemma remove_overlap_length n fuel a b out ok : length a = n -> length b = n ->
  remove_overlap fuel a b = Some (out, ok) -> Forall (fun r => length r = n) out.
Proof.
  intros La Lb H. assert (T : forall r : range, Forall (fun _ => True) r) by (intros r; apply Forall_forall; trivial).
  apply (Forall_impl _ (fun r (C : colinv (fun _ => True) n r) => proj1 C)).
  exact (remove_overlap_colinv (fun _ => True) (fun _ _ _ _ _ => I) (fun _ _ _ _ _ _ => I) (fun _ _ _ _ _ _ => I)
           n fuel a b out ok (conj La (T a)) (conj Lb (T b)) H).
Qed.
Theorem ror_loop_sorted_len n fuel : forall finds tr work c out c',
  Forall (fun r => length r = n) tr -> Forall (fun r => length r = n) work -> ssorted tr ->
  ror_loop fuel finds tr work c = (ROk out, c') -> ssorted out.
Proof.
  intros finds tr work c out c' Wt Ww S H.
  destruct (ror_loop_inv (fun tr w => Forall (fun r => length r = n) tr /\ Forall (fun r => length r = n) w /\ ssorted tr) c')
    with (4 := H) as [E|[E|[tr' [[_ [_ S']] E]]]]; try discriminate; auto.
  - intros tr0 rang w0 found [W0 [Ww0 S0]] _ _. pose proof (Forall_inv Ww0) as Wr. pose proof (Forall_inv_tail Ww0) as Ww'. cbn beta in Wr.
    repeat split; [exact (Forall_tree_insert _ rang tr0 Wr W0)|exact Ww'|exact (tree_insert_sorted n rang tr0 Wr W0 S0)].
  - intros tr0 rang w0 cn news [W0 [Ww0 S0]] Hc RO. pose proof (Forall_inv Ww0) as Wr. pose proof (Forall_inv_tail Ww0) as Ww'. cbn beta in Wr.
    repeat split; [apply Forall_tree_remove; exact W0| |apply tree_remove_sorted; exact S0].
    apply Forall_app. split; [exact Ww'|]. rewrite Forall_forall in W0.
    exact (remove_overlap_length n _ _ _ _ _ (W0 cn Hc) Wr RO).
  - destruct (any_overlap _); [discriminate|]. injection E as ->. apply get_range_collection_sorted. exact S'.
Qed.
Theorem remove_overlapping_ranges_sorted_len n fuel finds rs out c :
  Forall (fun r => length r = n) rs -> remove_overlapping_ranges fuel finds rs = (ROk out, c) -> ssorted out.
Proof.
  destruct rs as [|r0 rest]; cbn [remove_overlapping_ranges]; [intros _ [= <- _]; constructor|].
  intros W. apply (ror_loop_sorted_len n); [repeat constructor; exact (Forall_inv W)|exact (Forall_inv_tail W)|repeat constructor].
Qed.
Theorem remove_overlapping_ranges_sorted n fuel finds rs out c :
  Forall (wf n) rs -> remove_overlapping_ranges fuel finds rs = (ROk out, c) -> ssorted out.
Proof.
  intros W. apply (remove_overlapping_ranges_sorted_len n). eapply Forall_impl; [|exact W]. intros r [L _]. exact L.
Qed.
