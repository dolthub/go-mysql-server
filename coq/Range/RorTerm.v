(* C46 proofs, part 7: the worklist loop of RemoveOverlappingRanges terminates when no input column is empty at the
   cut level.  Measure: (cells covered by tree + worklist counted with multiplicity, number of ranges, length of the
   worklist), lexicographically; cells are counted on the grid of all cuts occurring in the input. *)
From Coq Require Import List ZArith Bool Lia PeanoNat.
Import ListNotations.
From GMS Require Import Range.Cut Range.CutProofs Range.MRange Range.MRangeProofs Range.MRangeMore.
Open Scope nat_scope.

(* the measure (T, cnt, wl), ordered lexicographically, packed into one number; cnt and wl stay below B + 1 *)
Lemma mu_dec T' T cnt' cnt wl' wl B : cnt' <= B -> wl' <= B ->
  T' + 1 <= T \/ (T' <= T /\ cnt' + 1 <= cnt) \/ (T' <= T /\ cnt' <= cnt /\ wl' < wl) ->
  (T' * (B + 1) + cnt') * (B + 1) + wl' < (T * (B + 1) + cnt) * (B + 1) + wl.
Proof.
  intros H2 H3 [H|[[H H']|[H [H' H'']]]].
  - assert (E : T = T' + 1 + (T - T' - 1)) by lia. rewrite E. set (d := T - T' - 1). nia.
  - assert ((T' * (B + 1) + cnt' + 1) * (B + 1) <= (T * (B + 1) + cnt) * (B + 1)) by (apply Nat.mul_le_mono_r; nia). lia.
  - assert ((T' * (B + 1) + cnt') * (B + 1) <= (T * (B + 1) + cnt) * (B + 1)) by (apply Nat.mul_le_mono_r; nia). lia.
Qed.

Section Grid.
Variable G : list cut.

(* position of a cut on the grid: how many grid cuts lie strictly below it *)
Definition idx (c : cut) : nat := length (filter (fun g => cmp_lt (cut_cmp g c)) G).
Definition width (r : rce) : nat := idx (hi r) - idx (lo r).

Lemma filter_len_le {A} (p q : A -> bool) l : (forall x, p x = true -> q x = true) ->
  length (filter p l) <= length (filter q l).
Proof.
  intros H. induction l as [|x l IH]; cbn; [lia|]. destruct (p x) eqn:P.
  - rewrite (H x P). cbn. lia.
  - destruct (q x); cbn; lia.
Qed.
Lemma filter_len_lt {A} (p q : A -> bool) l y : (forall x, p x = true -> q x = true) ->
  In y l -> p y = false -> q y = true -> length (filter p l) < length (filter q l).
Proof.
  intros H. induction l as [|x l IH]; cbn; [tauto|]. intros [->|I] Py Qy.
  - rewrite Py, Qy. cbn. pose proof (filter_len_le p q l H). lia.
  - specialize (IH I Py Qy). destruct (p x) eqn:P; [rewrite (H x P); cbn; lia|]. destruct (q x); cbn; lia.
Qed.
Lemma idx_mono a b : cut_cmp a b <> Gt -> idx a <= idx b.
Proof.
  intros H. apply filter_len_le. intros g. rewrite !cut_ltb_true. intros Hg. exact (cut_lt_le_trans g a b Hg H).
Qed.
Lemma idx_strict a b : In a G -> cut_cmp a b = Lt -> idx a < idx b.
Proof.
  intros I H. apply (filter_len_lt _ _ G a); auto.
  - intros g. rewrite !cut_ltb_true. intros Hg. exact (cut_cmp_trans g a b Hg H).
  - rewrite cut_cmp_refl. reflexivity.
  - rewrite H. reflexivity.
Qed.

Definition gcol (r : rce) : Prop := cut_cmp (lo r) (hi r) = Lt /\ In (lo r) G /\ In (hi r) G.
Definition grange (n : nat) (r : range) : Prop := length r = n /\ Forall gcol r.

Lemma gcol_nonempty r : gcol r -> is_empty r = false.
Proof. intros [H _]. apply is_empty_false. exact H. Qed.
Lemma gcol_width r : gcol r -> 1 <= width r.
Proof. intros [H [I _]]. unfold width. pose proof (idx_strict _ _ I H). lia. Qed.
Lemma grange_wf n r : grange n r -> wf n r.
Proof.
  intros [L F]. split; [exact L|]. apply no_empty_col_Forall. exact (Forall_impl _ gcol_nonempty F).
Qed.

Lemma overlaps_gcol x y : gcol x -> gcol y -> snd (overlaps x y) = true -> gcol (fst (overlaps x y)).
Proof.
  intros Gx Gy O. split; [apply is_empty_false, overlaps_nonempty; auto using gcol_nonempty|].
  destruct Gx as [_ [Ix1 Ix2]], Gy as [_ [Iy1 Iy2]]. rewrite (overlaps_fst x y O). cbn [lo hi].
  destruct (cut_max_spec (lo x) (lo y)) as [[_ ->]|[_ ->]], (cut_min_spec (hi x) (hi y)) as [[_ ->]|[_ ->]]; auto.
Qed.
Lemma subtract_gcol x ov p : gcol x -> gcol ov -> In p (subtract x ov) -> gcol p.
Proof.
  intros Gx [_ [Io1 Io2]] Ip. destruct (subtract_in x ov p Ip) as [[_ ->]|[_ [[L ->]|[L ->]]]]; [exact Gx| |];
    destruct Gx as [_ [Ix1 Ix2]]; repeat split; assumption.
Qed.
(* the part of [a, b) that Subtract keeps, if any, has width idx b - idx a *)
Lemma width_piece a b : cut_cmp a b <> Gt ->
  list_sum (map width (if cmp_lt (cut_cmp a b) then [mkR a b] else [])) = idx b - idx a.
Proof.
  intros H. destruct (cmp_lt (cut_cmp a b)) eqn:E; cbn; [unfold width; cbn [lo hi]; lia|].
  apply cut_ltb_false, idx_mono in E. lia.
Qed.
Lemma subtract_width x y : gcol x -> gcol y -> snd (overlaps x y) = true ->
  list_sum (map width (subtract x (fst (overlaps x y)))) + width (fst (overlaps x y)) = width x.
Proof.
  intros Gx Gy O. pose proof (overlaps_gcol x y Gx Gy O) as [NE _]. destruct Gx as [Hx _].
  rewrite (overlaps_fst x y O) in *. cbn [lo hi] in NE. apply overlaps_snd_true in O. destruct O as [O1 O2].
  set (l := cut_max (lo x) (lo y)) in *. set (u := cut_min (hi x) (hi y)) in *.
  assert (L : cut_cmp (lo x) l <> Gt) by apply cut_max_ge. assert (U : cut_cmp u (hi x) <> Gt) by apply cut_min_le.
  rewrite subtract_overlap by (apply overlaps_snd_true; cbn [lo hi]; eauto with cuts).
  cbn [lo hi]. rewrite map_app, list_sum_app, !width_piece by assumption. unfold width. cbn [lo hi].
  apply idx_mono in L, U. apply cut_lt_le, idx_mono in NE. lia.
Qed.

Lemma try_union_gcol x y u : gcol x -> gcol y -> try_union x y = Some u ->
  gcol u /\ width u <= width x + width y /\ (snd (overlaps x y) = true -> width u + 1 <= width x + width y).
Proof.
  intros Gx Gy U. pose proof (try_union_nonempty x y u (gcol_nonempty x Gx) (gcol_nonempty y Gy) U) as NE.
  rewrite (try_union_connected x y (gcol_nonempty x Gx) (gcol_nonempty y Gy)) in U.
  destruct (is_connected x y) eqn:C; [|discriminate]. injection U as <-.
  apply is_connected_true in C. destruct C as [C1 C2]. apply idx_mono in C1, C2.
  destruct Gx as [Hx [Ix1 Ix2]], Gy as [Hy [Iy1 Iy2]].
  pose proof (idx_strict _ _ Ix1 Hx) as S1. pose proof (idx_strict _ _ Iy1 Hy) as S2.
  assert (S3 : snd (overlaps x y) = true -> idx (lo x) < idx (hi y) /\ idx (lo y) < idx (hi x)).
  { intros O. apply overlaps_snd_true in O. destruct O. split; apply idx_strict; assumption. }
  split; [split; [apply is_empty_false; exact NE|]|]; unfold width; cbn [lo hi];
    destruct (cut_min_spec (lo x) (lo y)) as [[_ ->]|[_ ->]], (cut_max_spec (hi x) (hi y)) as [[_ ->]|[_ ->]];
    auto; (split; [|intros O; apply S3 in O]); lia.
Qed.
Lemma gcol_union x y u : gcol x -> gcol y -> try_union x y = Some u -> gcol u.
Proof. intros Gx Gy U. exact (proj1 (try_union_gcol x y u Gx Gy U)). Qed.

Fixpoint vol (a : range) : nat := match a with [] => 1 | c :: a' => width c * vol a' end.
Definition svol (l : list range) : nat := list_sum (map vol l).

Lemma vol_pos a : Forall gcol a -> 1 <= vol a.
Proof. induction 1 as [|c a Gc F IH]; cbn; [lia|]. pose proof (gcol_width c Gc). nia. Qed.
Lemma vol_replace a i : i < length a -> Forall gcol a ->
  exists R, 1 <= R /\ vol a = width (nth i a empty_rce) * R /\ forall c, vol (replace i c a) = width c * R.
Proof.
  revert i. induction a as [|x a IH]; intros i L F; cbn in L; [lia|]. inversion F as [|? ? Gx F']; subst.
  destruct i as [|i].
  - exists (vol a). repeat split; auto. apply vol_pos. exact F'.
  - destruct (IH i ltac:(lia) F') as [R [R1 [R2 R3]]]. exists (width x * R). pose proof (gcol_width x Gx).
    repeat split; [nia|cbn; rewrite R2; lia|]. intros c. cbn. rewrite R3. lia.
Qed.
Lemma svol_cons r l : svol (r :: l) = vol r + svol l.
Proof. reflexivity. Qed.
Lemma svol_app xs ys : svol (xs ++ ys) = svol xs + svol ys.
Proof. unfold svol. rewrite map_app, list_sum_app. reflexivity. Qed.
Lemma svol_pieces i a pcs R : (forall c, vol (replace i c a) = width c * R) ->
  svol (map (fun c => replace i c a) pcs) = list_sum (map width pcs) * R.
Proof.
  intros H. induction pcs as [|p pcs IH]; cbn [map]; [reflexivity|]. rewrite svol_cons, H, IH.
  change (list_sum (width p :: map width pcs)) with (width p + list_sum (map width pcs)). lia.
Qed.

Lemma nth_gcol i a : i < length a -> Forall gcol a -> gcol (nth i a empty_rce).
Proof. intros L F. apply Forall_nth; assumption. Qed.

Lemma try_merge_vol n a b m : grange n a -> grange n b -> try_merge a b = Some m ->
  vol m <= vol a + vol b /\ (r_overlaps a b = true -> vol m + 1 <= vol a + vol b).
Proof.
  intros [La Fa] [Lb Fb] M. pose proof (vol_pos a Fa). pose proof (vol_pos b Fb).
  destruct (try_merge_some a b m M) as [_ [[_ ->]|[[_ ->]|M']]]; [split; lia ..|].
  destruct (merge_one_some a b m M') as (i & y & u & L & -> & U & ->).
  pose proof (nth_gcol i a L Fa) as Gx. pose proof (Forall_replaced gcol i y a L Fb) as Gy.
  destruct (try_union_gcol _ y u Gx Gy U) as [_ [W1 W2]].
  destruct (vol_replace a i L Fa) as [R [R1 [R2 R3]]]. rewrite R2, !R3. split; [nia|].
  intros O. apply all2_nth_iff in O. destruct O as [_ O]. specialize (O i L).
  rewrite (nth_replace_same i y a L) in O. specialize (W2 O). nia.
Qed.

Theorem remove_overlap_vol n fuel : forall a b out ok, grange n a -> grange n b ->
  remove_overlap fuel a b = Some (out, ok) ->
  Forall (grange n) out /\ svol out <= vol a + vol b /\ (r_overlaps a b = true -> svol out + 1 <= vol a + vol b) /\
  (ok = true -> r_overlaps a b = false -> length out = 1).
Proof.
  intros a b out ok Ga Gb H.
  split; [exact (remove_overlap_colinv gcol overlaps_gcol subtract_gcol gcol_union n fuel a b out ok Ga Gb H)|].
  revert fuel a b out ok H Ga Gb.
  apply (remove_overlap_ind (fun a b out ok => grange n a -> grange n b ->
    svol out <= vol a + vol b /\ (r_overlaps a b = true -> svol out + 1 <= vol a + vol b) /\
    (ok = true -> r_overlaps a b = false -> length out = 1))).
  - intros a b m M Ga Gb. destruct (try_merge_vol n a b m Ga Gb M) as [V1 V2].
    unfold svol. cbn. repeat split; auto; try lia. intros O. specialize (V2 O). lia.
  - intros a b _ O Ga Gb. unfold svol. cbn. repeat split; auto; try lia; congruence.
  - intros a b i rs ok f _ O La Lb x y ov OV _ IH [Na Fa] [Nb Fb].
    assert (Gx : gcol x) by (apply nth_gcol; assumption). assert (Gy : gcol y) by (apply nth_gcol; assumption).
    assert (Go : gcol ov) by (apply overlaps_gcol; assumption).
    assert (GR : forall d c, grange n d -> gcol c -> grange n (replace i c d)).
    { intros d c [Nd Fd] Gc. split; [rewrite replace_length; exact Nd|apply Forall_replace; assumption]. }
    destruct (IH (GR a ov (conj Na Fa) Go) (GR b ov (conj Nb Fb) Go)) as [_ [V2 _]].
    (* the two recursive arguments overlap: they agree with a and b outside column i and are equal there *)
    assert (O' : r_overlaps (replace i ov a) (replace i ov b) = true).
    { apply all2_nth_iff in O. destruct O as [Len O]. apply all2_nth_iff. rewrite !replace_length. split; [exact Len|].
      intros j Lj. rewrite !nth_replace by assumption. destruct (Nat.eqb j i); [|exact (O j Lj)].
      apply overlaps_snd_true. destruct Go. auto. }
    specialize (V2 O').
    destruct (vol_replace a i La Fa) as [Ra [Ra1 [Ra2 Ra3]]]. destruct (vol_replace b i Lb Fb) as [Rb [Rb1 [Rb2 Rb3]]].
    fold x in Ra2. fold y in Rb2. rewrite Ra3, Rb3 in V2.
    pose proof (subtract_width x y Gx Gy OV) as SW1. fold ov in SW1.
    pose proof (subtract_width y x Gy Gx) as SW2. rewrite (overlaps_comm x y) in SW2. fold ov in SW2. specialize (SW2 OV).
    assert (SV : svol (map (fun c => replace i c a) (subtract x ov) ++ map (fun c => replace i c b) (subtract y ov) ++ rs)
                 + 1 <= vol a + vol b).
    { rewrite !svol_app, (svol_pieces i a _ Ra Ra3), (svol_pieces i b _ Rb Rb3), Ra2, Rb2. nia. }
    repeat split; [lia|lia|congruence].
Qed.

Lemma len_le_svol n l : Forall (grange n) l -> length l <= svol l.
Proof.
  induction 1 as [|r l [_ F] _ IH]; [apply Nat.le_refl|]. rewrite svol_cons. pose proof (vol_pos r F). cbn [length]. lia.
Qed.
Lemma svol_tree_insert r tr : svol (tree_insert r tr) <= vol r + svol tr /\ length (tree_insert r tr) <= 1 + length tr.
Proof.
  induction tr as [|y tr IH]; cbn [tree_insert]; [rewrite svol_cons; cbn [length]; lia|].
  destruct (r_equals r y); [|destruct (r_lt r y)]; rewrite ?svol_cons in *; cbn [length]; lia.
Qed.
Lemma svol_tree_remove c tr : In c tr -> svol (tree_remove c tr) + vol c = svol tr /\ length (tree_remove c tr) + 1 = length tr.
Proof.
  induction tr as [|y tr IH]; cbn [tree_remove In]; [tauto|]. intros H. rewrite svol_cons. destruct (r_equals c y) eqn:E.
  - apply r_equals_eq in E. subst. cbn [length]. lia.
  - destruct H as [->|H]; [rewrite (proj2 (r_equals_eq c c) eq_refl) in E; discriminate|].
    destruct (IH H). rewrite svol_cons. cbn [length]. lia.
Qed.

Definition mu (B : nat) (tr work : list range) : nat :=
  ((svol tr + svol work) * (B + 1) + (length tr + length work)) * (B + 1) + length work.

Lemma first_ok_not_none found rang : first_ok found rang <> None.
Proof.
  induction found as [|y found IH]; cbn [first_ok]; [discriminate|].
  destruct (remove_overlap_terminates y rang) as [out [ok E]]. rewrite E. destruct ok; [discriminate|exact IH].
Qed.

Theorem ror_loop_terminates n B fuel : forall finds tr work c,
  Forall (grange n) tr -> Forall (grange n) work -> svol tr + svol work <= B -> mu B tr work < fuel ->
  fst (ror_loop fuel finds tr work c) <> RFuel.
Proof.
  induction fuel as [|f IH]; intros finds tr work c Gt Gw HB HM; [lia|].
  destruct work as [|rang work]; cbn [ror_loop]; [destruct (any_overlap _); discriminate|].
  destruct finds as [|found finds]; [discriminate|].
  destruct (find_sound tr rang found) eqn:FS; cbn [negb]; [|discriminate].
  inversion Gw as [|? ? Gr Gw']; subst.
  pose proof (len_le_svol n tr Gt) as LT. pose proof (len_le_svol n work Gw') as LW.
  assert (Vr : 1 <= vol rang) by (apply vol_pos; exact (proj2 Gr)).
  pose proof (svol_cons rang work) as SV.
  destruct (first_ok found rang) as [[[cn news]|]|] eqn:FO; [| |exfalso; exact (first_ok_not_none _ _ FO)].
  - destruct (first_ok_some _ _ _ _ FO) as [Hin RO]. pose proof (find_sound_in _ _ _ _ FS Hin) as Hc.
    pose proof (proj1 (Forall_forall _ _) Gt cn Hc) as Gc.
    destruct (remove_overlap_vol n _ _ _ _ _ Gc Gr RO) as [Gn [V1 [V2 V3]]].
    destruct (svol_tree_remove cn tr Hc) as [R1 R2].
    pose proof (len_le_svol n news Gn) as LN.
    pose proof (Forall_tree_remove _ cn tr Gt) as Gt'.
    assert (Gw'' : Forall (grange n) (work ++ news)) by (apply Forall_app; split; assumption).
    pose proof (len_le_svol n _ Gt') as LT'.
    apply IH; auto.
    + rewrite svol_app. rewrite SV in HB. lia.
    + rewrite SV in HB. eapply Nat.lt_le_trans; [|apply Nat.lt_succ_r; exact HM].
      unfold mu. rewrite svol_app, app_length, SV. cbn [length].
      destruct (r_overlaps cn rang) eqn:O.
      * specialize (V2 eq_refl). apply mu_dec; lia.
      * specialize (V3 eq_refl eq_refl). rewrite V3. apply mu_dec; lia.
  - destruct (svol_tree_insert rang tr) as [I1 I2]. pose proof (Forall_tree_insert _ rang tr Gr Gt) as Gt'.
    apply IH; auto.
    + rewrite SV in HB. lia.
    + rewrite SV in HB. eapply Nat.lt_le_trans; [|apply Nat.lt_succ_r; exact HM].
      unfold mu. rewrite SV. cbn [length]. apply mu_dec; lia.
Qed.
End Grid.

Definition cuts_of (rs : list range) : list cut := flat_map (fun r => flat_map (fun c => [lo c; hi c]) r) rs.
Lemma cuts_of_in rs r c : In r rs -> In c r -> In (lo c) (cuts_of rs) /\ In (hi c) (cuts_of rs).
Proof.
  intros Ir Ic. unfold cuts_of. split; apply in_flat_map; exists r; (split; [exact Ir|]); apply in_flat_map; exists c; cbn; auto.
Qed.
Lemma wf_grange n rs : Forall (wf n) rs -> Forall (grange (cuts_of rs) n) rs.
Proof.
  intros W. apply Forall_forall. intros r Ir. rewrite Forall_forall in W. destruct (W r Ir) as [L NE].
  split; [exact L|]. apply Forall_forall. intros c Ic. destruct (cuts_of_in rs r c Ir Ic) as [I1 I2].
  split; [|split; assumption]. apply is_empty_false. apply no_empty_col_Forall in NE. rewrite Forall_forall in NE. exact (NE c Ic).
Qed.
Definition ror_bound (rs : list range) : nat :=
  let B := svol (cuts_of rs) rs in (B * (B + 1) + length rs) * (B + 1) + length rs.

Theorem remove_overlapping_ranges_terminates n rs finds fuel : Forall (wf n) rs -> ror_bound rs < fuel ->
  fst (remove_overlapping_ranges fuel finds rs) <> RFuel.
Proof.
  intros W HF. pose proof (wf_grange n rs W) as GR. destruct rs as [|r0 rest]; cbn [remove_overlapping_ranges]; [discriminate|].
  set (G := cuts_of (r0 :: rest)) in *. inversion GR as [|? ? G0 Grest]; subst.
  apply (ror_loop_terminates G n (svol G (r0 :: rest))); auto.
  - rewrite !svol_cons. change (svol G []) with 0. lia.
  - unfold ror_bound in HF. fold G in HF. unfold mu. cbn [length] in *. rewrite !svol_cons in *. change (svol G []) with 0. lia.
Qed.
