(* C46 proofs, part 2: set laws of the multi-column operations and of RemoveOverlappingRanges. *)
From Coq Require Import List ZArith Bool Lia PeanoNat.
Import ListNotations.
From GMS Require Import Range.Cut Range.CutProofs Range.MRange.
Open Scope nat_scope.

Lemma contains_all v : contains all_rce v = true.
Proof. reflexivity. Qed.

Lemma rcontains_length a t : rcontains a t = true -> length a = length t.
Proof.
  revert t. induction a as [|x a IH]; intros [|v t]; cbn; try discriminate; auto.
  intros H. apply andb_prop in H. f_equal. apply IH, H.
Qed.
Lemma r_equals_eq a b : r_equals a b = true <-> a = b.
Proof.
  revert b. induction a as [|x a IH]; intros [|y b]; cbn; split; intros H; try discriminate; try reflexivity.
  - apply andb_prop in H. destruct H as [H1 H2]. apply rce_equals_eq in H1. apply IH in H2. congruence.
  - injection H as -> ->. apply andb_true_intro. split; [apply rce_equals_eq|apply IH]; reflexivity.
Qed.
Lemma r_subset_sound a b t : r_is_subset_of a b = true -> rcontains a t = true -> rcontains b t = true.
Proof.
  revert b t. induction a as [|x a IH]; intros [|y b] [|v t]; cbn; try discriminate; auto.
  intros H C. apply andb_prop in H. apply andb_prop in C. destruct H as [H1 H2], C as [C1 C2].
  rewrite (is_subset_sound x y v H1 C1). cbn. eauto.
Qed.
Lemma r_overlaps_false a b t : r_overlaps a b = false -> rcontains a t && rcontains b t = false.
Proof.
  revert b t. induction a as [|x a IH]; intros [|y b] [|v t]; cbn; try discriminate; auto;
    try (intros; apply andb_false_r).
  intros H. apply andb_false_iff in H. destruct H as [H|H].
  - pose proof (overlaps_false x y v H) as D.
    destruct (contains x v), (contains y v); cbn in *; try discriminate; auto using andb_false_r.
  - pose proof (IH b t H) as D.
    destruct (contains x v), (contains y v), (rcontains a t), (rcontains b t); cbn in *; try discriminate; auto.
Qed.

Lemma intersect_cols_exact a b t : length a = length b ->
  match intersect_cols a b with
  | Some r => rcontains r t = rcontains a t && rcontains b t
  | None => rcontains a t && rcontains b t = false /\ a <> []
  end.
Proof.
  revert b t. induction a as [|x a IH]; intros [|y b] t L; cbn in L; try discriminate.
  - cbn. destruct t; reflexivity.
  - injection L as L. cbn [intersect_cols].
    pose proof (try_intersect_exact x y) as TE. pose proof (try_intersect_ok x y) as TO.
    destruct (try_intersect x y) as [i ok]. cbn [fst snd] in *. destruct ok.
    + destruct t as [|v t].
      * destruct (intersect_cols a b); cbn; [reflexivity|split; [reflexivity|discriminate]].
      * specialize (IH b t L). destruct (intersect_cols a b); cbn.
        -- rewrite IH, TE. destruct (contains x v), (contains y v), (rcontains a t), (rcontains b t); reflexivity.
        -- destruct IH as [IH _]. split; [|discriminate].
           destruct (contains x v), (contains y v), (rcontains a t), (rcontains b t); cbn in *; congruence.
    + split; [|discriminate]. destruct t as [|v t]; [reflexivity|]. cbn.
      specialize (TE v). rewrite (TO eq_refl) in TE. cbn in TE.
      destruct (contains x v), (contains y v); cbn in *; try discriminate; auto using andb_false_r.
Qed.
Lemma as_empty_contains a t : a <> [] -> rcontains (as_empty a) t = false.
Proof. destruct a; [congruence|]. intros _. destruct t; reflexivity. Qed.
Theorem r_intersect_exact a b t : length a = length b ->
  rcontains (r_intersect a b) t = rcontains a t && rcontains b t.
Proof.
  intros L. unfold r_intersect. rewrite L, Nat.eqb_refl. cbn.
  pose proof (intersect_cols_exact a b t L) as H. destruct (intersect_cols a b); [exact H|].
  destruct H as [H NE]. rewrite H. apply as_empty_contains. exact NE.
Qed.

Lemma replace_length i c a : length (replace i c a) = length a.
Proof. revert i. induction a as [|x a IH]; intros [|i]; cbn; auto. Qed.
Lemma replace_nth i a : replace i (nth i a empty_rce) a = a.
Proof. revert i. induction a as [|x a IH]; intros [|i]; cbn; try reflexivity. f_equal. apply IH. Qed.
Lemma nth_replace i j c a : i < length a ->
  nth j (replace i c a) empty_rce = if Nat.eqb j i then c else nth j a empty_rce.
Proof.
  revert i j. induction a as [|x a IH]; intros i j L; cbn in L; [lia|].
  destruct i as [|i], j as [|j]; cbn; try reflexivity. apply IH. lia.
Qed.
Lemma nth_replace_same i c a : i < length a -> nth i (replace i c a) empty_rce = c.
Proof. intros L. rewrite (nth_replace i i c a L), Nat.eqb_refl. reflexivity. Qed.
Lemma Forall_replace (P : rce -> Prop) i c a : P c -> Forall P a -> Forall P (replace i c a).
Proof. intros Hc F. revert i. induction F as [|x a Hx F IH]; intros [|i]; cbn; auto. Qed.
Lemma Forall_replaced (P : rce -> Prop) i c a : i < length a -> Forall P (replace i c a) -> P c.
Proof.
  intros L F. rewrite <- (nth_replace_same i c a L). apply Forall_nth; [exact F|rewrite replace_length; exact L].
Qed.
Lemma rcontains_replace i c a t : i < length a ->
  rcontains (replace i c a) t = contains c (nth i t None) && rcontains (replace i all_rce a) t.
Proof.
  revert i t. induction a as [|x a IH]; intros i t L; cbn in L; [lia|].
  destruct i as [|i]; destruct t as [|v t]; cbn [replace rcontains nth].
  - apply eq_sym, andb_false_r.
  - rewrite contains_all. reflexivity.
  - apply eq_sym, andb_false_r.
  - rewrite (IH i t) by lia. destruct (contains x v), (contains c (nth i t None)); reflexivity.
Qed.
Lemma rcontains_nth i a t : i < length a ->
  rcontains a t = contains (nth i a empty_rce) (nth i t None) && rcontains (replace i all_rce a) t.
Proof. intros L. rewrite <- (replace_nth i a) at 1. apply rcontains_replace. exact L. Qed.
Lemma all2_nth_iff f a b : all2 f a b = true <->
  length a = length b /\ forall i, i < length a -> f (nth i a empty_rce) (nth i b empty_rce) = true.
Proof.
  revert b. induction a as [|x a IH]; intros [|y b]; cbn [all2 length]; try (split; [discriminate|intros [[=] _]]).
  - split; [split; [reflexivity|intros i L; inversion L]|reflexivity].
  - rewrite andb_true_iff, IH. split.
    + intros [H [L N]]. split; [congruence|]. intros [|i] Li; [exact H|apply N; lia].
    + intros [[= L] N]. split; [exact (N 0 ltac:(lia))|]. split; [exact L|]. intros i Li. apply (N (S i)). lia.
Qed.

Lemma merge_one_some a b m : merge_one a b = Some m ->
  exists i y u, i < length a /\ b = replace i y a /\ try_union (nth i a empty_rce) y = Some u /\ m = replace i u a.
Proof.
  revert b m. induction a as [|x a IH]; intros [|y b] m; cbn [merge_one]; try discriminate.
  destruct (rce_equals x y) eqn:E.
  - apply rce_equals_eq in E. subst y. destruct (merge_one a b) as [m'|] eqn:M; try discriminate. intros [= <-].
    destruct (IH b m' M) as (i & y & u & L & -> & U & ->). exists (S i), y, u. cbn. auto with arith.
  - destruct (r_equals a b) eqn:E2; try discriminate. apply r_equals_eq in E2. subst b.
    destruct (try_union x y) as [u|] eqn:U; try discriminate. intros [= <-]. exists 0, y, u. cbn. auto with arith.
Qed.
Lemma try_merge_some a b m : try_merge a b = Some m ->
  length a = length b /\
  ((r_is_subset_of b a = true /\ m = a) \/ (r_is_subset_of a b = true /\ m = b) \/ merge_one a b = Some m).
Proof.
  unfold try_merge, r_is_superset_of. destruct (Nat.eqb_spec (length a) (length b)) as [L|]; [|discriminate].
  cbn [negb]. split; [exact L|]. destruct (r_is_subset_of b a); [injection H as <-; auto|].
  destruct (r_is_subset_of a b); [injection H as <-; auto|auto].
Qed.
Lemma merge_one_exact a b m t : merge_one a b = Some m -> rcontains m t = rcontains a t || rcontains b t.
Proof.
  intros M. destruct (merge_one_some a b m M) as (i & y & u & L & -> & U & ->).
  rewrite (rcontains_replace i u a t L), (rcontains_replace i y a t L), (rcontains_nth i a t L), (try_union_exact _ _ _ _ U).
  destruct (contains _ _), (contains y _), (rcontains _ t); reflexivity.
Qed.
Theorem try_merge_exact a b m t : try_merge a b = Some m -> rcontains m t = rcontains a t || rcontains b t.
Proof.
  intros M. destruct (try_merge_some a b m M) as [_ [[S ->]|[[S ->]|M']]]; [| |exact (merge_one_exact a b m t M')];
    pose proof (r_subset_sound _ _ t S); destruct (rcontains a t), (rcontains b t); cbn; auto; symmetry; auto.
Qed.
(* the "invalid index to merge" error of TryMerge cannot occur: with no differing column the first superset
   test already succeeds *)
Lemma r_subset_refl a : r_is_subset_of a a = true.
Proof.
  induction a as [|x a IH]; cbn; [reflexivity|]. rewrite IH, andb_true_r.
  unfold is_subset_of. rewrite !cut_cmp_refl. reflexivity.
Qed.
Lemma first_diff_none a b : length a = length b -> first_diff a b = None -> a = b.
Proof.
  revert b. induction a as [|x a IH]; intros [|y b] L; cbn in *; try discriminate; auto.
  destruct (rce_equals x y) eqn:E; try discriminate. apply rce_equals_eq in E. subst.
  destruct (first_diff a b) eqn:F; try discriminate. intros _. f_equal. apply IH; [lia|assumption].
Qed.
Theorem merge_error_unreachable a b : length a = length b -> first_diff a b = None -> try_merge a b = Some a.
Proof.
  intros L F. rewrite (first_diff_none a b L F). unfold try_merge, r_is_superset_of.
  rewrite Nat.eqb_refl, r_subset_refl. reflexivity.
Qed.
Lemma first_diff_some a b i : first_diff a b = Some i -> i < length a /\ i < length b.
Proof.
  revert b i. induction a as [|x a IH]; intros [|y b] i; cbn; try discriminate.
  destruct (rce_equals x y).
  - destruct (first_diff a b) eqn:F; try discriminate. intros [= <-]. destruct (IH b n F). lia.
  - intros [= <-]. lia.
Qed.
Lemma first_diff_neq a b i : first_diff a b = Some i -> rce_equals (nth i a empty_rce) (nth i b empty_rce) = false.
Proof.
  revert b i. induction a as [|x a IH]; intros [|y b] i; cbn [first_diff]; try discriminate.
  destruct (rce_equals x y) eqn:E.
  - destruct (first_diff a b) eqn:F; try discriminate. intros [= <-]. cbn. eauto.
  - intros [= <-]. exact E.
Qed.
Lemma ucontains_cons x xs t : ucontains (x :: xs) t = rcontains x t || ucontains xs t.
Proof. reflexivity. Qed.
Lemma ucontains_app xs ys t : ucontains (xs ++ ys) t = ucontains xs t || ucontains ys t.
Proof. apply existsb_app. Qed.
Lemma ucontains_pieces i a pcs t : i < length a ->
  ucontains (map (fun c => replace i c a) pcs) t =
  existsb (fun p => contains p (nth i t None)) pcs && rcontains (replace i all_rce a) t.
Proof.
  intros L. induction pcs as [|p pcs IH]; [reflexivity|]. cbn. unfold ucontains in IH. rewrite IH.
  rewrite (rcontains_replace i p a t L).
  destruct (contains p (nth i t None)), (existsb _ pcs), (rcontains _ t); reflexivity.
Qed.

(* RemoveOverlap, case by case: a merge; two ranges that do not overlap; or the first differing column i is split
   into what a and b have outside their overlap there, and the recursion goes on with the overlap in column i.
   (With an overlap and no differing column the merge has already succeeded.) *)
Lemma remove_overlap_ind (P : range -> range -> list range -> bool -> Prop) :
  (forall a b m, try_merge a b = Some m -> P a b [m] true) ->
  (forall a b, try_merge a b = None -> r_overlaps a b = false -> P a b [a; b] false) ->
  (forall a b i rs ok f, try_merge a b = None -> r_overlaps a b = true -> i < length a -> i < length b ->
     let x := nth i a empty_rce in let y := nth i b empty_rce in let ov := fst (overlaps x y) in
     snd (overlaps x y) = true -> remove_overlap f (replace i ov a) (replace i ov b) = Some (rs, ok) ->
     P (replace i ov a) (replace i ov b) rs ok ->
     P a b (map (fun c => replace i c a) (subtract x ov) ++ map (fun c => replace i c b) (subtract y ov) ++ rs) true) ->
  forall fuel a b out ok, remove_overlap fuel a b = Some (out, ok) -> P a b out ok.
Proof.
  intros Hm Hn Hs. induction fuel as [|f IH]; intros a b out ok; cbn [remove_overlap]; [discriminate|].
  destruct (try_merge a b) as [m|] eqn:M; [intros [= <- <-]; auto|].
  destruct (r_overlaps a b) eqn:O; cbn [negb]; [|intros [= <- <-]; auto].
  destruct (proj1 (all2_nth_iff _ a b) O) as [L N]. destruct (first_diff a b) as [i|] eqn:F.
  2:{ rewrite (merge_error_unreachable a b L F) in M. discriminate. }
  destruct (first_diff_some a b i F) as [La Lb].
  destruct (remove_overlap f _ _) as [[rs ok']|] eqn:R; [|discriminate].
  intros [= <- <-]. apply (Hs a b i rs ok' f); auto.
Qed.

(* the result covers exactly a ∪ b, for every fuel that suffices *)
Theorem remove_overlap_exact fuel a b out ok t :
  remove_overlap fuel a b = Some (out, ok) -> ucontains out t = rcontains a t || rcontains b t.
Proof.
  revert fuel a b out ok. apply remove_overlap_ind.
  - intros a b m M. cbn. rewrite orb_false_r. exact (try_merge_exact a b m t M).
  - intros a b _ _. cbn. rewrite orb_false_r. reflexivity.
  - intros a b i rs ok f _ _ La Lb x y ov OV _ IH.
    rewrite !ucontains_app, IH, !ucontains_pieces, !subtract_exact, !(rcontains_replace i ov) by assumption.
    rewrite (rcontains_nth i a t La), (rcontains_nth i b t Lb). fold x y.
    unfold ov. rewrite (overlaps_true x y _ OV).
    destruct (contains x _), (contains y _), (rcontains (replace i all_rce a) t), (rcontains (replace i all_rce b) t); reflexivity.
Qed.
Lemma remove_overlap_false fuel a b l : remove_overlap fuel a b = Some (l, false) -> r_overlaps a b = false.
Proof.
  intros H.
  refine (remove_overlap_ind (fun a b _ ok => ok = false -> r_overlaps a b = false) _ _ _ fuel a b l false H eq_refl);
    auto; discriminate.
Qed.

(* RemoveOverlap's recursion terminates: columns + 1 levels suffice *)
Fixpoint ndiff (a b : range) : nat :=
  match a, b with
  | x :: a', y :: b' => (if rce_equals x y then 0 else 1) + ndiff a' b'
  | _, _ => 0
  end.
Lemma ndiff_le a b : ndiff a b <= length a.
Proof. revert b. induction a as [|x a IH]; intros [|y b]; cbn; try lia. specialize (IH b). destruct (rce_equals x y); lia. Qed.
Lemma ndiff_replace a b i c : first_diff a b = Some i -> S (ndiff (replace i c a) (replace i c b)) = ndiff a b.
Proof.
  revert b i. induction a as [|x a IH]; intros [|y b] i; cbn [first_diff]; try discriminate.
  destruct (rce_equals x y) eqn:E.
  - destruct (first_diff a b) as [j|] eqn:F; try discriminate. intros [= <-]. cbn [replace ndiff]. rewrite E.
    cbn. f_equal. rewrite <- (IH b j F). reflexivity.
  - intros [= <-]. cbn [replace ndiff]. rewrite E, (proj2 (rce_equals_eq c c) eq_refl). reflexivity.
Qed.
Lemma remove_overlap_fuel fuel : forall a b, ndiff a b < fuel -> remove_overlap fuel a b <> None.
Proof.
  induction fuel as [|f IH]; intros a b L; [lia|]. cbn [remove_overlap].
  destruct (try_merge a b); [discriminate|]. destruct (negb (r_overlaps a b)); [discriminate|].
  destruct (first_diff a b) as [i|] eqn:F; [|discriminate].
  set (ov := fst (overlaps (nth i a empty_rce) (nth i b empty_rce))).
  pose proof (ndiff_replace a b i ov F) as D.
  specialize (IH (replace i ov a) (replace i ov b) ltac:(lia)).
  destruct (remove_overlap f (replace i ov a) (replace i ov b)) as [[rs ok]|]; [discriminate|congruence].
Qed.
Theorem remove_overlap_terminates a b : exists out ok, remove_overlap_top a b = Some (out, ok).
Proof.
  unfold remove_overlap_top. pose proof (remove_overlap_fuel (S (length a)) a b) as H.
  pose proof (ndiff_le a b). destruct (remove_overlap (S (length a)) a b) as [[out ok]|]; [eauto|].
  exfalso. apply H; [lia|reflexivity].
Qed.

(* the pieces are pairwise disjoint when no column of a or b is empty at the cut level *)
Definition no_empty_col (a : range) : bool := forallb (fun c => negb (is_empty c)) a.
Definition disjoint (p q : range) : Prop := forall t, rcontains p t && rcontains q t = false.
Inductive pairwise_disjoint : list range -> Prop :=
| pd_nil : pairwise_disjoint []
| pd_cons r rs : Forall (disjoint r) rs -> pairwise_disjoint rs -> pairwise_disjoint (r :: rs).

Lemma any_overlap_false_disjoint rs : any_overlap rs = false -> pairwise_disjoint rs.
Proof.
  induction rs as [|r rs IH]; cbn; intros H; constructor.
  - apply orb_false_iff in H. destruct H as [H _]. apply Forall_forall. intros q Hq t.
    apply r_overlaps_false. destruct (r_overlaps r q) eqn:E; [|reflexivity].
    rewrite <- H. symmetry. apply existsb_exists. eauto.
  - apply IH. apply orb_false_iff in H. tauto.
Qed.

Lemma intersect_cols_length a b r : length a = length b -> intersect_cols a b = Some r -> length r = length a.
Proof.
  revert b r. induction a as [|x a IH]; intros [|y b] r L; cbn in L; try discriminate; cbn [intersect_cols].
  - intros [= <-]. reflexivity.
  - destruct (try_intersect x y) as [i [|]]; try discriminate.
    destruct (intersect_cols a b) as [r'|] eqn:E; try discriminate. intros [= <-]. cbn. f_equal. apply (IH b); [lia|exact E].
Qed.
Lemma r_intersect_length a b : length a = length b -> length (r_intersect a b) = length a.
Proof.
  intros L. unfold r_intersect. rewrite L, Nat.eqb_refl. cbn [negb]. rewrite <- L.
  destruct (intersect_cols a b) eqn:E; [eapply intersect_cols_length; eauto|]. unfold as_empty. apply map_length.
Qed.
(* the arguments that take part: those of non-zero length *)
Definition all_contain (rs : list range) (t : tuple) : bool :=
  forallb (fun x => Nat.eqb (length x) 0 || rcontains x t) rs.
Definition lens_ok (n : nat) (rs : list range) : Prop := Forall (fun x => length x = 0 \/ length x = n) rs.
Lemma intersect_ranges_rest_exact n : n <> 0 -> forall rest rang, length rang = n -> lens_ok n rest ->
  exists r, intersect_ranges_rest rang rest = Some r /\ length r = n /\
            forall t, rcontains r t = rcontains rang t && all_contain rest t.
Proof.
  intros NZ. induction rest as [|rc rest IH]; intros rang L OK; cbn [intersect_ranges_rest].
  - rewrite L. destruct (Nat.eqb_spec n 0); [congruence|]. exists rang. repeat split; auto. intros t. cbn. rewrite andb_true_r. reflexivity.
  - inversion OK as [|? ? H1 H2]; subst. destruct H1 as [H1|H1].
    + rewrite H1. cbn [Nat.eqb]. destruct (IH rang eq_refl H2) as [r [E [Lr Hr]]]. exists r. repeat split; auto.
      intros t. rewrite Hr. cbn. rewrite H1. reflexivity.
    + destruct (Nat.eqb_spec (length rc) 0) as [Z|_]; [lia|].
      assert (LL : length rang = length rc) by lia.
      rewrite (r_intersect_length rang rc LL). destruct (Nat.eqb_spec (length rang) 0) as [Z|_]; [lia|].
      destruct (IH (r_intersect rang rc) (r_intersect_length rang rc LL) H2) as [r [E [Lr Hr]]].
      exists r. repeat split; auto. intros t. rewrite Hr, (r_intersect_exact rang rc t LL). cbn.
      destruct (Nat.eqb_spec (length rc) 0); [lia|]. cbn. rewrite andb_assoc. reflexivity.
Qed.
Theorem intersect_ranges_exact n rs : n <> 0 -> lens_ok n rs -> Exists (fun x => length x = n) rs ->
  exists r, intersect_ranges rs = Some r /\ length r = n /\ forall t, rcontains r t = all_contain rs t.
Proof.
  intros NZ. induction rs as [|rc rs IH]; intros OK EX; [inversion EX|]. cbn [intersect_ranges].
  inversion OK as [|? ? H1 H2]; subst. destruct (Nat.eqb_spec (length rc) 0) as [Z|NZ'].
  - assert (EX' : Exists (fun x => length x = n) rs) by (inversion EX; subst; [lia|assumption]).
    destruct (IH H2 EX') as [r [E [Lr Hr]]]. exists r. repeat split; auto. intros t. rewrite Hr. cbn.
    rewrite Z. reflexivity.
  - assert (L : length rc = n) by (destruct H1; [lia|assumption]).
    destruct (intersect_ranges_rest_exact n NZ rs rc L H2) as [r [E [Lr Hr]]]. exists r. repeat split; auto.
    intros t. rewrite Hr. cbn. destruct (Nat.eqb_spec (length rc) 0); [lia|]. reflexivity.
Qed.
Theorem intersect_ranges_none_when_all_zero rs : Forall (fun x => length x = 0) rs -> intersect_ranges rs = None.
Proof.
  induction rs as [|rc rs IH]; intros H; [reflexivity|]. inversion H; subst. cbn [intersect_ranges].
  replace (length rc) with 0 by auto. cbn. auto.
Qed.

Lemma r_is_empty_sound r t : t <> [] -> r_is_empty r = true -> rcontains r t = false.
Proof.
  intros NE. destruct r as [|x r]; [destruct t; [congruence|reflexivity]|]. unfold r_is_empty. clear NE.
  (* an empty column anywhere makes the range contain nothing, whatever the tuple *)
  generalize (x :: r). clear x r. intros r. revert t. induction r as [|x r IH]; intros [|v t]; cbn; try discriminate; [reflexivity|].
  intros H. apply orb_prop in H. destruct H as [H|H]; [rewrite (is_empty_sound x v H); reflexivity|].
  rewrite (IH t H). apply andb_false_r.
Qed.
Lemma tree_mem_in x tr : tree_mem x tr = true -> In x tr.
Proof.
  unfold tree_mem. intros H. apply existsb_exists in H. destruct H as [y [Hy E]]. apply r_equals_eq in E. congruence.
Qed.
Lemma find_sound_in tr rang found c : find_sound tr rang found = true -> In c found -> In c tr.
Proof.
  unfold find_sound. rewrite forallb_forall. intros FS Hin. apply FS, andb_prop in Hin. apply tree_mem_in, Hin.
Qed.
Lemma ucontains_in x tr t : In x tr -> rcontains x t = true -> ucontains tr t = true.
Proof. intros. apply existsb_exists. eauto. Qed.
Lemma tree_insert_exact x tr t : ucontains (tree_insert x tr) t = rcontains x t || ucontains tr t.
Proof.
  induction tr as [|y tr IH]; cbn; [reflexivity|]. destruct (r_equals x y) eqn:E.
  - apply r_equals_eq in E. subst. cbn. destruct (rcontains y t); reflexivity.
  - destruct (r_lt x y); cbn; [reflexivity|]. unfold ucontains in IH. rewrite IH.
    destruct (rcontains x t), (rcontains y t); reflexivity.
Qed.
Lemma tree_remove_exact x tr t : In x tr -> ucontains tr t = rcontains x t || ucontains (tree_remove x tr) t.
Proof.
  induction tr as [|y tr IH]; cbn; [tauto|]. intros H. destruct (r_equals x y) eqn:E.
  - apply r_equals_eq in E. subst. reflexivity.
  - destruct H as [H|H]; [subst; rewrite (proj2 (r_equals_eq x x) eq_refl) in E; discriminate|].
    cbn. unfold ucontains in IH. rewrite (IH H). destruct (rcontains x t), (rcontains y t); reflexivity.
Qed.
Lemma first_ok_some found rang c news : first_ok found rang = Some (Some (c, news)) ->
  In c found /\ remove_overlap_top c rang = Some (news, true).
Proof.
  induction found as [|y found IH]; cbn [first_ok In]; [discriminate|].
  destruct (remove_overlap_top y rang) as [[l [|]]|] eqn:R; try discriminate.
  - intros H. inversion H; subst. auto.
  - intros H. destruct (IH H). auto.
Qed.
Lemma collect_exact t : t <> [] -> forall tr acc emp res emp',
  rcontains emp t = false -> collect tr acc emp = (res, emp') ->
  ucontains res t = ucontains (rev acc) t || ucontains tr t /\ rcontains emp' t = false.
Proof.
  intros NE. induction tr as [|r tr IH]; intros acc emp res emp' He; cbn [collect].
  - intros [= <- <-]. cbn. rewrite orb_false_r. auto.
  - destruct (r_is_empty r) eqn:E.
    + intros H. pose proof (r_is_empty_sound r t NE E) as Hr. destruct (IH _ _ _ _ Hr H) as [H1 H2].
      split; [|exact H2]. rewrite H1. cbn. rewrite Hr. reflexivity.
    + destruct acc as [|last acc'].
      * intros H. destruct (IH _ _ _ _ He H) as [H1 H2]. split; [|exact H2]. rewrite H1. cbn.
        rewrite orb_false_r. reflexivity.
      * destruct (try_merge last r) as [m|] eqn:M; intros H; destruct (IH _ _ _ _ He H) as [H1 H2];
          (split; [|exact H2]); rewrite H1; cbn; unfold ucontains; rewrite !existsb_app; cbn.
        -- rewrite (try_merge_exact last r m t M).
           destruct (existsb _ (rev acc')), (rcontains last t), (rcontains r t); reflexivity.
        -- destruct (existsb _ (rev acc')), (rcontains last t), (rcontains r t); reflexivity.
Qed.
Lemma get_range_collection_exact tr t : t <> [] -> ucontains (get_range_collection tr) t = ucontains tr t.
Proof.
  intros NE. unfold get_range_collection. destruct (collect tr [] []) as [res emp] eqn:C.
  assert (He : rcontains [] t = false) by (destruct t; [congruence|reflexivity]).
  destruct (collect_exact t NE tr [] [] res emp He C) as [H1 H2]. cbn in H1.
  destruct res; [|exact H1]. cbn. rewrite H2, <- H1. reflexivity.
Qed.

Lemma first_ok_none found rang : first_ok found rang = Some None ->
  forall c, In c found -> r_overlaps c rang = false.
Proof.
  induction found as [|y found IH]; cbn [first_ok In]; [intros _ c []|].
  destruct (remove_overlap_top y rang) as [[l [|]]|] eqn:R; try discriminate.
  intros H c [<-|Ic]; [|apply IH; assumption]. exact (remove_overlap_false _ _ _ _ R).
Qed.
Lemma ror_loop_flag fuel : forall finds tr work c, snd (ror_loop fuel finds tr work c) = true -> c = true.
Proof.
  induction fuel as [|f IH]; intros finds tr [|rang work] c; cbn [ror_loop]; try (destruct (any_overlap _)); auto.
  destruct finds as [|found finds]; [auto|]. destruct (negb (find_sound tr rang found)); [auto|].
  destruct (first_ok found rang) as [[[cn news]|]|]; cbn [snd]; intros H; try apply IH in H; apply andb_prop in H; tauto.
Qed.
Lemma tree_insert_in x r tr : In x (tree_insert r tr) -> x = r \/ In x tr.
Proof.
  induction tr as [|y tr IH]; cbn; [intros [<-|[]]; auto|].
  destruct (r_equals r y); [auto|]. destruct (r_lt r y); cbn; [intros [<-|H]; auto|].
  intros [<-|H]; auto. destruct (IH H); auto.
Qed.
Lemma tree_remove_in x c tr : In x (tree_remove c tr) -> In x tr.
Proof.
  induction tr as [|y tr IH]; cbn; [auto|]. destruct (r_equals c y); [auto|]. intros [<-|H]; auto.
Qed.
Lemma Forall_tree_insert (P : range -> Prop) r tr : P r -> Forall P tr -> Forall P (tree_insert r tr).
Proof.
  intros Hr F. apply Forall_forall. intros x Ix. destruct (tree_insert_in _ _ _ Ix) as [->|Ix']; [exact Hr|].
  rewrite Forall_forall in F. auto.
Qed.
Lemma Forall_tree_remove (P : range -> Prop) c tr : Forall P tr -> Forall P (tree_remove c tr).
Proof. rewrite !Forall_forall. intros F x Ix. apply F. exact (tree_remove_in _ _ _ Ix). Qed.

(* The worklist loop.  A property of (tree, worklist) that both kinds of step keep holds, with the worklist empty, of
   the tree the result is read from.  The step that stores [rang] may use that no reported connection overlaps it,
   and that the observation was complete when the flag of the whole run says so. *)
Lemma ror_loop_inv (I : list range -> list range -> Prop) c' :
  (forall tr rang work found, I tr (rang :: work) ->
     (forall c, In c found -> r_overlaps c rang = false) -> (c' = true -> find_complete tr rang found = true) ->
     I (tree_insert rang tr) work) ->
  (forall tr rang work cn news, I tr (rang :: work) -> In cn tr -> remove_overlap_top cn rang = Some (news, true) ->
     I (tree_remove cn tr) (work ++ news)) ->
  forall fuel finds tr work c res, I tr work -> ror_loop fuel finds tr work c = (res, c') ->
  res = RFuel \/ res = RBadTrace \/
  exists tr', I tr' [] /\
    res = if any_overlap (get_range_collection tr') then RErrOverlap else ROk (get_range_collection tr').
Proof.
  intros Hi Hr.
  assert (End : forall tr c res, I tr [] ->
    (if any_overlap (get_range_collection tr) then (RErrOverlap, c) else (ROk (get_range_collection tr), c)) = (res, c') ->
    res = RFuel \/ res = RBadTrace \/ exists tr', I tr' [] /\
      res = if any_overlap (get_range_collection tr') then RErrOverlap else ROk (get_range_collection tr')).
  { intros tr c res Inv E. right. right. exists tr. split; [exact Inv|]. destruct (any_overlap _); congruence. }
  induction fuel as [|f IH]; intros finds tr work c res Inv; destruct work as [|rang work]; cbn [ror_loop]; eauto.
  { intros [= <- _]. auto. }
  destruct finds as [|found finds]; [intros [= <- _]; auto|].
  destruct (find_sound tr rang found) eqn:FS; cbn [negb]; [|intros [= <- _]; auto].
  destruct (first_ok found rang) as [[[cn news]|]|] eqn:FO; [| |intros [= <- _]; auto]; intros H.
  - destruct (first_ok_some _ _ _ _ FO) as [Hin RO]. apply (IH _ _ _ _ _ (Hr _ _ _ _ _ Inv (find_sound_in _ _ _ _ FS Hin) RO) H).
  - refine (IH _ _ _ _ _ (Hi _ _ _ found Inv (first_ok_none _ _ FO) _) H).
    intros ->. apply (f_equal snd) in H. apply ror_loop_flag, andb_prop in H. tauto.
Qed.

Theorem ror_loop_exact t : t <> [] -> forall fuel finds tr work c out c',
  ror_loop fuel finds tr work c = (ROk out, c') ->
  ucontains out t = ucontains tr t || ucontains work t /\ pairwise_disjoint out.
Proof.
  intros NE fuel finds tr work c out c' H.
  destruct (ror_loop_inv (fun tr0 w0 => ucontains tr0 t || ucontains w0 t = ucontains tr t || ucontains work t) c')
    with (4 := H) as [E|[E|[tr' [I E]]]]; try discriminate.
  - intros tr0 rang w0 _ <- _ _. rewrite tree_insert_exact, ucontains_cons.
    destruct (rcontains rang t), (ucontains tr0 t); reflexivity.
  - intros tr0 rang w0 cn news <- Hc RO. rewrite (tree_remove_exact cn tr0 t Hc), ucontains_app.
    rewrite (remove_overlap_exact _ _ _ _ _ t RO), ucontains_cons.
    destruct (rcontains cn t), (rcontains rang t), (ucontains (tree_remove cn tr0) t), (ucontains w0 t); reflexivity.
  - reflexivity.
  - destruct (any_overlap _) eqn:A; [discriminate|]. injection E as ->. rewrite orb_false_r in I.
    split; [rewrite <- I; apply get_range_collection_exact; exact NE|apply any_overlap_false_disjoint; exact A].
Qed.
Theorem remove_overlapping_ranges_exact fuel finds rs out c t : t <> [] ->
  remove_overlapping_ranges fuel finds rs = (ROk out, c) ->
  ucontains out t = ucontains rs t /\ pairwise_disjoint out.
Proof.
  intros NE. destruct rs as [|r0 rest]; cbn [remove_overlapping_ranges].
  - intros [= <- <-]. split; [reflexivity|constructor].
  - intros H. destruct (ror_loop_exact t NE _ _ _ _ _ _ _ H) as [H1 H2]. split; [|exact H2].
    rewrite H1. cbn. rewrite orb_false_r. reflexivity.
Qed.
