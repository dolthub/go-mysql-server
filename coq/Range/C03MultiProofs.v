(* C03 proofs, part 2: completeness and precision of the builder's ranges for conjunctions over k index columns
   with In / NotIn, and for disjunctions of such conjunctions after RemoveOverlappingRanges. *)
From Coq Require Import List ZArith Bool Lia PeanoNat.
Import ListNotations.
From GMS Require Import Base.ListFacts Range.Cut Range.CutProofs Range.MRange Range.MRangeProofs
  Range.C03IndexBuilder Range.C03IndexBuilderProofs Range.C03Multi.
Open Scope nat_scope.

Fixpoint cols_has (cols : list (list rce)) (t : tuple) : bool :=
  match cols, t with
  | [], [] => true
  | c :: cs, v :: t' => lookup_has c v && cols_has cs t'
  | _, _ => false
  end.

Lemma existsb_andb_l {A} (b : bool) (f : A -> bool) l : existsb (fun x => b && f x) l = b && existsb f l.
Proof. induction l as [|x l IH]; cbn; [rewrite andb_false_r; reflexivity|]. rewrite IH. destruct b, (f x); reflexivity. Qed.
Lemma existsb_andb_r {A} (b : bool) (f : A -> bool) l : existsb (fun x => f x && b) l = existsb f l && b.
Proof. induction l as [|x l IH]; cbn; [reflexivity|]. rewrite IH. destruct b, (f x), (existsb f l); reflexivity. Qed.

Lemma product_exact cols t : ucontains (product cols) t = cols_has cols t.
Proof.
  revert t. induction cols as [|c cs IH]; intros t; cbn [product cols_has].
  - destruct t; reflexivity.
  - unfold ucontains. rewrite existsb_flat_map. destruct t as [|v t'].
    + transitivity (existsb (fun _ : range => false) (product cs)).
      * apply existsb_ext. intros tail. rewrite existsb_map. clear. induction c; cbn; auto.
      * clear. induction (product cs); cbn; auto.
    + rewrite <- IH. unfold ucontains, lookup_has.
      rewrite <- existsb_andb_l. apply existsb_ext. intros tail. rewrite existsb_map. cbn [rcontains].
      apply existsb_andb_r.
Qed.
Lemma rotate_ranges_exact l t : ucontains (rotate_ranges l) t = ucontains l t.
Proof. destruct l as [|h tl]; [reflexivity|apply existsb_rotate]. Qed.
Lemma filter_nonempty_exact l t : t <> [] -> ucontains (filter (fun r => negb (r_is_empty r)) l) t = ucontains l t.
Proof.
  intros NE. apply existsb_filter_negb. intros r. apply r_is_empty_sound. exact NE.
Qed.
Lemma empty_row_has_nothing (cols : list (list rce)) t : cols <> [] -> rcontains (map (fun _ => empty_rce) cols) t = false.
Proof. destruct cols; [congruence|]. intros _. destruct t; reflexivity. Qed.
Lemma cols_has_length cols t : cols_has cols t = true -> length cols = length t.
Proof. revert t. induction cols as [|c cs IH]; intros [|v t]; cbn; try discriminate; auto. intros H. apply andb_prop in H. f_equal. apply IH. tauto. Qed.

Lemma mresult_exact cols inv t : t <> [] -> length cols = length t ->
  ucontains (mresult (cols, inv)) t = if inv then false else cols_has cols t.
Proof.
  intros NE L. assert (NC : cols <> []) by (destruct cols, t; cbn in *; congruence).
  unfold mresult. destruct inv.
  - cbn. rewrite (empty_row_has_nothing cols t NC). reflexivity.
  - pose proof (filter_nonempty_exact (rotate_ranges (product cols)) t NE) as F.
    rewrite rotate_ranges_exact, product_exact in F.
    destruct (filter _ (rotate_ranges (product cols))); [|exact F]. cbn in F. rewrite <- F. cbn.
    rewrite (empty_row_has_nothing cols t NC). reflexivity.
Qed.

Lemma lookup_all v : lookup_has [all_rce] v = true.
Proof. reflexivity. Qed.
Lemma cols_has_set c new cols t : c < length cols ->
  cols_has (set_nth c new cols) t = lookup_has new (nth c t None) && cols_has (set_nth c [all_rce] cols) t.
Proof.
  revert c t. induction cols as [|x cols IH]; intros c t L; cbn in L; [lia|].
  destruct c as [|c]; destruct t as [|v t]; cbn [set_nth cols_has nth]; try (symmetry; apply andb_false_r).
  - rewrite lookup_all. reflexivity.
  - rewrite (IH c t) by lia. destruct (lookup_has x v), (lookup_has new (nth c t None)); reflexivity.
Qed.
Lemma set_nth_nth {A} c (d : A) l : set_nth c (nth c l d) l = l.
Proof. revert c. induction l as [|x l IH]; intros [|c]; cbn; try reflexivity. f_equal. apply IH. Qed.
Lemma cols_has_nth c cols t : c < length cols ->
  cols_has cols t = lookup_has (nth c cols []) (nth c t None) && cols_has (set_nth c [all_rce] cols) t.
Proof. intros L. rewrite <- (set_nth_nth c [] cols) at 1. apply cols_has_set. exact L. Qed.
Lemma set_nth_length {A} c (x : A) l : length (set_nth c x l) = length l.
Proof. revert c. induction l; intros [|c]; cbn; auto. Qed.

(* what a per-column step must satisfy: it narrows the column by the predicate p, or reports invalid when
   nothing of the column satisfies p *)
Definition col_spec (f : list rce -> bstate) (p : key -> bool) : Prop :=
  forall cur v, in_i32 v -> sgood v (f cur) (lookup_has cur v && p v).

Lemma op_spec o : col_spec (fun cur => apply_op (cur, false) o) (op_true o).
Proof. intros cur v R. exact (apply_op_good v (cur, false) o _ R eq_refl). Qed.
Lemma potential_in_exact ls v : in_i32 v -> lookup_has (potential_in ls) v = existsb (fun l => op_true (OEq l) v) ls.
Proof.
  intros R. unfold potential_in, lookup_has. rewrite existsb_flat_map. apply existsb_ext. intros l.
  exact (potential_exact (OEq l) v R).
Qed.
Lemma in_spec ls : ls <> [] -> col_spec (in_step ls) (fun v => existsb (fun l => op_true (OEq l) v) ls).
Proof.
  intros NE cur v R. unfold in_step. destruct ls as [|l0 ls']; [congruence|]. set (ls := l0 :: ls') in *.
  pose proof (update_col_exact cur (potential_in ls) v) as U. rewrite (potential_in_exact ls v R) in U.
  unfold sgood. destruct (update_col cur (potential_in ls)); cbn [fst snd]; [symmetry|]; exact U.
Qed.

Section OneTuple.
Variable t : tuple.
Hypothesis t_ok : Forall in_i32 t.
Let k := length t.

Lemma nth_in_i32 c : in_i32 (nth c t None).
Proof.
  destruct (Nat.lt_ge_cases c (length t)) as [L|L].
  - rewrite Forall_forall in t_ok. apply t_ok. apply nth_In. exact L.
  - rewrite nth_overflow by exact L. exact I.
Qed.

(* the state agrees with the boolean b = "all calls so far are TRUE of t" *)
Definition good (st : mstate) (b : bool) : Prop :=
  length (fst st) = k /\ if snd st then b = false else cols_has (fst st) t = b.

Lemma apply_col_good st b c f p : c < k -> col_spec f p -> good st b -> good (apply_col st c f) (b && p (nth c t None)).
Proof.
  intros Lc SP [Ln G]. unfold good. destruct st as [cols [|]]; cbn [fst snd apply_col] in *; subst b; [split; [exact Ln|reflexivity]|].
  specialize (SP (nth c cols []) (nth c t None) (nth_in_i32 c)). unfold sgood in SP.
  destruct (f (nth c cols [])) as [cur' inv']. cbn [fst snd] in *. split; [rewrite set_nth_length; exact Ln|].
  rewrite (cols_has_nth c cols t) by lia. destruct inv'.
  - rewrite (andb_comm (lookup_has _ _)), <- andb_assoc, SP. apply andb_false_r.
  - rewrite (cols_has_set c cur' cols t) by lia. rewrite SP, <- !andb_assoc. f_equal. apply andb_comm.
Qed.

Definition wf_bop (b : bop) : Prop :=
  bop_col b < k /\ match b with BIn _ ls => ls <> [] | _ => True end.

Lemma apply_bop_good st b o : wf_bop o -> good st b -> good (apply_bop st o) (b && bop_true o t).
Proof.
  intros [Lc W] G. destruct o as [c o|c ls|c ls]; cbn [apply_bop bop_true bop_col] in *.
  - apply apply_col_good; auto. apply op_spec.
  - apply (apply_col_good st b c (in_step ls) (fun v => existsb (fun l => op_true (OEq l) v) ls)); auto. apply in_spec. exact W.
  - revert st b G. induction ls as [|l ls IH]; intros st b G; cbn [fold_left forallb].
    + rewrite andb_true_r. exact G.
    + rewrite andb_assoc. apply IH.
      apply (apply_col_good st b c (fun cur => apply_op (cur, false) (ONe l)) (op_true (ONe l))); auto. apply op_spec.
Qed.
Lemma fold_good ops : Forall wf_bop ops -> forall st b, good st b -> good (fold_left apply_bop ops st) (b && conj_true ops t).
Proof.
  induction 1 as [|o ops W F IH]; intros st b G; cbn [fold_left conj_true forallb].
  - rewrite andb_true_r. exact G.
  - fold (conj_true ops t). rewrite andb_assoc. apply IH. apply apply_bop_good; assumption.
Qed.
Lemma init_good : good (minit k) true.
Proof.
  unfold minit, good. cbn [fst snd]. split; [apply repeat_length|].
  unfold k. clear. induction t as [|v t' IH]; cbn; [reflexivity|]. rewrite IH. reflexivity.
Qed.

(* completeness and precision for a conjunction of calls over the k columns *)
Theorem mlookup_exact ops : t <> [] -> Forall wf_bop ops ->
  ucontains (mresult (mrun k ops)) t = conj_true ops t.
Proof.
  intros NE W. destruct (fold_good ops W (minit k) true init_good) as [Ln G]. cbn [andb] in *.
  unfold mrun. destruct (fold_left apply_bop ops (minit k)) as [cols inv]. cbn [fst snd] in *.
  rewrite (mresult_exact cols inv t NE Ln). destruct inv; [symmetry|]; exact G.
Qed.

Lemma or_ranges_exact fs : t <> [] -> Forall (Forall wf_bop) fs -> ucontains (or_ranges k fs) t = or_true fs t.
Proof.
  intros NE W. unfold or_ranges, or_true, ucontains. rewrite existsb_flat_map.
  induction W as [|ops fs' Wo Wf IH]; cbn [existsb]; [reflexivity|]. rewrite IH.
  fold (ucontains (mresult (mrun k ops)) t). rewrite (mlookup_exact ops NE Wo). reflexivity.
Qed.
(* ... and for a disjunction of conjunctions: the children's collections are concatenated and the result goes
   through RemoveOverlappingRanges (any step bound, any admissible FindConnections observations) *)
Theorem or_lookup_exact fs fuel finds out c : t <> [] -> Forall (Forall wf_bop) fs ->
  remove_overlapping_ranges fuel finds (or_ranges k fs) = (ROk out, c) ->
  ucontains out t = or_true fs t.
Proof.
  intros NE W H. destruct (remove_overlapping_ranges_exact _ _ _ _ _ t NE H) as [E _]. rewrite E.
  apply or_ranges_exact; assumption.
Qed.
End OneTuple.

Lemma zinsert_in z x l : In z (zinsert x l) <-> z = x \/ In z l.
Proof.
  induction l as [|y l IH]; cbn; [intuition congruence|]. destruct (Z.ltb x y); cbn; [intuition congruence|].
  destruct (Z.eqb_spec x y) as [->|N]; cbn; [intuition congruence|]. rewrite IH. intuition congruence.
Qed.
Lemma zsort_in z l : In z (zsort_dedupe l) <-> In z l.
Proof. induction l as [|x l IH]; cbn; [tauto|]. rewrite zinsert_in, IH. intuition congruence. Qed.
Lemma existsb_same_elements {A} (f : A -> bool) l l' : (forall z, In z l <-> In z l') -> existsb f l = existsb f l'.
Proof.
  intros H. destruct (existsb f l) eqn:E.
  - apply existsb_exists in E. destruct E as [z [I F]]. symmetry. apply existsb_exists. exists z. split; [apply H; exact I|exact F].
  - destruct (existsb f l') eqn:E'; [|reflexivity]. apply existsb_exists in E'. destruct E' as [z [I F]].
    rewrite <- E. apply existsb_exists. exists z. split; [apply H; exact I|exact F].
Qed.
Definition lit_keys (l : lit) : list Z :=
  if lit_integral l then match conv (lit_floor l) with (z, InRange) => [z] | _ => [] end else [].
Lemma potential_eq_keys l v : lookup_has (potential (OEq l)) v = existsb (fun z => contains (closed_rce z z) v) (lit_keys l).
Proof.
  unfold potential, lit_keys. destruct (lit_integral l); cbn [negb]; [|reflexivity].
  destruct (conv (lit_floor l)) as [z r]. destruct r; reflexivity.
Qed.
Lemma in_fast_keys_exact ls v : in_i32 v ->
  existsb (fun z => contains (closed_rce z z) v) (zsort_dedupe (in_fast_keys ls)) = existsb (fun l => op_true (OEq l) v) ls.
Proof.
  intros R. rewrite (existsb_same_elements _ _ (in_fast_keys ls)) by (intros z; apply zsort_in).
  unfold in_fast_keys. rewrite existsb_flat_map. apply existsb_ext. intros l.
  fold (lit_keys l). rewrite <- potential_eq_keys. apply potential_exact. exact R.
Qed.
Theorem in_fast_exact ls rs v : in_i32 v -> in_fast ls = Some rs ->
  ucontains rs [v] = existsb (fun l => op_true (OEq l) v) ls.
Proof.
  intros R. unfold in_fast. rewrite <- (in_fast_keys_exact ls v R).
  destruct (zsort_dedupe (in_fast_keys ls)) as [|k ks]; [discriminate|]. intros [= <-].
  unfold ucontains. change ([closed_rce k k] :: map (fun z : Z => [closed_rce z z]) ks) with (map (fun z : Z => [closed_rce z z]) (k :: ks)).
  rewrite existsb_map. apply existsb_ext. intros z. cbn [rcontains]. apply andb_true_r.
Qed.
(* nil comes back exactly when the list can match no column value at all — and nil, unlike the empty range, is not
   read as "no rows" by the callers (finding: all rows through a primary key, a nil dereference through a secondary key) *)
Theorem in_fast_nil_iff ls : in_fast ls = None <-> forall v, in_i32 v -> existsb (fun l => op_true (OEq l) v) ls = false.
Proof.
  unfold in_fast. split.
  - destruct (zsort_dedupe (in_fast_keys ls)) eqn:E; [|discriminate]. intros _ v R.
    rewrite <- (in_fast_keys_exact ls v R), E. reflexivity.
  - intros H. destruct (zsort_dedupe (in_fast_keys ls)) as [|k ks] eqn:E; [reflexivity|exfalso].
    assert (Ik : In k (in_fast_keys ls)) by (apply zsort_in; rewrite E; left; reflexivity).
    assert (R : in_i32 (Some k)).
    { unfold in_fast_keys in Ik. apply in_flat_map in Ik. destruct Ik as [l [_ Il]].
      destruct (lit_integral l); [|destruct Il]. unfold conv in Il.
      destruct (Z.gtb_spec (lit_floor l) i32max); [destruct Il|]. destruct (Z.ltb_spec (lit_floor l) i32min); [destruct Il|].
      destruct Il as [<-|[]]. cbn. lia. }
    specialize (H (Some k) R). rewrite <- (in_fast_keys_exact ls (Some k) R), E in H. cbn in H.
    unfold contains, closed_rce in H. cbn in H. rewrite Z.leb_refl, Z.ltb_irrefl in H. discriminate.
Qed.
