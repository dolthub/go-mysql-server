(* C24 -- guarded compiler correctness, part 1: a one-pass compiler [compile'] with an explicit label environment, the
   guard [ok] describing the structured fragment without the constructs on which the faithful model is refuted, and the
   forward simulation: whatever the definition [exec] computes for a guarded statement, the machine computes on the
   code [compile'] produced for it (program counter ~ position in the code, LEAVE / ITERATE ~ an in-flight Goto whose
   remaining walk over ScopeEnd / ScopeBegin operations performs the pops the definition performs block by block). *)
From Coq Require Import List ZArith NArith Bool Lia.
Import ListNotations.
From GMS Require Import Lang.C24Proc.
Open Scope Z_scope.

Fixpoint clen (s : stmt) : Z :=
  match s with
  | SHandler _ _ | SRaise _ | SDeclare _ _ | SSet _ _ | SSetUser _ _ | SLeave _ | SIterate _ => 1
  | SSkip => 0
  | SSeq a b => clen a + clen b
  | SBlock _ b => clen b + 2
  | SIf _ t e => clen t + clen e + 2
  | SWhile _ _ b => clen b + 2
  | SRepeat _ b _ => clen b + clen b + 2
  | SLoop _ b => clen b + 1
  end.

(* enclosing loop labels -> (address ITERATE jumps to, address LEAVE jumps to) *)
Definition lenv := list (label * (Z * Z)).

Fixpoint assocE (k : label) (e : lenv) : option (Z * Z) :=
  match e with [] => None | (k', v) :: r => if N.eqb k k' then Some v else assocE k r end.

Definition bind (l : label) (v : Z * Z) (e : lenv) : lenv := if N.eqb l 0 then e else (l, v) :: e.

Fixpoint compile' (env : lenv) (base : Z) (s : stmt) : list op :=
  match s with
  | SHandler k h => [OpHandler k h]
  | SRaise d => [OpRaise d]
  | SSkip => []
  | SSeq a b => compile' env base a ++ compile' env (base + clen a) b
  | SDeclare x v => [OpDeclare x v]
  | SSet x e => [OpSet x e]
  | SSetUser u e => [OpExecUser u e]
  | SBlock l body => OpScopeBegin l (base + 1) :: compile' env (base + 1) body ++ [OpScopeEnd l (base + 1 + clen body + 1)]
  | SIf c th el =>
      let es := base + 1 + clen th + 1 in
      OpIf c es :: compile' env (base + 1) th ++ [OpGoto 0%N (es + clen el)] ++ compile' env es el
  | SWhile l c body =>
      let e := base + 1 + clen body + 1 in
      OpIf c e :: compile' (bind l (base, e) env) (base + 1) body ++ [OpGoto 0%N base]
  | SRepeat l body c =>
      let ls := base + clen body in
      let e := ls + 1 + clen body + 1 in
      let env' := bind l (ls, e) env in
      compile' env' base body ++ OpIf (ENot c) e :: compile' env' (ls + 1) body ++ [OpGoto 0%N ls]
  | SLoop l body =>
      let e := base + clen body + 1 in
      compile' (bind l (base, e) env) base body ++ [OpGoto l base]
  | SIterate l => [OpGoto l (match assocE l env with Some (s, _) => s | None => -1 end)]
  | SLeave l => [OpGoto l (match assocE l env with Some (_, e) => e | None => -2 end)]
  end.

Lemma zlen_app : forall {A} (a b : list A), zlen (a ++ b) = zlen a + zlen b.
Proof. intros. unfold zlen. rewrite app_length. lia. Qed.

Lemma zlen_cons : forall {A} (x : A) l, zlen (x :: l) = 1 + zlen l.
Proof. intros. unfold zlen. cbn [length]. lia. Qed.

Lemma zlen_nil : forall {A}, zlen (@nil A) = 0.
Proof. reflexivity. Qed.

Lemma zlen_nonneg : forall {A} (l : list A), 0 <= zlen l.
Proof. intros. unfold zlen. lia. Qed.

Lemma clen_compile' : forall s env base, zlen (compile' env base s) = clen s.
Proof.
  induction s; intros env base; cbn [compile' clen]; repeat (rewrite ?zlen_app, ?zlen_cons, ?zlen_nil);
    repeat match goal with H : forall env base, zlen (compile' env base ?x) = _ |- _ => rewrite !H; clear H end; try lia.
Qed.

Lemma clen_nonneg : forall s, 0 <= clen s.
Proof. intros s. rewrite <- (clen_compile' s [] 0). apply zlen_nonneg. Qed.

Lemma clen_zero_nil : forall s env base, clen s = 0 -> compile' env base s = [].
Proof.
  intros s env base H. pose proof (clen_compile' s env base) as L. rewrite H in L.
  destruct (compile' env base s); [reflexivity | rewrite zlen_cons in L; pose proof (zlen_nonneg l); lia].
Qed.

Lemma clen_pos_ne : forall s env base, clen s <> 0 -> compile' env base s <> [].
Proof. intros s env base H E. pose proof (clen_compile' s env base) as L. rewrite E in L. exact (H (eq_sym L)). Qed.

(* positions are sums of code lengths: normalise them, then linear arithmetic *)
#[export] Hint Rewrite @zlen_app @zlen_cons @zlen_nil clen_compile' : zlen.
Ltac zl := autorewrite with zlen; lia.

Definition addl (l : label) (ls : list label) : list label := if N.eqb l 0 then ls else l :: ls.
Definition memL (l : label) (ls : list label) : bool := existsb (N.eqb l) ls.

(* the UNTIL condition cannot evaluate to NULL (the engine leaves a REPEAT whose UNTIL is NULL, see the refutation) *)
Fixpoint total (e : expr) : bool :=
  match e with
  | EConst _ => true
  | EIsNull _ => true
  | ENot a => total a
  | EBin _ a b => total a && total b
  | _ => false
  end.

(* the code of the statement ends with a ScopeEnd *)
Fixpoint ends_block (s : stmt) : bool :=
  match s with
  | SBlock _ _ => true
  | SSeq a b => if clen b =? 0 then ends_block a else ends_block b
  | _ => false
  end.

(* the code of the statement starts with a Goto (LEAVE / ITERATE, or the back-jump of a LOOP with an empty body).  An
   ITERATE that is the very first operation of its LOOP has counter = Index: execOp takes the forward branch, walks
   nothing and the interpreter simply continues with the next operation instead of restarting the loop *)
Fixpoint starts_goto (s : stmt) : bool :=
  match s with
  | SLeave _ | SIterate _ => true
  | SSeq a b => if clen a =? 0 then starts_goto b else starts_goto a
  | SRepeat _ b _ => if clen b =? 0 then false else starts_goto b
  | SLoop _ b => if clen b =? 0 then true else starts_goto b
  | _ => false
  end.

(* [it] / [lv]: labels ITERATE / LEAVE may name here (enclosing WHILE and LOOP; enclosing REPEAT for LEAVE only) *)
Fixpoint ok (it lv : list label) (s : stmt) : bool :=
  match s with
  | SHandler _ _ | SRaise _ => false
  | SSkip | SDeclare _ _ | SSet _ _ | SSetUser _ _ => true
  | SSeq a b => ok it lv a && ok it lv b
  | SBlock l body => N.eqb l 0 && ok it lv body
  | SIf _ th el => ok it lv th && ok it lv el && negb (ends_block el)
  | SWhile l _ body => ok (addl l it) (addl l lv) body
  | SRepeat l body c => total c && negb (memL l it) && ok it (addl l lv) body
  | SLoop l body => (0 <? clen body) && negb (starts_goto body) && ok (addl l it) (addl l lv) body
  | SLeave l => memL l lv
  | SIterate l => memL l it
  end.

(* scope effects of walking over code *)
Definition eff_fwd (code : list op) (st : state) : state :=
  fold_left (fun st o => scope_effect_fwd (Some o) st) code st.

(* operations are visited from the last to the first *)
Definition eff_bwd (code : list op) (st : state) : state :=
  fold_right (fun o st => scope_effect_bwd (Some o) st) st code.

Lemma eff_fwd_app : forall a b st, eff_fwd (a ++ b) st = eff_fwd b (eff_fwd a st).
Proof. intros. unfold eff_fwd. apply fold_left_app. Qed.

Lemma eff_bwd_app : forall a b st, eff_bwd (a ++ b) st = eff_bwd a (eff_bwd b st).
Proof. intros. unfold eff_bwd. apply fold_right_app. Qed.

Lemma eff_fwd_cons : forall o c st, eff_fwd (o :: c) st = eff_fwd c (scope_effect_fwd (Some o) st).
Proof. reflexivity. Qed.

Lemma eff_bwd_cons : forall o c st, eff_bwd (o :: c) st = scope_effect_bwd (Some o) (eff_bwd c st).
Proof. reflexivity. Qed.

Lemma pop_push : forall st, pop_scope (push_scope st) = st.
Proof. intros [a b c d]. reflexivity. Qed.

Lemma balanced_fwd : forall s env base st, eff_fwd (compile' env base s) st = st.
Proof.
  induction s; intros env base st; cbn [compile']; try reflexivity;
    rewrite ?eff_fwd_cons, ?eff_fwd_app, ?eff_fwd_cons, ?eff_fwd_app.
  - rewrite IHs1. apply IHs2.
  - rewrite IHs. apply pop_push.
  - rewrite IHs1. apply IHs2.
  - apply IHs.
  - rewrite IHs. apply IHs.
  - apply IHs.
Qed.

Lemma balanced_bwd : forall s env base st, eff_bwd (compile' env base s) st = st.
Proof.
  induction s; intros env base st; cbn [compile']; try reflexivity;
    rewrite ?eff_bwd_cons, ?eff_bwd_app, ?eff_bwd_cons, ?eff_bwd_app.
  - rewrite IHs2. apply IHs1.
  - cbn [eff_bwd fold_right scope_effect_bwd]. rewrite IHs. apply pop_push.
  - rewrite IHs2. apply IHs1.
  - apply IHs.
  - rewrite IHs. apply IHs.
  - apply IHs.
Qed.

Lemma balanced_removelast : forall s it lv env base st,
  ok it lv s = true -> ends_block s = false -> eff_fwd (removelast (compile' env base s)) st = st.
Proof.
  induction s; intros it lv env base st Hok He; cbn [compile' ok ends_block] in *; try discriminate; try reflexivity.
  - apply andb_prop in Hok as [H1 H2]. destruct (clen s2 =? 0) eqn:E.
    + apply Z.eqb_eq in E. rewrite (clen_zero_nil s2 _ _ E), app_nil_r. eapply IHs1; eassumption.
    + apply Z.eqb_neq in E. rewrite removelast_app by (apply clen_pos_ne; exact E).
      rewrite eff_fwd_app, balanced_fwd. eapply IHs2; eassumption.
  - apply andb_prop in Hok as [Hok Hnb]. apply andb_prop in Hok as [_ H2]. apply negb_true_iff in Hnb.
    rewrite app_comm_cons, removelast_app, eff_fwd_app, eff_fwd_cons, balanced_fwd by discriminate.
    destruct (clen s2 =? 0) eqn:E.
    + apply Z.eqb_eq in E. rewrite (clen_zero_nil s2 _ _ E). reflexivity.
    + apply Z.eqb_neq in E. rewrite removelast_app by (apply clen_pos_ne; exact E). eapply IHs2; eassumption.
  - rewrite app_comm_cons, removelast_last. apply balanced_fwd.
  - rewrite app_comm_cons, app_assoc, removelast_last, eff_fwd_app, balanced_fwd. apply balanced_fwd.
  - rewrite removelast_last. apply balanced_fwd.
Qed.

Lemma app_head_ne : forall (c r : list op) o, c <> [] -> (forall rest, c <> o :: rest) -> forall rest, c ++ r <> o :: rest.
Proof. intros [|x c] r o Hne H rest; [contradiction|]. intros [= -> _]. exact (H c eq_refl). Qed.

Lemma starts_goto_first : forall s env base t i,
  starts_goto s = false -> forall rest, compile' env base s <> OpGoto t i :: rest.
Proof.
  induction s; intros env base t i Hs; cbn [compile' starts_goto] in *; try discriminate; try (intro; discriminate).
  - destruct (clen s1 =? 0) eqn:E.
    + apply Z.eqb_eq in E. rewrite (clen_zero_nil s1 _ _ E). apply IHs2. exact Hs.
    + apply Z.eqb_neq in E. apply app_head_ne; [apply clen_pos_ne; exact E | apply IHs1; exact Hs].
  - destruct (clen s =? 0) eqn:E.
    + apply Z.eqb_eq in E. rewrite (clen_zero_nil s _ _ E). discriminate.
    + apply Z.eqb_neq in E. apply app_head_ne; [apply clen_pos_ne; exact E | apply IHs; exact Hs].
  - destruct (clen s =? 0) eqn:E; [discriminate|].
    apply Z.eqb_neq in E. apply app_head_ne; [apply clen_pos_ne; exact E | apply IHs; exact Hs].
Qed.

Lemma nth_op_mid : forall (A : list op) o B, nth_op (A ++ o :: B) (zlen A) = Some o.
Proof.
  intros A o B. unfold nth_op. pose proof (zlen_nonneg A) as H.
  destruct (zlen A <? 0) eqn:E; [apply Z.ltb_lt in E; lia|].
  unfold zlen. rewrite Nat2Z.id. rewrite nth_error_app2 by lia. rewrite Nat.sub_diag. reflexivity.
Qed.

Lemma nth_op_end : forall (A : list op), nth_op A (zlen A) = None.
Proof.
  intros A. unfold nth_op. pose proof (zlen_nonneg A) as H.
  destruct (zlen A <? 0) eqn:E; [apply Z.ltb_lt in E; lia|].
  unfold zlen. rewrite Nat2Z.id. apply nth_error_None. lia.
Qed.

Definition at_pos (ops : list op) (p : Z) (code : list op) : Prop := exists A B, ops = A ++ code ++ B /\ p = zlen A.

Lemma at_app : forall ops p a b, at_pos ops p (a ++ b) -> at_pos ops p a /\ at_pos ops (p + zlen a) b.
Proof.
  intros ops p a b (A & B & -> & ->). split.
  - exists A, (b ++ B). rewrite <- app_assoc. auto.
  - exists (A ++ a), B. rewrite zlen_app, <- !app_assoc. auto.
Qed.

Lemma at_cons : forall ops p o c, at_pos ops p (o :: c) -> nth_op ops p = Some o /\ at_pos ops (p + 1) c.
Proof.
  intros ops p o c H. apply (at_app ops p [o] c) in H as [(A & B & -> & ->) H]. split; [apply nth_op_mid | exact H].
Qed.

Lemma at_length : forall ops p c, at_pos ops p c -> (length c <= length ops)%nat.
Proof. intros ops p c (A & B & -> & _). rewrite !app_length. lia. Qed.

Lemma walk_fwd_at : forall mid ops n p t st, at_pos ops p mid -> t = p + zlen mid -> (length mid <= n)%nat ->
  walk_fwd ops n p t st = Some (t, eff_fwd mid st).
Proof.
  induction mid as [|o m IH]; intros ops n p t st Hat -> Hn.
  - rewrite zlen_nil, Z.add_0_r. destruct n; cbn [walk_fwd]; rewrite Z.ltb_irrefl; reflexivity.
  - destruct n as [|n]; [cbn in Hn; lia|]. apply at_cons in Hat as [Ho Hm]. pose proof (zlen_nonneg m).
    cbn [walk_fwd]. rewrite Ho, zlen_cons, (proj2 (Z.ltb_lt _ _)) by lia.
    apply IH; [exact Hm | lia | cbn in Hn; lia].
Qed.

Lemma walk_bwd_at : forall mid ops n p c st, at_pos ops p mid -> c = p + zlen mid - 1 -> (length mid <= n)%nat ->
  walk_bwd ops n c (p - 1) st = Some (p - 1, eff_bwd mid st).
Proof.
  induction mid as [|o m IH] using rev_ind; intros ops n p c st Hat -> Hn.
  - rewrite zlen_nil. destruct n; cbn [walk_bwd]; rewrite Z.gtb_ltb, (proj2 (Z.ltb_ge _ _)) by lia;
      repeat f_equal; lia.
  - rewrite app_length in Hn. destruct n as [|n]; [cbn in Hn; lia|]. apply at_app in Hat as [Hm Ho]. apply at_cons in Ho as [Ho _].
    pose proof (zlen_nonneg m). rewrite zlen_app, zlen_cons, zlen_nil.
    replace (p + (zlen m + (1 + 0)) - 1) with (p + zlen m) by lia.
    cbn [walk_bwd]. rewrite Ho, Z.gtb_ltb, (proj2 (Z.ltb_lt _ _)) by lia. rewrite eff_bwd_app.
    apply IH; [exact Hm | reflexivity | cbn in Hn; lia].
Qed.

Definition mstep (ops : list op) (pc : Z) (st : state) : option (Z * state) :=
  match nth_op ops pc with
  | Some o => match exec_op ops pc o st with SOk c' st' => Some (c' + 1, st') | _ => None end
  | None => None
  end.

Inductive reach (ops : list op) : Z -> state -> Z -> state -> Prop :=
| reach_refl : forall pc st, reach ops pc st pc st
| reach_step : forall pc st pc1 st1 pc2 st2,
    mstep ops pc st = Some (pc1, st1) -> reach ops pc1 st1 pc2 st2 -> reach ops pc st pc2 st2.

Lemma reach_trans : forall ops a sa b sb c sc, reach ops a sa b sb -> reach ops b sb c sc -> reach ops a sa c sc.
Proof. intros ops a sa b sb c sc H. induction H; intros H2; [exact H2 | eapply reach_step; eauto]. Qed.

Lemma reach_one : forall ops pc st pc1 st1, mstep ops pc st = Some (pc1, st1) -> reach ops pc st pc1 st1.
Proof. intros. eapply reach_step; [eassumption | apply reach_refl]. Qed.

Lemma reach_run : forall ops a sa b sb, reach ops a sa b sb ->
  forall k, exists n, run ops (n + k) (a - 1) sa = run ops k (b - 1) sb.
Proof.
  intros ops a sa b sb H. induction H as [pc st | pc st pc1 st1 pc2 st2 Hs Hr IH]; intros k.
  - exists 0%nat. reflexivity.
  - destruct (IH k) as [n Hn]. exists (S n). cbn [Nat.add run].
    replace (pc - 1 + 1) with pc by lia. unfold mstep in Hs.
    destruct (nth_op ops pc) as [o|] eqn:Eo; [|discriminate].
    assert (Hpc : (pc <? 0) = false).
    { unfold nth_op in Eo. destruct (pc <? 0); [discriminate | reflexivity]. }
    rewrite Hpc. destruct (exec_op ops pc o st) as [c' st'| | |]; try discriminate.
    injection Hs as <- <-. replace (c' + 1 - 1) with c' in Hn by lia. exact Hn.
Qed.

Lemma reach_op : forall ops p o rest st c st' q,
  at_pos ops p (o :: rest) -> exec_op ops p o st = SOk c st' -> q = c + 1 -> reach ops p st q st'.
Proof.
  intros ops p o rest st c st' q Hat He ->. apply at_cons in Hat as [Ho _].
  apply reach_one. unfold mstep. rewrite Ho, He. reflexivity.
Qed.

(* a forward Goto, [seg] being the code between it and its target: the walk stops one operation short of the target, so
   the last operation of [seg] is skipped without being looked at *)
Lemma goto_fwd : forall ops q t e seg st st' q',
  at_pos ops q (OpGoto t e :: seg) -> e = q + 1 + zlen seg -> eff_fwd (removelast seg) st = st' -> q' = e ->
  reach ops q st q' st'.
Proof.
  intros ops q t e seg st st' q' Hat -> <- ->. eapply reach_op; [exact Hat | |].
  - (* the walk covers the Goto itself and [seg] but for its last operation *)
    set (L := OpGoto t (q + 1 + zlen seg) :: seg) in *.
    assert (HL : L = removelast L ++ [last L (OpGoto t 0)]) by (apply app_removelast_last; discriminate).
    assert (Hz : zlen L = zlen (removelast L) + 1) by (rewrite HL at 1; zl).
    unfold L at 1 in Hz. rewrite zlen_cons in Hz.
    rewrite HL in Hat. apply at_app in Hat as [Hw _]. pose proof (at_length _ _ _ Hw) as Hlen.
    pose proof (zlen_nonneg seg). cbn [exec_op]. rewrite (proj2 (Z.leb_le _ _)) by lia.
    rewrite (walk_fwd_at (removelast L)) by (try exact Hw; lia).
    unfold L. destruct seg; reflexivity.
  - lia.
Qed.

(* a backward Goto to the first operation of the non-empty [mid] that precedes it *)
Lemma goto_bwd : forall ops p t mid rest st st' c,
  at_pos ops p (mid ++ OpGoto t p :: rest) -> mid <> [] -> c = p + zlen mid -> eff_bwd mid st = st' ->
  reach ops c st p st'.
Proof.
  intros ops p t mid rest st st' c Hat Hne -> <-.
  assert (0 < zlen mid) by (destruct mid; [contradiction | pose proof (zlen_nonneg mid); zl]).
  pose proof Hat as Hw. change (mid ++ OpGoto t p :: rest) with (mid ++ [OpGoto t p] ++ rest) in Hw.
  rewrite app_assoc in Hw. apply at_app in Hw as [Hw _]. pose proof (at_length _ _ _ Hw) as Hlen.
  apply at_app in Hat as [_ Hat]. eapply reach_op; [exact Hat | |].
  - cbn [exec_op]. rewrite (proj2 (Z.leb_gt _ _)) by lia.
    rewrite (walk_bwd_at (mid ++ [OpGoto t p]) _ _ p) by (try exact Hw; zl).
    rewrite eff_bwd_app. reflexivity.
  - lia.
Qed.

Lemma total_nonnull : forall c st v, total c = true -> eval st c = Some v -> v <> None.
Proof.
  induction c; intros st v Ht Hv; cbn [total eval] in *; try discriminate.
  - injection Hv as <-. discriminate.
  - apply andb_prop in Ht. destruct Ht as [H1 H2].
    destruct (eval st c1) as [x|] eqn:E1; [|discriminate]. destruct (eval st c2) as [y|] eqn:E2; [|discriminate].
    injection Hv as <-. pose proof (IHc1 st x H1 E1). pose proof (IHc2 st y H2 E2).
    destruct x as [x|]; [|contradiction]. destruct y as [y|]; [|contradiction]. destruct o; discriminate.
  - destruct (eval st c) as [[z|]|] eqn:E; try discriminate.
    + injection Hv as <-. discriminate.
    + exfalso. exact (IHc st None Ht E eq_refl).
  - destruct (eval st c) as [[z|]|]; try discriminate; injection Hv as <-; discriminate.
Qed.

Lemma truthy_b2v : forall b, truthy (b2v b) = b.
Proof. destruct b; reflexivity. Qed.

(* what every loop does with the outcome of its body: [again] is the next round (for REPEAT, the UNTIL test first) *)
Definition loop_next (l : label) (r : outcome * state) (again : state -> outcome * state) : outcome * state :=
  match r with
  | (ONormal, st1) => again st1
  | (OIter l', st1) => if lbl_match l l' then again st1 else r
  | (OLeave l', st1) => if lbl_match l l' then (ONormal, st1) else r
  | _ => r
  end.

Definition until (f : nat) (l : label) (b : stmt) (c : expr) (st : state) : outcome * state :=
  match eval st c with
  | None => (OErr, st)
  | Some v => if truthy v then (ONormal, st) else exec f (SRepeat l b c) st
  end.

Lemma exec_while : forall f l c b st, exec (S f) (SWhile l c b) st =
  match eval st c with
  | None => (OErr, st)
  | Some v => if truthy v then loop_next l (exec f b st) (exec f (SWhile l c b)) else (ONormal, st)
  end.
Proof. intros. cbn [exec]. destruct (eval st c) as [v|]; [|reflexivity]. destruct (truthy v), (exec f b st) as [[] ?]; reflexivity. Qed.

Lemma exec_repeat : forall f l b c st, exec (S f) (SRepeat l b c) st = loop_next l (exec f b st) (until f l b c).
Proof. intros. cbn [exec]. destruct (exec f b st) as [[] ?]; reflexivity. Qed.

Lemma exec_loop : forall f l b st, exec (S f) (SLoop l b) st = loop_next l (exec f b st) (exec f (SLoop l b)).
Proof. intros. cbn [exec]. destruct (exec f b st) as [[] ?]; reflexivity. Qed.

(* an outcome the loop labelled [l] passes on to its context *)
Definition passes (l : label) (o : outcome) : Prop :=
  match o with ONormal => False | OLeave l' | OIter l' => lbl_match l l' = false | _ => True end.

Lemma lbl_match_true : forall l l', lbl_match l l' = true -> l <> 0%N /\ l' = l.
Proof.
  intros l l' H. unfold lbl_match in H. apply andb_prop in H. destruct H as [H1 H2].
  apply negb_true_iff in H1. apply N.eqb_neq in H1. apply N.eqb_eq in H2. split; [exact H1 | symmetry; exact H2].
Qed.

(* the four things that can happen after the body of a loop: next round (body complete, or ITERATE of this loop),
   LEAVE of this loop, anything else *)
Lemma loop_next_inv : forall l ob st1 again r, loop_next l (ob, st1) again = r ->
  again st1 = r /\ (ob = ONormal \/ l <> 0%N /\ ob = OIter l) \/
  r = (ONormal, st1) /\ l <> 0%N /\ ob = OLeave l \/
  r = (ob, st1) /\ passes l ob.
Proof.
  intros l ob st1 again r <-. destruct ob as [|l'|l'| | |]; cbn [loop_next passes]; auto;
    destruct (lbl_match l l') eqn:E; auto; destruct (lbl_match_true _ _ E) as [Hl ->]; auto.
Qed.

Lemma memL_addl_other : forall l l' ls, lbl_match l l' = false -> memL l' (addl l ls) = memL l' ls.
Proof.
  intros l l' ls H. unfold addl. destruct (N.eqb l 0) eqn:E0; [reflexivity|].
  unfold memL. cbn [existsb]. unfold lbl_match in H. rewrite E0 in H. cbn in H. rewrite N.eqb_sym, H. reflexivity.
Qed.

(* the labels an outcome carries are labels the guard allows at that place *)
Definition labels_ok (it lv : list label) (o : outcome) : Prop :=
  match o with OIter l => memL l it = true | OLeave l => memL l lv = true | _ => True end.

Lemma labels_pass : forall l o it it' lv,
  passes l o -> it' = it \/ it' = addl l it -> labels_ok it' (addl l lv) o -> labels_ok it lv o.
Proof. intros l [] it it' lv Hp [-> | ->]; cbn; rewrite ?memL_addl_other by exact Hp; auto. Qed.

Lemma outcome_labels : forall f s it lv st o st', ok it lv s = true -> exec f s st = (o, st') -> labels_ok it lv o.
Proof.
  induction f as [|f IH]; intros s it lv st o st' Hok Hex; [cbn in Hex; injection Hex as <- <-; exact I|].
  assert (Loop : forall l b it' again, ok it' (addl l lv) b = true -> it' = it \/ it' = addl l it ->
            (forall st1, again st1 = (o, st') -> labels_ok it lv o) ->
            loop_next l (exec f b st) again = (o, st') -> labels_ok it lv o).
  { intros l b it' again Hb Hit' Hag Hx. destruct (exec f b st) as [ob st1] eqn:Eb.
    pose proof (IH _ _ _ _ _ _ Hb Eb) as Pb.
    destruct (loop_next_inv _ _ _ _ _ Hx) as [[Hx' _] | [[[= -> ->] _] | [[= -> ->] Hp]]];
      [exact (Hag _ Hx') | exact I | exact (labels_pass _ _ _ _ _ Hp Hit' Pb)]. }
  destruct s; cbn [ok] in Hok; try discriminate Hok.
  - injection Hex as <- <-. exact I.
  - cbn [exec] in Hex. apply andb_prop in Hok as [H1 H2]. destruct (exec f s1 st) as [oa st1] eqn:Ea.
    pose proof (IH _ _ _ _ _ _ H1 Ea) as Pa.
    destruct oa; try (injection Hex as <- <-; exact Pa). exact (IH _ _ _ _ _ _ H2 Hex).
  - injection Hex as <- <-. exact I.
  - cbn [exec] in Hex. destruct (eval st e); [destruct (set_var st x v)|]; injection Hex as <- <-; exact I.
  - cbn [exec] in Hex. destruct (eval st e); injection Hex as <- <-; exact I.
  - cbn [exec] in Hex. apply andb_prop in Hok as [Hl Hb]. apply N.eqb_eq in Hl. subst l.
    destruct (exec f s (push_scope st)) as [ob st1] eqn:Eb. pose proof (IH _ _ _ _ _ _ Hb Eb) as Pb.
    destruct ob; try (injection Hex as <- <-; exact Pb).
    destruct (depth =? depth_of (push_scope st)); injection Hex as <- <-; exact I.
  - cbn [exec] in Hex. apply andb_prop in Hok as [Hok _]. apply andb_prop in Hok as [H1 H2].
    destruct (eval st c) as [v|]; [|injection Hex as <- <-; exact I].
    destruct (truthy v); [exact (IH _ _ _ _ _ _ H1 Hex) | exact (IH _ _ _ _ _ _ H2 Hex)].
  - rewrite exec_while in Hex. destruct (eval st c) as [v|]; [|injection Hex as <- <-; exact I].
    destruct (truthy v); [|injection Hex as <- <-; exact I].
    exact (Loop l s _ _ Hok (or_intror eq_refl) (fun st1 Hx => IH (SWhile l c s) _ _ _ _ _ Hok Hx) Hex).
  - rewrite exec_repeat in Hex. pose proof Hok as Hr. apply andb_prop in Hok as [_ Hb].
    refine (Loop l s _ _ Hb (or_introl eq_refl) _ Hex). intros st1 Hx. unfold until in Hx.
    destruct (eval st1 c) as [v|]; [|injection Hx as <- <-; exact I].
    destruct (truthy v); [injection Hx as <- <-; exact I | exact (IH (SRepeat l s c) _ _ _ _ _ Hr Hx)].
  - rewrite exec_loop in Hex. pose proof Hok as Hl. apply andb_prop in Hok as [_ Hb].
    exact (Loop l s _ _ Hb (or_intror eq_refl) (fun st1 Hx => IH (SLoop l s) _ _ _ _ _ Hl Hx) Hex).
  - injection Hex as <- <-. exact Hok.
  - injection Hex as <- <-. exact Hok.
Qed.

(* what the machine does for an outcome of the definition.  [base]: where [code] starts; [from]: where the machine starts *)
Definition sim_post_from (ops : list op) (env : lenv) (base from : Z) (code : list op) (st : state) (o : outcome) (st' : state) : Prop :=
  match o with
  | ONormal => reach ops from st (base + zlen code) st'
  | OLeave l => exists cpre cpost sl e stg, code = cpre ++ OpGoto l e :: cpost /\ assocE l env = Some (sl, e) /\
                  reach ops from st (base + zlen cpre) stg /\ eff_fwd cpost stg = st'
  | OIter l => exists cpre cpost sl e stg, code = cpre ++ OpGoto l sl :: cpost /\ assocE l env = Some (sl, e) /\
                  reach ops from st (base + zlen cpre) stg /\ eff_bwd cpre stg = st'
  | OExit _ => False
  | _ => True
  end.

Definition sim_post (ops : list op) (env : lenv) (base : Z) (code : list op) (st : state) (o : outcome) (st' : state) : Prop :=
  sim_post_from ops env base base code st o st'.

Lemma post_prepend : forall ops env base from0 from1 code st0 st o st',
  reach ops from0 st0 from1 st -> sim_post_from ops env base from1 code st o st' ->
  sim_post_from ops env base from0 code st0 o st'.
Proof.
  intros ops env base from0 from1 code st0 st o st' Hr Hp.
  destruct o as [|l|l|d| |]; cbn [sim_post_from] in *; try exact Hp; [eapply reach_trans; eassumption | |];
    destruct Hp as (cpre & cpost & sl & e & stg & Hc & Ha & Hr2 & He);
    exists cpre, cpost, sl, e, stg; repeat split; try assumption; eapply reach_trans; eassumption.
Qed.

(* an abnormal outcome of a part is an outcome of the whole, with the scope effects of the code the jump will cross *)
Lemma sim_pass : forall ops env base from q pre sub post st o st' st'',
  o <> ONormal -> sim_post_from ops env q from sub st o st' -> q = base + zlen pre ->
  (forall l, o = OLeave l -> eff_fwd post st' = st'') -> (forall l, o = OIter l -> eff_bwd pre st' = st'') ->
  sim_post_from ops env base from (pre ++ sub ++ post) st o st''.
Proof.
  intros ops env base from q pre sub post st o st' st'' Hn P -> Hl Hi.
  destruct o as [|l|l| | |]; cbn [sim_post_from] in *; auto; [contradiction | |];
    destruct P as (cpre & cpost & sl & e & stg & -> & Ha & Hr & He);
    exists (pre ++ cpre), (cpost ++ post), sl, e, stg; rewrite zlen_app, Z.add_assoc, <- !app_assoc; repeat split; auto.
  - rewrite eff_fwd_app, He. eauto.
  - rewrite eff_bwd_app, He. eauto.
Qed.

(* the last part of a compound statement *)
Lemma sim_tail : forall ops env base from q pre sub st o st',
  sim_post_from ops env q from sub st o st' -> q = base + zlen pre -> (forall x, eff_bwd pre x = x) ->
  sim_post_from ops env base from (pre ++ sub) st o st'.
Proof.
  intros ops env base from q pre sub st o st' P -> Hb.
  destruct o; [cbn [sim_post_from] in *; rewrite zlen_app, Z.add_assoc; exact P | ..];
    (rewrite <- (app_nil_r sub); eapply sim_pass; [discriminate | exact P | reflexivity | reflexivity | intros; apply Hb]).
Qed.

Lemma assoc_bind_same : forall l v env, l <> 0%N -> assocE l (bind l v env) = Some v.
Proof.
  intros l v env H. unfold bind. apply N.eqb_neq in H. rewrite H. cbn [assocE]. rewrite N.eqb_refl. reflexivity.
Qed.

Lemma assoc_bind_other : forall l l' v env, lbl_match l l' = false -> assocE l' (bind l v env) = assocE l' env.
Proof.
  intros l l' v env H. unfold bind. destruct (N.eqb l 0) eqn:E0; [reflexivity|].
  cbn [assocE]. unfold lbl_match in H. rewrite E0 in H. cbn in H.
  rewrite N.eqb_sym. rewrite H. reflexivity.
Qed.

Definition covers (ls : list label) (env : lenv) : Prop := forall l, memL l ls = true -> exists v, assocE l env = Some v.

Lemma dom_bind_add : forall ls env l v, covers ls env -> covers (addl l ls) (bind l v env).
Proof.
  intros ls env l v H l' Hm. unfold addl, bind in *. destruct (N.eqb l 0); [exact (H l' Hm)|].
  cbn [memL existsb] in Hm. cbn [assocE]. destruct (N.eqb l' l); [eexists; reflexivity|]. exact (H l' Hm).
Qed.

Lemma dom_bind_keep : forall ls env l v, covers ls env -> covers ls (bind l v env).
Proof.
  intros ls env l v H l' Hm. unfold bind. destruct (N.eqb l 0); [exact (H l' Hm)|].
  cbn [assocE]. destruct (N.eqb l' l); [eexists; reflexivity|]. exact (H l' Hm).
Qed.

(* an outcome the loop passes on does not mention its label *)
Lemma sim_unbind : forall ops l w env base from code st o st',
  passes l o -> sim_post_from ops (bind l w env) base from code st o st' -> sim_post_from ops env base from code st o st'.
Proof.
  intros ops l w env base from code st [] st' Hp P; cbn [sim_post_from passes] in *; auto;
    destruct P as (cpre & cpost & sl & e & stg & Hc & Ha & H); rewrite assoc_bind_other in Ha by exact Hp;
    exists cpre, cpost, sl, e, stg; auto.
Qed.

(* ... and so is an outcome of the loop whenever it is one of its body *)
Lemma sim_pass_loop : forall ops l w env base from q pre sub post st o st' st'',
  passes l o -> sim_post_from ops (bind l w env) q from sub st o st' -> q = base + zlen pre ->
  (forall l, o = OLeave l -> eff_fwd post st' = st'') -> (forall l, o = OIter l -> eff_bwd pre st' = st'') ->
  sim_post_from ops env base from (pre ++ sub ++ post) st o st''.
Proof.
  intros ops l w env base from q pre sub post st o st' st'' Hp P. apply sim_pass; [intros ->; exact Hp|].
  eapply sim_unbind; eassumption.
Qed.

(* LEAVE of the loop's own label: the Goto in flight lands behind [tail], the rest of the loop's code *)
Lemma leave_arrives : forall ops l sl e env q from code tail st st1 fin,
  l <> 0%N -> sim_post_from ops (bind l (sl, e) env) q from code st (OLeave l) st1 ->
  at_pos ops q (code ++ tail) -> tail <> [] -> (forall x, eff_fwd (removelast tail) x = x) ->
  e = q + zlen code + zlen tail -> fin = e -> reach ops from st fin st1.
Proof.
  intros ops l sl e env q from code tail st st1 fin Hl (cpre & cpost & sl' & e' & stg & -> & Ha & Hr & He) Hat Hne Hb Ee ->.
  rewrite assoc_bind_same in Ha by exact Hl. injection Ha as <- <-. autorewrite with zlen in Ee.
  eapply reach_trans; [exact Hr|]. rewrite <- app_assoc in Hat. apply at_app in Hat as [_ Hat].
  eapply (goto_fwd _ _ _ _ (cpost ++ tail)); [exact Hat | zl | | reflexivity].
  rewrite removelast_app, eff_fwd_app, He by exact Hne. apply Hb.
Qed.

(* ITERATE of the loop's own label (WHILE, LOOP): the Goto in flight lands on the loop's first operation; it must not be
   that operation itself *)
Lemma iter_arrives : forall ops l sl e env q from head code rest st st1,
  l <> 0%N -> sim_post_from ops (bind l (sl, e) env) q from code st (OIter l) st1 ->
  at_pos ops sl (head ++ code ++ rest) -> q = sl + zlen head ->
  head <> [] \/ (forall t i r, code <> OpGoto t i :: r) -> (forall x, eff_bwd head x = x) ->
  reach ops from st sl st1.
Proof.
  intros ops l sl e env q from head code rest st st1 Hl (cpre & cpost & sl' & e' & stg & -> & Ha & Hr & He) Hat -> Hne Hb.
  rewrite assoc_bind_same in Ha by exact Hl. injection Ha as <- <-.
  eapply reach_trans; [exact Hr|].
  eapply (goto_bwd _ _ _ (head ++ cpre) (cpost ++ rest)); [ | | zl | rewrite eff_bwd_app, He; apply Hb].
  - rewrite <- !app_assoc in Hat |- *. exact Hat.
  - intros E. apply app_eq_nil in E as [-> ->]. destruct Hne as [Hne | Hne]; [exact (Hne eq_refl) | exact (Hne _ _ _ eq_refl)].
Qed.

Definition P1 (f : nat) : Prop := forall s it lv env st o st',
  ok it lv s = true ->
  (forall l, memL l lv = true -> exists v, assocE l env = Some v) ->
  (forall l, memL l it = true -> exists v, assocE l env = Some v) ->
  exec f s st = (o, st') ->
  forall A B ops, ops = A ++ compile' env (zlen A) s ++ B ->
  sim_post ops env (zlen A) (compile' env (zlen A) s) st o st'.

(* one more round of a REPEAT whose machine is already in the second copy of the body: that copy with its test and
   back-jump is the code of WHILE NOT c DO body, entered just after the test *)
Definition P2 (f : nat) : Prop := forall l body c it lv env st o st',
  total c = true -> memL l it = false -> ok it (addl l lv) body = true ->
  (forall l, memL l lv = true -> exists v, assocE l env = Some v) ->
  (forall l, memL l it = true -> exists v, assocE l env = Some v) ->
  exec f (SRepeat l body c) st = (o, st') ->
  forall A B ops, ops = A ++ compile' env (zlen A) (SWhile l (ENot c) body) ++ B ->
  sim_post_from ops env (zlen A) (zlen A + 1) (compile' env (zlen A) (SWhile l (ENot c) body)) st o st'.

(* [P1] with the place of the statement's code given by [at_pos] *)
Definition sim_stmt (f : nat) (s : stmt) : Prop := forall it lv env st o st',
  ok it lv s = true -> covers lv env -> covers it env -> exec f s st = (o, st') ->
  forall ops p, at_pos ops p (compile' env p s) -> sim_post ops env p (compile' env p s) st o st'.

Lemma P1_sim : forall f, P1 f <-> forall s, sim_stmt f s.
Proof.
  intros f. split.
  - intros H s it lv env st o st' Hok Hlv Hit Hex ops p (A & B & -> & ->). eapply H; eauto.
  - intros H s it lv env st o st' Hok Hlv Hit Hex A B ops ->. eapply H; eauto. exists A, B. auto.
Qed.

Section Step.
Variable f : nat.
Hypothesis IH : forall s, sim_stmt f s.
Hypothesis IH2 : P2 f.

Lemma sim_seq : forall a b, sim_stmt (S f) (SSeq a b).
Proof.
  intros a b it lv env st o st' Hok Hlv Hit Hex ops p Hat. cbn [ok exec compile'] in *.
  apply andb_prop in Hok as [Ha Hb]. apply at_app in Hat as [Hata Hatb]. rewrite clen_compile' in Hatb.
  destruct (exec f a st) as [oa st1] eqn:Ea. pose proof (IH a _ _ _ _ _ _ Ha Hlv Hit Ea _ _ Hata) as Pa.
  destruct oa; [|injection Hex as <- <-; eapply sim_pass with (q := p) (pre := []);
                  [discriminate | exact Pa | zl | intros; apply balanced_fwd | reflexivity] ..].
  eapply post_prepend; [exact Pa|]. rewrite clen_compile'.
  eapply sim_tail; [exact (IH b _ _ _ _ _ _ Hb Hlv Hit Hex _ _ Hatb) | zl | intros; apply balanced_bwd].
Qed.

Lemma sim_block : forall l b, sim_stmt (S f) (SBlock l b).
Proof.
  intros l b it lv env st o st' Hok Hlv Hit Hex ops p Hat. cbn [ok exec compile'] in *.
  apply andb_prop in Hok as [Hl Hb]. apply N.eqb_eq in Hl. subst l.
  eapply post_prepend; [eapply reach_op; [exact Hat | reflexivity | reflexivity] |].
  apply at_cons in Hat as [_ Hat]. apply at_app in Hat as [Hbody Hend].
  destruct (exec f b (push_scope st)) as [ob st1] eqn:Eb. pose proof (IH b _ _ _ _ _ _ Hb Hlv Hit Eb _ _ Hbody) as P.
  destruct ob; try contradiction; cbn in Hex; injection Hex as <- <-;
    [|eapply sim_pass with (q := p + 1) (pre := [_]) (post := [_]); [discriminate | exact P | zl | reflexivity | reflexivity] ..].
  eapply reach_trans; [exact P|]. eapply reach_op; [exact Hend | reflexivity | zl].
Qed.

Lemma sim_if : forall c th el, sim_stmt (S f) (SIf c th el).
Proof.
  intros c th el it lv env st o st' Hok Hlv Hit Hex ops p Hat. cbn [ok exec compile'] in *.
  apply andb_prop in Hok as [Hok Hnb]. apply andb_prop in Hok as [Ht He]. apply negb_true_iff in Hnb.
  destruct (eval st c) as [v|] eqn:Ev; [|injection Hex as <- <-; exact I].
  pose proof Hat as Hat0. apply at_cons in Hat as [_ Hat]. apply at_app in Hat as [Hth Hg]. rewrite clen_compile' in Hg.
  destruct (truthy v) eqn:Tv.
  - eapply post_prepend; [eapply reach_op; [exact Hat0 | cbn [exec_op]; rewrite Ev, Tv; reflexivity | reflexivity] |].
    pose proof (IH th _ _ _ _ _ _ Ht Hlv Hit Hex _ _ Hth) as P.
    destruct o; [|eapply sim_pass with (q := p + 1) (pre := [_]);
                   [discriminate | exact P | zl | intros; rewrite eff_fwd_app; apply balanced_fwd | reflexivity] ..].
    (* the Goto behind THEN walks over the ELSE branch but for its last operation *)
    eapply reach_trans; [exact P|]. rewrite clen_compile'.
    eapply goto_fwd; [exact Hg | zl | eapply balanced_removelast; eassumption | zl].
  - apply at_cons in Hg as [_ Hel].
    eapply post_prepend with (from1 := p + 1 + clen th + 1);
      [eapply reach_op; [exact Hat0 | cbn [exec_op]; rewrite Ev, Tv; reflexivity | lia] |].
    rewrite app_assoc, app_comm_cons.
    eapply sim_tail; [exact (IH el _ _ _ _ _ _ He Hlv Hit Hex _ _ Hel) | zl |].
    intros x. rewrite eff_bwd_cons, eff_bwd_app. apply balanced_bwd.
Qed.

(* the machine stands on the test behind the second copy of the body of a REPEAT; that copy with the test and its
   back-jump is the code of WHILE NOT c DO body *)
Lemma until_sim : forall l b c it lv env ops ls from st st2 o st',
  total c = true -> memL l it = false -> ok it (addl l lv) b = true -> covers lv env -> covers it env ->
  at_pos ops ls (compile' env ls (SWhile l (ENot c) b)) -> reach ops from st ls st2 -> until f l b c st2 = (o, st') ->
  sim_post_from ops env ls from (compile' env ls (SWhile l (ENot c) b)) st o st'.
Proof.
  intros l b c it lv env ops ls from st st2 o st' Ht Hni Hb Hlv Hit Hat Hr Hx. unfold until in Hx.
  destruct (eval st2 c) as [[z|]|] eqn:Ev;
    [|exfalso; exact (total_nonnull c st2 None Ht Ev eq_refl) | injection Hx as <- <-; exact I].
  assert (Evn : eval st2 (ENot c) = Some (b2v (z =? 0))) by (cbn [eval]; rewrite Ev; reflexivity).
  eapply post_prepend; [exact Hr|]. cbn [truthy] in Hx. destruct (z =? 0); cbn [negb] in Hx.
  - eapply post_prepend; [eapply reach_op; [exact Hat | cbn [exec_op]; rewrite Evn; reflexivity | reflexivity] |].
    destruct Hat as (A & B & Ho & ->). exact (IH2 _ _ _ _ _ _ _ _ _ Ht Hni Hb Hlv Hit Hx A B ops Ho).
  - injection Hx as <- <-. eapply reach_op; [exact Hat | cbn [exec_op]; rewrite Evn; reflexivity | cbn [compile']; zl].
Qed.

Lemma sim_while : forall l c b, sim_stmt (S f) (SWhile l c b).
Proof.
  intros l c b it lv env st o st' Hok Hlv Hit Hex ops p Hat. rewrite exec_while in Hex.
  destruct (eval st c) as [v|] eqn:Ev; [|injection Hex as <- <-; exact I].
  pose proof Hat as Hat0. cbn [ok compile'] in Hok, Hat |- *. destruct (truthy v) eqn:Tv.
  2: { injection Hex as <- <-. eapply reach_op; [exact Hat | cbn [exec_op]; rewrite Ev, Tv; reflexivity | zl]. }
  eapply post_prepend; [eapply reach_op; [exact Hat | cbn [exec_op]; rewrite Ev, Tv; reflexivity | reflexivity] |].
  pose proof Hat as Hat1. apply at_cons in Hat1 as [_ Hbody].
  destruct (exec f b st) as [ob st1] eqn:Eb. destruct (at_app _ _ _ _ Hbody) as [Hb _].
  pose proof (IH b _ _ _ _ _ _ Hok (dom_bind_add _ _ _ _ Hlv) (dom_bind_add _ _ _ _ Hit) Eb _ _ Hb) as P.
  destruct (loop_next_inv _ _ _ _ _ Hex) as [[Hx Hob] | [[[= -> ->] [Hl ->]] | [[= -> ->] Hp]]].
  - (* the next round starts at the test *)
    eapply post_prepend; [|exact (IH (SWhile l c b) _ _ _ _ _ _ Hok Hlv Hit Hx _ _ Hat0)].
    destruct Hob as [-> | [Hl ->]].
    + eapply reach_trans; [exact P|].
      eapply goto_bwd with (mid := _ :: _) (rest := []); [exact Hat | discriminate | zl | rewrite eff_bwd_cons; apply balanced_bwd].
    + eapply iter_arrives with (head := [_]); [exact Hl | exact P | exact Hat | zl | left; discriminate | reflexivity].
  - eapply leave_arrives; [exact Hl | exact P | exact Hbody | discriminate | reflexivity | zl | zl].
  - eapply sim_pass_loop with (pre := [_]) (post := [_]); [exact Hp | exact P | zl | reflexivity | reflexivity].
Qed.

Lemma sim_loop : forall l b, sim_stmt (S f) (SLoop l b).
Proof.
  intros l b it lv env st o st' Hok Hlv Hit Hex ops p Hat. rewrite exec_loop in Hex.
  pose proof Hat as Hat0. pose proof Hok as Hok0. cbn [ok compile'] in Hok, Hat |- *.
  apply andb_prop in Hok as [Hok Hb]. apply andb_prop in Hok as [Hpos Hsg]. apply Z.ltb_lt in Hpos. apply negb_true_iff in Hsg.
  destruct (exec f b st) as [ob st1] eqn:Eb. destruct (at_app _ _ _ _ Hat) as [Hbody _].
  pose proof (IH b _ _ _ _ _ _ Hb (dom_bind_add _ _ _ _ Hlv) (dom_bind_add _ _ _ _ Hit) Eb _ _ Hbody) as P.
  destruct (loop_next_inv _ _ _ _ _ Hex) as [[Hx Hob] | [[[= -> ->] [Hl ->]] | [[= -> ->] Hp]]].
  - eapply post_prepend; [|exact (IH (SLoop l b) _ _ _ _ _ _ Hok0 Hlv Hit Hx _ _ Hat0)].
    destruct Hob as [-> | [Hl ->]].
    + eapply reach_trans; [exact P|].
      eapply goto_bwd with (rest := []); [exact Hat | apply clen_pos_ne; lia | zl | apply balanced_bwd].
    + eapply iter_arrives with (head := []); [exact Hl | exact P | exact Hat | zl | | reflexivity].
      right. intros t i r. apply starts_goto_first. exact Hsg.
  - eapply leave_arrives; [exact Hl | exact P | exact Hat | discriminate | reflexivity | zl | zl].
  - eapply sim_pass_loop with (pre := []) (post := [_]); [exact Hp | exact P | zl | reflexivity | reflexivity].
Qed.

(* in the body of a REPEAT, ITERATE cannot name the loop *)
Lemma repeat_next : forall l b it lv st ob st1 r again,
  memL l it = false -> ok it (addl l lv) b = true -> exec f b st = (ob, st1) -> loop_next l (ob, st1) again = r ->
  again st1 = r /\ ob = ONormal \/ r = (ONormal, st1) /\ l <> 0%N /\ ob = OLeave l \/ r = (ob, st1) /\ passes l ob.
Proof.
  intros l b it lv st ob st1 r again Hni Hb Eb Hx. pose proof (outcome_labels _ _ _ _ _ _ _ Hb Eb) as Lab.
  destruct (loop_next_inv _ _ _ _ _ Hx) as [[Hx' [-> | [_ ->]]] | H]; auto. cbn in Lab. congruence.
Qed.

Lemma sim_repeat : forall l b c, sim_stmt (S f) (SRepeat l b c).
Proof.
  intros l b c it lv env st o st' Hok Hlv Hit Hex ops p Hat. rewrite exec_repeat in Hex. cbn [ok] in Hok.
  apply andb_prop in Hok as [Hok Hb]. apply andb_prop in Hok as [Ht Hni]. apply negb_true_iff in Hni.
  change (compile' env p (SRepeat l b c)) with
    (compile' (bind l (p + clen b, p + clen b + 1 + clen b + 1) env) p b ++ compile' env (p + clen b) (SWhile l (ENot c) b)) in *.
  destruct (at_app _ _ _ _ Hat) as [Hbody HW]. rewrite clen_compile' in HW.
  destruct (exec f b st) as [ob st1] eqn:Eb.
  pose proof (IH b _ _ _ _ _ _ Hb (dom_bind_add _ _ _ _ Hlv) (dom_bind_keep _ _ _ _ Hit) Eb _ _ Hbody) as P.
  destruct (repeat_next _ _ _ _ _ _ _ _ _ Hni Hb Eb Hex) as [[Hx ->] | [[[= -> ->] [Hl ->]] | [[= -> ->] Hp]]].
  - eapply sim_tail with (q := p + clen b); [|zl | intros; apply balanced_bwd].
    eapply until_sim; try eassumption. cbn [sim_post sim_post_from] in P. rewrite clen_compile' in P. exact P.
  - eapply leave_arrives; [exact Hl | exact P | exact Hat | discriminate | | cbn [compile']; zl | cbn [compile']; zl].
    intros x. cbn [compile']. rewrite app_comm_cons, removelast_last, eff_fwd_cons. apply balanced_fwd.
  - eapply sim_pass_loop with (pre := []); [exact Hp | exact P | zl | intros; apply balanced_fwd | reflexivity].
Qed.

Lemma P1_step : P1 (S f).
Proof.
  apply P1_sim. intros s. destruct s; try (intros it lv env st o st' Hok; discriminate Hok).
  - intros it lv env st o st' _ _ _ [= <- <-] ops p _. cbn [compile' sim_post sim_post_from]. rewrite zlen_nil, Z.add_0_r. apply reach_refl.
  - apply sim_seq.
  - intros it lv env st o st' _ _ _ [= <- <-] ops p Hat. eapply reach_op; [exact Hat | reflexivity | reflexivity].
  - intros it lv env st o st' _ _ _ Hex ops p Hat. cbn [exec] in Hex.
    destruct (eval st e) as [v|] eqn:Ev; [|injection Hex as <- <-; exact I].
    destruct (set_var st x v) as [st2|] eqn:Es; injection Hex as <- <-; [|exact I].
    eapply reach_op; [exact Hat | cbn [exec_op]; rewrite Ev, Es; reflexivity | reflexivity].
  - intros it lv env st o st' _ _ _ Hex ops p Hat. cbn [exec] in Hex.
    destruct (eval st e) as [v|] eqn:Ev; injection Hex as <- <-; [|exact I].
    eapply reach_op; [exact Hat | cbn [exec_op]; rewrite Ev; reflexivity | reflexivity].
  - apply sim_block.
  - apply sim_if.
  - apply sim_while.
  - apply sim_repeat.
  - apply sim_loop.
  - intros it lv env st o st' Hok Hlv _ [= <- <-] ops p _. destruct (Hlv l Hok) as [[sl e] Ha].
    cbn [sim_post sim_post_from compile']. rewrite Ha.
    exists [], [], sl, e, st. rewrite zlen_nil, Z.add_0_r. repeat split. apply reach_refl.
  - intros it lv env st o st' Hok _ Hit [= <- <-] ops p _. destruct (Hit l Hok) as [[sl e] Ha].
    cbn [sim_post sim_post_from compile']. rewrite Ha.
    exists [], [], sl, e, st. rewrite zlen_nil, Z.add_0_r. repeat split. apply reach_refl.
Qed.

Lemma P2_step : P2 (S f).
Proof.
  intros l b c it lv env st o st' Ht Hni Hb Hlv Hit Hex A B ops Hops. rewrite exec_repeat in Hex.
  assert (Hat : at_pos ops (zlen A) (compile' env (zlen A) (SWhile l (ENot c) b))) by (exists A, B; auto).
  clear Hops. revert Hat. generalize (zlen A). intros p Hat.
  pose proof Hat as Hat0. cbn [compile'] in Hat |- *. destruct (at_cons _ _ _ _ Hat) as [_ Hbody].
  destruct (exec f b st) as [ob st1] eqn:Eb. destruct (at_app _ _ _ _ Hbody) as [Hb' _].
  pose proof (IH b _ _ _ _ _ _ Hb (dom_bind_add _ _ _ _ Hlv) (dom_bind_keep _ _ _ _ Hit) Eb _ _ Hb') as P.
  destruct (repeat_next _ _ _ _ _ _ _ _ _ Hni Hb Eb Hex) as [[Hx ->] | [[[= -> ->] [Hl ->]] | [[= -> ->] Hp]]].
  - (* the back-jump, then the test *)
    eapply (until_sim l b c); try eassumption. eapply reach_trans; [exact P|].
    eapply goto_bwd with (mid := _ :: _) (rest := []); [exact Hat | discriminate | zl | rewrite eff_bwd_cons; apply balanced_bwd].
  - eapply leave_arrives; [exact Hl | exact P | exact Hbody | discriminate | reflexivity | zl | zl].
  - eapply sim_pass_loop with (pre := [_]) (post := [_]); [exact Hp | exact P | zl | reflexivity | reflexivity].
Qed.

End Step.

Theorem sim_all : forall f, P1 f /\ P2 f.
Proof.
  induction f as [|f [IH1 IH2]].
  - split.
    + intros s it lv env st o st' _ _ _ Hex A B ops _. cbn in Hex. injection Hex as <- <-. exact I.
    + intros l body c it lv env st o st' _ _ _ _ _ Hex A B ops _. cbn in Hex. injection Hex as <- <-. exact I.
  - pose proof (proj1 (P1_sim f) IH1) as IH. split; [apply P1_step | apply P2_step]; assumption.
Qed.
