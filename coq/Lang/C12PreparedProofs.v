(* C12: the substitution lemma and its lifting to statements and histories. *)
From Coq Require Import List ZArith Bool.
Import ListNotations.
From GMS Require Import Base.ListFacts Lang.C12Prepared.

Lemma eval_atom_subst bs a : eval_atom bs a = eval_atom [] (subst_atom bs a).
Proof.
  destruct a as [v|k]; cbn; [reflexivity|].
  destruct (nth_error bs k) eqn:E; cbn; [reflexivity|]. rewrite nth_error_nil. reflexivity.
Qed.

Lemma eval_atoms_subst bs l : eval_atoms bs l = eval_atoms [] (map (subst_atom bs) l).
Proof. induction l as [|a l IH]; cbn; [reflexivity|]. rewrite <- eval_atom_subst, <- IH. reflexivity. Qed.

Theorem eval_subst bs r e : eval bs r e = eval [] r (subst bs e).
Proof.
  induction e; cbn [eval subst];
    try (rewrite <- ?IHe, <- ?IHe1, <- ?IHe2, <- ?IHe3; reflexivity).
  - (* Bind *) destruct (nth_error bs k) eqn:E; cbn; [reflexivity|]. rewrite nth_error_nil. reflexivity.
  - (* InList *) rewrite <- IHe, <- eval_atoms_subst. reflexivity.
Qed.

Lemma eval_list_subst bs r es : eval_list bs r es = eval_list [] r (map (subst bs) es).
Proof. induction es as [|e es IH]; cbn; [reflexivity|]. rewrite <- eval_subst, <- IH. reflexivity. Qed.

Lemma select_rows_subst bs proj w d :
  select_rows bs proj w d = select_rows [] (map (subst bs) proj) (subst bs w) d.
Proof.
  induction d as [|r d IH]; cbn; [reflexivity|].
  rewrite <- eval_subst, <- IH, <- eval_list_subst. reflexivity.
Qed.

Lemma update_rows_subst bs c e w d : update_rows bs c e w d = update_rows [] c (subst bs e) (subst bs w) d.
Proof. induction d as [|r d IH]; cbn; [reflexivity|]. rewrite <- !eval_subst, <- IH. reflexivity. Qed.

Lemma delete_rows_subst bs w d : delete_rows bs w d = delete_rows [] (subst bs w) d.
Proof. induction d as [|r d IH]; cbn; [reflexivity|]. rewrite <- eval_subst, <- IH. reflexivity. Qed.

Theorem exec_subst bs s d : exec bs s d = exec [] (subst_stmt bs s) d.
Proof.
  destruct s; cbn [exec subst_stmt].
  - rewrite <- select_rows_subst. reflexivity.
  - rewrite <- eval_list_subst. reflexivity.
  - rewrite <- update_rows_subst. reflexivity.
  - rewrite <- delete_rows_subst. reflexivity.
Qed.

Theorem history_subst q h d : run_prepared q h d = run_text (map (inline_step q) h) d.
Proof.
  revert d. induction h as [|st h IH]; intros d; cbn [run_prepared run_text map]; [reflexivity|].
  destruct st as [bs|s]; cbn [inline_step].
  - rewrite <- exec_subst. destruct (exec bs q d) as [[rs d']|]; rewrite IH; reflexivity.
  - destruct (exec [] s d) as [[rs d']|]; rewrite IH; reflexivity.
Qed.

(* a statement whose holes are all filled has no holes left: the inlined text is ordinary SQL *)
Fixpoint closed (e : expr) : bool :=
  match e with
  | Lit _ | Col _ => true
  | Bind _ => false
  | Add a b | Sub a b | Eq a b | Lt a b | Le a b | NsEq a b | And a b | Or a b => closed a && closed b
  | Not a | IsNull a => closed a
  | InList a l => closed a && forallb (fun x => match x with ALit _ => true | ABind _ => false end) l
  | Between a lo hi => closed a && closed lo && closed hi
  end.

Fixpoint holes_below (n : nat) (e : expr) : bool :=
  match e with
  | Lit _ | Col _ => true
  | Bind k => Nat.ltb k n
  | Add a b | Sub a b | Eq a b | Lt a b | Le a b | NsEq a b | And a b | Or a b => holes_below n a && holes_below n b
  | Not a | IsNull a => holes_below n a
  | InList a l => holes_below n a && forallb (fun x => match x with ALit _ => true | ABind k => Nat.ltb k n end) l
  | Between a lo hi => holes_below n a && holes_below n lo && holes_below n hi
  end.

Lemma nth_error_below {A} (bs : list A) k : Nat.ltb k (length bs) = true -> exists v, nth_error bs k = Some v.
Proof. intros H. apply Nat.ltb_lt, nth_error_Some in H. destruct (nth_error bs k); [eauto|contradiction]. Qed.

Theorem subst_closed bs e : holes_below (length bs) e = true -> closed (subst bs e) = true.
Proof.
  induction e; cbn [holes_below subst closed]; intros H;
    repeat match goal with H : _ && _ = true |- _ => apply andb_prop in H; destruct H end;
    try (rewrite ?IHe, ?IHe1, ?IHe2, ?IHe3 by assumption; reflexivity).
  - destruct (nth_error_below bs k H) as [v ->]. reflexivity.
  - rewrite IHe by assumption. cbn. rewrite forallb_forall in *. intros x Hx. apply in_map_iff in Hx.
    destruct Hx as [y [<- Hy]]. specialize (H0 y Hy). destruct y as [v|k]; cbn; [reflexivity|].
    destruct (nth_error_below bs k H0) as [v ->]. reflexivity.
Qed.

Example nonvacuous_example :
  let q := Select [Col 0; Add (Col 1) (Bind 1)] (Or (Eq (Col 1) (Bind 0)) (InList (Col 0) [ABind 1; ALit VNull])) in
  let d := [[VInt 1; VInt 5]; [VInt 2; VNull]; [VInt 3; VInt 7]] in
  exec [VInt 5; VInt 3] q d = Some ([[VInt 1; VInt 8]; [VInt 3; VInt 10]], d)
  /\ subst_stmt [VInt 5; VInt 3] q =
     Select [Col 0; Add (Col 1) (Lit (VInt 3))] (Or (Eq (Col 1) (Lit (VInt 5))) (InList (Col 0) [ALit (VInt 3); ALit VNull])).
Proof. split; vm_compute; reflexivity. Qed.
