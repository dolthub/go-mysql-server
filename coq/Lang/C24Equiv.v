(* C24 -- guarded compiler correctness, part 2: for programs whose loop labels are pairwise distinct and whose REPEAT
   bodies contain no labelled LOOP / REPEAT, the two-phase compiler [compile] (placeholders -1 / -2 patched by
   resolveGoToIndexes, compile-time label stack that is never popped) produces exactly the code of the one-pass
   compiler [compile'] of C24Sim.v. *)
From Coq Require Import List ZArith NArith Bool Lia.
Import ListNotations.
From GMS Require Import Lang.C24Proc Lang.C24Sim.
Open Scope Z_scope.

(* labels declared / registered (NewLabel) by a statement *)
Fixpoint declared (s : stmt) : list label :=
  match s with
  | SSeq a b => declared a ++ declared b
  | SBlock _ b => declared b
  | SIf _ t e => declared t ++ declared e
  | SWhile l _ b => addl l (declared b)
  | SRepeat l b _ => addl l (declared b)
  | SLoop l b => addl l (declared b)
  | _ => []
  end.

Fixpoint registered (s : stmt) : list label :=
  match s with
  | SSeq a b => registered a ++ registered b
  | SBlock _ b => registered b
  | SIf _ t e => registered t ++ registered e
  | SWhile _ _ b => registered b
  | SRepeat l b _ => addl l (registered b)
  | SLoop l b => addl l (registered b)
  | _ => []
  end.

(* REPEAT bodies are compiled twice: they must not register labels *)
Fixpoint ok2 (s : stmt) : bool :=
  match s with
  | SSeq a b => ok2 a && ok2 b
  | SBlock _ b => ok2 b
  | SIf _ t e => ok2 t && ok2 e
  | SWhile _ _ b => ok2 b
  | SRepeat _ b _ => (match registered b with [] => true | _ => false end) && ok2 b
  | SLoop _ b => ok2 b
  | _ => true
  end.

Lemma in_addl : forall l x ls, In x (addl l ls) -> x = l \/ In x ls.
Proof. intros l x ls H. unfold addl in H. destruct (N.eqb l 0); [right; exact H|]. destruct H as [->|H]; auto. Qed.

Lemma in_addl_r : forall l x ls, In x ls -> In x (addl l ls).
Proof. intros l x ls H. unfold addl. destruct (N.eqb l 0); [exact H | right; exact H]. Qed.

Lemma addl_incl : forall l ls ls', incl ls ls' -> incl (addl l ls) (addl l ls').
Proof. intros l ls ls' H. unfold addl. destruct (N.eqb l 0); [exact H | apply incl_cons; [left; reflexivity | apply incl_tl; exact H]]. Qed.

Lemma registered_declared : forall s, incl (registered s) (declared s).
Proof.
  induction s; cbn [registered declared]; auto using incl_refl, incl_app_app, addl_incl.
  intros lab H. apply in_addl_r. auto.
Qed.

Definition res_op (env : lenv) (o : op) : op :=
  match o with
  | OpGoto t idx =>
      if idx =? -1 then match assocE t env with Some (s, _) => OpGoto t s | None => o end
      else if idx =? -2 then match assocE t env with Some (_, e) => OpGoto t e | None => o end
      else o
  | _ => o
  end.

Definition resolve_env (env : lenv) (code : list op) : list op := map (res_op env) code.

Lemma resolve_env_app : forall env a b, resolve_env env (a ++ b) = resolve_env env a ++ resolve_env env b.
Proof. intros. apply map_app. Qed.

Lemma resolve_env_cons : forall env o c, resolve_env env (o :: c) = res_op env o :: resolve_env env c.
Proof. reflexivity. Qed.

Lemma res_goto_nonneg : forall env t i, 0 <= i -> res_op env (OpGoto t i) = OpGoto t i.
Proof.
  intros env t i H. cbn [res_op]. destruct (i =? -1) eqn:E1; [apply Z.eqb_eq in E1; lia|].
  destruct (i =? -2) eqn:E2; [apply Z.eqb_eq in E2; lia|]. reflexivity.
Qed.

Lemma resolve_env_nil : forall code, resolve_env [] code = code.
Proof.
  intros code. unfold resolve_env. rewrite <- (map_id code) at 2. apply map_ext. intros o.
  destruct o; try reflexivity. cbn [res_op assocE]. destruct (idx =? -1); [reflexivity|]. destruct (idx =? -2); reflexivity.
Qed.

(* patching a loop's placeholders, then those of the enclosing loops = patching with the loop's label bound *)
Lemma resolve_bind : forall l s e env code, 0 <= s -> 0 <= e ->
  resolve_env env (resolve l s e code) = resolve_env (bind l (s, e) env) code.
Proof.
  intros l s e env code Hs He. unfold resolve, bind. destruct (N.eqb l 0) eqn:E0; [reflexivity|].
  unfold resolve_env. rewrite map_map. apply map_ext. intros o.
  destruct o as [k h|d|x ex|u eu|x v|cnd idx|t idx|l0 idx|l0 idx]; try reflexivity.
  cbn [res_op assocE]. destruct (N.eqb t l) eqn:Et.
  - destruct (idx =? -1) eqn:E1; [apply res_goto_nonneg; exact Hs|].
    destruct (idx =? -2) eqn:E2; [apply res_goto_nonneg; exact He|].
    cbn [res_op]. rewrite E1, E2. reflexivity.
  - reflexivity.
Qed.

Lemma get_label_push : forall l ls, get_label l ([] :: ls) = get_label l ls.
Proof. reflexivity. Qed.

Lemma get_label_new_same : forall l i ls, ls <> [] -> get_label l (new_label l i ls) = i.
Proof.
  intros l i [|s r] H; [contradiction|]. cbn [new_label get_label assocL]. rewrite N.eqb_refl. reflexivity.
Qed.

Lemma get_label_new_other : forall l l' i ls, l' <> l -> get_label l' (new_label l i ls) = get_label l' ls.
Proof.
  intros l l' i [|s r] H; [reflexivity|]. cbn [new_label get_label assocL].
  apply N.eqb_neq in H. rewrite H. reflexivity.
Qed.

Lemma new_label_ne : forall l i ls, ls <> [] -> new_label l i ls <> [].
Proof. intros l i [|s r] H; [contradiction | discriminate]. Qed.

Lemma zlen_resolve : forall l s e code, zlen (resolve l s e code) = zlen code.
Proof. intros. unfold resolve. destruct (N.eqb l 0); [reflexivity|]. unfold zlen. rewrite map_length. reflexivity. Qed.

#[local] Hint Rewrite zlen_resolve : zlen.

Lemma clen_compile : forall s ls base, zlen (fst (compile ls base s)) = clen s.
Proof.
  induction s; intros ls base; cbn [compile clen]; try reflexivity.
  - pose proof (IHs1 ls base) as H1. destruct (compile ls base s1) as [ca ls1].
    pose proof (IHs2 ls1 (base + zlen ca)) as H2. destruct (compile ls1 (base + zlen ca) s2) as [cb ls2]. cbn [fst] in *. zl.
  - pose proof (IHs ([] :: ls) (base + 1)) as H. destruct (compile ([] :: ls) (base + 1) s) as [cb ls1]. cbn [fst] in *. zl.
  - pose proof (IHs1 ls (base + 1)) as H1. destruct (compile ls (base + 1) s1) as [ct ls1].
    pose proof (IHs2 ls1 (base + 1 + zlen ct + 1)) as H2. destruct (compile ls1 (base + 1 + zlen ct + 1) s2) as [ce ls2].
    cbn [fst] in *. zl.
  - pose proof (IHs ls (base + 1)) as H. destruct (compile ls (base + 1) s) as [cb ls1]. cbn [fst] in *. zl.
  - pose proof (IHs ls base) as H1. destruct (compile ls base s) as [c1 ls1].
    pose proof (IHs (if N.eqb l 0 then ls1 else new_label l (base + zlen c1) ls1) (base + zlen c1 + 1)) as H2.
    destruct (compile _ (base + zlen c1 + 1) s) as [c2 ls3]. cbn [fst] in *. zl.
  - pose proof (IHs (if N.eqb l 0 then ls else new_label l base ls) base) as H. destruct (compile _ base s) as [cb ls2].
    cbn [fst] in *. zl.
Qed.

(* [ls]: the label stack ConvertStmt has built so far; [env]: the enclosing loops; [D]: the labels still to be declared.
   A label of an enclosing loop is either not on the stack (WHILE) or on it with the loop's start (REPEAT, LOOP); the
   labels to come are on neither *)
Definition inv (ls : lstack) (env : lenv) (D : list label) (base : Z) : Prop :=
  ls <> [] /\ 0 <= base /\
  (forall l sl e, assocE l env = Some (sl, e) -> 0 <= sl /\ 0 <= e /\ (get_label l ls = -1 \/ get_label l ls = sl)) /\
  (forall l, In l D -> get_label l ls = -1 /\ assocE l env = None).

Lemma nodup_app : forall {A} (a b : list A), NoDup (a ++ b) -> NoDup a /\ NoDup b /\ forall x, In x a -> ~ In x b.
Proof.
  intros A a b H. induction a as [|y a IH]; [repeat split; [constructor | exact H | intros x []]|].
  inversion H as [|? ? Hy Hab]; subst. destruct (IH Hab) as (Na & Nb & Hd). repeat split; [|exact Nb|].
  - constructor; [|exact Na]. intros Hi. apply Hy, in_or_app. left. exact Hi.
  - intros x [<- | Hx]; [|exact (Hd x Hx)]. intros Hi. apply Hy, in_or_app. right. exact Hi.
Qed.

Lemma nodup_addl : forall l ls, NoDup (addl l ls) -> NoDup ls /\ (l <> 0%N -> ~ In l ls).
Proof.
  intros l ls H. unfold addl in H. destruct (N.eqb l 0) eqn:E.
  - split; [exact H|]. intros Hl. apply N.eqb_eq in E. contradiction.
  - inversion H; subst. split; [assumption | intros _; assumption].
Qed.

Lemma inv_sub : forall ls env D D' base base', inv ls env D base -> incl D' D -> 0 <= base' -> inv ls env D' base'.
Proof.
  intros ls env D D' base base' (Hne & _ & Henv & Hd) Hi Hb. split; [exact Hne|]. split; [exact Hb|]. split; [exact Henv|].
  intros l Hin. apply Hd, Hi, Hin.
Qed.

(* after a statement that declared [Da], of which it registered [R] *)
Lemma inv_next : forall ls ls1 env R Da Db base base',
  inv ls env (Da ++ Db) base -> NoDup (Da ++ Db) -> incl R Da ->
  (forall l, ~ In l R -> get_label l ls1 = get_label l ls) -> ls1 <> [] -> 0 <= base' ->
  inv ls1 env Db base'.
Proof.
  intros ls ls1 env R Da Db base base' (_ & _ & Henv & Hd) Hnd HR Hg Hne Hb.
  destruct (nodup_app _ _ Hnd) as (_ & _ & Hdis). split; [exact Hne|]. split; [exact Hb|]. split.
  - intros l sl e Ha. rewrite Hg; [exact (Henv l sl e Ha)|].
    intros Hin. destruct (Hd l (in_or_app _ _ _ (or_introl (HR _ Hin)))) as [_ Hn]. congruence.
  - intros l Hin. rewrite Hg; [apply Hd, in_or_app; right; exact Hin|]. intros Hr. exact (Hdis l (HR _ Hr) Hin).
Qed.

(* entering a loop labelled [l]: [ls'] is the stack with which its body is compiled *)
Lemma inv_bind : forall ls ls' env l sl e D base base',
  inv ls env (addl l D) base -> NoDup (addl l D) -> ls' <> [] -> 0 <= base' -> 0 <= sl -> 0 <= e ->
  (forall l0, l = 0%N \/ l0 <> l -> get_label l0 ls' = get_label l0 ls) ->
  (l <> 0%N -> get_label l ls' = -1 \/ get_label l ls' = sl) ->
  inv ls' (bind l (sl, e) env) D base'.
Proof.
  intros ls ls' env l sl e D base base' (_ & _ & Henv & Hd) Hnd Hne Hb Hsl He Hoth Hown.
  destruct (nodup_addl _ _ Hnd) as [_ Hnot]. unfold bind. split; [exact Hne|]. split; [exact Hb|].
  destruct (N.eqb l 0) eqn:E0; [apply N.eqb_eq in E0 | apply N.eqb_neq in E0]; split.
  - intros l0 s0 e0 Ha. rewrite Hoth by auto. exact (Henv l0 s0 e0 Ha).
  - intros l0 Hin. rewrite Hoth by auto. apply Hd, in_addl_r, Hin.
  - intros l0 s0 e0 Ha. cbn [assocE] in Ha. destruct (N.eqb l0 l) eqn:El.
    + apply N.eqb_eq in El. subst l0. injection Ha as <- <-. auto.
    + apply N.eqb_neq in El. rewrite Hoth by auto. exact (Henv l0 s0 e0 Ha).
  - intros l0 Hin. assert (Hneq : l0 <> l) by (intros ->; exact (Hnot E0 Hin)).
    rewrite Hoth by auto. cbn [assocE]. rewrite (proj2 (N.eqb_neq _ _) Hneq). apply Hd, in_addl_r, Hin.
Qed.

(* WHILE, and the first copy of the body of a REPEAT: the label is not put on the stack *)
Lemma inv_bind_unreg : forall ls env l sl e D base base',
  inv ls env (addl l D) base -> NoDup (addl l D) -> 0 <= base' -> 0 <= sl -> 0 <= e -> inv ls (bind l (sl, e) env) D base'.
Proof.
  intros ls env l sl e D base base' Hinv Hnd Hb Hsl He. pose proof Hinv as (Hne & _ & _ & Hd).
  eapply inv_bind; eauto. intros Hl. left. apply Hd. unfold addl. rewrite (proj2 (N.eqb_neq _ _) Hl). left. reflexivity.
Qed.

(* LOOP, and the second copy of the body of a REPEAT: NewLabel has put the label on the stack *)
Lemma inv_bind_reg : forall ls0 ls env l sl e D base base',
  inv ls env (addl l D) base -> NoDup (addl l D) -> ls0 <> [] -> (forall l0, get_label l0 ls0 = get_label l0 ls) ->
  0 <= base' -> 0 <= sl -> 0 <= e ->
  inv (if N.eqb l 0 then ls0 else new_label l sl ls0) (bind l (sl, e) env) D base'.
Proof.
  intros ls0 ls env l sl e D base base' Hinv Hnd Hne Hsame Hb Hsl He. eapply inv_bind; eauto.
  - destruct (N.eqb l 0); [exact Hne | apply new_label_ne; exact Hne].
  - intros l0 [-> | Hl0]; [apply Hsame|]. destruct (N.eqb l 0); [apply Hsame|]. rewrite get_label_new_other by exact Hl0. apply Hsame.
  - intros Hl. rewrite (proj2 (N.eqb_neq _ _) Hl). right. apply get_label_new_same. exact Hne.
Qed.

Lemma dom_add : forall ls env l v,
  (forall l', memL l' ls = true -> exists w, assocE l' env = Some w) ->
  forall l', memL l' (addl l ls) = true -> exists w, assocE l' (bind l v env) = Some w.
Proof. exact dom_bind_add. Qed.

Lemma compile_resolved : forall s it lv ls env base,
  ok it lv s = true -> ok2 s = true -> NoDup (declared s) -> inv ls env (declared s) base -> covers lv env -> covers it env ->
  resolve_env env (fst (compile ls base s)) = compile' env base s
  /\ (forall l, ~ In l (registered s) -> get_label l (snd (compile ls base s)) = get_label l ls)
  /\ snd (compile ls base s) <> [].
Proof.
  induction s; intros it lv ls env base Hok Hok2 Hnd Hinv Hlv Hit; cbn [ok] in Hok; try discriminate Hok;
    cbn [ok2 declared registered compile compile'] in *; try (repeat split; auto; exact (proj1 Hinv)).
  - (* SSeq *)
    apply andb_prop in Hok as [Hk1 Hk2]. apply andb_prop in Hok2 as [Hq1 Hq2]. destruct (nodup_app _ _ Hnd) as (Nd1 & Nd2 & _).
    pose proof (clen_compile s1 ls base) as L1.
    destruct (IHs1 it lv ls env base Hk1 Hq1 Nd1 (inv_sub _ _ _ _ _ _ Hinv (incl_appl _ (incl_refl _)) (proj1 (proj2 Hinv))) Hlv Hit) as (E1 & G1 & N1).
    destruct (compile ls base s1) as [ca ls1]. cbn [fst snd] in *.
    assert (I2 : inv ls1 env (declared s2) (base + zlen ca)).
    { eapply inv_next; eauto using registered_declared. pose proof (zlen_nonneg ca). destruct Hinv as (_ & Hb & _). lia. }
    destruct (IHs2 it lv ls1 env (base + zlen ca) Hk2 Hq2 Nd2 I2 Hlv Hit) as (E2 & G2 & N2).
    destruct (compile ls1 (base + zlen ca) s2) as [cb ls2]. cbn [fst snd] in *.
    split; [rewrite resolve_env_app, E1, E2, L1; reflexivity|]. split; [|exact N2].
    intros l Hl. rewrite G2, G1; auto using in_or_app.
  - (* SBlock *)
    apply andb_prop in Hok as [Hl Hk]. apply N.eqb_eq in Hl. subst l. destruct Hinv as (Hne & Hb & Henv & Hd).
    assert (I1 : inv ([] :: ls) env (declared s) (base + 1)) by (split; [discriminate|]; split; [lia|]; split; assumption).
    pose proof (clen_compile s ([] :: ls) (base + 1)) as L1.
    destruct (IHs it lv ([] :: ls) env (base + 1) Hk Hok2 Hnd I1 Hlv Hit) as (E1 & G1 & N1).
    destruct (compile ([] :: ls) (base + 1) s) as [cb ls1]. cbn [fst snd] in *.
    split; [|split; [exact G1 | exact N1]].
    unfold resolve. cbn [N.eqb]. rewrite resolve_env_cons, resolve_env_app, E1, L1. reflexivity.
  - (* SIf *)
    apply andb_prop in Hok as [Hok _]. apply andb_prop in Hok as [Hk1 Hk2]. apply andb_prop in Hok2 as [Hq1 Hq2].
    destruct (nodup_app _ _ Hnd) as (Nd1 & Nd2 & _). pose proof (proj1 (proj2 Hinv)) as Hb.
    pose proof (clen_compile s1 ls (base + 1)) as L1.
    destruct (IHs1 it lv ls env (base + 1) Hk1 Hq1 Nd1 (inv_sub _ _ _ _ _ (base + 1) Hinv (incl_appl _ (incl_refl _)) ltac:(lia)) Hlv Hit) as (E1 & G1 & N1).
    destruct (compile ls (base + 1) s1) as [ct ls1]. cbn [fst snd] in *. pose proof (zlen_nonneg ct).
    assert (I2 : inv ls1 env (declared s2) (base + 1 + zlen ct + 1)) by (eapply inv_next; eauto using registered_declared; lia).
    pose proof (clen_compile s2 ls1 (base + 1 + zlen ct + 1)) as L2.
    destruct (IHs2 it lv ls1 env (base + 1 + zlen ct + 1) Hk2 Hq2 Nd2 I2 Hlv Hit) as (E2 & G2 & N2).
    destruct (compile ls1 (base + 1 + zlen ct + 1) s2) as [ce ls2]. cbn [fst snd] in *. pose proof (zlen_nonneg ce).
    split; [|split; [|exact N2]].
    + rewrite resolve_env_cons, !resolve_env_app, E1, E2, resolve_env_cons, res_goto_nonneg, L1, L2 by lia. reflexivity.
    + intros l Hl. rewrite G2, G1; auto using in_or_app.
  - (* SWhile *)
    pose proof (clen_nonneg s) as Hcl. pose proof (proj1 (proj2 Hinv)) as Hb.
    assert (I1 : inv ls (bind l (base, base + 1 + clen s + 1) env) (declared s) (base + 1)) by (eapply inv_bind_unreg; eauto; lia).
    pose proof (clen_compile s ls (base + 1)) as L1.
    destruct (IHs (addl l it) (addl l lv) ls _ (base + 1) Hok Hok2 (proj1 (nodup_addl _ _ Hnd)) I1
                (dom_bind_add _ _ _ _ Hlv) (dom_bind_add _ _ _ _ Hit)) as (E1 & G1 & N1).
    destruct (compile ls (base + 1) s) as [cb ls1]. cbn [fst snd] in *.
    split; [|split; [exact G1 | exact N1]].
    rewrite L1, resolve_bind, resolve_env_cons, resolve_env_app, E1, resolve_env_cons, res_goto_nonneg by lia. reflexivity.
  - (* SRepeat: the first copy of the body registers nothing, so the second is compiled with the same stack plus [l] *)
    apply andb_prop in Hok as [Hok Hk]. apply andb_prop in Hok2 as [Hreg Hq].
    assert (Er : registered s = []) by (destruct (registered s); [reflexivity | discriminate Hreg]).
    pose proof (clen_nonneg s) as Hcl. pose proof (proj1 (proj2 Hinv)) as Hb. pose proof (proj1 (nodup_addl _ _ Hnd)) as Nd.
    set (lst := base + clen s) in *. set (env' := bind l (lst, lst + 1 + clen s + 1) env) in *.
    pose proof (dom_bind_add _ _ l (lst, lst + 1 + clen s + 1) Hlv) as Hdl. pose proof (dom_bind_keep _ _ l (lst, lst + 1 + clen s + 1) Hit) as Hdi.
    assert (I1 : inv ls env' (declared s) base) by (eapply inv_bind_unreg; eauto; unfold lst; lia).
    pose proof (clen_compile s ls base) as L1.
    destruct (IHs it (addl l lv) ls env' base Hk Hq Nd I1 Hdl Hdi) as (E1 & G1 & N1).
    destruct (compile ls base s) as [c1 ls1]. cbn [fst snd] in *. rewrite L1. fold lst.
    assert (Hsame : forall l0, get_label l0 ls1 = get_label l0 ls) by (intros l0; apply G1; rewrite Er; intros []).
    assert (I2 : inv (if N.eqb l 0 then ls1 else new_label l lst ls1) env' (declared s) (lst + 1))
      by (eapply inv_bind_reg; eauto; unfold lst; lia).
    pose proof (clen_compile s (if N.eqb l 0 then ls1 else new_label l lst ls1) (lst + 1)) as L2.
    destruct (IHs it (addl l lv) _ env' (lst + 1) Hk Hq Nd I2 Hdl Hdi) as (E2 & G2 & N2).
    destruct (compile _ (lst + 1) s) as [c2 ls3]. cbn [fst snd] in *.
    split; [|split; [|exact N2]].
    + rewrite L2, resolve_bind by (unfold lst; lia). fold env'.
      rewrite resolve_env_app, E1, resolve_env_cons, resolve_env_app, E2, resolve_env_cons, res_goto_nonneg by (unfold lst; lia).
      reflexivity.
    + intros l0 Hl0. rewrite Er in Hl0. rewrite G2 by (rewrite Er; intros []).
      unfold addl in Hl0. destruct (N.eqb l 0); [apply Hsame|].
      rewrite get_label_new_other; [apply Hsame|]. intros ->. apply Hl0. left. reflexivity.
  - (* SLoop *)
    apply andb_prop in Hok as [_ Hk]. pose proof (clen_nonneg s) as Hcl. pose proof (proj1 (proj2 Hinv)) as Hb.
    assert (I1 : inv (if N.eqb l 0 then ls else new_label l base ls) (bind l (base, base + clen s + 1) env) (declared s) base)
      by (eapply inv_bind_reg; eauto; [exact (proj1 Hinv) | lia]).
    pose proof (clen_compile s (if N.eqb l 0 then ls else new_label l base ls) base) as L1.
    destruct (IHs (addl l it) (addl l lv) _ _ base Hk Hok2 (proj1 (nodup_addl _ _ Hnd)) I1
                (dom_bind_add _ _ _ _ Hlv) (dom_bind_add _ _ _ _ Hit)) as (E1 & G1 & N1).
    destruct (compile _ base s) as [cb ls2]. cbn [fst snd] in *.
    split; [|split; [|exact N1]].
    + rewrite L1, resolve_bind, resolve_env_app, E1, resolve_env_cons, res_goto_nonneg by lia. reflexivity.
    + intros l0 Hl0. rewrite G1 by (intros Hin; apply Hl0, in_addl_r, Hin).
      unfold addl in Hl0. destruct (N.eqb l 0); [reflexivity|].
      apply get_label_new_other. intros ->. apply Hl0. left. reflexivity.
  - (* SLeave *)
    destruct (Hlv l Hok) as [[sl e] Ha]. cbn [fst snd resolve_env map res_op]. rewrite Ha.
    cbn. repeat split; auto. exact (proj1 Hinv).
  - (* SIterate: the stack has the loop's start or nothing, and then the enclosing loop patches the placeholder *)
    destruct (Hit l Hok) as [[sl e] Ha]. cbn [fst snd resolve_env map]. rewrite Ha.
    destruct Hinv as (Hne & _ & Henv & _). destruct (Henv l sl e Ha) as [Hs [He [Hg|Hg]]]; rewrite Hg.
    + cbn [res_op]. rewrite Ha. cbn. repeat split; auto.
    + rewrite res_goto_nonneg by exact Hs. repeat split; auto.
Qed.

Definition guard (p : stmt) : Prop := ok [] [] p = true /\ ok2 p = true /\ NoDup (declared p).

Lemma parse_compile' : forall p, guard p -> parse p = compile' [] 0 p.
Proof.
  intros p [Hok [Hok2 Hnd]]. unfold parse.
  assert (I : inv [[]] [] (declared p) 0).
  { split; [discriminate|]. split; [lia|]. split; [intros l sl e Ha; discriminate Ha|]. intros l _. split; reflexivity. }
  destruct (compile_resolved p [] [] [[]] [] 0 Hok Hok2 Hnd I) as [E _]; try (intros l H; discriminate H).
  rewrite resolve_env_nil in E. exact E.
Qed.

Lemma run_mono : forall ops fuel c st r, run ops fuel c st = MDone r -> forall k, run ops (fuel + k) c st = MDone r.
Proof.
  induction fuel as [|f IH]; intros c st r H k; [discriminate|].
  cbn [Nat.add run] in *. destruct (c + 1 <? 0); [discriminate|].
  destruct (nth_op ops (c + 1)) as [o|]; [|exact H].
  destruct (exec_op ops (c + 1) o st) as [c' st'| | |]; try discriminate.
  - exact (IH _ _ _ H k).
  - destruct (handle_error ops (c + 1) st) as [| | |c' st']; try discriminate. exact (IH _ _ _ H k).
Qed.

Lemma run_deterministic : forall ops f1 f2 c st r1 r2,
  run ops f1 c st = MDone r1 -> run ops f2 c st = MDone r2 -> r1 = r2.
Proof.
  intros ops f1 f2 c st r1 r2 H1 H2. pose proof (run_mono _ _ _ _ _ H1 f2) as A1. pose proof (run_mono _ _ _ _ _ H2 f1) as A2.
  rewrite Nat.add_comm in A2. rewrite A1 in A2. injection A2 as ->. reflexivity.
Qed.

(* compiler correctness under the guard: whenever the definition terminates normally, so does the compiled procedure, with
   exactly the same final state (scopes, handler table, parameters, user variables) -- for every amount of fuel that
   lets the machine finish *)
Theorem guarded_compiler_correct : forall p, guard p ->
  forall ps us f st', exec f p (init_state ps us) = (ONormal, st') ->
  (exists fuel, call p fuel ps us = MDone st') /\ (forall fuel r, call p fuel ps us = MDone r -> r = st').
Proof.
  intros p Hg ps us f st' Hex. unfold call. rewrite (parse_compile' p Hg). destruct Hg as [Hok _].
  assert (Hrun : exists fuel, run (compile' [] 0 p) fuel (-1) (init_state ps us) = MDone st').
  { assert (Hn : covers [] []) by (intros l H; discriminate H).
    assert (S : reach (compile' [] 0 p) 0 (init_state ps us) (0 + zlen (compile' [] 0 p)) st')
      by exact (proj1 (sim_all f) p [] [] [] _ _ _ Hok Hn Hn Hex [] [] _ (eq_sym (app_nil_r _))).
    destruct (reach_run _ _ _ _ _ S 1%nat) as [n Hn2]. exists (n + 1)%nat. change (0 - 1) with (-1) in Hn2.
    rewrite Hn2. cbn [run]. pose proof (zlen_nonneg (compile' [] 0 p)) as Hz.
    replace (0 + zlen (compile' [] 0 p) - 1 + 1) with (zlen (compile' [] 0 p)) by lia.
    rewrite (proj2 (Z.ltb_ge _ _)), nth_op_end by lia. reflexivity. }
  split; [exact Hrun|]. intros fuel r Hr. destruct Hrun as [fuel' Hr'].
  exact (run_deterministic _ _ _ _ _ _ _ Hr Hr').
Qed.

Lemma set_scopes_length : forall x v ss ss', set_scopes x v ss = Some ss' -> length ss' = length ss.
Proof.
  intros x v ss. induction ss as [|s r IH]; intros ss' H; cbn [set_scopes] in H; [discriminate|].
  destruct (assocN x s); [injection H as <-; reflexivity|].
  destruct (set_scopes x v r) as [r'|]; [|discriminate]. injection H as <-. cbn [length]. rewrite (IH r' eq_refl). reflexivity.
Qed.

Lemma set_var_scopes : forall st x v st', set_var st x v = Some st' -> length (scopes st') = length (scopes st).
Proof.
  intros st x v st' H. unfold set_var in H. destruct (set_scopes x v (scopes st)) as [ss|] eqn:E.
  - injection H as <-. cbn. exact (set_scopes_length _ _ _ _ E).
  - destruct (assocN x (params st)); [injection H as <-; reflexivity | discriminate].
Qed.

Lemma raise_scopes : forall st o st', raise st = (o, st') -> length (scopes st') = length (scopes st).
Proof.
  intros st o st' H. unfold raise in H. destruct (nearest_handler (hscopes st)) as [[[k h] d]|]; [|injection H as <- <-; reflexivity].
  destruct (run_hstmt st h) as [st2|] eqn:E; [|injection H as <- <-; reflexivity].
  assert (L : length (scopes st2) = length (scopes st)).
  { destruct h as [x e|u e]; cbn [run_hstmt] in E; destruct (eval st e) as [v|]; try discriminate.
    - exact (set_var_scopes _ _ _ _ E).
    - injection E as <-. reflexivity. }
  destruct k; injection H as <- <-; exact L.
Qed.

(* every outcome of the definition leaves as many scopes as it found (blocks pop what they push, whatever happens) *)
Lemma exec_scopes : forall f s st o st', exec f s st = (o, st') -> length (scopes st') = length (scopes st).
Proof.
  induction f as [|f IH]; intros s st o st' H; [cbn in H; injection H as <- <-; reflexivity|].
  assert (Loop : forall l b again, (forall st1, again st1 = (o, st') -> length (scopes st') = length (scopes st1)) ->
            loop_next l (exec f b st) again = (o, st') -> length (scopes st') = length (scopes st)).
  { intros l b again Hag Hx. destruct (exec f b st) as [ob st1] eqn:Eb. rewrite <- (IH _ _ _ _ Eb).
    destruct (loop_next_inv _ _ _ _ _ Hx) as [[Hx' _] | [[[= _ ->] _] | [[= _ ->] _]]]; auto. }
  destruct s; try (rewrite ?exec_while, ?exec_repeat, ?exec_loop in H); cbn [exec] in H.
  - injection H as <- <-. unfold declare_handler. destruct (hscopes st); reflexivity.
  - exact (raise_scopes _ _ _ H).
  - injection H as <- <-. reflexivity.
  - destruct (exec f s1 st) as [oa st1] eqn:Ea. pose proof (IH _ _ _ _ Ea) as L1.
    destruct oa; try (injection H as <- <-; exact L1). rewrite (IH _ _ _ _ H). exact L1.
  - injection H as <- <-. unfold declare_var. destruct (scopes st) eqn:E; [rewrite E; reflexivity | reflexivity].
  - destruct (eval st e) as [v|]; [|injection H as <- <-; reflexivity].
    destruct (set_var st x v) as [st2|] eqn:E; injection H as <- <-; [exact (set_var_scopes _ _ _ _ E) | reflexivity].
  - destruct (eval st e); injection H as <- <-; reflexivity.
  - destruct (exec f s (push_scope st)) as [ob st1] eqn:Eb. pose proof (IH _ _ _ _ Eb) as L1. cbn [push_scope scopes length] in L1.
    assert (Lp : length (scopes (pop_scope st1)) = length (scopes st)).
    { cbn [pop_scope scopes]. destruct (scopes st1); cbn [length tl] in *; lia. }
    destruct ob; try (injection H as <- <-; exact Lp).
    + destruct (lbl_match l l0); injection H as <- <-; exact Lp.
    + destruct (depth =? depth_of (push_scope st)); injection H as <- <-; exact Lp.
  - destruct (eval st c) as [v|]; [|injection H as <- <-; reflexivity]. destruct (truthy v); exact (IH _ _ _ _ H).
  - destruct (eval st c) as [v|]; [|injection H as <- <-; reflexivity]. destruct (truthy v); [|injection H as <- <-; reflexivity].
    exact (Loop l s _ (fun st1 => IH _ _ _ _) H).
  - apply (Loop l s _) in H; [exact H|]. intros st1 Hx. unfold until in Hx. destruct (eval st1 c) as [v|]; [|injection Hx as <- <-; reflexivity].
    destruct (truthy v); [injection Hx as <- <-; reflexivity | exact (IH _ _ _ _ Hx)].
  - exact (Loop l s _ (fun st1 => IH _ _ _ _) H).
  - injection H as <- <-. reflexivity.
  - injection H as <- <-. reflexivity.
Qed.

(* scope_balance under the guard: the compiled procedure ends with exactly the scope it started with *)
Theorem guarded_scope_balance : forall p, guard p ->
  forall ps us f st', exec f p (init_state ps us) = (ONormal, st') ->
  forall fuel r, call p fuel ps us = MDone r -> length (scopes r) = 1%nat.
Proof.
  intros p Hg ps us f st' Hex fuel r Hr.
  destruct (guarded_compiler_correct p Hg ps us f st' Hex) as [_ Hu]. rewrite (Hu fuel r Hr).
  rewrite (exec_scopes _ _ _ _ _ Hex). reflexivity.
Qed.

From GMS Require Import Lang.C24ProcProofs.

(* BEGIN DECLARE v0 INT DEFAULT 0; DECLARE v1 INT DEFAULT 0;
     l1: LOOP BEGIN DECLARE v1 INT DEFAULT 9; SET v0 = v0 + 1; IF 3 <= v0 THEN LEAVE l1; END IF;
                    IF v0 = 1 THEN ITERATE l1; END IF; SET v1 = v1 + 1; END; END LOOP;
     l2: REPEAT SET v1 = v1 + 1; SET v0 = v0 + 1; UNTIL (v1 IS NULL) = 0 END REPEAT;
     WHILE v0 < 6 DO SET v0 = v0 + 1; SET v1 = v1 + 1; END WHILE;
     SET @u0 = v0; SET @u1 = v1; END *)
Definition guard_prog2 : stmt :=
  blk 0 (SSeq (dcl 0 0) (SSeq (dcl 1 0)
        (SSeq (lop 1 (blk 0 (SSeq (dcl 1 9) (SSeq (set_ 0 (EBin Add (var 0) (EConst 1)))
                            (SSeq (SIf (EBin Le (EConst 3) (var 0)) (lv 1) SSkip)
                            (SSeq (SIf (EBin Eq (var 0) (EConst 1)) (itr 1) SSkip)
                                  (set_ 1 (EBin Add (var 1) (EConst 1)))))))))
        (SSeq (SRepeat 2%N (SSeq (set_ 1 (EBin Add (var 1) (EConst 1))) (set_ 0 (EBin Add (var 0) (EConst 1))))
                       (EBin Eq (EIsNull (var 1)) (EConst 0)))
        (SSeq (whl 0 (EBin Lt (var 0) (EConst 6)) (SSeq (set_ 0 (EBin Add (var 0) (EConst 1))) (set_ 1 (EBin Add (var 1) (EConst 1)))))
        (SSeq (setu 0 (var 0)) (setu 1 (var 1)))))))).

Lemma guard_examples : guard good_prog /\ guard guard_prog2 /\
  exists st, exec 80 guard_prog2 (init_state [] []) = (ONormal, st) /\ users st = [(0%N, Some 6); (1%N, Some 3)].
Proof.
  split; [|split].
  - split; [vm_compute; reflexivity|]. split; [vm_compute; reflexivity|]. vm_compute. repeat constructor; cbn; intuition discriminate.
  - split; [vm_compute; reflexivity|]. split; [vm_compute; reflexivity|]. vm_compute. repeat constructor; cbn; intuition discriminate.
  - eexists. vm_compute. split; reflexivity.
Qed.
