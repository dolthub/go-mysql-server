(* C22 -- SHOW CREATE VIEW / TRIGGER / PROCEDURE.

   sql/rowexec/show_iters.go produceCreateViewStatement: fmt.Sprintf("CREATE VIEW `%s` AS %s", name, TextDefinition)
   (the name is NOT passed through QuoteIdentifier); SHOW CREATE TRIGGER / PROCEDURE return the CREATE statement
   stored when the object was created (sql/rowexec/show.go buildShowCreateTrigger / buildShowCreateProcedure).
   The catalog of stored programs is modelled as an association list name -> original statement text. *)
From Coq Require Import List NArith Bool.
Import ListNotations.
From GMS Require Import Lang.ShowCreate Lang.ShowCreateProofs.
Open Scope N_scope.

Definition kw_cview : str := [67; 82; 69; 65; 84; 69; 32; 86; 73; 69; 87; 32].   (* "CREATE VIEW " *)
Definition kw_as : str := [32; 65; 83; 32].   (* " AS " *)

Definition print_view (name text : str) : str := kw_cview ++ [96] ++ name ++ [96] ++ kw_as ++ text.

(* the reader of the printed sublanguage: CREATE VIEW `quoted name` AS <rest> *)
Definition parse_view (inp : str) : option (str * str) :=
  match strip kw_cview inp with
  | Some r0 => match p_qid r0 with
               | Some (name, r1) => match strip kw_as r1 with Some text => Some (name, text) | None => None end
               | None => None
               end
  | None => None
  end.

Definition no_backtick (s : str) : bool := forallb (fun c => negb (c =? 96)) s.

Lemma replace1_id a r s : forallb (fun c => negb (c =? a)) s = true -> replace1 a r s = s.
Proof. apply flat_map_single. intros c Hc. apply negb_true_iff in Hc. rewrite Hc. reflexivity. Qed.

Theorem view_roundtrip name text : no_backtick name = true -> parse_view (print_view name text) = Some (name, text).
Proof.
  intro H. unfold parse_view, print_view. rewrite strip_app.
  assert (E : [96] ++ name ++ [96] ++ kw_as ++ text = quote_id name ++ kw_as ++ text).
  { unfold quote_id. rewrite (replace1_id 96 [96; 96] name H). cbn [app]. rewrite <- app_assoc. reflexivity. }
  rewrite E. rewrite p_qid_ok; [|reflexivity]. rewrite strip_app. reflexivity.
Qed.

Definition catalog := list (str * str).

Fixpoint show_obj (c : catalog) (n : str) : option str :=
  match c with
  | [] => None
  | (k, s) :: c' => if str_eqb k n then Some s else show_obj c' n
  end.

Definition drop_obj (c : catalog) (n : str) : catalog := filter (fun kv => negb (str_eqb (fst kv) n)) c.

(* CREATE fails when the name is taken *)
Definition create_obj (c : catalog) (n stmt : str) : option catalog :=
  match show_obj c n with Some _ => None | None => Some ((n, stmt) :: c) end.

Lemma show_drop_same c n : show_obj (drop_obj c n) n = None.
Proof.
  induction c as [|[k s] c IH]; [reflexivity|]. unfold drop_obj in *. cbn [filter fst].
  destruct (str_eqb k n) eqn:E; cbn [negb]; [exact IH|]. cbn [show_obj]. rewrite E. exact IH.
Qed.

Lemma show_drop_other c n m : str_eqb n m = false -> show_obj (drop_obj c n) m = show_obj c m.
Proof.
  intro H. induction c as [|[k s] c IH]; [reflexivity|]. unfold drop_obj in *. cbn [filter fst].
  destruct (str_eqb k n) eqn:E; cbn [negb show_obj]; rewrite IH; [|reflexivity].
  apply str_eqb_eq in E. subst k. rewrite H. reflexivity.
Qed.

(* drop + re-run of the echoed statement: the object shows the same text again, other objects are untouched *)
Theorem recreate_echo c n s :
  show_obj c n = Some s ->
  exists c', create_obj (drop_obj c n) n s = Some c' /\ show_obj c' n = Some s /\
             forall m, str_eqb n m = false -> show_obj c' m = show_obj c m.
Proof.
  intro H. unfold create_obj. rewrite show_drop_same. eexists. split; [reflexivity|]. split.
  - cbn. rewrite str_eqb_refl. reflexivity.
  - intros m Hm. cbn. rewrite Hm. apply show_drop_other. exact Hm.
Qed.

Theorem create_then_show c n s c' : create_obj c n s = Some c' -> show_obj c' n = Some s.
Proof.
  unfold create_obj. destruct (show_obj c n); [discriminate|]. intro H. injection H as <-. cbn. rewrite str_eqb_refl. reflexivity.
Qed.
