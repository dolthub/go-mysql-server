(* C22 -- proofs about the SHOW CREATE TABLE model: the model parser inverts the printer. *)
From Coq Require Import List NArith Bool Arith Lia.
Import ListNotations.
From GMS Require Import Lang.ShowCreate.
Open Scope N_scope.

Lemma strip_app kw r : strip kw (kw ++ r) = Some r.
Proof. induction kw as [|k kw IH]; cbn; [reflexivity|]. rewrite N.eqb_refl. exact IH. Qed.

Definition hdnot (P : N -> bool) (r : str) : Prop := match r with c :: _ => P c = false | [] => True end.
Definition hd_in (l : list N) (r : str) : Prop := match r with c :: _ => In c l | [] => False end.

Lemma span_app P w r : forallb P w = true -> hdnot P r -> span P (w ++ r) = (w, r).
Proof.
  intros Hw Hr. induction w as [|c w IH]; cbn in *.
  - destruct r as [|c r]; [reflexivity|]. cbn in *. rewrite Hr. reflexivity.
  - apply andb_prop in Hw. destruct Hw as [Hc Hw]. rewrite Hc. rewrite (IH Hw). reflexivity.
Qed.

Lemma str_eqb_refl a : str_eqb a a = true.
Proof. induction a as [|x a IH]; cbn; [reflexivity|]. rewrite N.eqb_refl. exact IH. Qed.

Lemma str_eqb_eq a b : str_eqb a b = true -> a = b.
Proof.
  revert b. induction a as [|x a IH]; intros [|y b] H; cbn in H; try discriminate; [reflexivity|].
  apply andb_prop in H. destruct H as [H1 H2]. apply N.eqb_eq in H1. apply IH in H2. congruence.
Qed.

Lemma hd_in_hdnot l P r : hd_in l r -> forallb (fun c => negb (P c)) l = true -> hdnot P r.
Proof.
  destruct r as [|c r]; [easy|]. cbn [hd_in hdnot]. rewrite forallb_forall. intros Hc H. apply negb_true_iff, H, Hc.
Qed.
Lemma strip_hdnot k kw r : hdnot (N.eqb k) r -> strip (k :: kw) r = None.
Proof. destruct r as [|c r]; cbn [hdnot strip]; [reflexivity|]. intros ->. reflexivity. Qed.
Lemma hd_in_strip l k kw r : hd_in l r -> forallb (fun c => negb (k =? c)) l = true -> strip (k :: kw) r = None.
Proof. intros Hr H. exact (strip_hdnot k kw r (hd_in_hdnot l _ r Hr H)). Qed.

Lemma hd_in_notdigit rest : hd_in [32; 44; 10] rest -> hdnot digitch rest.
Proof. intro H. exact (hd_in_hdnot _ digitch _ H eq_refl). Qed.

(* [e] escapes character by character, and reading the escape of a character gives the character back *)
Definition esc_ok (q : N) (f : option (N -> option N)) (e : N -> str) : Prop :=
  forall c rest, scan q f (e c ++ rest) = cons_fst c (scan q f rest).

Lemma scan_esc q f e : esc_ok q f e ->
  forall s rest, hdnot (N.eqb q) rest -> scan q f (flat_map e s ++ q :: rest) = Some (s, rest).
Proof.
  intros He s rest Hr. induction s as [|c s IH]; cbn [flat_map app].
  - cbn [scan]. rewrite N.eqb_refl. destruct rest as [|c2 r2]; [reflexivity|]. cbn [hdnot] in Hr.
    rewrite N.eqb_sym, Hr. reflexivity.
  - rewrite <- app_assoc, He, IH. reflexivity.
Qed.

(* per-character forms of the escape functions *)
Definition escc_dbl (q c : N) : str := if c =? q then [q; q] else [c].
Definition escc_lit (c : N) : str := if c =? 39 then [39; 39] else if c =? 92 then [92; 92] else [c].
Definition escc_comment (c : N) : str :=
  if c =? 39 then [39; 39] else if c =? 92 then [92; 92] else if c =? 34 then [92; 34]
  else if c =? 10 then [92; 110] else if c =? 13 then [92; 114] else if c =? 0 then [92; 48] else [c].

(* a chain of replacements is one replacement per character *)
Lemma replace1_flat_map a r (e : N -> str) s : replace1 a r (flat_map e s) = flat_map (fun c => replace1 a r (e c)) s.
Proof. unfold replace1. induction s as [|c s IH]; [reflexivity|]. cbn [flat_map]. rewrite flat_map_app, IH. reflexivity. Qed.

(* decides [c =? k] for every k the goal compares c with, in turn *)
Ltac eqb_cases c :=
  repeat match goal with
         | |- context [c =? ?k] => destruct (N.eqb_spec c k); [subst c; cbn; try reflexivity|]; cbn
         end.

Lemma esc_lit_flat s : esc_lit s = flat_map escc_lit s.
Proof.
  unfold esc_lit. unfold replace1 at 2. rewrite replace1_flat_map. apply flat_map_ext. intro c.
  unfold escc_lit. eqb_cases c. reflexivity.
Qed.

Lemma esc_comment_flat s : esc_comment s = flat_map escc_comment s.
Proof.
  unfold esc_comment. unfold replace1 at 6. rewrite !replace1_flat_map. apply flat_map_ext. intro c.
  unfold escc_comment. eqb_cases c. reflexivity.
Qed.

Lemma esc_ok_dbl q : esc_ok q None (escc_dbl q).
Proof.
  intros c rest. unfold escc_dbl. destruct (N.eqb_spec c q) as [->|Hc]; cbn [app scan].
  - rewrite !N.eqb_refl. reflexivity.
  - apply N.eqb_neq in Hc. rewrite Hc. reflexivity.
Qed.

(* with a backslash table: the quote and the backslash-escaped characters are read back by computation, any other
   character is neither *)
Lemma esc_ok_lit : esc_ok 39 (Some unesc_lit) escc_lit.
Proof.
  intros c rest. unfold escc_lit.
  destruct (N.eqb_spec c 39) as [->|H1]; [reflexivity|]. destruct (N.eqb_spec c 92) as [->|H2]; [reflexivity|].
  cbn [app scan]. apply N.eqb_neq in H1, H2. rewrite H1, H2. reflexivity.
Qed.

Lemma esc_ok_comment : esc_ok 39 (Some unesc_comment) escc_comment.
Proof.
  intros c rest. unfold escc_comment.
  destruct (N.eqb_spec c 39) as [->|H1]; [reflexivity|]. destruct (N.eqb_spec c 92) as [->|H2]; [reflexivity|].
  repeat match goal with |- context [c =? ?k] => destruct (N.eqb_spec c k) as [->|_]; [reflexivity|] end.
  cbn [app scan]. apply N.eqb_neq in H1, H2. rewrite H1, H2. reflexivity.
Qed.

Lemma p_qid_ok s rest : hdnot (N.eqb 96) rest -> p_qid (quote_id s ++ rest) = Some (s, rest).
Proof.
  intro H. unfold quote_id, p_qid. cbn. rewrite <- app_assoc. cbn.
  apply (scan_esc 96 None (escc_dbl 96)); [apply esc_ok_dbl|exact H].
Qed.

Lemma p_qstr_enum_ok s rest :
  hdnot (N.eqb 39) rest -> p_qstr None (quote_with esc_enum s ++ rest) = Some (s, rest).
Proof.
  intro H. unfold quote_with, p_qstr. cbn. rewrite <- app_assoc. cbn.
  apply (scan_esc 39 None (escc_dbl 39)); [apply esc_ok_dbl|exact H].
Qed.

Lemma p_qstr_lit_ok s rest :
  hdnot (N.eqb 39) rest -> p_qstr (Some unesc_lit) (quote_with esc_lit s ++ rest) = Some (s, rest).
Proof.
  intro H. unfold quote_with, p_qstr. cbn. rewrite <- app_assoc. cbn. rewrite esc_lit_flat.
  apply (scan_esc 39 (Some unesc_lit) escc_lit); [exact esc_ok_lit|exact H].
Qed.

Lemma scan_comment_ok s rest :
  hdnot (N.eqb 39) rest -> scan 39 (Some unesc_comment) (esc_comment s ++ 39 :: rest) = Some (s, rest).
Proof.
  intro H. rewrite esc_comment_flat.
  apply (scan_esc 39 (Some unesc_comment) escc_comment); [exact esc_ok_comment|exact H].
Qed.

Lemma scan_raw_ok s rest : no_quote s = true -> scan_raw (s ++ 39 :: rest) = Some (s, rest).
Proof.
  intro H. induction s as [|c s IH]; cbn in *; [reflexivity|].
  apply andb_prop in H. destruct H as [Hc Hs]. apply negb_true_iff in Hc. rewrite Hc. rewrite (IH Hs). reflexivity.
Qed.

Lemma scan_bal_app e : forall d d' rest,
  bal d e = Some d' ->
  scan_bal d (e ++ rest) = match scan_bal d' rest with Some (x, r) => Some (e ++ x, r) | None => None end.
Proof.
  induction e as [|c e IH]; intros d d' rest H; cbn [bal app] in *.
  - injection H as <-. destruct (scan_bal d rest) as [[x r]|]; reflexivity.
  - cbn [scan_bal]. destruct (c =? 41).
    + destruct d as [|d0]; [discriminate|]. rewrite (IH d0 d' rest H).
      destruct (scan_bal d' rest) as [[x r]|]; reflexivity.
    + destruct (c =? 40); rewrite (IH _ d' rest H); destruct (scan_bal d' rest) as [[x r]|]; reflexivity.
Qed.

Lemma scan_bal_ok e rest : wf_expr e = true -> scan_bal 0 (e ++ 41 :: rest) = Some (e, rest).
Proof.
  unfold wf_expr. intro H. destruct (bal 0 e) as [[|n]|] eqn:E; try discriminate.
  rewrite (scan_bal_app e 0 0 (41 :: rest) E). cbn. rewrite app_nil_r. reflexivity.
Qed.

(* characters that are their own escape *)
Lemma flat_map_single {A} (e : A -> list A) (P : A -> bool) s :
  (forall c, P c = true -> e c = [c]) -> forallb P s = true -> flat_map e s = s.
Proof.
  intros He H. induction s as [|c s IH]; [reflexivity|]. cbn [forallb flat_map] in *.
  apply andb_prop in H. destruct H as [Hc Hs]. rewrite (He c Hc), (IH Hs). reflexivity.
Qed.

Lemma esc_lit_id s : no_quote_bs s = true -> esc_lit s = s.
Proof.
  rewrite esc_lit_flat. apply flat_map_single. intros c Hc. apply andb_prop in Hc. destruct Hc as [H1 H2].
  apply negb_true_iff in H1, H2. unfold escc_lit. rewrite H1, H2. reflexivity.
Qed.

Lemma p_digits_ok d rest : is_num d = true -> hdnot digitch rest -> p_digits (d ++ rest) = Some (d, rest).
Proof.
  intros Hd Hr. unfold p_digits. destruct d as [|c d]; [discriminate|]. cbn in Hd.
  rewrite (span_app digitch (c :: d) rest Hd Hr). reflexivity.
Qed.

Lemma p_pnum_ok d rest : is_num d = true -> p_pnum (paren d ++ rest) = Some (d, rest).
Proof.
  intro Hd. unfold p_pnum, paren. cbn. rewrite <- app_assoc. rewrite (p_digits_ok d _ Hd); [|reflexivity].
  cbn. reflexivity.
Qed.

Section SepListOk.
  Context {A : Type} (p : str -> option (A * str)) (pr : A -> str) (sep : str) (wfx : A -> Prop) (good : str -> Prop).
  Hypothesis Hp : forall x rest, wfx x -> good rest -> p (pr x ++ rest) = Some (x, rest).
  Hypothesis Hsep : forall r, good (sep ++ r).

  Lemma sep_list_ok xs : forall fuel tail,
    Forall wfx xs -> xs <> [] -> good tail -> strip sep tail = None -> (length xs <= fuel)%nat ->
    sep_list p sep fuel (joins sep (map pr xs) ++ tail) = Some (xs, tail).
  Proof.
    induction xs as [|x xs IH]; intros fuel tail Hwf Hne Hg Hs Hf; [congruence|].
    destruct fuel as [|fuel]; [cbn in Hf; lia|].
    inversion Hwf as [|? ? Hx Hxs]; subst.
    destruct xs as [|y xs].
    - cbn. rewrite (Hp x tail Hx Hg). rewrite Hs. reflexivity.
    - change (joins sep (map pr (x :: y :: xs))) with (pr x ++ sep ++ joins sep (map pr (y :: xs))).
      rewrite <- !app_assoc. cbn [sep_list]. rewrite (Hp x _ Hx (Hsep _)). rewrite strip_app.
      rewrite (IH fuel tail Hxs); [reflexivity|discriminate|assumption|assumption|cbn in *; lia].
  Qed.
End SepListOk.

Lemma joins_len (sep : str) (l : list str) : sep <> [] -> (length l <= S (length (joins sep l)))%nat.
Proof.
  intro Hs. induction l as [|x l IH]; [cbn; lia|].
  destruct l as [|y l]; [cbn; lia|].
  change (joins sep (x :: y :: l)) with (x ++ sep ++ joins sep (y :: l)).
  rewrite !app_length. destruct sep; [congruence|]. cbn [length] in *. lia.
Qed.

(* the length of the input is fuel enough for the items printed in it *)
Lemma fuel_ok {A} (pr : A -> str) (sep : str) (xs : list A) (tail : str) :
  sep <> [] -> tail <> [] -> (length xs <= length (joins sep (map pr xs) ++ tail))%nat.
Proof.
  intros Hs Ht. pose proof (joins_len sep (map pr xs) Hs) as H. rewrite map_length in H.
  rewrite app_length. destruct tail; [congruence|]. cbn [length]. lia.
Qed.

Lemma find_coll_name c : find_coll (coll_name c) = Some c.
Proof. destruct c; vm_compute; reflexivity. Qed.

Lemma coll_name_word c : forallb wordch (coll_name c) = true.
Proof. destruct c; vm_compute; reflexivity. Qed.

Lemma cs_name_word c : forallb wordch (cs_name c) = true.
Proof. destruct c; vm_compute; reflexivity. Qed.

(* the collation name after its keyword, read as the table options and the column suffix both do *)
Lemma span_coll_name c rest : hdnot wordch rest -> span wordch (coll_name c ++ rest) = (coll_name c, rest).
Proof. apply span_app, coll_name_word. Qed.

Lemma p_collsfx_ok tc oc rest :
  wf_collsfx tc oc = true -> strip kw_charset rest = None -> strip kw_collate rest = None -> hdnot wordch rest ->
  p_collsfx (print_collsfx tc oc ++ rest) = Some (oc, rest).
Proof.
  intros Hwf H1 H2 H3. unfold p_collsfx. destruct oc as [c|]; cbn [print_collsfx].
  - cbn in Hwf. apply negb_true_iff in Hwf. rewrite Hwf.
    destruct (cs_eqb (coll_cs c) (coll_cs tc)); rewrite <- ?app_assoc.
    + cbn [app]. change (strip kw_charset (kw_collate ++ ?x)) with (@None str).
      cbv beta iota. rewrite strip_app, (span_coll_name c rest H3), find_coll_name. reflexivity.
    + rewrite strip_app. rewrite (span_app wordch (cs_name (coll_cs c)) _ (cs_name_word _)); [|reflexivity].
      cbn [snd]. cbv beta iota. rewrite strip_app, (span_coll_name c rest H3), find_coll_name. reflexivity.
  - cbn [app]. rewrite H1, H2. reflexivity.
Qed.

Definition typegood (rest : str) : Prop :=
  hd_in [32; 44; 10] rest /\ strip kw_unsigned rest = None /\ strip kw_charset rest = None /\ strip kw_collate rest = None.

Lemma p_pnum2_ok p s rest :
  is_num p = true -> is_num s = true -> p_pnum2 (paren (p ++ 44 :: s) ++ rest) = Some (p, s, rest).
Proof.
  intros Hp Hs. unfold p_pnum2, paren. cbn [app strip]. rewrite N.eqb_refl. rewrite <- !app_assoc.
  rewrite (p_digits_ok p _ Hp); [|reflexivity]. cbn [app strip]. rewrite N.eqb_refl.
  rewrite (p_digits_ok s _ Hs); [|reflexivity]. cbn [app strip]. rewrite N.eqb_refl. reflexivity.
Qed.

Lemma p_prec_ok p rest : prec_ok p = true -> strip [40] rest = None -> p_prec (print_prec p ++ rest) = Some (p, rest).
Proof.
  intros Hp Hr. unfold prec_ok in Hp. apply N.leb_le in Hp. unfold p_prec, print_prec.
  destruct (N.eqb_spec p 0) as [->|Hz].
  - cbn [app]. rewrite Hr. reflexivity.
  - unfold paren. cbn [app strip]. rewrite !N.eqb_refl.
    assert (E : (49 <=? 48 + p) && (48 + p <=? 54) = true)
      by (apply andb_true_intro; split; apply N.leb_le; lia).
    rewrite E. f_equal. f_equal. lia.
Qed.

Lemma p_values_ok vs rest :
  nonempty vs = true ->
  p_values (paren (joins [44] (map (quote_with esc_enum) vs)) ++ rest) = Some (vs, rest).
Proof.
  intro Hne. unfold p_values, paren. cbn [app strip]. rewrite N.eqb_refl. rewrite <- app_assoc. cbn [app].
  rewrite (sep_list_ok (p_qstr None) (quote_with esc_enum) [44] (fun _ => True) (hdnot (N.eqb 39))).
  - cbn [strip]. rewrite N.eqb_refl. reflexivity.
  - intros x r _ Hr. apply p_qstr_enum_ok. exact Hr.
  - intro r. reflexivity.
  - apply Forall_forall. intros; exact I.
  - destruct vs; discriminate.
  - reflexivity.
  - reflexivity.
  - apply fuel_ok; discriminate.
Qed.

Lemma p_flag_if (b : bool) kw X : strip kw X = None -> p_flag kw ((if b then kw else []) ++ X) = (b, X).
Proof. intro H. unfold p_flag. destruct b; [rewrite strip_app; reflexivity|cbn [app]; rewrite H; reflexivity]. Qed.

Lemma p_int_ok k uns rest :
  strip kw_unsigned rest = None -> p_int k ((if uns : bool then kw_unsigned else []) ++ rest) = Some (TyInt k uns, rest).
Proof. intro H. unfold p_int. destruct uns; [rewrite strip_app; reflexivity|]. cbn [app]. rewrite H. reflexivity. Qed.

(* what follows the leading word of a printed type does not continue the word *)
Section TypeTail.
  Variables (tc : coll) (rest : str).
  Hypothesis Hnw : hdnot wordch rest.
  Lemma print_prec_nothd p : hdnot wordch (print_prec p ++ rest).
  Proof. unfold print_prec. destruct (p =? 0); [exact Hnw|reflexivity]. Qed.
  Lemma print_collsfx_nothd c : hdnot wordch (print_collsfx tc c ++ rest).
  Proof.
    destruct c as [c|]; [|exact Hnw]. cbn [print_collsfx].
    destruct (cs_eqb (coll_cs c) (coll_cs tc)); destruct (coll_eqb c tc); try exact Hnw; reflexivity.
  Qed.
  Lemma unsigned_nothd (uns : bool) : hdnot wordch ((if uns then kw_unsigned else []) ++ rest).
  Proof. destruct uns; [reflexivity|exact Hnw]. Qed.
End TypeTail.

(* [word]: the type starts with a word; it ends at the first character of what follows, and the comparisons with the
   type names are decided on its letters *)
Ltac word Hnw :=
  rewrite <- ?app_assoc; unfold p_type;
  rewrite (span_app wordch);
  [|reflexivity|first [exact Hnw|reflexivity|apply print_prec_nothd, Hnw|apply print_collsfx_nothd, Hnw|apply unsigned_nothd, Hnw]];
  cbn [str_eqb N.eqb Pos.eqb andb].

Lemma p_type_ok tc t rest :
  wf_type tc t = true -> typegood rest -> p_type (print_type tc t ++ rest) = Some (t, rest).
Proof.
  intros Hwf (Hh & Hu & Hcs & Hco). pose proof (hd_in_hdnot _ wordch _ Hh eq_refl) as Hnw.
  assert (H40 : strip [40] rest = None) by exact (hd_in_strip _ 40 _ _ Hh eq_refl).
  assert (Hcoll : forall mk c, wf_collsfx tc c = true ->
            with_coll mk (p_collsfx (print_collsfx tc c ++ rest)) = Some (mk c, rest)).
  { intros mk c Hc. rewrite (p_collsfx_ok tc c rest Hc Hcs Hco Hnw). reflexivity. }
  destruct t; cbn [print_type wf_type] in *.
  - (* int *)
    destruct k; cbn [ikind_name]; word Hnw; try (apply p_int_ok; exact Hu).
    assert (E : strip [40; 49; 41] ((if uns then kw_unsigned else []) ++ rest) = None).
    { destruct uns; [reflexivity|]. exact (hd_in_strip _ 40 _ _ Hh eq_refl). }
    rewrite E. apply p_int_ok; exact Hu.
  - (* bool *)
    change ([116; 105; 110; 121; 105; 110; 116; 40; 49; 41] ++ rest)
      with ([116; 105; 110; 121; 105; 110; 116] ++ [40; 49; 41] ++ rest).
    word Hnw. rewrite strip_app. reflexivity.
  - (* decimal *)
    apply andb_prop in Hwf. destruct Hwf as [Hp Hs]. word Hnw. rewrite (p_pnum2_ok p s rest Hp Hs). reflexivity.
  - word Hnw. reflexivity.
  - word Hnw. reflexivity.
  - (* char *)
    apply andb_prop in Hwf. destruct Hwf as [Hn Hc]. word Hnw. rewrite (p_pnum_ok n _ Hn). apply Hcoll, Hc.
  - (* varchar *)
    apply andb_prop in Hwf. destruct Hwf as [Hn Hc]. word Hnw. rewrite (p_pnum_ok n _ Hn). apply Hcoll, Hc.
  - (* text *)
    destruct k; cbn [text_name]; word Hnw; apply Hcoll, Hwf.
  - (* binary *)
    word Hnw. rewrite (p_pnum_ok n _ Hwf). reflexivity.
  - word Hnw. rewrite (p_pnum_ok n _ Hwf). reflexivity.
  - (* blob *)
    destruct k; cbn [blob_name]; word Hnw; reflexivity.
  - word Hnw. reflexivity.
  - (* datetime *)
    word Hnw. rewrite (p_prec_ok p rest Hwf H40). reflexivity.
  - word Hnw. rewrite (p_prec_ok p rest Hwf H40). reflexivity.
  - (* time(6) *)
    change ([116; 105; 109; 101; 40; 54; 41] ++ rest) with ([116; 105; 109; 101] ++ [40; 54; 41] ++ rest).
    word Hnw. rewrite strip_app. reflexivity.
  - word Hnw. reflexivity.
  - (* enum *)
    apply andb_prop in Hwf. destruct Hwf as [Hn Hc]. word Hnw. rewrite (p_values_ok vs _ Hn). apply Hcoll, Hc.
  - (* set *)
    apply andb_prop in Hwf. destruct Hwf as [Hn Hc]. word Hnw. rewrite (p_values_ok vs _ Hn). apply Hcoll, Hc.
  - (* bit *)
    word Hnw. rewrite (p_pnum_ok n _ Hwf). reflexivity.
  - word Hnw. reflexivity.
Qed.

(* what can follow a column segment *)
Inductive shape (kws : list str) (X : str) : Prop :=
| sh_kw kw r : In kw kws -> X = kw ++ r -> shape kws X
| sh_tail : hd_in [44; 10] X -> shape kws X.

Fixpoint mism (k kw : str) : bool :=
  match k, kw with
  | a :: k', b :: kw' => if a =? b then mism k' kw' else true
  | _, _ => false
  end.

Lemma mism_strip k kw r : mism k kw = true -> strip k (kw ++ r) = None.
Proof.
  revert kw. induction k as [|a k IH]; intros [|b kw] H; cbn in *; try discriminate.
  destruct (a =? b); [apply IH; exact H|reflexivity].
Qed.

Lemma shape_strip a k kws X :
  forallb (mism (a :: k)) kws = true -> forallb (fun c => negb (a =? c)) [44; 10] = true -> shape kws X -> strip (a :: k) X = None.
Proof.
  intros Hm A [kw r Hin ->|Ht].
  - apply mism_strip. rewrite forallb_forall in Hm. apply Hm. exact Hin.
  - exact (hd_in_strip _ _ _ _ Ht A).
Qed.

Lemma shape_seg kw kws seg X :
  (seg = [] \/ exists r, seg = kw ++ r) -> shape kws X -> shape (kw :: kws) (seg ++ X).
Proof.
  intros [->|[r ->]] H.
  - cbn [app]. destruct H as [kw' r' Hin E|Ht]; [apply (sh_kw _ _ kw' r'); [right; exact Hin|exact E]|apply sh_tail; exact Ht].
  - apply (sh_kw _ _ kw (r ++ X)); [left; reflexivity|rewrite app_assoc; reflexivity].
Qed.

Lemma shape_hd kws X :
  shape kws X -> forallb (fun kw => match kw with c :: _ => c =? 32 | [] => false end) kws = true -> hd_in [32; 44; 10] X.
Proof.
  intros [kw r Hin ->|Ht] Hk.
  - rewrite forallb_forall in Hk. specialize (Hk kw Hin). destruct kw as [|c kw]; [discriminate|].
    apply N.eqb_eq in Hk. left. symmetry. exact Hk.
  - destruct X; [destruct Ht|]. right. exact Ht.
Qed.

Lemma p_now_ok p X : prec_ok p = true -> strip [40] X = None -> p_now (print_now p ++ X) = Some (p, X).
Proof.
  intros Hp HX. unfold p_now, print_now. rewrite <- app_assoc. rewrite strip_app. apply p_prec_ok; assumption.
Qed.

Lemma print_def_quoted t s :
  wf_def t (DQuoted s) = true -> print_def t (DQuoted s) = quote_with esc_lit s.
Proof.
  cbn [wf_def print_def]. intro H. apply andb_prop in H. destruct H as [H1 H2].
  apply andb_prop in H1. destruct H1 as [H1 _].
  assert (E : (if lit_is_escaped t then quote_with esc_lit s else quote_with (fun x => x) s) = quote_with esc_lit s).
  { destruct (lit_is_escaped t); [reflexivity|]. cbn in H2. unfold quote_with. rewrite (esc_lit_id s H2). reflexivity. }
  destruct t; try exact E; discriminate.
Qed.

(* [p_def] tells the six forms of a default apart by their first characters *)
Lemma p_def_null x : p_def (kw_null ++ x) = Some (DNull, x).
Proof. unfold p_def. rewrite strip_app. reflexivity. Qed.
Lemma p_def_quoted e s x : p_def (quote_with e s ++ x) =
  match p_qstr (Some unesc_lit) (quote_with e s ++ x) with Some (s', r) => Some (DQuoted s', r) | None => None end.
Proof. reflexivity. Qed.
Lemma p_def_now x : p_def (kw_now ++ x) = match p_prec x with Some (p, r) => Some (DNow p, r) | None => None end.
Proof. reflexivity. Qed.
Lemma p_def_expr y : p_def (40 :: y) = match scan_bal 0 y with Some (e, r) => Some (DExpr e, r) | None => None end.
Proof. reflexivity. Qed.
Lemma p_def_bit y : p_def (kw_bit ++ y) =
  let '(b, r1) := span bitch y in match strip [39] r1 with Some r => Some (DBit b, r) | None => None end.
Proof. reflexivity. Qed.
Lemma p_def_hex y : p_def (kw_hex ++ y) = let '(h, r) := span hexch y in Some (DHex h, r).
Proof. reflexivity. Qed.

Lemma p_def_ok t d X : wf_def t d = true -> hd_in [32; 44; 10] X -> p_def (print_def t d ++ X) = Some (d, X).
Proof.
  intros Hwf HX. destruct d as [|s|p|e|b|h]; [|rewrite (print_def_quoted t s Hwf)|..]; cbn [print_def wf_def] in *.
  - apply p_def_null.
  - rewrite p_def_quoted, (p_qstr_lit_ok s X (hd_in_hdnot _ (N.eqb 39) _ HX eq_refl)). reflexivity.
  - unfold print_now. rewrite <- app_assoc, p_def_now, (p_prec_ok p X Hwf (hd_in_strip _ 40 _ _ HX eq_refl)). reflexivity.
  - unfold paren. cbn [app]. rewrite <- app_assoc. cbn [app]. rewrite p_def_expr, (scan_bal_ok e X Hwf). reflexivity.
  - apply andb_prop in Hwf. destruct Hwf as [_ Hb].
    rewrite <- !app_assoc, p_def_bit, (span_app bitch b _ Hb) by reflexivity. cbn [app strip]. rewrite N.eqb_refl. reflexivity.
  - rewrite <- app_assoc, p_def_hex, (span_app hexch h X Hwf (hd_in_hdnot _ hexch _ HX eq_refl)). reflexivity.
Qed.

(* the optional parts of a column line *)
Definition seg_nn (null : bool) : str := if null then [] else kw_notnull.
Definition seg_ai (auto : bool) : str := if auto then kw_autoinc else [].
Definition seg_gen (g : option (str * bool)) : str :=
  match g with None => [] | Some (e, st) => kw_generated ++ e ++ [41] ++ (if st then kw_stored else []) end.
Definition seg_def (ty : ctype) (d : option dflt) : str := match d with None => [] | Some d => kw_default ++ print_def ty d end.
Definition seg_upd (u : option N) : str := match u with None => [] | Some p => kw_onupdate ++ print_now p end.
Definition seg_cm (cm : str) : str := match cm with [] => [] | _ => kw_comment ++ esc_comment cm ++ [39] end.

(* a generated column has no DEFAULT part *)
Lemma print_col_segs tc c : wf_col tc c = true ->
  print_col tc c = [32; 32] ++ quote_id (cname c) ++ [32] ++ print_type tc (cty c) ++ seg_nn (cnull c) ++ seg_ai (cauto c) ++
                   seg_gen (cgen c) ++ seg_def (cty c) (cdef c) ++ seg_upd (conupd c) ++ seg_cm (ccomment c).
Proof.
  unfold wf_col. rewrite !andb_true_iff. intros [[_ Hg] _]. unfold print_col, seg_gen, seg_def, seg_cm.
  destruct (cgen c) as [[e st]|], (cdef c), (ccomment c); try reflexivity; apply andb_prop in Hg; destruct Hg; discriminate.
Qed.

Lemma seg_nn_form b : seg_nn b = [] \/ exists r, seg_nn b = kw_notnull ++ r.
Proof. destruct b; [left; reflexivity|right; exists []; apply eq_sym, app_nil_r]. Qed.
Lemma seg_ai_form b : seg_ai b = [] \/ exists r, seg_ai b = kw_autoinc ++ r.
Proof. destruct b; [right; exists []; apply eq_sym, app_nil_r|left; reflexivity]. Qed.
Lemma seg_gen_form g : seg_gen g = [] \/ exists r, seg_gen g = kw_generated ++ r.
Proof. destruct g as [[e st]|]; [right; eexists; reflexivity|left; reflexivity]. Qed.
Lemma seg_def_form ty d : seg_def ty d = [] \/ exists r, seg_def ty d = kw_default ++ r.
Proof. destruct d; [right; eexists; reflexivity|left; reflexivity]. Qed.
Lemma seg_upd_form u : seg_upd u = [] \/ exists r, seg_upd u = kw_onupdate ++ r.
Proof. destruct u; [right; eexists; reflexivity|left; reflexivity]. Qed.
Lemma seg_cm_form cm : seg_cm cm = [] \/ exists r, seg_cm cm = kw_comment ++ r.
Proof. destruct cm; [left; reflexivity|right; eexists; reflexivity]. Qed.

Lemma p_optgen_ok g X :
  match g with None => true | Some (e, _) => wf_expr e end = true -> strip kw_generated X = None -> strip kw_stored X = None ->
  p_optgen (seg_gen g ++ X) = Some (g, X).
Proof.
  intros Hwf Hg Hs. unfold p_optgen, seg_gen. destruct g as [[e st]|]; [|cbn [app]; rewrite Hg; reflexivity].
  rewrite <- !app_assoc, strip_app. cbn [app]. rewrite (scan_bal_ok e _ Hwf), p_flag_if by exact Hs. reflexivity.
Qed.

Lemma p_optdef_ok ty d X :
  match d with None => true | Some d => wf_def ty d end = true -> hd_in [32; 44; 10] X -> strip kw_default X = None ->
  p_optdef (seg_def ty d ++ X) = Some (d, X).
Proof.
  intros Hwf HX Hd. unfold p_optdef, seg_def. destruct d as [d|]; [|cbn [app]; rewrite Hd; reflexivity].
  rewrite <- app_assoc, strip_app, (p_def_ok ty d X Hwf HX). reflexivity.
Qed.

Lemma p_optupd_ok u X :
  match u with None => true | Some p => prec_ok p end = true -> strip [40] X = None -> strip kw_onupdate X = None ->
  p_optupd (seg_upd u ++ X) = Some (u, X).
Proof.
  intros Hwf H40 Hu. unfold p_optupd, seg_upd. destruct u as [p|]; [|cbn [app]; rewrite Hu; reflexivity].
  rewrite <- app_assoc, strip_app, (p_now_ok p X Hwf H40). reflexivity.
Qed.

Lemma p_optcomment_ok cm X : hdnot (N.eqb 39) X -> strip kw_comment X = None -> p_optcomment (seg_cm cm ++ X) = Some (cm, X).
Proof.
  intros HX Hc. unfold p_optcomment, seg_cm. destruct cm as [|c0 cm]; [cbn [app]; rewrite Hc; reflexivity|].
  rewrite <- !app_assoc, strip_app. exact (scan_comment_ok (c0 :: cm) X HX).
Qed.

(* the keyword is not a prefix of what follows, by the shape S of what follows *)
Ltac shape_none S := eapply shape_strip; [..|exact S]; reflexivity.

Lemma p_col_ok tc c rest :
  wf_col tc c = true -> hd_in [44; 10] rest ->
  p_col (quote_id (cname c) ++ [32] ++ print_type tc (cty c) ++ seg_nn (cnull c) ++ seg_ai (cauto c) ++
         seg_gen (cgen c) ++ seg_def (cty c) (cdef c) ++ seg_upd (conupd c) ++ seg_cm (ccomment c) ++ rest) = Some (c, rest).
Proof.
  intros Hwf Hr. unfold wf_col in Hwf. rewrite !andb_true_iff in Hwf. destruct Hwf as [[[Hwt Hwd] Hwg] Hwu].
  assert (Hwe : match cgen c with None => true | Some (e, _) => wf_expr e end = true).
  { destruct (cgen c) as [[e st]|]; [apply andb_prop in Hwg; tauto|reflexivity]. }
  (* what each part is followed by: possibly the keywords of the later parts, then the end of the line *)
  assert (S6 : shape [] rest) by (apply sh_tail; exact Hr).
  pose proof (shape_seg kw_comment _ _ _ (seg_cm_form (ccomment c)) S6) as S5.
  pose proof (shape_seg kw_onupdate _ _ _ (seg_upd_form (conupd c)) S5) as S4.
  pose proof (shape_seg kw_default _ _ _ (seg_def_form (cty c) (cdef c)) S4) as S3.
  pose proof (shape_seg kw_generated _ _ _ (seg_gen_form (cgen c)) S3) as S3g.
  pose proof (shape_seg kw_autoinc _ _ _ (seg_ai_form (cauto c)) S3g) as S2.
  pose proof (shape_seg kw_notnull _ _ _ (seg_nn_form (cnull c)) S2) as S1.
  pose proof (shape_hd _ _ S1 eq_refl) as H1. pose proof (shape_hd _ _ S4 eq_refl) as H4.
  pose proof (shape_hd _ _ S5 eq_refl) as H5.
  unfold p_col. rewrite p_qid_ok; [|reflexivity]. cbn [app strip]. rewrite N.eqb_refl.
  rewrite (p_type_ok tc (cty c) _ Hwt) by (split; [exact H1|split; [|split]; shape_none S1]).
  replace (seg_nn (cnull c)) with (if negb (cnull c) then kw_notnull else []) by (destruct (cnull c); reflexivity).
  rewrite p_flag_if by shape_none S2. cbv beta iota zeta.
  unfold seg_ai. rewrite p_flag_if by shape_none S3g. cbv beta iota zeta.
  rewrite p_optgen_ok; [|exact Hwe|shape_none S3..].
  rewrite p_optdef_ok; [|exact Hwd|exact H4|shape_none S4].
  rewrite p_optupd_ok; [|exact Hwu|exact (hd_in_strip _ 40 _ _ H5 eq_refl)|shape_none S5].
  rewrite p_optcomment_ok; [|exact (hd_in_hdnot _ (N.eqb 39) _ Hr eq_refl)|shape_none S6].
  rewrite negb_involutive. destruct c; reflexivity.
Qed.

Lemma sep_qid_ok ids tail fuel :
  ids <> [] -> hd_in [41] tail -> (length ids <= fuel)%nat ->
  sep_list p_qid [44] fuel (joins [44] (map quote_id ids) ++ tail) = Some (ids, tail).
Proof.
  intros Hne Ht Hf.
  apply (sep_list_ok p_qid quote_id [44] (fun _ => True) (hdnot (N.eqb 96))).
  - intros x r _ Hr. apply p_qid_ok. exact Hr.
  - intro r. reflexivity.
  - apply Forall_forall. intros; exact I.
  - exact Hne.
  - exact (hd_in_hdnot _ (N.eqb 96) _ Ht eq_refl).
  - exact (hd_in_strip _ 44 _ _ Ht eq_refl).
  - exact Hf.
Qed.

Lemma p_idlist_ok ids rest :
  ids <> [] -> p_idlist (joins [44] (map quote_id ids) ++ 41 :: rest) = Some (ids, rest).
Proof.
  intro Hne. unfold p_idlist. rewrite (sep_qid_ok ids (41 :: rest)).
  - cbn [strip]. rewrite N.eqb_refl. reflexivity.
  - exact Hne.
  - cbn. left. reflexivity.
  - apply fuel_ok; discriminate.
Qed.

Lemma p_icol_ok c r : wf_icol c = true -> hd_in [44; 41] r -> p_icol (print_icol c ++ r) = Some (c, r).
Proof.
  intros Hwf Hr. destruct c as [name [n|]]; unfold p_icol, print_icol; cbn [fst snd] in *.
  - rewrite <- app_assoc. rewrite p_qid_ok; [|reflexivity].
    change (strip [40] (paren n ++ r)) with (Some ((n ++ [41]) ++ r)). cbv beta iota.
    rewrite (p_pnum_ok n r Hwf). reflexivity.
  - rewrite app_nil_r, p_qid_ok by exact (hd_in_hdnot _ (N.eqb 96) _ Hr eq_refl).
    rewrite (hd_in_strip _ 40 [] _ Hr eq_refl). reflexivity.
Qed.

Lemma p_idx_ok i rest :
  wf_idx i = true -> hd_in [44; 10] rest ->
  p_idx (iuniq i) (quote_id (iname i) ++ [32] ++ paren (joins [44] (map print_icol (icols i))) ++
         match icomment i with [] => [] | cm => kw_comment ++ cm ++ [39] end ++ rest) = Some (i, rest).
Proof.
  intros Hwf Hr. unfold wf_idx in Hwf. rewrite !andb_true_iff in Hwf. destruct Hwf as [[Hne Hcols] Hcm].
  set (sc := match icomment i with [] => [] | cm => kw_comment ++ cm ++ [39] end). unfold p_idx. rewrite p_qid_ok; [|reflexivity]. unfold paren. cbn [app strip]. rewrite !N.eqb_refl.
  rewrite <- app_assoc. cbn [app].
  rewrite (sep_list_ok p_icol print_icol [44] (fun c => wf_icol c = true) (hd_in [44; 41])).
  - cbn [strip]. rewrite N.eqb_refl. subst sc. destruct i as [u name cols cm]. cbn [icomment iuniq iname icols] in *.
    destruct cm as [|c0 cm].
    + cbn [app]. unfold kw_comment. rewrite (hd_in_strip _ 32 _ _ Hr eq_refl). reflexivity.
    + rewrite <- !app_assoc. rewrite strip_app. change ([39] ++ rest) with (39 :: rest).
      rewrite (scan_raw_ok (c0 :: cm) rest Hcm). reflexivity.
  - intros x r Hx Hg. apply p_icol_ok; assumption.
  - intro r. cbn. left. reflexivity.
  - rewrite forallb_forall in Hcols. apply Forall_forall. exact Hcols.
  - destruct (icols i); discriminate.
  - cbn. right. left. reflexivity.
  - reflexivity.
  - apply fuel_ok; discriminate.
Qed.

Lemma p_action_ok a X : p_action (action_name a ++ X) = Some (a, X).
Proof. destruct a; reflexivity. Qed.

Lemma p_optaction_ok kw (o : option action) X :
  (o = None -> strip kw X = None) ->
  p_optaction kw (match o with None => [] | Some a => kw ++ action_name a end ++ X) = Some (o, X).
Proof.
  intro H. unfold p_optaction. destruct o as [a|].
  - rewrite <- app_assoc, strip_app, p_action_ok. reflexivity.
  - cbn [app]. rewrite (H eq_refl). reflexivity.
Qed.

Lemma p_fk_ok f rest :
  wf_fk f = true -> hd_in [44; 10] rest ->
  p_fk (quote_id (fname f) ++ kw_fk ++ joins [44] (map quote_id (fcols f)) ++ kw_references ++
        quote_id (fptable f) ++ [32] ++ paren (joins [44] (map quote_id (fpcols f))) ++
        match fondel f with None => [] | Some a => kw_ondelete ++ action_name a end ++
        match fonupd f with None => [] | Some a => kw_onupdate ++ action_name a end ++ rest) = Some (f, rest).
Proof.
  intros Hwf Hr. unfold wf_fk in Hwf. apply andb_prop in Hwf. destruct Hwf as [Hc Hp].
  assert (H32 : forall kw, strip (32 :: kw) rest = None) by (intro kw; exact (hd_in_strip _ 32 _ _ Hr eq_refl)).
  unfold p_fk. rewrite p_qid_ok; [|reflexivity]. rewrite strip_app.
  rewrite (sep_qid_ok (fcols f)).
  2:{ destruct (fcols f); discriminate. }
  2:{ cbn. left. reflexivity. }
  2:{ apply fuel_ok; discriminate. }
  rewrite strip_app. rewrite p_qid_ok; [|reflexivity]. unfold paren. cbn [app strip]. rewrite !N.eqb_refl.
  rewrite <- app_assoc. cbn [app]. rewrite p_idlist_ok.
  2:{ destruct (fpcols f); discriminate. }
  rewrite !p_optaction_ok; [destruct f; reflexivity|intros _; apply H32|].
  intros _. destruct (fonupd f); [reflexivity|apply H32].
Qed.

Definition wf_item (tc : coll) (it : item) : Prop :=
  match it with
  | ICol c => wf_col tc c = true
  | IPk cols => cols <> []
  | IIdx i => wf_idx i = true
  | IFk f => wf_fk f = true
  | ICheck k => wf_check k = true
  end.

Lemma p_check_ok k rest :
  wf_check k = true -> hd_in [44; 10] rest ->
  p_check (quote_id (kname k) ++ kw_check ++ kexpr k ++ [41] ++ (if kenforced k then [] else kw_notenforced) ++ rest)
  = Some (k, rest).
Proof.
  intros Hwf Hr. unfold p_check. rewrite p_qid_ok; [|reflexivity]. rewrite strip_app. cbn [app].
  rewrite (scan_bal_ok (kexpr k) _ Hwf). unfold p_flag. destruct k as [name e enf]. cbn [kenforced kname kexpr].
  destruct enf.
  - cbn [app]. unfold kw_notenforced. rewrite (hd_in_strip _ 32 _ _ Hr eq_refl). reflexivity.
  - rewrite strip_app. reflexivity.
Qed.

Lemma p_fk_not_check name x : p_fk (quote_id name ++ kw_check ++ x) = None.
Proof. unfold p_fk. rewrite p_qid_ok; [|reflexivity]. reflexivity. Qed.

(* [p_item] tells the kinds of item apart by the first word of the line *)
Lemma p_item_col s x : p_item ([32; 32] ++ quote_id s ++ x) =
  match p_col (quote_id s ++ x) with Some (c, r) => Some (ICol c, r) | None => None end.
Proof. reflexivity. Qed.
Lemma p_item_pk x : p_item ([32; 32] ++ kw_pk ++ x) = match p_idlist x with Some (ids, r) => Some (IPk ids, r) | None => None end.
Proof. reflexivity. Qed.
Lemma p_item_idx (u : bool) x : p_item ([32; 32] ++ (if u then kw_unique else []) ++ kw_key ++ x) =
  match p_idx u x with Some (i, r) => Some (IIdx i, r) | None => None end.
Proof. destruct u; reflexivity. Qed.
Lemma p_item_constraint x : p_item ([32; 32] ++ kw_constraint ++ x) =
  match p_fk x with
  | Some (f, r) => Some (IFk f, r)
  | None => match p_check x with Some (k, r) => Some (ICheck k, r) | None => None end
  end.
Proof. reflexivity. Qed.

Lemma p_item_ok tc it rest :
  wf_item tc it -> hd_in [44; 10] rest -> p_item (print_item tc it ++ rest) = Some (it, rest).
Proof.
  intros Hwf Hr. destruct it as [c|cols|i|f|k]; cbn [print_item wf_item] in *.
  - rewrite (print_col_segs tc c Hwf), <- !app_assoc, p_item_col, (p_col_ok tc c rest Hwf Hr). reflexivity.
  - unfold print_pk. rewrite <- !app_assoc, p_item_pk. change ([41] ++ rest) with (41 :: rest).
    rewrite (p_idlist_ok cols rest Hwf). reflexivity.
  - unfold print_idx. rewrite <- !app_assoc, p_item_idx, (p_idx_ok i rest Hwf Hr). reflexivity.
  - unfold print_fk. rewrite <- !app_assoc, p_item_constraint, (p_fk_ok f rest Hwf Hr). reflexivity.
  - unfold print_check. rewrite <- !app_assoc, p_item_constraint, p_fk_not_check, (p_check_ok k rest Hwf Hr). reflexivity.
Qed.

Lemma fm_nil {A B C} (f : B -> list C) (g : A -> B) l : (forall x, f (g x) = []) -> flat_map f (map g l) = [].
Proof. intro H. induction l as [|x l IH]; cbn; [reflexivity|]. rewrite H. exact IH. Qed.

Lemma fm_id {A B} (f : B -> list A) (g : A -> B) l : (forall x, f (g x) = [x]) -> flat_map f (map g l) = l.
Proof. intro H. induction l as [|x l IH]; cbn; [reflexivity|]. rewrite H, IH. reflexivity. Qed.

Lemma cols_of_items t : cols_of (items_of t) = tcols t.
Proof.
  unfold cols_of, items_of. rewrite !flat_map_app.
  rewrite (fm_id _ ICol) by reflexivity. rewrite (fm_nil _ IIdx), (fm_nil _ IFk), (fm_nil _ ICheck) by reflexivity.
  destruct (shown_pk t); cbn; rewrite ?app_nil_r; reflexivity.
Qed.

Lemma pk_of_items t : pk_of (items_of t) = shown_pk t.
Proof.
  unfold pk_of, items_of. rewrite !flat_map_app.
  rewrite (fm_nil _ ICol), (fm_nil _ IIdx), (fm_nil _ IFk), (fm_nil _ ICheck) by reflexivity.
  destruct (shown_pk t); cbn; rewrite ?app_nil_r; reflexivity.
Qed.

Lemma idx_of_items t : idx_of (items_of t) = tidx t.
Proof.
  unfold idx_of, items_of. rewrite !flat_map_app.
  rewrite (fm_id _ IIdx) by reflexivity. rewrite (fm_nil _ ICol), (fm_nil _ IFk), (fm_nil _ ICheck) by reflexivity.
  destruct (shown_pk t); cbn; rewrite ?app_nil_r; reflexivity.
Qed.

Lemma fks_of_items t : fks_of (items_of t) = tfks t.
Proof.
  unfold fks_of, items_of. rewrite !flat_map_app.
  rewrite (fm_id _ IFk) by reflexivity. rewrite (fm_nil _ ICol), (fm_nil _ IIdx), (fm_nil _ ICheck) by reflexivity.
  destruct (shown_pk t); cbn; rewrite ?app_nil_r; reflexivity.
Qed.

Lemma checks_of_items t : checks_of (items_of t) = shown_checks t.
Proof.
  unfold checks_of, items_of. rewrite !flat_map_app.
  rewrite (fm_id _ ICheck) by reflexivity. rewrite (fm_nil _ ICol), (fm_nil _ IIdx), (fm_nil _ IFk) by reflexivity.
  destruct (shown_pk t); cbn; reflexivity.
Qed.

Lemma strs_eqb_eq a b : strs_eqb a b = true -> a = b.
Proof.
  revert b. induction a as [|x a IH]; intros [|y b] H; cbn in H; try discriminate; [reflexivity|].
  apply andb_prop in H. destruct H as [H1 H2]. apply str_eqb_eq in H1. apply IH in H2. congruence.
Qed.

(* what [wf_table] says, in the form the proof uses: with a VIRTUAL column there are no checks and no comment to hide *)
Lemma wf_table_inv t : wf_table t = true ->
  Forall (wf_item (tcoll t)) (items_of t) /\ items_of t <> [] /\
  shown_checks t = tchecks t /\ shown_comment t = tcomment t /\ shown_pk t = tpk t /\
  match tautoinc t with None => true | Some n => is_num n end = true.
Proof.
  unfold wf_table. rewrite !andb_true_iff, !forallb_forall.
  intros [[[[[[[[Hne Hcols] Hix] Hfk] Hck] Hvk] Hvc] Hpk] Hai].
  assert (Ek : shown_checks t = tchecks t).
  { unfold shown_checks. revert Hvk. destruct (existsb is_virtual (tcols t)), (tchecks t); easy. }
  assert (Ec : shown_comment t = tcomment t).
  { unfold shown_comment. revert Hvc. destruct (existsb is_virtual (tcols t)), (tcomment t); easy. }
  repeat split; trivial; [| |apply strs_eqb_eq, Hpk].
  - unfold items_of. rewrite Ek, !Forall_app. repeat split; try (apply Forall_map, Forall_forall; assumption).
    destruct (shown_pk t); repeat constructor. discriminate.
  - unfold items_of. destruct (tcols t); discriminate.
Qed.

Definition seg_tai (t : table) : str := match tautoinc t with None => [] | Some n => kw_tautoinc ++ n end.
Definition seg_tcm (t : table) : str := match tcomment t with [] => [] | cm => kw_tcomment ++ esc_comment cm ++ [39] end.

Theorem parse_print t : wf_table t = true -> parse_table (print_table t) = Some t.
Proof.
  intro Hwf. destruct (wf_table_inv t Hwf) as (Hits & Hne & Ek & Ec & Ep & Hai).
  unfold parse_table, print_table. rewrite Ec, strip_app, p_flag_if by reflexivity. cbv beta iota.
  rewrite strip_app, p_qid_ok by reflexivity. rewrite strip_app.
  rewrite (sep_list_ok p_item (print_item (tcoll t)) kw_itemsep (wf_item (tcoll t)) (hd_in [44; 10])).
  - rewrite strip_app, cols_of_items, pk_of_items, idx_of_items, fks_of_items, checks_of_items, Ep, Ek.
    clear Ek Ec Ep Hits Hne Hwf.
    destruct t as [tmp name cols pk idx fks cks ai tc cm]. cbn [ttemp tcomment tname tcols tpk tidx tfks tchecks tcoll tautoinc] in *.
    (* AUTO_INCREMENT=n, if any *)
    destruct ai as [n|]; rewrite <- ?app_assoc;
      [rewrite strip_app, (p_digits_ok n _ Hai) by reflexivity
      |cbn [app]; change (strip kw_tautoinc (kw_tcharset ++ ?x)) with (@None str); cbv beta iota].
    (* DEFAULT CHARSET=cs COLLATE=coll *)
    all: rewrite strip_app, (span_app wordch _ _ (cs_name_word _)) by reflexivity; cbn [snd].
    all: rewrite strip_app, span_coll_name by (destruct cm; [exact I|reflexivity]); rewrite find_coll_name.
    (* COMMENT='..', if any *)
    all: destruct cm as [|c0 cm]; [reflexivity|].
    all: rewrite strip_app; change [39] with (39 :: []); rewrite (scan_comment_ok (c0 :: cm) [] I); reflexivity.
  - intros x r Hx Hr. apply p_item_ok; assumption.
  - intro r. cbn. left. reflexivity.
  - exact Hits.
  - exact Hne.
  - cbn. right. left. reflexivity.
  - reflexivity.
  - apply fuel_ok; discriminate.
Qed.

Corollary print_injective t1 t2 :
  wf_table t1 = true -> wf_table t2 = true -> print_table t1 = print_table t2 -> t1 = t2.
Proof.
  intros H1 H2 E. pose proof (parse_print t1 H1) as P1. rewrite E in P1. rewrite (parse_print t2 H2) in P1.
  congruence.
Qed.

Corollary print_parse_print t :
  wf_table t = true -> option_map print_table (parse_table (print_table t)) = Some (print_table t).
Proof. intro H. rewrite (parse_print t H). reflexivity. Qed.
