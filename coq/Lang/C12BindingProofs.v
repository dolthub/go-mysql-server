(* C12: the literal built for a typed binding and the literal parsed from the printed text denote the same value. *)
From Coq Require Import List ZArith NArith Bool String Ascii Decimal DecimalString DecimalZ DecimalPos Lia.
Import ListNotations.
From GMS Require Import Lang.C12Prepared Lang.C12PreparedProofs Lang.C12Binding.
Open Scope string_scope.
Open Scope Z_scope.

Lemma to_int_nonnil z : int_digits (Z.to_int z) <> Nil.
Proof.
  destruct z as [|p|p]; cbn.
  - discriminate.
  - apply Unsigned.to_uint_nonnil.
  - apply Unsigned.to_uint_nonnil.
Qed.

Lemma parse_print_Z z : parse_Z (print_Z z) = Some z.
Proof.
  unfold parse_Z, print_Z. rewrite NilEmpty.isi.
  pose proof (to_int_nonnil z) as H. pose proof (DecimalZ.of_to z) as E.
  destruct (Z.to_int z) as [d|d]; cbn in H; destruct d; try congruence; rewrite <- E; reflexivity.
Qed.

(* a decimal digit, as the standard library's reader of digit strings sees it *)
Definition digit (c : ascii) : bool :=
  match NilEmpty.uint_of_string (String c EmptyString) with Some _ => true | None => false end.

Lemma digits_head d : d <> Nil -> exists c r, NilEmpty.string_of_uint d = String c r /\ digit c = true.
Proof. destruct d; intros H; try congruence; cbn; eexists; eexists; split; reflexivity. Qed.

Lemma has_e_digits d : has_e (NilEmpty.string_of_uint d) = false.
Proof. induction d; cbn; auto. Qed.

Lemma has_e_app a b : has_e (a ++ b) = has_e a || has_e b.
Proof. induction a as [|c a IH]; cbn; [reflexivity|]. rewrite IH. now rewrite !orb_assoc. Qed.

Lemma split_dot_digits d t :
  split_dot (NilEmpty.string_of_uint d ++ String "." t) = Some (NilEmpty.string_of_uint d, t).
Proof. induction d; cbn; try rewrite IHd; reflexivity. Qed.

Lemma split_dot_digits_none d : split_dot (NilEmpty.string_of_uint d) = None.
Proof. induction d; cbn; try rewrite IHd; reflexivity. Qed.

Lemma uint_of_string_dot d t : NilEmpty.uint_of_string (NilEmpty.string_of_uint d ++ String "." t) = None.
Proof.
  induction d; cbn [NilEmpty.string_of_uint append NilEmpty.uint_of_string]; try (rewrite IHd; reflexivity).
  destruct (NilEmpty.uint_of_string t); reflexivity.
Qed.

Lemma scan_num_digits d : d <> Nil -> scan_num (NilEmpty.string_of_uint d) = Some (SInt (NilEmpty.string_of_uint d)).
Proof. intros H. unfold scan_num. rewrite NilEmpty.usu. destruct d; congruence. Qed.

Lemma scan_digit_head c r : digit c = true -> scan (String c r) = option_map TE (scan_num (String c r)).
Proof.
  intros D. unfold scan.
  assert (N1 : Ascii.eqb c "N" = false) by (destruct (Ascii.eqb_spec c "N") as [->|]; [discriminate D|reflexivity]).
  assert (N2 : Ascii.eqb c "'" = false) by (destruct (Ascii.eqb_spec c "'") as [->|]; [discriminate D|reflexivity]).
  assert (N3 : Ascii.eqb c "-" = false) by (destruct (Ascii.eqb_spec c "-") as [->|]; [discriminate D|reflexivity]).
  rewrite N1, N2, N3. reflexivity.
Qed.

Lemma scan_digits d : d <> Nil -> scan (NilEmpty.string_of_uint d) = Some (TE (SInt (NilEmpty.string_of_uint d))).
Proof.
  intros H. destruct (digits_head d H) as [c [r [E D]]].
  rewrite E, (scan_digit_head c r D), <- E, (scan_num_digits d H). reflexivity.
Qed.

Lemma scan_print_Z z : scan (print_Z z) = Some (TE (SInt (print_Z z))).
Proof.
  unfold print_Z. pose proof (to_int_nonnil z) as H.
  destruct (Z.to_int z) as [d|d]; cbn [int_digits NilEmpty.string_of_int] in *.
  - apply scan_digits; assumption.
  - unfold scan. cbn [Ascii.eqb Bool.eqb]. rewrite scan_num_digits by assumption. reflexivity.
Qed.

Lemma in_range lo hi z : lo <= z < hi -> (lo <=? z) && (z <? hi) = true.
Proof. intros [A B]. apply andb_true_intro. split; [apply Z.leb_le|apply Z.ltb_lt]; assumption. Qed.

Lemma convert_int_signed z : - two63 <= z < two63 -> denote_opt (convert_int (print_Z z)) = Some (VInt z).
Proof. intros H. unfold convert_int. rewrite parse_print_Z, (in_range _ _ _ H). reflexivity. Qed.

Lemma convert_int_unsigned z : 0 <= z < two64 -> denote_opt (convert_int (print_Z z)) = Some (VInt z).
Proof.
  intros H. unfold convert_int. rewrite parse_print_Z, (in_range _ _ _ H).
  destruct ((- two63 <=? z) && (z <? two63)); reflexivity.
Qed.

Lemma dec_of_string_print i f :
  dec_of_string (print_dec i f) = Some (Z.of_int (app_int i f), N.of_nat (nb_digits f)).
Proof.
  unfold dec_of_string, print_dec. destruct i as [d|d]; cbn [NilEmpty.string_of_int append].
  - rewrite split_dot_digits. change (NilEmpty.string_of_uint d) with (NilEmpty.string_of_int (Pos d)).
    rewrite NilEmpty.isi, NilEmpty.usu. reflexivity.
  - cbn [split_dot Ascii.eqb Bool.eqb]. rewrite split_dot_digits.
    change (String "-" (NilEmpty.string_of_uint d)) with (NilEmpty.string_of_int (Neg d)).
    rewrite NilEmpty.isi, NilEmpty.usu. reflexivity.
Qed.

Lemma has_e_print_dec i f : has_e (print_dec i f) = false.
Proof.
  unfold print_dec. rewrite has_e_app. cbn [has_e Ascii.eqb Bool.eqb orb]. rewrite has_e_digits.
  destruct i; cbn [NilEmpty.string_of_int has_e Ascii.eqb Bool.eqb orb]; rewrite has_e_digits; reflexivity.
Qed.

Lemma convert_val_dec i f :
  convert_val (SFloat (print_dec i f)) = Some (LDec (Z.of_int (app_int i f)) (N.of_nat (nb_digits f)), TDecimalLit).
Proof.
  unfold convert_val. rewrite has_e_print_dec, dec_of_string_print.
  unfold print_dec. destruct i as [d|d]; cbn [NilEmpty.string_of_int append split_dot Ascii.eqb Bool.eqb];
    rewrite split_dot_digits, split_dot_digits_none; reflexivity.
Qed.

Lemma scan_num_dec d f : d <> Nil ->
  scan_num (print_dec (Pos d) f) = Some (SFloat (print_dec (Pos d) f)).
Proof.
  intros H. unfold scan_num, print_dec. cbn [NilEmpty.string_of_int].
  rewrite uint_of_string_dot, split_dot_digits, !NilEmpty.usu. destruct d; try congruence; reflexivity.
Qed.

Lemma of_int_neg d f : Z.of_int (app_int (Neg d) f) = - Z.of_int (app_int (Pos d) f).
Proof. reflexivity. Qed.

Lemma print_dec_head d f : d <> Nil -> exists c r, print_dec (Pos d) f = String c r /\ digit c = true.
Proof.
  intros H. destruct (digits_head d H) as [c [r [E D]]]. unfold print_dec. cbn [NilEmpty.string_of_int].
  rewrite E. cbn [append]. eexists; eexists; split; [reflexivity|exact D].
Qed.

Lemma scan_pos_dec d f : d <> Nil -> scan (print_dec (Pos d) f) = Some (TE (SFloat (print_dec (Pos d) f))).
Proof.
  intros H. destruct (print_dec_head d f H) as [c [r [E D]]].
  pose proof (scan_num_dec d f H) as S. rewrite E in *. rewrite scan_digit_head by exact D. rewrite S. reflexivity.
Qed.

Lemma scan_dec i f : int_digits i <> Nil ->
  denote_text (scan (print_dec i f)) = Some (VDec (Z.of_int (app_int i f)) (N.of_nat (nb_digits f))).
Proof.
  intros H. destruct i as [d|d]; cbn [int_digits] in H.
  - rewrite scan_pos_dec by exact H. cbn [denote_text]. rewrite convert_val_dec. reflexivity.
  - pose proof (scan_num_dec d f H) as S.
    unfold scan. unfold print_dec at 1. cbn [NilEmpty.string_of_int append Ascii.eqb Bool.eqb].
    change (NilEmpty.string_of_uint d ++ String "." (NilEmpty.string_of_uint f)) with (print_dec (Pos d) f).
    rewrite S. cbn [denote_text]. rewrite convert_val_dec. reflexivity.
Qed.

Lemma unquote_esc s : unquote (esc s ++ "'") = Some s.
Proof.
  induction s as [|c s IH]; [reflexivity|].
  cbn [esc]. destruct (Ascii.eqb_spec c "'") as [->|N1].
  - cbn [append unquote Ascii.eqb Bool.eqb]. rewrite IH. reflexivity.
  - destruct (Ascii.eqb_spec c "\") as [->|N2].
    + cbn [append unquote Ascii.eqb Bool.eqb]. rewrite IH. reflexivity.
    + cbn [append unquote]. apply Ascii.eqb_neq in N1. apply Ascii.eqb_neq in N2. rewrite N1, N2, IH. reflexivity.
Qed.

Lemma scan_quoted s : scan (String "'" (esc s ++ "'")) = Some (TE (SStr s)).
Proof. unfold scan. cbn [Ascii.eqb Bool.eqb]. rewrite unquote_esc. reflexivity. Qed.

Lemma handler_ast_compat t p : compat t p = true ->
  handler_ast (binding_of t p) =
  Some (match p with
        | PNull => SNull
        | PInt _ | PUint _ => SInt (payload p)
        | PDec _ _ => SFloat (payload p)
        | PStr _ | PBytes _ => SStr (payload p)
        end).
Proof. destruct p; intros C; destruct t; try discriminate C; reflexivity. Qed.

Lemma handler_lit_denotes t p : compat t p = true -> wf p -> denote_opt (handler_lit (binding_of t p)) = Some (value_of p).
Proof.
  intros C W. unfold handler_lit. rewrite (handler_ast_compat t p C).
  destruct p; cbn [payload value_of wf] in *; try reflexivity.
  - apply (convert_int_signed z W).
  - apply (convert_int_unsigned z W).
  - rewrite convert_val_dec. reflexivity.
Qed.

Lemma text_denotes p : wf p -> denote_text (scan (print p)) = Some (value_of p).
Proof.
  intros W. destruct p; cbn [print value_of wf] in *; rewrite ?scan_print_Z, ?scan_quoted; try reflexivity.
  - apply convert_int_signed, W.
  - apply convert_int_unsigned, W.
  - apply scan_dec, W.
Qed.

Lemma engine_lit_denotes t p : compat t p = true -> wf p -> denote_opt (engine_lit (binding_of t p)) = Some (value_of p).
Proof.
  intros C W. destruct p; cbn [compat wf value_of] in *; destruct t; try discriminate C; try reflexivity;
    unfold engine_lit; cbn [binding_of b_type b_val payload is_signed is_unsigned].
  (* the five signed and the five unsigned integer types, then DECIMAL *)
  1-10: rewrite parse_print_Z, (in_range _ _ _ W); reflexivity.
  destruct W as (_ & _ & Hs & Hb). apply N.leb_le in Hs. apply Z.ltb_lt in Hb.
  rewrite dec_of_string_print, Hs, Hb. reflexivity.
Qed.

Theorem literal_of_binding_denotes (t : wtype) (p : pval) :
  compat t p = true -> wf p ->
  denote_opt (handler_lit (binding_of t p)) = Some (value_of p)
  /\ denote_text (scan (print p)) = Some (value_of p)
  /\ denote_opt (engine_lit (binding_of t p)) = Some (value_of p).
Proof.
  intros C W. split; [apply handler_lit_denotes|split; [apply text_denotes|apply engine_lit_denotes]]; assumption.
Qed.

(* on the live path the binding IS the token the parser produces for the printed text (same bytes, same kind),
   except that a negative decimal is parsed as unary minus applied to the positive token *)
Definition neg_dec (p : pval) : bool := match p with PDec (Neg _) _ => true | _ => false end.

Theorem binding_ast_is_parsed_text (t : wtype) (p : pval) :
  compat t p = true -> wf p -> neg_dec p = false ->
  option_map TE (handler_ast (binding_of t p)) = scan (print p).
Proof.
  intros C W Ng. rewrite (handler_ast_compat t p C).
  destruct p as [|z|z|[d|d] f|s|s]; cbn [print payload option_map wf int_digits] in *;
    rewrite ?scan_print_Z, ?scan_quoted; try reflexivity; [|discriminate Ng].
  rewrite scan_pos_dec by apply W. reflexivity.
Qed.

(* date / time / enum / json ... bindings reach the engine as the string literal of their text *)
Theorem quoted_binding_is_string_literal (t : wtype) (s : string) :
  is_quoted t = true -> handler_lit {| b_type := t; b_val := s |} = Some (LS s, TLongText).
Proof. destruct t; intros H; try discriminate H; reflexivity. Qed.

(* Bit and Expression bindings are rejected by the live path ("cannot convert value to AST") *)
Theorem unconvertible_bindings (s : string) :
  handler_lit {| b_type := WBit; b_val := s |} = None /\ handler_lit {| b_type := WExpression; b_val := s |} = None.
Proof. split; reflexivity. Qed.

Definition typed := (wtype * pval)%type.
Definition typed_ok (tp : typed) : Prop := compat (fst tp) (snd tp) = true /\ wf (snd tp).

Lemma bound_values_eq tps :
  Forall typed_ok tps ->
  map (fun tp => bound_value (fst tp) (snd tp)) tps = map (fun tp => text_value (snd tp)) tps.
Proof.
  induction 1 as [|[t p] l [C W] _ IH]; [reflexivity|]. cbn [map fst snd] in *. f_equal; [|exact IH].
  unfold bound_value, text_value. rewrite (handler_lit_denotes t p C W), (text_denotes p W). reflexivity.
Qed.

Theorem eval_typed_bindings_eq_eval_inlined_text tps r e :
  Forall typed_ok tps ->
  eval (map (fun tp => bound_value (fst tp) (snd tp)) tps) r e
  = eval [] r (subst (map (fun tp => text_value (snd tp)) tps) e).
Proof. intros H. rewrite <- (bound_values_eq tps H). apply eval_subst. Qed.

Theorem exec_typed_bindings_eq_exec_inlined_text tps s d :
  Forall typed_ok tps ->
  exec (map (fun tp => bound_value (fst tp) (snd tp)) tps) s d
  = exec [] (subst_stmt (map (fun tp => text_value (snd tp)) tps) s) d.
Proof. intros H. rewrite <- (bound_values_eq tps H). apply exec_subst. Qed.

Example binding_nonvacuous :
  let tps := [(WInt64, PInt (-5)); (WUint64, PUint 18446744073709551615); (WDecimal, PDec (Neg (D1 Nil)) (D2 (D5 Nil)));
              (WVarChar, PStr "a'b\c"); (WNull, PNull); (WInt8, PInt 7)] in
  Forall typed_ok tps
  /\ map (fun tp => print (snd tp)) tps = ["-5"; "18446744073709551615"; "-1.25"; "'a''b\\c'"; "NULL"; "7"]
  /\ map (fun tp => handler_lit (binding_of (fst tp) (snd tp))) tps
     = [Some (LZ (-5), TInt8); Some (LZ 18446744073709551615, TUint64); Some (LDec (-125) 2, TDecimalLit);
        Some (LS "a'b\c", TLongText); Some (LNil, TNull); Some (LZ 7, TInt8)]
  /\ map (fun tp => engine_lit (binding_of (fst tp) (snd tp))) tps
     = [Some (LZ (-5), TInt64); Some (LZ 18446744073709551615, TUint64); Some (LDec (-125) 2, TDecimalInternal);
        Some (LS "a'b\c", TString WVarChar 5); Some (LNil, TNull); Some (LZ 7, TInt64)]
  /\ map (fun tp => text_value (snd tp)) tps
     = [VInt (-5); VInt 18446744073709551615; VDec (-125) 2; VStr "a'b\c"; VNull; VInt 7].
Proof.
  cbv zeta. split; [|repeat split; vm_compute; reflexivity].
  repeat constructor; cbn; try (unfold two63, two64; lia); try discriminate; vm_compute; try reflexivity; intros; discriminate.
Qed.
