(* C24 -- proofs about the machine (all operation lists, all runs) and refutation witnesses. *)
From Coq Require Import List ZArith NArith Bool Lia.
Import ListNotations.
From GMS Require Import Lang.C24Proc.
Open Scope Z_scope.

Definition idx_ok (len : Z) (o : op) : bool :=
  match o with
  | OpIf _ idx | OpGoto _ idx => (0 <=? idx) && (idx <=? len)
  | _ => true
  end.

Definition targets_ok (ops : list op) : bool := forallb (idx_ok (zlen ops)) ops.

Lemma nth_op_some : forall ops i, 0 <= i < zlen ops -> exists o, nth_op ops i = Some o.
Proof.
  intros ops i [H0 H1]. unfold nth_op. destruct (i <? 0) eqn:E; [apply Z.ltb_lt in E; lia|].
  destruct (nth_error ops (Z.to_nat i)) as [o|] eqn:En; [exists o; reflexivity|].
  apply nth_error_None in En. unfold zlen in H1. lia.
Qed.

Lemma nth_op_in : forall ops i o, nth_op ops i = Some o -> In o ops /\ 0 <= i < zlen ops.
Proof.
  intros ops i o H. unfold nth_op in H. destruct (i <? 0) eqn:E; [discriminate|]. apply Z.ltb_ge in E.
  split; [exact (nth_error_In _ _ H)|].
  assert (Hl : (Z.to_nat i < length ops)%nat) by (apply nth_error_Some; congruence).
  unfold zlen. lia.
Qed.

(* registered handlers carry a non-negative DECLARE counter *)
Definition hok (st : state) : Prop := Forall (Forall (fun h : handler => 0 <= snd h)) (hscopes st).

Lemma hok_set_var : forall st x v st', set_var st x v = Some st' -> hok st -> hok st'.
Proof.
  intros st x v st' H Hh. unfold set_var in H.
  destruct (set_scopes x v (scopes st)); [|destruct (assocN x (params st)); [|discriminate]]; injection H as <-; exact Hh.
Qed.

Lemma hok_push : forall st, hok st -> hok (push_scope st).
Proof. intros st H. unfold hok in *. cbn. constructor; [constructor | exact H]. Qed.

Lemma hok_pop : forall st, hok st -> hok (pop_scope st).
Proof. intros st H. unfold hok in *. cbn. destruct (hscopes st); [constructor|]. inversion H; assumption. Qed.

Lemma hok_declare_var : forall st x v, hok st -> hok (declare_var st x v).
Proof. intros st x v H. unfold declare_var. destruct (scopes st); exact H. Qed.

Lemma hok_declare_handler : forall st k h c, hok st -> 0 <= c -> hok (declare_handler st (k, h, c)).
Proof.
  intros st k h c H Hc. unfold declare_handler. destruct (hscopes st) as [|s r] eqn:E; [exact H|].
  unfold hok in *. cbn. rewrite E in H. inversion H as [|? ? Hs Hr]; subst. constructor; [|exact Hr].
  apply Forall_app. split; [exact Hs | constructor; [exact Hc | constructor]].
Qed.

Lemma hok_fwd : forall o st, hok st -> hok (scope_effect_fwd o st).
Proof. intros [[]|] st H; cbn; try exact H; [apply hok_push | apply hok_pop]; exact H. Qed.

Lemma hok_bwd : forall o st, hok st -> hok (scope_effect_bwd o st).
Proof. intros [[]|] st H; cbn; try exact H; [apply hok_pop | apply hok_push]; exact H. Qed.

Lemma walk_fwd_ok : forall ops n counter target st,
  0 <= counter -> target <= zlen ops -> (Z.to_nat (target - counter) <= n)%nat -> hok st ->
  exists st', walk_fwd ops n counter target st = Some (Z.max counter target, st') /\ hok st'.
Proof.
  intros ops n. induction n as [|n IH]; intros counter target st H0 Ht Hn Hh; cbn [walk_fwd];
    destruct (Z.ltb_spec counter target) as [E|E]; try lia;
    try (exists st; rewrite Z.max_l by lia; split; [reflexivity | exact Hh]).
  destruct (nth_op_some ops counter) as [o Ho]; [lia|]. rewrite Ho.
  destruct (IH (counter + 1) target (scope_effect_fwd (Some o) st)) as (st' & -> & Hh'); [lia | lia | lia | apply hok_fwd, Hh |].
  exists st'. rewrite Z.max_r by lia. split; [repeat f_equal; lia | exact Hh'].
Qed.

Lemma walk_bwd_ok : forall ops n counter target st,
  counter < zlen ops -> -1 <= target -> (Z.to_nat (counter - target) <= n)%nat -> hok st ->
  exists st', walk_bwd ops n counter target st = Some (Z.min counter target, st') /\ hok st'.
Proof.
  intros ops n. induction n as [|n IH]; intros counter target st H0 Ht Hn Hh; cbn [walk_bwd];
    destruct (Z.gtb_spec counter target) as [E|E]; try lia;
    try (exists st; rewrite Z.min_l by lia; split; [reflexivity | exact Hh]).
  destruct (nth_op_some ops counter) as [o Ho]; [lia|]. rewrite Ho.
  destruct (IH (counter - 1) target (scope_effect_bwd (Some o) st)) as (st' & -> & Hh'); [lia | lia | lia | apply hok_bwd, Hh |].
  exists st'. rewrite Z.min_r by lia. split; [repeat f_equal; lia | exact Hh'].
Qed.

(* one operation keeps the counter >= -1, the handler table well formed, and never indexes outside the list *)
Lemma exec_op_in_bounds : forall ops c o st,
  targets_ok ops = true -> hok st -> nth_op ops c = Some o ->
  match exec_op ops c o st with
  | SOk c' st' => -1 <= c' /\ hok st'
  | SPanic => False
  | _ => True
  end.
Proof.
  intros ops c o st Hok Hh Hn. destruct (nth_op_in _ _ _ Hn) as [Hin Hc].
  unfold targets_ok in Hok. rewrite forallb_forall in Hok. specialize (Hok o Hin).
  destruct o as [k h|d|x e|u e|x v|cnd idx|t idx|l idx|l idx]; cbn [exec_op].
  - split; [lia | apply hok_declare_handler; [exact Hh | lia]].
  - exact I.
  - destruct (eval st e) as [v|]; [|exact I].
    destruct (set_var st x v) as [st'|] eqn:Es; [|exact I].
    split; [lia | exact (hok_set_var _ _ _ _ Es Hh)].
  - destruct (eval st e) as [v|]; [split; [lia|exact Hh] | exact I].
  - split; [lia | apply hok_declare_var; exact Hh].
  - cbn in Hok. apply andb_prop in Hok. destruct Hok as [H1 H2]. apply Z.leb_le in H1, H2.
    destruct (eval st cnd) as [v|]; [|exact I].
    destruct (truthy v); (split; [lia | exact Hh]).
  - cbn in Hok. apply andb_prop in Hok. destruct Hok as [H1 H2]. apply Z.leb_le in H1, H2.
    destruct (c <=? idx) eqn:E.
    + apply Z.leb_le in E.
      destruct (walk_fwd_ok ops (S (length ops + Z.to_nat (Z.abs idx) + Z.to_nat (Z.abs c))) c (idx - 1) st) as (st' & -> & Hh');
        [lia | lia | lia | exact Hh |]. split; [lia | exact Hh'].
    + apply Z.leb_gt in E.
      destruct (walk_bwd_ok ops (S (length ops + Z.to_nat (Z.abs idx) + Z.to_nat (Z.abs c))) c (idx - 1) st) as (st' & -> & Hh');
        [lia | lia | lia | exact Hh |]. split; [lia | exact Hh'].
  - split; [lia | apply hok_push; exact Hh].
  - split; [lia | apply hok_pop; exact Hh].
Qed.

Lemma exit_scan_ok : forall ops n pos rem,
  0 <= pos -> (Z.to_nat (zlen ops - pos) <= n)%nat -> exists nc, exit_scan ops n pos rem = Some nc /\ pos <= nc.
Proof.
  intros ops n. induction n as [|n IH]; intros pos rem H0 Hn; cbn [exit_scan];
    destruct ((rem =? 0) || (zlen ops <=? pos)) eqn:E; try (exists pos; split; [reflexivity | lia]).
  - apply orb_false_elim in E. destruct E as [_ E]. apply Z.leb_gt in E. lia.
  - apply orb_false_elim in E. destruct E as [_ E]. apply Z.leb_gt in E.
    destruct (nth_op_some ops pos) as [o Ho]; [lia|]. rewrite Ho.
    destruct o; (edestruct (IH (pos + 1)) as [nc [Hs Hle]]; [lia | lia | rewrite Hs; exists nc; split; [reflexivity | lia]]).
Qed.

Lemma in_concat_hok : forall st h, hok st -> In h (concat (hscopes st)) -> 0 <= snd h.
Proof.
  intros st h H Hin. apply in_concat in Hin. destruct Hin as [l [Hl Hh]].
  unfold hok in H. rewrite Forall_forall in H. specialize (H l Hl). rewrite Forall_forall in H. exact (H h Hh).
Qed.

Lemma handle_error_in_bounds : forall ops c st, hok st -> 0 <= c ->
  match handle_error ops c st with
  | HGo c' st' => -1 <= c' /\ hok st'
  | HPanic => False
  | _ => True
  end.
Proof.
  intros ops c st Hh Hc. unfold handle_error.
  destruct (rev (concat (hscopes st))) as [|[[k h] hc] r] eqn:E; [exact I|].
  assert (Hhc : 0 <= hc).
  { apply (in_concat_hok st (k, h, hc) Hh). apply in_rev. rewrite E. left. reflexivity. }
  destruct h as [x e|u e].
  - destruct (run_hstmt st (HSet x e)) as [st'|] eqn:Er; [|exact I].
    assert (Hh' : hok st').
    { cbn in Er. destruct (eval st e) as [v|]; [|discriminate]. exact (hok_set_var _ _ _ _ Er Hh). }
    destruct k.
    + destruct (exit_scan_ok ops (S (length ops)) hc 1 Hhc) as [nc [Hs Hle]]; [unfold zlen; lia|].
      rewrite Hs. split; [lia | exact Hh'].
    + split; [lia | exact Hh'].
  - destruct (eval st e) as [v|]; [|exact I]. split; [lia | exact Hh].
Qed.

(* pc_in_bounds: with all jump indexes inside [0, len], no run of any length ever reaches the "negative function counter"
   panic or indexes the operation list out of range (handlers included) *)
Theorem pc_in_bounds : forall ops, targets_ok ops = true ->
  forall fuel counter st, hok st -> -1 <= counter -> run ops fuel counter st <> MPanic.
Proof.
  intros ops Hok fuel. induction fuel as [|f IH]; intros counter st Hh Hc; [discriminate|].
  cbn [run]. destruct (counter + 1 <? 0) eqn:E; [apply Z.ltb_lt in E; lia|].
  destruct (nth_op ops (counter + 1)) as [o|] eqn:Hn; [|discriminate].
  pose proof (exec_op_in_bounds ops (counter + 1) o st Hok Hh Hn) as He.
  destruct (exec_op ops (counter + 1) o st) as [c' st'| | |]; [| |contradiction|discriminate].
  - destruct He as [Hb Hh']. exact (IH _ _ Hh' Hb).
  - pose proof (handle_error_in_bounds ops (counter + 1) st Hh ltac:(lia)) as Hhe.
    destruct (handle_error ops (counter + 1) st) as [| | |c' st']; try discriminate; [contradiction|].
    destruct Hhe as [Hb Hh']. exact (IH _ _ Hh' Hb).
Qed.

Lemma hok_init : forall ps us, hok (init_state ps us).
Proof. intros. unfold hok. cbn. constructor; constructor. Qed.

(* helper constructors taking Z identifiers (the development is in Z_scope) *)
Definition blk (l : Z) b := SBlock (Z.to_N l) b.
Definition dcl (x v : Z) := SDeclare (Z.to_N x) (Some v).
Definition set_ (x : Z) e := SSet (Z.to_N x) e.
Definition setu (u : Z) e := SSetUser (Z.to_N u) e.
Definition var (x : Z) := EVar (Z.to_N x).
Definition whl (l : Z) c b := SWhile (Z.to_N l) c b.
Definition lop (l : Z) b := SLoop (Z.to_N l) b.
Definition lv (l : Z) := SLeave (Z.to_N l).
Definition itr (l : Z) := SIterate (Z.to_N l).

(* refutation witnesses (both replayed on the engine by the driver's corpus) *)
(* BEGIN DECLARE v0 INT DEFAULT 1; l1: BEGIN DECLARE v0 INT DEFAULT 2; LEAVE l1; END; SET @u0 = v0; END *)
Definition leak_prog : stmt :=
  blk 0 (SSeq (dcl 0 1)
           (SSeq (blk 1 (SSeq (dcl 0 2) (lv 1)))
                 (setu 0 (var 0)))).

(* LEAVE of a labelled BEGIN..END jumps past its ScopeEnd without popping the scope: the inner v0 stays visible *)
Lemma leave_block_leaks_scope :
  (exists st, exec 20 leak_prog (init_state [] []) = (ONormal, st) /\ assocN 0%N (users st) = Some (Some 1))
  /\ (exists st, call leak_prog 100 [] [] = MDone st /\ assocN 0%N (users st) = Some (Some 2) /\ length (scopes st) = 2%nat).
Proof. split; eexists; vm_compute; repeat split; reflexivity. Qed.

(* BEGIN DECLARE v0 INT DEFAULT 0; l1: LOOP SET v0 = v0+1; IF v0 > 2 THEN LEAVE l1; END IF; END LOOP; SET v0 = 0;
   l1: WHILE v0 < 3 DO SET v0 = v0+1; IF v0 = 2 THEN ITERATE l1; END IF; SET @u0 = v0; END WHILE; END *)
Definition stale_prog : stmt :=
  blk 0 (SSeq (dcl 0 0)
           (SSeq (lop 1 (SSeq (set_ 0 (EBin Add (var 0) (EConst 1)))
                                (SIf (EBin Lt (EConst 2) (var 0)) (lv 1) SSkip)))
           (SSeq (set_ 0 (EConst 0))
                 (whl 1 (EBin Lt (var 0) (EConst 3))
                    (SSeq (set_ 0 (EBin Add (var 0) (EConst 1)))
                    (SSeq (SIf (EBin Eq (var 0) (EConst 2)) (itr 1) SSkip)
                          (setu 0 (var 0)))))))).

(* the label of the finished LOOP is still registered, so ITERATE l1 in the WHILE jumps back into the LOOP: the
   compiled program does not finish (within 3000 steps) although the structured semantics does *)
Lemma stale_label_diverges :
  (exists st, exec 50 stale_prog (init_state [] []) = (ONormal, st) /\ assocN 0%N (users st) = Some (Some 3))
  /\ call stale_prog 3000 [] [] = MNoFuel
  /\ targets_ok (parse stale_prog) = true.
Proof. split; [eexists; vm_compute; split; reflexivity | split; vm_compute; reflexivity]. Qed.

(* non-vacuity: a program with nested loops, LEAVE/ITERATE and shadowing on which machine and definition agree *)
Definition good_prog : stmt :=
  blk 0 (SSeq (dcl 0 0) (SSeq (dcl 1 0)
           (SSeq (whl 1 (EBin Lt (var 0) (EConst 5))
                    (SSeq (set_ 0 (EBin Add (var 0) (EConst 1)))
                    (SSeq (SIf (EBin Eq (var 0) (EConst 2)) (itr 1) SSkip)
                    (SSeq (SIf (EBin Eq (var 0) (EConst 4)) (lv 1) SSkip)
                    (SSeq (blk 0 (SSeq (dcl 1 100) (set_ 1 (EBin Add (var 1) (var 0)))))
                          (set_ 1 (EBin Add (var 1) (var 0))))))))
                 (SSeq (setu 0 (var 0)) (setu 1 (var 1)))))).

Lemma good_prog_agrees :
  targets_ok (parse good_prog) = true /\
  exists st1 st2, exec 50 good_prog (init_state [] []) = (ONormal, st1) /\ call good_prog 500 [] [] = MDone st2 /\
    users st1 = users st2 /\ users st1 = [(0%N, Some 4); (1%N, Some 4)] /\ length (scopes st2) = 1%nat.
Proof. split; [vm_compute; reflexivity|]. do 2 eexists. vm_compute. repeat split; reflexivity. Qed.

(* handlers: refutation witnesses (all replayed on the engine by the driver's corpus) *)
Definition hdl (k : hkind) (x v : Z) := SHandler k (HSet (Z.to_N x) (EConst v)).

(* BEGIN DECLARE v0 INT DEFAULT 0; DECLARE v1 INT DEFAULT 1;
     BEGIN DECLARE v1 INT DEFAULT 2; DECLARE EXIT HANDLER FOR SQLEXCEPTION SET v0 = 1; SIGNAL ...; SET @u1 = 1; END;
     SET @u0 = v1; END *)
Definition exit_leak_prog : stmt :=
  blk 0 (SSeq (dcl 0 0) (SSeq (dcl 1 1)
        (SSeq (blk 0 (SSeq (dcl 1 2) (SSeq (hdl HExit 0 1) (SSeq (SRaise false) (setu 1 (EConst 1))))))
              (setu 0 (var 1))))).

(* an EXIT handler continues after the ScopeEnd of its block without executing it: the block's scope is never popped *)
Lemma exit_handler_leaks_scope :
  (exists st, exec 20 exit_leak_prog (init_state [] []) = (ONormal, st) /\ assocN 0%N (users st) = Some (Some 1)
              /\ assocN 1%N (users st) = None)
  /\ (exists st, call exit_leak_prog 100 [] [] = MDone st /\ assocN 0%N (users st) = Some (Some 2)
                 /\ assocN 1%N (users st) = None /\ length (scopes st) = 2%nat).
Proof. split; eexists; vm_compute; repeat split; reflexivity. Qed.

(* BEGIN DECLARE v0 INT DEFAULT 0; DECLARE CONTINUE HANDLER ... SET v0 = 10;
     BEGIN DECLARE CONTINUE HANDLER ... SET v0 = 20; SIGNAL ...; END; SET @u0 = v0; END *)
Definition nested_handler_prog : stmt :=
  blk 0 (SSeq (dcl 0 0) (SSeq (hdl HContinue 0 10)
        (SSeq (blk 0 (SSeq (hdl HContinue 0 20) (SRaise false))) (setu 0 (var 0))))).

(* the most local handler must run; handleError keeps the last handler of ListHandlers, the outermost *)
Lemma outermost_handler_wins :
  (exists st, exec 20 nested_handler_prog (init_state [] []) = (ONormal, st) /\ assocN 0%N (users st) = Some (Some 20))
  /\ (exists st, call nested_handler_prog 100 [] [] = MDone st /\ assocN 0%N (users st) = Some (Some 10)).
Proof. split; eexists; vm_compute; split; reflexivity. Qed.

(* BEGIN DECLARE CONTINUE HANDLER FOR SQLEXCEPTION SET @u0 = 1; SIGNAL ...; SET @u1 = 2; END *)
Definition restart_prog : stmt :=
  blk 0 (SSeq (SHandler HContinue (HSetUser 0 (EConst 1))) (SSeq (SRaise false) (setu 1 (EConst 2)))).

Definition rows_handler (h : handler) : Prop := match h with (_, HSetUser _ (EConst _), _) => True | _ => False end.

Lemma handle_error_rows : forall ops c st, concat (hscopes st) <> [] -> Forall rows_handler (concat (hscopes st)) ->
  exists st', handle_error ops c st = HGo (-1) st' /\ hscopes st' = hscopes st.
Proof.
  intros ops c st Hne Hall. unfold handle_error. destruct (rev (concat (hscopes st))) as [|[[k h] hc] r] eqn:E.
  - apply (f_equal (@rev _)) in E. rewrite rev_involutive in E. contradiction.
  - assert (Hin : In ((k, h, hc) : handler) (concat (hscopes st))) by (apply in_rev; rewrite E; left; reflexivity).
    rewrite Forall_forall in Hall. specialize (Hall _ Hin). destruct h as [|u []]; try contradiction.
    eexists. split; reflexivity.
Qed.

(* a handler statement that returns rows (SET @u, INSERT ...) makes handleError return (-1, io.EOF): the procedure
   restarts from its first operation, for ever, each round with one more scope and one more registered handler *)
Lemma restarts_for_ever : forall ops l i k u z d,
  nth_op ops 0 = Some (OpScopeBegin l i) -> nth_op ops 1 = Some (OpHandler k (HSetUser u (EConst z))) ->
  nth_op ops 2 = Some (OpRaise d) ->
  forall fuel st, Forall rows_handler (concat (hscopes st)) -> run ops fuel (-1) st = MNoFuel.
Proof.
  intros ops l i k u z d H0 H1 H2 fuel. induction fuel as [fuel IH] using lt_wf_ind. intros st Hall.
  destruct fuel as [|f]; [reflexivity|]. cbn [run]. change (-1 + 1) with 0. rewrite H0. cbn [Z.ltb Z.compare exec_op].
  destruct f as [|f]; [reflexivity|]. cbn [run]. change (0 + 1) with 1. rewrite H1. cbn [Z.ltb Z.compare exec_op].
  destruct f as [|f]; [reflexivity|]. cbn [run]. change (1 + 1) with 2. rewrite H2. cbn [Z.ltb Z.compare exec_op].
  set (st2 := declare_handler (push_scope st) (k, HSetUser u (EConst z), 1)).
  assert (Hc : concat (hscopes st2) = (k, HSetUser u (EConst z), 1) :: concat (hscopes st)) by reflexivity.
  destruct (handle_error_rows ops 2 st2) as (st3 & -> & Hh); rewrite ?Hc; [discriminate | constructor; [exact I | exact Hall] |].
  apply IH; [lia|]. rewrite Hh, Hc. constructor; [exact I | exact Hall].
Qed.

Lemma handler_with_rows_restarts :
  (exists st, exec 20 restart_prog (init_state [] []) = (ONormal, st) /\ assocN 1%N (users st) = Some (Some 2))
  /\ call restart_prog 3000 [] [] = MNoFuel.
Proof.
  split; [eexists; vm_compute; split; reflexivity|].
  unfold call. eapply restarts_for_ever; [reflexivity | reflexivity | reflexivity | constructor].
Qed.

(* non-vacuity for handlers: EXIT handler in an outer block, error in a nested block, no shadowing: agreement *)
Definition handler_good_prog : stmt :=
  blk 0 (SSeq (dcl 0 0)
        (SSeq (blk 0 (SSeq (hdl HExit 0 1)
                     (SSeq (blk 0 (SSeq (SRaise true) (setu 1 (EConst 1)))) (setu 2 (EConst 1)))))
              (setu 0 (var 0)))).

Lemma handler_good_agrees :
  exists st1 st2, exec 30 handler_good_prog (init_state [] []) = (ONormal, st1) /\
    call handler_good_prog 200 [] [] = MDone st2 /\ users st1 = users st2 /\ users st1 = [(0%N, Some 1)].
Proof. do 2 eexists. vm_compute. repeat split; reflexivity. Qed.

(* LOOP whose first body statement is a block with a shadowing declaration, ITERATE from inside the block *)
Definition loop_block_prog : stmt :=
  blk 0 (SSeq (dcl 0 1) (SSeq (dcl 1 0)
        (SSeq (lop 1 (blk 0 (SSeq (dcl 0 50)
                            (SSeq (set_ 1 (EBin Add (var 1) (EConst 1)))
                            (SSeq (SIf (EBin Le (EConst 3) (var 1)) (lv 1) SSkip)
                            (SSeq (SIf (EBin Eq (var 1) (EConst 1)) (itr 1) SSkip)
                                  (set_ 0 (EBin Add (var 0) (EConst 1)))))))))
              (setu 0 (var 0))))).

Lemma loop_block_agrees :
  exists st1 st2, exec 60 loop_block_prog (init_state [] []) = (ONormal, st1) /\
    call loop_block_prog 500 [] [] = MDone st2 /\ users st1 = users st2 /\ users st1 = [(0%N, Some 1)]
    /\ length (scopes st2) = 1%nat.
Proof. do 2 eexists. vm_compute. repeat split; reflexivity. Qed.

(* BEGIN DECLARE v0 INT DEFAULT 1; BEGIN DECLARE v0 INT DEFAULT 2; IF 1 THEN SET @u1 = 1; ELSE BEGIN SET @u1 = 2; END; END IF; END;
   SET @u0 = v0; END *)
Definition else_block_prog : stmt :=
  blk 0 (SSeq (dcl 0 1)
        (SSeq (blk 0 (SSeq (dcl 0 2) (SIf (EConst 1) (setu 1 (EConst 1)) (blk 0 (setu 1 (EConst 2))))))
              (setu 0 (var 0)))).

(* the Goto that skips an ELSE branch walks only up to Index-2: when the branch ends with a block, its ScopeBegin is
   pushed but its ScopeEnd not popped; the enclosing block then pops the wrong scope *)
Lemma else_block_leaks_scope :
  (exists st, exec 20 else_block_prog (init_state [] []) = (ONormal, st) /\ assocN 0%N (users st) = Some (Some 1))
  /\ (exists st, call else_block_prog 100 [] [] = MDone st /\ assocN 0%N (users st) = Some (Some 2) /\ length (scopes st) = 2%nat).
Proof. split; eexists; vm_compute; repeat split; reflexivity. Qed.

(* BEGIN DECLARE v0 INT DEFAULT 0; DECLARE v1 INT DEFAULT 0; SET v1 = NULL;
   REPEAT SET v0 = v0 + 1; IF 3 <= v0 THEN SET v1 = 1; END IF; UNTIL v1 = 1 END REPEAT; SET @u0 = v0; END *)
Definition until_null_prog : stmt :=
  blk 0 (SSeq (dcl 0 0) (SSeq (dcl 1 0) (SSeq (set_ 1 ENull)
        (SSeq (SRepeat 0%N (SSeq (set_ 0 (EBin Add (var 0) (EConst 1)))
                                 (SIf (EBin Le (EConst 3) (var 0)) (set_ 1 (EConst 1)) SSkip))
                           (EBin Eq (var 1) (EConst 1)))
              (setu 0 (var 0)))))).

(* REPEAT is compiled as IF NOT cond: when UNTIL evaluates to NULL, NOT NULL is NULL, the IF fails and the loop is left,
   although the condition is not true *)
Lemma until_null_leaves_loop :
  (exists st, exec 40 until_null_prog (init_state [] []) = (ONormal, st) /\ assocN 0%N (users st) = Some (Some 3))
  /\ (exists st, call until_null_prog 200 [] [] = MDone st /\ assocN 0%N (users st) = Some (Some 1)).
Proof. split; eexists; vm_compute; split; reflexivity. Qed.

(* BEGIN DECLARE v0 INT DEFAULT 1; l1: REPEAT BEGIN DECLARE v0 INT DEFAULT 2; IF 1 THEN ITERATE l1; END IF; END; UNTIL 1 END REPEAT;
   SET @u0 = v0; END *)
Definition iterate_repeat_prog : stmt :=
  blk 0 (SSeq (dcl 0 1)
        (SSeq (SRepeat 1%N (blk 0 (SSeq (dcl 0 2) (SIf (EConst 1) (itr 1) SSkip))) (EConst 1))
              (setu 0 (var 0)))).

(* ITERATE of a REPEAT from the first (unrolled) copy of its body is a FORWARD jump to the test; like every forward
   Goto it does not look at the operation just before its target -- here the ScopeEnd of the block the body ends with *)
Lemma iterate_repeat_leaks_scope :
  (exists st, exec 30 iterate_repeat_prog (init_state [] []) = (ONormal, st) /\ assocN 0%N (users st) = Some (Some 1))
  /\ (exists st, call iterate_repeat_prog 100 [] [] = MDone st /\ assocN 0%N (users st) = Some (Some 2) /\ length (scopes st) = 2%nat).
Proof. split; eexists; vm_compute; repeat split; reflexivity. Qed.
