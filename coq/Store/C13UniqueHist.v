(* C13, unique secondary indexes, histories: the reference keeps the stored rows consistent with the unique indexes
   ([urows], for EVERY statement kind), hence the statement-level refinements of Store/C13Unique.v chain into histories of
   INSERT / INSERT IGNORE / DELETE / guarded UPDATE statements. *)
From Coq Require Import List NArith ZArith Bool Lia Permutation.
Import ListNotations.
From GMS Require Import Base.ListFacts Store.C14Editor Store.C14EditorProofs Store.C13Refine Store.C13RefineProofs Store.C13Keyless
  Store.C13Unique.

Section Urows.
  Variable sch : schema.

  Lemma urows_incl : forall l l', incl l l' -> urows sch l' -> urows sch l.
  Proof. intros l l' Hi Hu cols pls x y Hin Hx Hy. apply Hu; [exact Hin|apply Hi; exact Hx|apply Hi; exact Hy]. Qed.

  Lemma urows_snoc : forall L r, urows sch L -> check_unique (sp_get_by_cols L) (s_uniq sch) r = None -> urows sch (L ++ [r]).
  Proof.
    intros L r Hu Hc cols pls x y Hin Hx Hy Hn Hm.
    assert (Hfree : has_null cols r = false -> forall z, In z L -> cols_match cols pls z r = false).
    { intros Hnr z Hz. pose proof (proj1 (Forall_forall _ _) (proj1 (check_unique_none_iff _ _ _) Hc) _ Hin Hnr) as Hf. cbn [fst snd] in Hf. unfold sp_get_by_cols in Hf.
      apply find_none_iff in Hf. exact (proj1 (existsb_false_iff _ _) Hf z Hz). }
    apply in_app_or in Hx. apply in_app_or in Hy.
    destruct Hx as [Hx|[<-|[]]], Hy as [Hy|[<-|[]]].
    - exact (Hu cols pls x y Hin Hx Hy Hn Hm).
    - rewrite (Hfree Hn x Hx) in Hm. discriminate.
    - pose proof (has_null_match _ _ _ _ Hm Hn) as Hnr. apply cols_match_sym in Hm.
      rewrite (Hfree Hnr y Hy) in Hm. discriminate.
    - reflexivity.
  Qed.

  Lemma sp_insert_urows : forall L r L', urows sch L -> sp_insert sch L r = ROk L' -> urows sch L'.
  Proof.
    intros L r L' Hu H. unfold sp_insert in H. destruct (sp_get sch L r); [discriminate|].
    destruct (check_unique (sp_get_by_cols L) (s_uniq sch) r) eqn:E; [discriminate|]. injection H as <-.
    apply urows_snoc; assumption.
  Qed.

  Lemma sp_delete_urows : forall L r, urows sch L -> urows sch (sp_delete sch L r).
  Proof. intros L r Hu. eapply urows_incl; [apply remove_first_incl|exact Hu]. Qed.

  Lemma sp_update_urows : forall L o n L', urows sch L -> sp_update sch L o n = ROk L' -> urows sch L'.
  Proof.
    intros L o n L' Hu H. unfold sp_update in H.
    destruct (if pk_match sch o n then None else sp_get sch (sp_delete sch L o) n); [discriminate|].
    destruct (check_unique (sp_get_by_cols (sp_delete sch L o)) (s_uniq sch) n) eqn:E; [discriminate|]. injection H as <-.
    apply urows_snoc; [apply sp_delete_urows; exact Hu|exact E].
  Qed.

  Lemma sp_commit_urows : forall L, urows sch L -> urows sch (sp_commit sch L).
  Proof.
    intros L Hu. eapply urows_incl; [|exact Hu]. intros x Hx. unfold sp_commit in Hx.
    eapply Permutation_in; [apply sort_rows_perm|exact Hx].
  Qed.

  Theorem spec_exec_urows : forall rows st, urows sch rows -> urows sch (snd (spec_exec sch rows st)).
  Proof.
    intros rows st. unfold spec_exec. apply exec_preserves with (Inv := urows sch).
    - intros cols pls x y _ [].
    - intros r H. exact H.
    - intros s r s'. apply sp_insert_urows.
    - intros s r. apply sp_delete_urows.
    - intros s o n s'. apply sp_update_urows.
    - apply sp_commit_urows.
  Qed.
End Urows.

Definition uq_stmt_ok (sch : schema) (U : row -> Prop) (rows : list row) (st : stmt) : Prop :=
  match st with
  | SInsert IPlain news => Forall U news
  | SInsert IIgnore news => Forall U news
  | SDelete _ _ _ => True
  | SUpdate a w ord lim =>
      (forall r, U r -> U (apply_assigns a r)) /\ news_ok sch (news sch a (targets sch w ord lim rows))
  | _ => False
  end.

(* every statement of the history satisfies its guard on the table the REFERENCE has reached *)
Fixpoint uq_hist_ok (sch : schema) (U : row -> Prop) (rows : list row) (h : list stmt) : Prop :=
  match h with
  | [] => True
  | st :: h' => uq_stmt_ok sch U rows st /\ uq_hist_ok sch U (snd (spec_exec sch rows st)) h'
  end.

Section Hist.
  Variable sch : schema.
  Variable U : row -> Prop.
  Hypothesis Hinj : forall a b, U a -> U b -> key_str sch a = key_str sch b -> key sch a = key sch b.
  Hypothesis Hbin : pk_binary sch.

  Theorem uniq_stmt_refines : forall rows st, Pre sch U rows -> urows sch rows -> uq_stmt_ok sch U rows st ->
    pk_exec sch rows st = spec_exec sch rows st /\
    Pre sch U (snd (spec_exec sch rows st)) /\ urows sch (snd (spec_exec sch rows st)).
  Proof.
    intros rows st HP Hu Hs.
    assert (H : pk_exec sch rows st = spec_exec sch rows st /\ Pre sch U (snd (spec_exec sch rows st))).
    { destruct st as [[| | |a] news|a w ord lim|w ord lim]; cbn in Hs; try contradiction.
      - apply (uniq_insert_delete_refines sch U Hinj Hbin); assumption.
      - apply (uniq_insert_delete_refines sch U Hinj Hbin); assumption.
      - destruct Hs as [Ha Hn]. apply (uniq_update_refines sch U Hinj Hbin); assumption.
      - apply (uniq_insert_delete_refines sch U Hinj Hbin); assumption. }
    destruct H as [E HP']. split; [exact E|split; [exact HP'|apply spec_exec_urows; exact Hu]].
  Qed.

  Theorem uniq_history_refines : keyless sch = false ->
    forall h rows, Pre sch U rows -> urows sch rows -> uq_hist_ok sch U rows h ->
      run_history sch rows h = spec_history sch rows h.
  Proof.
    intros Hk. unfold run_history. rewrite (impl_exec_keyed sch Hk).
    induction h as [|st h IH]; intros rows HP Hu Hh; [reflexivity|].
    destruct Hh as [Hst Hh]. destruct (uniq_stmt_refines rows st HP Hu Hst) as [E [HP' Hu']].
    cbn [fold_left]. rewrite E. apply IH; assumption.
  Qed.
End Hist.
