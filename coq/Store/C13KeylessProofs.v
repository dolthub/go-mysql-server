(* C13, keyless tables: keylessTableEditAccumulator + tableEditor + the statement iterators (kl_exec, Store/C14Editor.v)
   refine the reference multiset semantics ms_exec (Store/C13Keyless.v).  Bags are compared through occurrence counts
   (Permutation_count_occ). *)
From Coq Require Import List NArith ZArith Bool Lia Permutation.
Import ListNotations.
From GMS Require Import Base.ListFacts Store.C14Editor Store.C14EditorProofs Store.C13Keyless.

Definition val_eq_dec : forall a b : val, {a = b} + {a <> b}.
Proof. decide equality; [apply Z.eq_dec|apply (list_eq_dec N.eq_dec)]. Defined.
Definition row_eq_dec : forall a b : row, {a = b} + {a <> b} := list_eq_dec val_eq_dec.

Definition cnt (L : list row) (x : row) : nat := count_occ row_eq_dec L x.
Definition ind (a x : row) : nat := if row_eq_dec a x then 1%nat else 0%nat.

Lemma cnt_nil : forall x, cnt [] x = 0%nat.
Proof. reflexivity. Qed.

Lemma cnt_cons : forall a l x, cnt (a :: l) x = (ind a x + cnt l x)%nat.
Proof. intros a l x. unfold cnt, ind. cbn. destruct (row_eq_dec a x); reflexivity. Qed.

Lemma cnt_app : forall l1 l2 x, cnt (l1 ++ l2) x = (cnt l1 x + cnt l2 x)%nat.
Proof. intros. apply count_occ_app. Qed.

Lemma ind_refl : forall a, ind a a = 1%nat.
Proof. intros a. unfold ind. destruct (row_eq_dec a a); [reflexivity|congruence]. Qed.

Lemma ind_le : forall a x, (ind a x <= 1)%nat.
Proof. intros a x. unfold ind. destruct (row_eq_dec a x); lia. Qed.

Lemma perm_cnt : forall l1 l2, Permutation l1 l2 <-> forall x, cnt l1 x = cnt l2 x.
Proof. intros. apply Permutation_count_occ. Qed.

Lemma cnt_filter : forall (p : row -> bool) l x, cnt (filter p l) x = if p x then cnt l x else 0%nat.
Proof.
  intros p l x. induction l as [|y l IH]; cbn [filter]; [destruct (p x); reflexivity|].
  destruct (p y) eqn:Ey; rewrite ?cnt_cons, IH.
  - destruct (p x) eqn:Ex; [reflexivity|]. unfold ind. destruct (row_eq_dec y x); [congruence|reflexivity].
  - destruct (p x) eqn:Ex; [|reflexivity]. unfold ind. destruct (row_eq_dec y x); [congruence|reflexivity].
Qed.

Lemma cnt_filter_le : forall (p : row -> bool) l x, (cnt (filter p l) x <= cnt l x)%nat.
Proof. intros p l x. rewrite cnt_filter. destruct (p x); lia. Qed.

Lemma cnt_firstn_le : forall n l x, (cnt (firstn n l) x <= cnt l x)%nat.
Proof.
  induction n as [|n IH]; intros [|y l] x; cbn [firstn]; rewrite ?cnt_nil; try lia.
  rewrite !cnt_cons. specialize (IH l x). lia.
Qed.

Lemma cnt_targets_le : forall sch w ord lim rows x, (cnt (targets sch w ord lim rows) x <= cnt rows x)%nat.
Proof.
  intros sch w ord lim rows x. unfold targets.
  eapply Nat.le_trans; [|apply (cnt_filter_le (pred_true sch w))].
  rewrite <- (proj1 (perm_cnt _ _) (order_rows_perm sch ord (filter (pred_true sch w) rows)) x).
  destruct lim as [n|]; [apply cnt_firstn_le|apply Nat.le_refl].
Qed.

Lemma str_cmp_refl : forall a, str_cmp a a = Eq.
Proof. induction a as [|x a IH]; cbn; [reflexivity|]. rewrite N.compare_refl. exact IH. Qed.

Lemma val_cmp_bin_refl : forall a, val_cmp CBin a a = Eq.
Proof. intros [|z|s]; cbn; [reflexivity|apply Z.compare_refl|apply str_cmp_refl]. Qed.

Lemma row_equals_from_eq : forall sch, all_binary sch -> forall a b i, row_equals_from sch i a b = true <-> a = b.
Proof.
  intros sch Hb. induction a as [|x a IH]; intros [|y b] i; cbn; split; intros H; try reflexivity; try discriminate.
  - rewrite Hb in H. destruct (val_cmp CBin x y) eqn:E; try discriminate.
    apply val_cmp_bin_eq in E. apply IH in H. congruence.
  - injection H as -> ->. rewrite Hb, val_cmp_bin_refl. apply IH. reflexivity.
Qed.

Lemma row_equals_eq : forall sch, all_binary sch -> forall a b, row_equals sch a b = true <-> a = b.
Proof. intros sch Hb a b. apply row_equals_from_eq. exact Hb. Qed.

Lemma cnt_remove_first_sub : forall (f : row -> bool) d, (forall y, f y = true <-> y = d) ->
  forall l x, cnt (remove_first f l) x = (cnt l x - ind d x)%nat.
Proof.
  intros f d Hf. induction l as [|y l IH]; intros x; cbn [remove_first]; [reflexivity|].
  destruct (f y) eqn:Ey.
  - apply Hf in Ey. subst y. rewrite cnt_cons. lia.
  - rewrite !cnt_cons, IH. assert (Hyd : y <> d) by (intros E; apply Hf in E; congruence).
    unfold ind. destruct (row_eq_dec d x) as [->|Hd]; destruct (row_eq_dec y x) as [->|Hy]; try congruence; lia.
Qed.

Lemma cnt_fold_remove : forall (F : row -> row -> bool), (forall d y, F d y = true <-> y = d) ->
  forall ds l x, cnt (fold_left (fun acc d => remove_first (F d) acc) ds l) x = (cnt l x - cnt ds x)%nat.
Proof.
  intros F HF. induction ds as [|d ds IH]; intros l x; cbn [fold_left]; [rewrite cnt_nil; lia|].
  rewrite IH, (cnt_remove_first_sub (F d) d (HF d)), cnt_cons. lia.
Qed.

Lemma cnt_bag_diff : forall l ds x, cnt (bag_diff l ds) x = (cnt l x - cnt ds x)%nat.
Proof.
  intros l ds x. unfold bag_diff, bag_remove.
  apply (cnt_fold_remove (fun d y => row_eqb d y)). intros d y. rewrite row_eqb_spec. split; congruence.
Qed.

Lemma remove_first_opt_spec : forall (f : row -> bool) l,
  remove_first_opt f l = if existsb f l then Some (remove_first f l) else None.
Proof.
  intros f. induction l as [|x l IH]; cbn; [reflexivity|].
  destruct (f x); cbn; [reflexivity|]. rewrite IH. destruct (existsb f l); reflexivity.
Qed.

(* the accumulator's cancelling step on counts: one occurrence of d goes, or there was none *)
Lemma cnt_remove_first_opt : forall (f : row -> bool) d, (forall y, f y = true <-> y = d) -> forall l,
  match remove_first_opt f l with
  | Some l' => forall x, (cnt l' x + ind d x = cnt l x)%nat
  | None => cnt l d = 0%nat
  end.
Proof.
  intros f d Hf l. rewrite remove_first_opt_spec. destruct (existsb f l) eqn:E.
  - apply existsb_exists in E. destruct E as [y [Hy Hfy]]. apply Hf in Hfy. subst y.
    apply (count_occ_In row_eq_dec) in Hy. fold (cnt l d) in Hy.
    intros x. rewrite (cnt_remove_first_sub f d Hf). unfold ind. destruct (row_eq_dec d x) as [<-|Hn]; lia.
  - apply (count_occ_not_In row_eq_dec). intros Hin.
    pose proof (proj1 (existsb_false_iff _ _) E d Hin) as Hfd. rewrite (proj2 (Hf d) eq_refl) in Hfd. discriminate.
Qed.

Section Keyless.
  Variable sch : schema.
  Hypothesis Hbin : all_binary sch.
  Hypothesis Hnu : s_uniq sch = [].

  (* logical content of a state, as counts *)
  Definition C (s : klst) (x : row) : nat := (cnt (k_rows s) x - cnt (k_dels s) x + cnt (k_adds s) x)%nat.

  (* the rows still to be deleted by the statement, together with the pending deletes, are occurrences of stored rows *)
  Definition J (s : klst) (ts : list row) : Prop := forall x, (cnt ts x + cnt (k_dels s) x <= cnt (k_rows s) x)%nat.

  Lemma J_tail : forall s o ts, J s (o :: ts) -> J s ts.
  Proof. intros s o ts H x. specialize (H x). rewrite cnt_cons in H. lia. Qed.

  Lemma cnt_commit : forall s x, cnt (kl_commit sch s) x = C s x.
  Proof.
    intros s x. unfold kl_commit, C. rewrite cnt_app. f_equal.
    apply (cnt_fold_remove (fun d pr => row_equals sch pr d)). intros d y. apply row_equals_eq. exact Hbin.
  Qed.

  Lemma eq_spec_l : forall r y, row_equals sch r y = true <-> y = r.
  Proof. intros r y. rewrite (row_equals_eq sch Hbin). split; congruence. Qed.

  (* Insert: cancels one pending delete of an equal row, else queues the row *)
  Lemma acc_insert_J : forall s ts r, J s ts ->
    J (kl_acc_insert sch s r) ts /\ forall x, C (kl_acc_insert sch s r) x = (C s x + ind r x)%nat.
  Proof.
    intros s ts r HJ. unfold kl_acc_insert.
    pose proof (cnt_remove_first_opt _ r (eq_spec_l r) (k_dels s)) as Hc.
    destruct (remove_first_opt (fun d => row_equals sch r d) (k_dels s)) as [d'|].
    - split; intros x; specialize (HJ x); specialize (Hc x); unfold C; cbn [k_rows k_dels k_adds]; lia.
    - split; [exact HJ|]. intros x. unfold C. cbn [k_rows k_dels k_adds]. rewrite cnt_app, cnt_cons, cnt_nil. lia.
  Qed.

  (* Delete of a row that is a target of the statement: cancels one pending add of an equal row, else queues the delete *)
  Lemma acc_delete_J : forall s ts o, J s (o :: ts) ->
    J (kl_acc_delete sch s o) ts /\ forall x, (C (kl_acc_delete sch s o) x + ind o x = C s x)%nat.
  Proof.
    intros s ts o HJ. unfold kl_acc_delete.
    pose proof (cnt_remove_first_opt _ o (eq_spec_l o) (k_adds s)) as Hc.
    destruct (remove_first_opt (fun a => row_equals sch o a) (k_adds s)) as [a'|].
    - split; [exact (J_tail _ _ _ HJ)|]. intros x. specialize (Hc x). unfold C. cbn [k_rows k_dels k_adds]. lia.
    - split; intros x; specialize (HJ x); rewrite cnt_cons in HJ; unfold C; cbn [k_rows k_dels k_adds];
        rewrite cnt_app, cnt_cons, cnt_nil; lia.
  Qed.

  Lemma kl_insert_ok : forall s r, kl_insert sch s r = ROk (kl_acc_insert sch s r).
  Proof. intros s r. unfold kl_insert. rewrite Hnu. reflexivity. Qed.

  Lemma kl_update_ok : forall s o n, kl_update sch s o n = ROk (kl_acc_insert sch (kl_acc_delete sch s o) n).
  Proof. intros s o n. unfold kl_update. rewrite Hnu. reflexivity. Qed.

  Lemma delete_loop : forall ts s, J s ts -> forall x, (C (fold_left (kl_delete sch) ts s) x + cnt ts x = C s x)%nat.
  Proof.
    induction ts as [|o ts IH]; intros s HJ x; cbn [fold_left]; [rewrite cnt_nil; lia|].
    destruct (acc_delete_J s ts o HJ) as [HJ1 Hc1]. specialize (IH _ HJ1 x). specialize (Hc1 x).
    rewrite cnt_cons. unfold kl_delete in *. lia.
  Qed.

  Lemma update_loop : forall a ts s m c, J s ts ->
    exists s', upd_loop (kl_update sch) sch a s ts m c =
                 Some (s', (m + N.of_nat (length ts))%N, (c + N.of_nat (length (changed sch a ts)))%N) /\
               forall x, (C s' x + cnt (changed sch a ts) x = C s x + cnt (map (apply_assigns a) (changed sch a ts)) x)%nat.
  Proof.
    intros a. induction ts as [|o ts IH]; intros s m c HJ.
    - exists s. cbn. rewrite !N.add_0_r. split; [reflexivity|]. intros x. reflexivity.
    - cbn [upd_loop]. unfold changed. cbn [filter]. fold (changed sch a ts).
      destruct (row_equals sch o (apply_assigns a o)) eqn:Eq; cbn [negb].
      + destruct (IH s (m + 1)%N c (J_tail _ _ _ HJ)) as [s' [E Hc]]. exists s'. split; [|exact Hc].
        rewrite E. do 3 f_equal. cbn [length]. lia.
      + rewrite kl_update_ok.
        destruct (acc_delete_J s ts o HJ) as [HJ1 Hc1].
        destruct (acc_insert_J _ ts (apply_assigns a o) HJ1) as [HJ2 Hc2].
        destruct (IH _ (m + 1)%N (c + 1)%N HJ2) as [s' [E Hc]]. exists s'. split.
        * rewrite E. do 2 f_equal; [f_equal|]; cbn [length]; lia.
        * intros x. cbn [map]. rewrite !cnt_cons. specialize (Hc x). specialize (Hc1 x). specialize (Hc2 x). lia.
  Qed.

  (* INSERT (all four modes): nothing to collide with *)
  Definition st0 (rows adds : list row) : klst := {| k_rows := rows; k_adds := adds; k_dels := [] |}.

  Lemma acc_insert_st0 : forall rows adds r, kl_acc_insert sch (st0 rows adds) r = st0 rows (adds ++ [r]).
  Proof. reflexivity. Qed.

  Lemma commit_st0 : forall rows adds, kl_commit sch (st0 rows adds) = rows ++ adds.
  Proof. reflexivity. Qed.

  Lemma succ_len : forall (n : N) (r : row) (l : list row), (n + 1 + N.of_nat (length l) = n + N.of_nat (length (r :: l)))%N.
  Proof. intros. cbn [length]. lia. Qed.

  Lemma plain_loop : forall news rows adds n,
    ins_plain (kl_insert sch) (st0 rows adds) news n = Some (st0 rows (adds ++ news), (n + N.of_nat (length news))%N).
  Proof.
    induction news as [|r news IH]; intros rows adds n; cbn [ins_plain].
    - rewrite app_nil_r, N.add_0_r. reflexivity.
    - rewrite kl_insert_ok, acc_insert_st0, IH, <- app_assoc, (succ_len n r news). reflexivity.
  Qed.

  Lemma ignore_loop : forall news cur n,
    ins_ignore kl_begin (kl_insert sch) (kl_commit sch) cur news n = (cur ++ news, (n + N.of_nat (length news))%N).
  Proof.
    induction news as [|r news IH]; intros cur n; cbn [ins_ignore].
    - rewrite app_nil_r, N.add_0_r. reflexivity.
    - rewrite kl_insert_ok. change (kl_begin cur) with (st0 cur []). rewrite acc_insert_st0, commit_st0, IH.
      cbn [app]. rewrite <- app_assoc, (succ_len n r news). reflexivity.
  Qed.

  Lemma replace_loop : forall fuel news rows adds n,
    ins_replace (kl_insert sch) (kl_delete sch) (S fuel) (st0 rows adds) news n =
      Some (st0 rows (adds ++ news), (n + N.of_nat (length news))%N).
  Proof.
    intros fuel. induction news as [|r news IH]; intros rows adds n; cbn [ins_replace replace_one].
    - rewrite app_nil_r, N.add_0_r. reflexivity.
    - rewrite kl_insert_ok, acc_insert_st0, IH, <- app_assoc, (succ_len n r news). reflexivity.
  Qed.

  Lemma odku_loop : forall a news rows adds n,
    ins_odku (kl_insert sch) (kl_update sch) sch a (st0 rows adds) news n =
      Some (st0 rows (adds ++ news), (n + N.of_nat (length news))%N).
  Proof.
    intros a. induction news as [|r news IH]; intros rows adds n; cbn [ins_odku].
    - rewrite app_nil_r, N.add_0_r. reflexivity.
    - rewrite kl_insert_ok, acc_insert_st0, IH, <- app_assoc, (succ_len n r news). reflexivity.
  Qed.

  Lemma J_begin : forall rows ts, (forall x, (cnt ts x <= cnt rows x)%nat) -> J (kl_begin rows) ts.
  Proof. intros rows ts H x. cbn [kl_begin k_rows k_dels]. rewrite cnt_nil. specialize (H x). lia. Qed.

  Lemma C_begin : forall rows x, C (kl_begin rows) x = cnt rows x.
  Proof. intros rows x. unfold C. cbn [kl_begin k_rows k_dels k_adds]. rewrite !cnt_nil. lia. Qed.

  Theorem kl_refines_ms : forall rows st, same_step (kl_exec sch rows st) (ms_exec sch rows st).
  Proof.
    intros rows st. unfold kl_exec, same_step.
    destruct st as [m news|a w ord lim|w ord lim]; cbn [exec ms_exec].
    - change (kl_begin rows) with (st0 rows []).
      destruct m as [| | |a].
      + rewrite plain_loop. cbn. split; reflexivity.
      + rewrite ignore_loop. cbn. split; reflexivity.
      + rewrite replace_loop. cbn. split; reflexivity.
      + rewrite odku_loop. cbn. split; reflexivity.
    - set (ts := targets sch w ord lim rows).
      destruct (update_loop a ts (kl_begin rows) 0%N 0%N (J_begin rows ts (cnt_targets_le sch w ord lim rows)))
        as [s' [E Hc]].
      rewrite E. cbn [fst snd]. split; [reflexivity|].
      apply perm_cnt. intros x. rewrite cnt_commit, cnt_app, cnt_bag_diff.
      specialize (Hc x). rewrite C_begin in Hc.
      assert (Hch : (cnt (changed sch a ts) x <= cnt ts x)%nat) by apply cnt_filter_le.
      pose proof (cnt_targets_le sch w ord lim rows x) as Hts. fold ts in Hts. lia.
    - destruct (is_truncate w ord lim) eqn:Et.
      + destruct w; try discriminate. destruct ord; try discriminate. destruct lim; try discriminate.
        assert (Ets : targets sch PTrue None None rows = rows) by (apply filter_all; reflexivity).
        rewrite Ets. cbn [fst snd]. split; [reflexivity|].
        apply perm_cnt. intros x. rewrite cnt_bag_diff, cnt_nil. lia.
      + set (ts := targets sch w ord lim rows). cbn [fst snd]. split; [reflexivity|].
        apply perm_cnt. intros x. rewrite cnt_commit, cnt_bag_diff.
        pose proof (delete_loop ts (kl_begin rows) (J_begin rows ts (cnt_targets_le sch w ord lim rows)) x) as Hc.
        rewrite C_begin in Hc.
        pose proof (cnt_targets_le sch w ord lim rows x) as Hts. fold ts in Hts. lia.
  Qed.

  (* the reference is a function of the bag when no LIMIT cuts the targets *)
  Lemma targets_perm : forall w ord L L', Permutation L L' ->
    Permutation (targets sch w ord None L) (targets sch w ord None L').
  Proof.
    intros w ord L L' HP. unfold targets. cbn [limit_rows]. rewrite !order_rows_perm. apply filter_perm. exact HP.
  Qed.

  Lemma changed_perm : forall a ts ts', Permutation ts ts' -> Permutation (changed sch a ts) (changed sch a ts').
  Proof. intros a ts ts'. apply filter_perm. Qed.

  Lemma bag_diff_perm : forall L L' ds ds', Permutation L L' -> Permutation ds ds' ->
    Permutation (bag_diff L ds) (bag_diff L' ds').
  Proof.
    intros L L' ds ds' H1 H2. apply perm_cnt. intros x. rewrite !cnt_bag_diff.
    rewrite (proj1 (perm_cnt _ _) H1 x), (proj1 (perm_cnt _ _) H2 x). reflexivity.
  Qed.

  Theorem ms_respects_bags : forall st L L', no_limit st -> Permutation L L' ->
    same_step (ms_exec sch L st) (ms_exec sch L' st).
  Proof.
    intros st L L' Hn HP. unfold same_step.
    destruct st as [m news|a w ord lim|w ord lim]; cbn [ms_exec fst snd]; cbn in Hn; try subst lim.
    - split; [reflexivity|]. apply Permutation_app_tail. exact HP.
    - pose proof (targets_perm w ord L L' HP) as Ht. pose proof (changed_perm a _ _ Ht) as Hch. split.
      + rewrite (Permutation_length Ht), (Permutation_length Hch). reflexivity.
      + apply Permutation_app; [apply bag_diff_perm; assumption|apply Permutation_map; exact Hch].
    - pose proof (targets_perm w ord L L' HP) as Ht. split.
      + rewrite (Permutation_length Ht). reflexivity.
      + apply bag_diff_perm; assumption.
  Qed.

  Theorem kl_trace_refines_ms : forall h rows rows', Forall no_limit h -> Permutation rows rows' ->
    Forall2 same_step (trace (kl_exec sch) rows h) (trace (ms_exec sch) rows' h).
  Proof.
    induction h as [|st h IH]; intros rows rows' Hn HP; cbn [trace]; [constructor|].
    inversion Hn as [|? ? Hst Hh]; subst.
    destruct (kl_refines_ms rows st) as [E1 P1]. destruct (ms_respects_bags st rows rows' Hst HP) as [E2 P2].
    constructor.
    - split; [congruence|eapply Permutation_trans; eassumption].
    - apply IH; [exact Hh|eapply Permutation_trans; eassumption].
  Qed.

  Theorem kl_history_refines_ms : forall h rows rows', Forall no_limit h -> Permutation rows rows' ->
    Permutation (fold_left (fun rs st => snd (kl_exec sch rs st)) h rows) (ms_history sch rows' h).
  Proof.
    unfold ms_history. induction h as [|st h IH]; intros rows rows' Hn HP; cbn [fold_left]; [exact HP|].
    inversion Hn as [|? ? Hst Hh]; subst. apply IH; [exact Hh|].
    destruct (kl_refines_ms rows st) as [_ P1]. destruct (ms_respects_bags st rows rows' Hst HP) as [_ P2].
    eapply Permutation_trans; eassumption.
  Qed.

  (* any statements (LIMIT included): every step is explained by a listing of the bag before it *)
  Theorem kl_trace_is_bag_run : forall h rows, bag_run sch rows h (trace (kl_exec sch) rows h).
  Proof.
    induction h as [|st h IH]; intros rows; cbn [trace bag_run]; [exact I|].
    destruct (kl_exec sch rows st) as [o B'] eqn:E. cbn [snd]. split; [|apply IH].
    destruct (kl_refines_ms rows st) as [E1 P1]. rewrite E in E1, P1. cbn [fst snd] in E1, P1.
    exists rows. split; [apply Permutation_refl|]. split; [symmetry; exact E1|apply Permutation_sym; exact P1].
  Qed.
End Keyless.

(* stated on the implementation's dispatch (newTableEditAccumulator: keyless schema -> keyless accumulator) *)
Theorem keyless_refines_multiset : forall sch, keyless sch = true -> all_binary sch -> s_uniq sch = [] ->
  forall rows st, same_step (impl_exec sch rows st) (ms_exec sch rows st).
Proof. intros sch Hk. rewrite (impl_exec_keyless sch Hk). apply kl_refines_ms. Qed.

Theorem keyless_history_refines_multiset : forall sch, keyless sch = true -> all_binary sch -> s_uniq sch = [] ->
  forall h rows, Forall no_limit h ->
    Forall2 same_step (trace (impl_exec sch) rows h) (trace (ms_exec sch) rows h) /\
    Permutation (run_history sch rows h) (ms_history sch rows h).
Proof.
  intros sch Hk Hb Hn h rows Hl. unfold run_history. rewrite (impl_exec_keyless sch Hk). split.
  - apply kl_trace_refines_ms; [exact Hb|exact Hn|exact Hl|apply Permutation_refl].
  - apply kl_history_refines_ms; [exact Hb|exact Hn|exact Hl|apply Permutation_refl].
Qed.

Theorem keyless_history_is_bag_run : forall sch, keyless sch = true -> all_binary sch -> s_uniq sch = [] ->
  forall h rows, bag_run sch rows h (trace (impl_exec sch) rows h).
Proof. intros sch Hk. rewrite (impl_exec_keyless sch Hk). apply kl_trace_is_bag_run. Qed.

Definition kl_sch : schema := {| s_pk := []; s_uniq := []; s_coll := [CBin; CBin] |}.
Definition kl_rows : list row := [[VInt 1; VInt 0]; [VInt 2; VInt 0]; [VInt 1; VInt 0]].
(* UPDATE t SET c0 = c0 + 1 LIMIT 2: (1,0) -> (2,0) while a (2,0) is stored and itself updated to (3,0): the Insert of
   the new (2,0) happens before the Delete of the stored (2,0), and that Delete cancels the pending add
   instead of the stored row - same bag, other listing *)
Definition kl_upd : stmt := SUpdate [(0%nat, AAdd 1)] PTrue None (Some 2%N).

Lemma kl_sch_binary : all_binary kl_sch.
Proof. intros i. unfold col_coll. cbn. destruct i as [|[|[|i]]]; reflexivity. Qed.

Lemma kl_witness :
  impl_exec kl_sch kl_rows kl_upd = (OOk 2 2, [[VInt 2; VInt 0]; [VInt 1; VInt 0]; [VInt 3; VInt 0]]) /\
  ms_exec kl_sch kl_rows kl_upd = (OOk 2 2, [[VInt 1; VInt 0]; [VInt 2; VInt 0]; [VInt 3; VInt 0]]).
Proof. split; vm_compute; reflexivity. Qed.

(* a case-insensitive column breaks the bag: UPDATE t SET c1 = c1 + 1 ORDER BY c1 DESC on ('a',1), ('A',2).
   Insert('a',2) cancels the pending Delete('A',2) (Row.Equals is collation aware), so 'A',2 stays stored and 'a',1
   is removed: stored ('A',2), ('A',3) where the bag semantics gives ('a',2), ('A',3). *)
Definition kl_ci_sch : schema := {| s_pk := []; s_uniq := []; s_coll := [CCi; CBin] |}.
Definition kl_ci_rows : list row := [[VStr [97%N]; VInt 1]; [VStr [65%N]; VInt 2]].
Definition kl_ci_upd : stmt := SUpdate [(1%nat, AAdd 1)] PTrue (Some (1%nat, true)) None.

Lemma kl_ci_refuted :
  exists sch rows st, keyless sch = true /\ s_uniq sch = [] /\
    ~ Permutation (snd (impl_exec sch rows st)) (snd (ms_exec sch rows st)).
Proof.
  exists kl_ci_sch, kl_ci_rows, kl_ci_upd. split; [reflexivity|split; [reflexivity|]].
  intros HP. apply Permutation_sym in HP. apply (Permutation_in [VStr [97%N]; VInt 2]) in HP.
  - vm_compute in HP. destruct HP as [H|[H|[]]]; discriminate.
  - vm_compute. auto.
Qed.
