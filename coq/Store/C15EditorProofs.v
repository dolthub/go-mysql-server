(* C15 — proofs about the statement protocol model (Store/C15Editor.v). *)
From Coq Require Import List Bool Arith Lia.
Import ListNotations.
From GMS Require Import Store.C15Editor.

Section Proofs.
Variable T E : Type.
Variable apply_opt : nat -> T -> list E -> option T * T.

Notation editor := (editor T E).
Notation call := (call E).

(* the first call whose error reaches the statement iterator: whether that error is ignorable *)
Fixpoint first_bad (cs : list call) : option bool :=
  match cs with
  | [] => None
  | CBad ig :: _ => Some ig
  | _ :: t => first_bad t
  end.

Lemma flush_initial (ed : editor) :
  initial _ _ (flush T E apply_opt ed) = initial _ _ ed /\ discard _ _ (flush T E apply_opt ed) = discard _ _ ed.
Proof. unfold flush. destruct (apply_opt 0 (edited T E ed) (acc T E ed)) as [[t|] t']; cbn; auto. Qed.

Lemma feed_initial (cs : list call) : forall ed : editor,
  initial _ _ (fst (feed T E apply_opt ed cs)) = initial _ _ ed /\
  discard _ _ (fst (feed T E apply_opt ed cs)) = discard _ _ ed.
Proof.
  induction cs as [|c t IH]; intros ed; cbn; auto.
  destruct c as [e|ig| |]; cbn; auto.
  - destruct (IH (accumulate T E ed e)) as (H1 & H2). cbn in *. auto.
  - destruct (IH (flush T E apply_opt ed)) as (H1 & H2). destruct (flush_initial ed) as (F1 & F2).
    rewrite H1, H2, F1, F2. auto.
Qed.

Lemma feed_err (cs : list call) : forall ed : editor, snd (feed T E apply_opt ed cs) = first_bad cs.
Proof. induction cs as [|c t IH]; intros ed; cbn; auto. destruct c; cbn; auto. Qed.

Lemma first_bad_all_good cs : all_good E cs = true -> first_bad cs = None.
Proof. induction cs as [|c t IH]; cbn; auto. destruct c; cbn; try exact IH. discriminate. Qed.

(* a statement whose first failing row-edit call — at ANY position, after any mix of accumulated edits, handled
   errors and mid-statement IndexedAccess applies — returns a non-ignorable error reports the error and leaves the
   table (rows and indexes: all of T) exactly as before, whatever ApplyEdits does *)
Theorem stmt_atomic (t : T) (cs : list call) :
  first_bad cs = Some false -> run_stmt T E apply_opt t cs = (RErr, t).
Proof.
  intros H. unfold run_stmt. rewrite (surjective_pairing (feed T E apply_opt _ cs)), feed_err, H.
  unfold discard_changes, close_editor, close_editor_at. cbn. rewrite (proj1 (feed_initial cs _)). reflexivity.
Qed.

(* an ApplyEdits failure in StatementComplete is never swallowed: the statement reports an error *)
Theorem stmt_complete_error_is_reported (t : T) (cs : list call) :
  all_good E cs = true -> (forall t' es, fst (apply_opt 1 t' es) = None) ->
  fst (run_stmt T E apply_opt t cs) = RErr.
Proof.
  intros G F1. unfold run_stmt. rewrite (surjective_pairing (feed T E apply_opt _ cs)), feed_err, (first_bad_all_good cs G).
  unfold statement_complete, statement_complete_at. set (ed1 := fst (feed T E apply_opt _ cs)).
  specialize (F1 (edited T E ed1) (acc T E ed1)).
  destruct (apply_opt 1 (edited T E ed1) (acc T E ed1)) as [[x|] y]; cbn in F1; [discriminate|].
  destruct (close_editor T E apply_opt _) as [cerr ed3]. reflexivity.
Qed.

Lemma first_bad_app pre post ig : all_good E pre = true -> first_bad (pre ++ CBad ig :: post) = Some ig.
Proof. induction pre as [|c t IH]; cbn; auto. destruct c; cbn; try exact IH. discriminate. Qed.

Theorem stmt_atomic_at_any_position (t : T) (pre post : list call) :
  all_good E pre = true -> run_stmt T E apply_opt t (pre ++ CBad false :: post) = (RErr, t).
Proof. intros H. apply stmt_atomic. apply first_bad_app. exact H. Qed.

Lemma inject_split (cs : list call) : forall k, 1 <= k <= length cs ->
  inject E k cs = firstn (k - 1) cs ++ CBad false :: skipn k cs.
Proof.
  induction cs as [|c t IH]; intros k H; [cbn in H; lia|].
  destruct k as [|[|k]]; [lia | reflexivity |].
  change (inject E (S (S k)) (c :: t)) with (c :: inject E (S k) t).
  rewrite IH by (cbn in H; lia).
  replace (S (S k) - 1) with (S k) by lia. replace (S k - 1) with k by lia. reflexivity.
Qed.

(* the injected storage error at the k-th row-edit call, for every k within the statement *)
Theorem stmt_atomic_injected (t : T) (cs : list call) (k : nat) :
  1 <= k <= length cs -> all_good E (firstn (k - 1) cs) = true ->
  run_stmt T E apply_opt t (inject E k cs) = (RErr, t).
Proof. intros H G. rewrite inject_split by exact H. apply stmt_atomic_at_any_position. exact G. Qed.

Variable A : Type.
Variable audit_edit : A -> E.

Fixpoint first_bad_trig (cs : list (option A * call)) : option bool :=
  match cs with
  | [] => None
  | (None, _) :: _ => Some false
  | (Some _, CBad ig) :: _ => Some ig
  | (Some _, _) :: t => first_bad_trig t
  end.

Lemma feed_trig_initial (cs : list (option A * call)) : forall (ed : editor) other,
  initial _ _ (fst (fst (feed_trig T E apply_opt A audit_edit ed other cs))) = initial _ _ ed /\
  snd (feed_trig T E apply_opt A audit_edit ed other cs) = first_bad_trig cs.
Proof.
  induction cs as [|[[a|] c] t IH]; intros ed other; [cbn; auto | | cbn; auto].
  destruct c as [e|ig| |]; cbn [feed_trig first_bad_trig].
  - destruct (IH (accumulate T E ed e) (snd (run_stmt T E apply_opt other [CGood (audit_edit a)]))) as (H1 & H2).
    split; [rewrite H1; reflexivity | exact H2].
  - cbn. auto.
  - apply IH.
  - destruct (IH (flush T E apply_opt ed) (snd (run_stmt T E apply_opt other [CGood (audit_edit a)]))) as (H1 & H2).
    destruct (flush_initial ed) as (F1 & _). split; [rewrite H1; exact F1 | exact H2].
Qed.

(* whether a row fails in the editor or the trigger body itself fails (SIGNAL), the TARGET table is restored *)
Theorem stmt_trig_target_atomic (t other : T) (cs : list (option A * call)) :
  first_bad_trig cs = Some false ->
  exists other', run_stmt_trig T E apply_opt A audit_edit t other cs = (RErr, t, other').
Proof.
  intros H. unfold run_stmt_trig.
  destruct (feed_trig_initial cs (statement_begin T E (open_editor T E t)) other) as (H1 & H2).
  destruct (feed_trig T E apply_opt A audit_edit _ other cs) as [[ed1 o'] err]. cbn in H1, H2.
  rewrite H2, H. exists o'. unfold discard_changes, close_editor, close_editor_at. cbn. rewrite H1. reflexivity.
Qed.

End Proofs.

Section Total.
Variable T E : Type.
Variable apply : T -> list E -> T.
Hypothesis apply_nil : forall x, apply x [] = x.
Hypothesis apply_app : forall x a b, apply x (a ++ b) = apply (apply x a) b.

Definition total_apply (_ : nat) (t : T) (es : list E) : option T * T := (Some (apply t es), apply t es).

Notation editor := (editor T E).
Definition virtual (ed : editor) : T := apply (edited _ _ ed) (acc _ _ ed).

Lemma feed_virtual (cs : list (call E)) : forall ed : editor,
  all_good E cs = true -> virtual (fst (feed T E total_apply ed cs)) = apply (virtual ed) (good_edits E cs).
Proof.
  induction cs as [|c t IH]; intros ed G; [cbn; rewrite apply_nil; reflexivity|].
  destruct c as [e|ig| |]; cbn in G; try discriminate; cbn [feed]; rewrite ?(IH _ G).
  - change (good_edits E (CGood e :: t)) with ([e] ++ good_edits E t).
    unfold virtual. cbn [accumulate edited acc]. rewrite !apply_app. reflexivity.
  - reflexivity.
  - unfold virtual, flush, total_apply. cbn. rewrite apply_nil. reflexivity.
Qed.

(* a statement none of whose calls fails reports success and publishes ApplyEdits of ALL its edits — also when
   parts of them were applied in the middle of the statement *)
Theorem stmt_all_or_nothing (t : T) (cs : list (call E)) :
  all_good E cs = true -> run_stmt T E total_apply t cs = (ROk, apply t (good_edits E cs)).
Proof.
  intros G. unfold run_stmt.
  rewrite (surjective_pairing (feed T E total_apply _ cs)), feed_err, (first_bad_all_good _ cs G).
  pose proof (feed_virtual cs (statement_begin T E (open_editor T E t)) G) as H1.
  pose proof (proj2 (feed_initial T E total_apply cs (statement_begin T E (open_editor T E t)))) as H2.
  set (ed1 := fst (feed T E total_apply _ cs)) in *. unfold virtual in H1. cbn in H1, H2.
  unfold statement_complete, statement_complete_at, close_editor, close_editor_at, total_apply. cbn. rewrite H2. cbn.
  rewrite H1, !apply_nil. reflexivity.
Qed.

Definition no_hard (cs : list (call E)) : bool :=
  forallb (fun c => match c with CBad false => false | _ => true end) cs.

Definition clean (ed : editor) : Prop :=
  acc _ _ ed = [] /\ discard _ _ ed = false /\ published _ _ ed = edited _ _ ed.

(* INSERT IGNORE from a clean editor, over rows none of which fails hard: every row is a statement of its own, so the
   editor is clean again after it, with the row's edit (if it was accepted) applied *)
Lemma feed_ckpt_prefix (pre rest : list (call E)) : forall (ed : editor) n,
  clean ed -> no_hard pre = true ->
  exists ed' n', feed_ckpt T E total_apply ed n (pre ++ rest) = feed_ckpt T E total_apply ed' n' rest /\
              clean ed' /\ edited _ _ ed' = apply (edited _ _ ed) (good_edits E pre).
Proof.
  induction pre as [|c t IH]; intros ed n (C1 & C2 & C3) N.
  - exists ed, n. cbn. rewrite apply_nil. repeat split; assumption.
  - assert (S : exists ed1 n1,
               feed_ckpt T E total_apply ed n ((c :: t) ++ rest) = feed_ckpt T E total_apply ed1 n1 (t ++ rest) /\
               clean ed1 /\ edited _ _ ed1 = apply (edited _ _ ed) (good_edits E [c]) /\ no_hard t = true).
    { destruct c as [e|[|]| |]; cbn in N; try discriminate; eexists; eexists; (split; [reflexivity|]);
        unfold clean, flush, total_apply; cbn; rewrite ?C1, ?C2, ?C3, ?apply_nil; auto. }
    destruct S as (ed1 & n1 & -> & C & E1 & N1). destruct (IH ed1 n1 C N1) as (ed' & n' & -> & C' & E').
    exists ed', n'. split; [reflexivity|]. split; [exact C'|].
    change (c :: t) with ([c] ++ t). unfold good_edits in *. rewrite flat_map_app, E', E1, apply_app. reflexivity.
Qed.

(* INSERT IGNORE with no hard error applies every accepted row (ignorable errors only skip their row) *)
Theorem ckpt_success (t : T) (cs : list (call E)) :
  no_hard cs = true -> run_stmt_ckpt T E total_apply t cs = (ROk, apply t (good_edits E cs)).
Proof.
  intros N. unfold run_stmt_ckpt.
  destruct (feed_ckpt_prefix cs [] (open_editor T E t) 1) as (ed' & n' & F & (C1 & C2 & C3) & Ed); [repeat split | exact N |].
  rewrite app_nil_r in F. rewrite F. unfold close_editor_at, statement_complete_at, statement_begin, total_apply. cbn.
  rewrite C2, C1. cbn. rewrite !apply_nil, Ed. reflexivity.
Qed.

(* ... but a hard error (a storage error) at row k reports the error and KEEPS the rows accepted before it: every
   row was its own statement *)
Theorem ckpt_hard_error_keeps_earlier_rows (t : T) (pre post : list (call E)) :
  no_hard pre = true ->
  run_stmt_ckpt T E total_apply t (pre ++ CBad false :: post) = (RErr, apply t (good_edits E pre)).
Proof.
  intros N. unfold run_stmt_ckpt.
  destruct (feed_ckpt_prefix pre (CBad false :: post) (open_editor T E t) 1) as (ed' & n' & F & _ & Ed); [repeat split | exact N |].
  rewrite F. cbn. rewrite Ed. reflexivity.
Qed.
End Total.

(* concrete instances for the refutations: tables are lists of numbers, ApplyEdits appends *)
Definition app_apply (_ : nat) (t : list nat) (es : list nat) : option (list nat) * list nat := (Some (t ++ es), t ++ es).

(* the audit rows written by the trigger for rows 1..k survive the failure of row k *)
Lemma trigger_effects_survive :
  run_stmt_trig (list nat) nat app_apply nat (fun a => a) [] []
    [(Some 101, CGood 1); (Some 102, CGood 2); (Some 103, CBad false)] = (RErr, [], [101; 102; 103]).
Proof. reflexivity. Qed.

(* the same when the trigger body itself signals an error at row 3 *)
Lemma trigger_signal_effects_survive :
  run_stmt_trig (list nat) nat app_apply nat (fun a => a) [] []
    [(Some 101, CGood 1); (Some 102, CGood 2); (None, CGood 3)] = (RErr, [], [101; 102]).
Proof. reflexivity. Qed.

(* INSERT IGNORE: rows 1 and 3 accepted, row 2 skipped (ignorable), hard error at row 4: rows 1 and 3 stay *)
Lemma ckpt_keeps_rows_witness :
  run_stmt_ckpt (list nat) nat app_apply [7] [CGood 1; CBad true; CGood 3; CBad false; CGood 5] = (RErr, [7; 1; 3]).
Proof. reflexivity. Qed.

(* an ApplyEdits that fails after its first edit: the statement reports an error but the table keeps that edit *)
Definition failing_apply (_ : nat) (t : list nat) (es : list nat) : option (list nat) * list nat :=
  match es with
  | [] => (Some t, t)
  | [e] => (Some (t ++ [e]), t ++ [e])
  | e :: _ => (None, t ++ [e])
  end.

Lemma apply_failure_leaves_partial_edits :
  run_stmt (list nat) nat failing_apply [] [CGood 1; CGood 2] = (RErr, [1; 1]).
Proof. reflexivity. Qed.

(* a one-shot storage error in the SECOND ApplyEdits call (tableEditor.Close, after StatementComplete has applied and
   published everything): the statement is reported as failed although all of its changes are in place *)
Definition close_fault_apply (n : nat) (t : list nat) (es : list nat) : option (list nat) * list nat :=
  if Nat.eqb n 2 then (None, t) else (Some (t ++ es), t ++ es).

Lemma apply_error_at_close_after_publish :
  run_stmt (list nat) nat close_fault_apply [7] [CGood 1; CGood 2] = (RErr, [7; 1; 2]).
Proof. reflexivity. Qed.

(* a one-shot error in the FIRST call is reported by StatementComplete (since /repo 647a7064d) — but TableEditorIter.Close does not
   discard after it, and tableEditor.Close retries ApplyEdits and publishes: reported as failed, fully applied *)
Definition first_fault_apply (n : nat) (t : list nat) (es : list nat) : option (list nat) * list nat :=
  if Nat.eqb n 1 then (None, t) else (Some (t ++ es), t ++ es).

Lemma apply_error_in_statement_complete_is_reported_but_applied :
  run_stmt (list nat) nat first_fault_apply [7] [CGood 1; CGood 2] = (RErr, [7; 1; 2]).
Proof. reflexivity. Qed.

(* INSERT IGNORE with a one-shot storage error in the ApplyEdits of row 1's StatementComplete: the error is reported
   and the loop stops (before 647a7064d it was swallowed, row 2's DiscardChanges cleared the accumulator and the
   statement SUCCEEDED without row 1); the retry in Close still applies the pending row 1 *)
Lemma apply_error_in_insert_ignore_is_reported :
  run_stmt_ckpt (list nat) nat first_fault_apply [7] [CGood 1; CBad true; CGood 3] = (RErr, [7; 1]).
Proof. reflexivity. Qed.
