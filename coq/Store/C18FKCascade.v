(* C18 - referential integrity through cascades: DELETE that cascades through CASCADE / SET NULL keys, for ANY foreign
   key graph (cycles and self references included), by induction on the cascade fuel.

   Idea.  A cascading delete only ever removes rows and sets key columns to NULL: the database afterwards is "below" the
   database before ([sub_db]).  A row that disappears leaves no reference to its id behind ([B]).  These two facts are
   stable under composition, and together with integrity before they give integrity after.  An UPDATE of an id works
   the same way, with an order that also lets a key column take the new id. *)
From Coq Require Import List ZArith Bool Lia Arith Permutation.
Import ListNotations.
From GMS Require Import Base.ListFacts Store.C18FK Store.C18FKProofs.
Open Scope Z_scope.

(* primary keys are unique *)
Definition uniq (d : db) : Prop := forall t, NoDup (map rid (tab d t)).

Lemma insert_sorted_perm r l : Permutation (insert_sorted r l) (r :: l).
Proof.
  induction l as [|a l IH]; cbn; auto. destruct (rid r <? rid a); auto.
  eapply perm_trans; [apply perm_skip; exact IH|apply perm_swap].
Qed.

Lemma NoDup_insert_sorted r l :
  NoDup (map rid l) -> ~ In (rid r) (map rid l) -> NoDup (map rid (insert_sorted r l)).
Proof.
  intros H Hn. eapply Permutation_NoDup; [apply Permutation_sym, Permutation_map, insert_sorted_perm|].
  cbn. constructor; auto.
Qed.

Lemma uniq_same_id l x y : NoDup (map rid l) -> In x l -> In y l -> rid x = rid y -> x = y.
Proof.
  induction l as [|a l IH]; cbn; intros H Hx Hy E; [contradiction|].
  inversion H as [|? ? Hn Hd]; subst.
  destruct Hx as [->|Hx], Hy as [->|Hy]; auto.
  - exfalso. apply Hn. rewrite E. now apply in_map.
  - exfalso. apply Hn. rewrite <- E. now apply in_map.
Qed.

Lemma uniq_set_tab d t x : uniq d -> NoDup (map rid x) -> uniq (set_tab d t x).
Proof. intros U Hx t'. rewrite tab_after_edit. destruct (_ && _); auto. Qed.

Lemma removed_uniq d t k : uniq d -> uniq (removed d t k).
Proof. intros U. apply uniq_set_tab; auto. apply NoDup_map_filter, U. Qed.

Lemma inserted_uniq d t r : uniq d -> has_id (rid r) (tab d t) = false -> uniq (inserted d t r).
Proof.
  intros U H. apply uniq_set_tab; auto. apply NoDup_insert_sorted; [apply U|].
  intros Hin. apply in_map_iff in Hin. destruct Hin as (x & E & Hx).
  apply not_true_iff_false in H. apply H, has_id_spec. eauto.
Qed.

Lemma replaced_uniq d t old new :
  uniq d -> rid new = rid old \/ has_id (rid new) (tab d t) = false -> uniq (replaced d t old new).
Proof.
  intros U H. apply uniq_set_tab; auto. apply NoDup_insert_sorted; [apply NoDup_map_filter, U|].
  intros Hin. apply in_map_iff in Hin. destruct Hin as (x & E & Hx). apply in_remove_id in Hx.
  destruct H as [H|H]; [intuition congruence|]. apply not_true_iff_false in H. apply H, has_id_spec. exists x. tauto.
Qed.

Definition noref (d : db) (f : fk) (k : Z) : Prop :=
  forall c, In c (tab d (child f)) -> get_col (ccol f) c <> Some k.

(* A cascade only rewrites key columns: a delete sets them to NULL, an id update to NULL or to the new id.  What both
   have in common - the order "every row of d' is a row of d with the same id and its key columns related by C" - is
   developed once, for any C. *)
Section Below.
Variable C : option Z -> option Z -> Prop.

Definition below_row (r' r : row) : Prop :=
  rid r' = rid r /\ C (get_col false r') (get_col false r) /\ C (get_col true r') (get_col true r).
Definition below (d' d : db) : Prop := forall t r', In r' (tab d' t) -> exists r, In r (tab d t) /\ below_row r' r.

Lemma below_row_col r' r c : below_row r' r -> C (get_col c r') (get_col c r).
Proof. intros (_ & A & B). now destruct c. Qed.

Hypothesis C_refl : forall a, C a a.
Hypothesis C_trans : forall a b c, C a b -> C b c -> C a c.

Lemma below_row_refl r : below_row r r.
Proof. repeat split; apply C_refl. Qed.

Lemma below_row_trans a b c : below_row a b -> below_row b c -> below_row a c.
Proof. intros (A1 & A2 & A3) (B1 & B2 & B3). split; [congruence|]. split; eapply C_trans; eauto. Qed.

Lemma below_row_set_col c v r : C v (get_col c r) -> below_row (set_col c v r) r.
Proof.
  intros Hv. destruct r as [[i a] b]. unfold below_row, set_col, get_col in *. destruct c; cbn in *; auto.
Qed.

Lemma below_refl d : below d d.
Proof. intros t r H. exists r. split; auto. apply below_row_refl. Qed.

Lemma below_trans a b c : below a b -> below b c -> below a c.
Proof.
  intros H1 H2 t r Hr. destruct (H1 t r Hr) as (r1 & Hr1 & L1). destruct (H2 t r1 Hr1) as (r2 & Hr2 & L2).
  exists r2. split; auto. eapply below_row_trans; eauto.
Qed.

Lemma removed_below d t k : below (removed d t k) d.
Proof. intros t' r Hr. apply in_removed in Hr. exists r. split; [tauto|apply below_row_refl]. Qed.

Lemma replaced_below d t old new : In old (tab d t) -> below_row new old -> below (replaced d t old new) d.
Proof.
  intros Hold L t' r Hr. apply in_replaced in Hr; auto. destruct Hr as [[-> ->]|[Hr _]]; [eauto|].
  exists r. split; auto. apply below_row_refl.
Qed.

(* C never turns another value into a reference to k: no such reference appears on the way down *)
Variable k : Z.
Hypothesis C_out : forall a' a, C a' a -> a' = Some k -> a = Some k.

Lemma noref_below d d' f : below d' d -> noref d f k -> noref d' f k.
Proof.
  intros Hs Hn c Hc E. destruct (Hs _ _ Hc) as (c0 & Hc0 & L). apply (Hn c0 Hc0).
  eapply C_out; [apply below_row_col, L|exact E].
Qed.

(* ... and none is left once the rows that held one hold none, or are gone *)
Lemma cleared_below d d' f :
  below d' d ->
  (forall c, In c (children d f k) -> forall x, In x (tab d' (child f)) -> rid x = rid c -> get_col (ccol f) x <> Some k) ->
  noref d' f k.
Proof.
  intros Hs H x Hx E. destruct (Hs _ _ Hx) as (c & Hc & L).
  refine (H c _ x Hx (proj1 L) E). apply in_children. split; auto. eapply C_out; [apply below_row_col, L|exact E].
Qed.

(* SET NULL, and CASCADE of an id update: every row of the child table that references k through f has that column
   set to v, one update after the other.  Each update keeps the id, so it is a [replaced]; I and R say what such a
   step needs and gives.  The rows still to come stay in the table, because primary keys are unique. *)
Lemma set_col_children fks n f v (I : db -> Prop) (R : db -> db -> Prop) :
  v <> Some k ->
  (forall d, I d -> uniq d /\ R d d) ->
  (forall a b c, R a b -> R b c -> R a c) ->
  (forall d d1, R d d1 -> I d1 /\ below d1 d) ->
  (forall d c d1, I d -> In c (tab d (child f)) -> upd n fks d (child f) c (set_col (ccol f) v c) = Ok d1 ->
                  d1 = replaced d (child f) c (set_col (ccol f) v c) /\ R d d1) ->
  forall d d', I d ->
    fold_res (fun dc c => upd n fks dc (child f) c (set_col (ccol f) v c)) (children d f k) d = Ok d' ->
    R d d' /\ noref d' f k.
Proof.
  intros Hv HI Htrans HR Hstep d d' Id H.
  eapply (fold_res_inv _
            (fun l dc => I dc /\ (forall c, In c l -> In c (tab dc (child f))) /\ NoDup (map rid l)) R
            (fun c dc => forall x, In x (tab dc (child f)) -> rid x = rid c -> get_col (ccol f) x <> Some k)) in H.
  - destruct H as [Rd N]. split; auto. apply cleared_below with (d := d); auto. now apply HR.
  - intros l dc (Idc & _). now apply HI.
  - exact Htrans.
  - intros c dc dc1 Rdc Nc x Hx Ex Hk. destruct (HR _ _ Rdc) as [_ Hb]. destruct (Hb _ _ Hx) as (x0 & Hx0 & L).
    apply (Nc x0 Hx0); [destruct L; congruence|]. eapply C_out; [apply below_row_col, L|exact Hk].
  - intros c l dc dc1 (Idc & Hin & Hnd) H1.
    assert (Hc : In c (tab dc (child f))) by (apply Hin; now left).
    destruct (Hstep _ _ _ Idc Hc H1) as [-> R1]. inversion Hnd as [|? ? Hnotin Hnd']; subst.
    split; [split; [now apply HR in R1|split; auto]|split; auto].
    + intros c' Hc'. apply in_replaced; auto. right. split; [apply Hin; now right|].
      intros _ E. apply Hnotin. rewrite <- E. now apply in_map.
    + intros x Hx Ex. apply in_replaced in Hx; auto. destruct Hx as [[_ ->]|[_ Hx]]; [now rewrite get_set_col|].
      now elim Hx.
  - split; [auto|split].
    + intros c Hc. now apply in_children in Hc.
    + unfold children. apply NoDup_map_filter. now apply HI.
Qed.

(* The loop over the keys after the row of table t that carried id k has gone or moved.  A key pointing at t is either
   RESTRICT-like, and then the check before the edit saw no row referencing k, or its action clears the references;
   nothing brings one back, so in the end no key of t is left with one. *)
Lemma key_loop fks t (g : db -> fk -> res) (restr : fk -> bool) (I : db -> Prop) (R : db -> db -> Prop) :
  (forall d, I d -> R d d) ->
  (forall a b c, R a b -> R b c -> R a c) ->
  (forall d d1, R d d1 -> I d1 /\ below d1 d) ->
  (forall f d d1, I d -> g d f = Ok d1 ->
                  (R d d1 /\ noref d1 f k) \/ (d1 = d /\ (parent f = t -> restr f = true))) ->
  forall d d', I d -> (forall f, In f fks -> parent f = t -> restr f = true -> noref d f k) ->
    fold_res g fks d = Ok d' -> R d d' /\ forall f, In f fks -> parent f = t -> noref d' f k.
Proof.
  intros Hrefl Htrans HR Hstep d d' Id H0 H.
  eapply (fold_res_inv _
            (fun _ dc => I dc /\ forall f, In f fks -> parent f = t -> restr f = true -> noref dc f k)
            R (fun f dc => In f fks -> parent f = t -> noref dc f k)) in H.
  - destruct H as [Rd N]. split; auto.
  - intros _ dc [Idc _]. auto.
  - exact Htrans.
  - intros f dc dc1 Rd Nf Hf Hp. apply (noref_below dc); auto. now apply HR.
  - intros f l dc dc1 [Idc Hr] Hg. destruct (Hstep _ _ _ Idc Hg) as [[R1 N1]|[-> Hres]]; [|auto].
    split; [split; [now apply HR in R1|]|auto]. intros f0 Hf0 Hp0 Hr0. apply (noref_below dc); auto. now apply HR.
  - auto.
Qed.
End Below.

Definition le_col (a' a : option Z) : Prop := a' = None \/ a' = a.
Definition le_row (r' r : row) : Prop :=
  rid r' = rid r /\ le_col (get_col false r') (get_col false r) /\ le_col (get_col true r') (get_col true r).
Definition sub_db (d' d : db) : Prop :=
  forall t r', In r' (tab d' t) -> exists r, In r (tab d t) /\ le_row r' r.

(* [le_row] is [below_row le_col] and [sub_db] is [below le_col], up to unfolding *)
Lemma le_col_refl a : le_col a a. Proof. now right. Qed.
Lemma le_col_trans a b c : le_col a b -> le_col b c -> le_col a c.
Proof. unfold le_col. intros [-> | ->] H; auto. Qed.
Lemma le_col_out k a' a : le_col a' a -> a' = Some k -> a = Some k.
Proof. intros [-> | ->]; [discriminate|auto]. Qed.

Lemma le_row_col r' r c k : le_row r' r -> get_col c r' = Some k -> get_col c r = Some k.
Proof. intros L. apply le_col_out, (below_row_col le_col _ _ c L). Qed.

Lemma sub_db_refl d : sub_db d d.
Proof. exact (below_refl le_col le_col_refl d). Qed.
Lemma sub_db_trans a b c : sub_db a b -> sub_db b c -> sub_db a c.
Proof. exact (below_trans le_col le_col_trans a b c). Qed.

Section Cascade.
Variable fks : list fk.

Definition norefs (d : db) (t : nat) (k : Z) : Prop :=
  forall f c, In f fks -> parent f = t -> In c (tab d (child f)) -> get_col (ccol f) c <> Some k.

(* every row of d is still there in d' (by id), or nothing references it any more *)
Definition B (d d' : db) : Prop :=
  forall t p, In p (tab d t) -> (exists p', In p' (tab d' t) /\ rid p' = rid p) \/ norefs d' t (rid p).

Definition P (d d' : db) : Prop := sub_db d' d /\ uniq d' /\ B d d'.

Lemma P_refl d : uniq d -> P d d.
Proof.
  intros U. split; [apply sub_db_refl|]. split; auto. intros t p Hp. left. exists p. auto.
Qed.

Lemma P_trans a b c : P a b -> P b c -> P a c.
Proof.
  intros (S1 & U1 & B1) (S2 & U2 & B2). split; [eapply sub_db_trans; eauto|]. split; auto.
  intros t p Hp. destruct (B1 t p Hp) as [(p1 & Hp1 & E1)|Hn].
  - destruct (B2 t p1 Hp1) as [(p2 & Hp2 & E2)|Hn2].
    + left. exists p2. split; auto. congruence.
    + right. now rewrite <- E1.
  - right. intros f x Hf Hp'. apply (noref_below le_col _ (le_col_out _) b); auto. intros x0. now apply Hn.
Qed.

Lemma RI_P d d' : RI fks d -> P d d' -> RI fks d'.
Proof.
  intros HRI (Hs & _ & HB) f c k Hf Hc Hk.
  destruct (Hs _ _ Hc) as (c0 & Hc0 & L).
  pose proof (le_row_col _ _ _ _ L Hk) as Hk0.
  destruct (HRI f c0 k Hf Hc0 Hk0) as (p & Hp & Hpk).
  destruct (HB _ p Hp) as [(p' & Hp' & E)|Hn].
  - exists p'. split; auto. congruence.
  - exfalso. apply (Hn f c Hf eq_refl Hc). now rewrite Hpk.
Qed.

(* the SET NULL step: a row replaced by a row below it *)
Lemma replaced_P d t old new :
  uniq d -> In old (tab d t) -> le_row new old -> P d (replaced d t old new).
Proof.
  intros U Hold L. pose proof L as (Eid & _). split; [|split].
  - now apply (replaced_below le_col le_col_refl).
  - apply replaced_uniq; auto.
  - intros t' p Hp. left. apply has_id_spec. rewrite has_id_replaced by auto. apply has_id_spec. eauto.
Qed.

Definition gone (d : db) (t : nat) (k : Z) : Prop := forall x, In x (tab d t) -> rid x <> k.

Lemma gone_sub d d' t k : sub_db d' d -> gone d t k -> gone d' t k.
Proof. intros Hs Hg x Hx. destruct (Hs _ _ Hx) as (x0 & Hx0 & (E & _)). rewrite E. now apply Hg. Qed.

(* what one level of fuel delivers for a delete *)
Definition del_ok (n : nat) : Prop :=
  forall d t r d', uniq d -> del n fks d t r = Ok d' -> P d d' /\ gone d' t (rid r).

Lemma cascade_children n f k d d' :
  del_ok n -> uniq d ->
  fold_res (fun dc c => del n fks dc (child f) c) (children d f k) d = Ok d' -> P d d' /\ noref d' f k.
Proof.
  intros IHn U H.
  eapply (fold_res_inv _ (fun _ dc => uniq dc) P (fun c dc => gone dc (child f) (rid c))) in H; auto.
  - destruct H as [Pd G]. split; auto. apply (cleared_below le_col _ (le_col_out _) d); [apply Pd|].
    intros c Hc x Hx Ex. now elim (G c Hc x Hx).
  - intros _ dc. apply P_refl.
  - exact P_trans.
  - intros c dc dc1 (S & _). now apply gone_sub.
  - intros c l dc dc1 U1 H1. destruct (IHn _ _ _ _ U1 H1) as [P1 G1]. split; [apply P1|auto].
Qed.

Lemma setnull_children n f k d d' :
  uniq d ->
  fold_res (fun dc c => upd n fks dc (child f) c (set_col (ccol f) None c)) (children d f k) d = Ok d' ->
  P d d' /\ noref d' f k.
Proof.
  apply (set_col_children le_col k (le_col_out k) fks n f None uniq P); [discriminate| |exact P_trans| |].
  - intros dc U. split; [exact U|now apply P_refl].
  - intros dc dc1 (S & U & _). now split.
  - intros dc c dc1 U Hc H. destruct n; [discriminate|].
    apply upd_same_id in H; [|apply rid_set_col]. destruct H as [-> _]. split; auto.
    apply replaced_P; auto. apply (below_row_set_col le_col le_col_refl). now left.
Qed.

Theorem del_ok_all : forall n, del_ok n.
Proof.
  induction n as [|n IHn]; intros d t r d' U H; [discriminate|].
  apply del_inv in H. destruct H as [Hres H]. set (k := rid r) in *.
  apply (key_loop le_col k (le_col_out k) fks t _ (fun f => restrictish (ondel f)) uniq P) in H.
  - (* the loop starts from d without the row; that the keys of t end up without a reference to k is what B asks
       for the row itself *)
    destruct H as [(S' & U' & B') N]. split; [split; [|split]|]; auto.
    + eapply sub_db_trans; [exact S'|apply (removed_below le_col le_col_refl)].
    + intros t0 p Hp. destruct (Nat.eq_dec t0 t) as [->|Ht]; [destruct (Z.eq_dec (rid p) k) as [->|Hk]|].
      * right. intros f c Hf Hpf. now apply N.
      * apply B'. apply in_removed. tauto.
      * apply B'. apply in_removed. tauto.
    + eapply gone_sub; [exact S'|]. intros x Hx. apply in_removed in Hx. tauto.
  - exact P_refl.
  - exact P_trans.
  - intros dc dc1 (S & U1 & _). now split.
  - intros f dc dc1 Udc Hstep.
    destruct (Nat.eqb_spec (parent f) t) as [Ep|Ep]; [|right; injection Hstep as <-; tauto].
    destruct (ondel f); [right; injection Hstep as <-; auto..|left|left].
    + exact (cascade_children _ _ _ _ _ IHn Udc Hstep).
    + exact (setnull_children _ _ _ _ _ Udc Hstep).
  - now apply removed_uniq.
  - intros f Hf Hp Hr c Hc Hk. apply in_removed in Hc. destruct Hc as [Hc _].
    assert (Hin : In c (children d f k)) by (apply in_children; auto). now rewrite (Hres f Hf Hp Hr) in Hin.
Qed.

(* DELETE keeps referential integrity, for every key graph and every assignment of actions *)
Theorem delete_preserves_ri d t k d' :
  uniq d -> RI fks d -> exec_res fks d (SDelete t k) = Ok d' -> RI fks d' /\ uniq d'.
Proof.
  intros U HRI H. cbn [exec_res] in H.
  destruct (find_id k (tab d t)) as [r|]; [|injection H as <-; auto].
  destruct (del_ok_all fuel0 _ _ _ _ U H) as [Pd _]. split; [eapply RI_P; eauto|]. now destruct Pd as (_ & U' & _).
Qed.

End Cascade.

(* UPDATE of a parent id k -> k' (k <> k') that cascades through ON UPDATE CASCADE / SET NULL keys. *)
Section CascadeUpd.
Variable fks : list fk.
Variable t : nat.
Variable k k' : Z.
Hypothesis Hkk : k <> k'.

(* columns may become NULL or the new key *)
Definition le_colU (a' a : option Z) : Prop := a' = None \/ a' = a \/ a' = Some k'.
Definition le_rowU (r' r : row) : Prop :=
  rid r' = rid r /\ le_colU (get_col false r') (get_col false r) /\ le_colU (get_col true r') (get_col true r).
Definition subU (d' d : db) : Prop := forall t0 r', In r' (tab d' t0) -> exists r, In r (tab d t0) /\ le_rowU r' r.
Definition same_ids (d' d : db) : Prop := forall t0 x, has_id x (tab d' t0) = has_id x (tab d t0).
(* integrity, except that references to the OLD key of table t may be pending *)
Definition RIk (d : db) : Prop :=
  forall f c k0, In f fks -> In c (tab d (child f)) -> get_col (ccol f) c = Some k0 ->
                 has_id k0 (tab d (parent f)) = true \/ (parent f = t /\ k0 = k).

(* [le_rowU] is [below_row le_colU], [subU] is [below le_colU] and [RIk] is [RIx] exempting the old key of table t *)
Lemma le_colU_refl a : le_colU a a. Proof. right. now left. Qed.
Lemma le_colU_trans a b c : le_colU a b -> le_colU b c -> le_colU a c.
Proof. unfold le_colU. intros [-> | [-> | ->]] H; auto. Qed.
Lemma le_colU_out a' a : le_colU a' a -> a' = Some k -> a = Some k.
Proof. intros [-> | [-> | ->]]; congruence. Qed.

Definition Inv (d0 dc : db) : Prop := uniq dc /\ same_ids dc d0 /\ RIk dc /\ subU dc d0.

Lemma Inv_refl d : uniq d -> RIk d -> Inv d d.
Proof. intros U R. repeat split; auto. apply (below_refl le_colU le_colU_refl). Qed.

Lemma Inv_trans a b c : Inv a b -> Inv b c -> Inv a c.
Proof.
  intros (_ & I1 & _ & S1) (U2 & I2 & R2 & S2). repeat split; auto.
  - intros t0 x. now rewrite I2.
  - exact (below_trans le_colU le_colU_trans _ _ _ S2 S1).
Qed.

Lemma child_step n dc tc c col v dc' :
  uniq dc -> RIk dc -> In c (tab dc tc) -> (v = None \/ v = Some k') ->
  upd n fks dc tc c (set_col col v c) = Ok dc' ->
  dc' = replaced dc tc c (set_col col v c) /\ Inv dc dc'.
Proof.
  intros U HR Hc Hv H. destruct n as [|m]; [discriminate|].
  pose proof (rid_set_col col v c) as Eid.
  apply upd_same_id in H; auto. destruct H as [-> Hchk]. split; [reflexivity|]. split; [|split; [|split]].
  - apply replaced_uniq; auto.
  - intros t0 x. now apply has_id_replaced.
  - now apply replaced_RIx.
  - apply (replaced_below le_colU le_colU_refl); auto. apply (below_row_set_col le_colU le_colU_refl). unfold le_colU. tauto.
Qed.

Lemma rewrite_children n f v d d' :
  (v = None \/ v = Some k') -> uniq d -> RIk d ->
  fold_res (fun dc c => upd n fks dc (child f) c (set_col (ccol f) v c)) (children d f k) d = Ok d' ->
  Inv d d' /\ noref d' f k.
Proof.
  intros Hv U HR.
  apply (set_col_children le_colU k le_colU_out fks n f v (fun d => uniq d /\ RIk d) Inv).
  - destruct Hv as [-> | ->]; congruence.
  - intros dc [Udc Rdc]. split; [exact Udc|now apply Inv_refl].
  - exact Inv_trans.
  - intros dc dc1 (U1 & _ & R1 & S1). auto.
  - intros dc c dc1 [Udc Rdc] Hc H. eapply child_step; eauto.
  - auto.
Qed.

Theorem upd_id_ok n d old new d' :
  uniq d -> RI fks d -> In old (tab d t) -> rid old = k -> rid new = k' ->
  (forall c, get_col c new = get_col c old) ->
  upd (S n) fks d t old new = Ok d' -> RI fks d' /\ uniq d'.
Proof.
  intros U HRI Hold Eo En Hcols H. apply upd_new_id in H; [|congruence]. rewrite Eo, En in H.
  destruct H as (Hdup & Hres & H). set (d1 := replaced d t old new) in *.
  (* after the parent row has moved: every row still carries the key columns of a row of d *)
  assert (Hrows : forall t0 c, In c (tab d1 t0) -> exists c0, In c0 (tab d t0) /\ forall col, get_col col c = get_col col c0).
  { intros t0 c Hc. apply in_replaced in Hc; auto. destruct Hc as [[-> ->]|[Hc _]]; eauto. }
  assert (R1 : RIk d1).
  { intros f c k0 Hf Hc Hk0. destruct (Hrows _ _ Hc) as (c0 & Hc0 & E). rewrite E in Hk0.
    destruct (HRI f c0 k0 Hf Hc0 Hk0) as (p & Hp & Hpk).
    (* the parent row p is still there, unless it is the row that moved *)
    assert (Hd : (parent f = t /\ k0 = k) \/ (parent f = t -> k0 <> k))
      by (destruct (Nat.eq_dec (parent f) t), (Z.eq_dec k0 k); tauto).
    destruct Hd as [Hd|Hd]; [now right|left]. apply has_id_spec. exists p. split; auto.
    apply in_replaced; auto. right. split; auto. intros Ep. rewrite Hpk, Eo. auto. }
  apply (key_loop le_colU k le_colU_out fks t _ (fun f => restrictish (eff_onupd f)) (fun d => uniq d /\ RIk d) Inv) in H.
  - destruct H as [(Ud' & _ & Rd' & _) Nd']. split; auto. intros f c k0 Hf Hc Hk0.
    destruct (Rd' f c k0 Hf Hc Hk0) as [Hh|[Hp ->]]; [now apply has_id_spec|].
    now elim (Nd' f Hf Hp c Hc).
  - intros dc [Udc Rdc]. now apply Inv_refl.
  - exact Inv_trans.
  - intros dc dc1 (U1 & _ & R1' & S1). auto.
  - intros f dc dc1 [Udc Rdc] Hstep.
    destruct (Nat.eqb_spec (parent f) t) as [Ep|Ep]; [|right; injection Hstep as <-; tauto].
    destruct (eff_onupd f); [right; injection Hstep as <-; auto..|left|left].
    + exact (rewrite_children _ _ _ _ _ (or_intror eq_refl) Udc Rdc Hstep).
    + exact (rewrite_children _ _ _ _ _ (or_introl eq_refl) Udc Rdc Hstep).
  - split; [apply replaced_uniq; auto; right; congruence|exact R1].
  - intros f Hf Hp Hr c Hc Hk. destruct (Hrows _ _ Hc) as (c0 & Hc0 & E). rewrite E in Hk.
    assert (Hin : In c0 (children d f k)) by (apply in_children; auto). now rewrite (Hres f Hf Hp Hr) in Hin.
Qed.

End CascadeUpd.

(* UPDATE of an id keeps referential integrity, for every key graph and every assignment of actions *)
Theorem update_id_preserves_ri fks d t k k' d' :
  uniq d -> RI fks d -> exec_res fks d (SUpdId t k k') = Ok d' -> RI fks d' /\ uniq d'.
Proof.
  intros U HRI H. cbn [exec_res] in H.
  destruct (find_id k (tab d t)) as [r|] eqn:Ef; [|injection H as <-; auto].
  apply find_id_some in Ef. destruct Ef as [Hr Hrk].
  destruct (Z.eqb_spec k k') as [E|E]; [injection H as <-; auto|].
  apply (upd_id_ok fks t k k' E 19 d r (k', snd (fst r), snd r)); auto.
Qed.

(* Every statement, every history. *)
Theorem ri_preserved fks d s d' :
  uniq d -> RI fks d -> exec_res fks d s = Ok d' -> RI fks d' /\ uniq d'.
Proof.
  intros U HRI H. destruct s as [t r|t k|t k k'|t k c v].
  - split; [eapply insert_preserves_ri; eauto|].
    cbn [exec_res] in H. destruct (existsb _ fks); [discriminate|].
    destruct (has_id (rid r) (tab d t)) eqn:Eh; [discriminate|]. injection H as <-. now apply inserted_uniq.
  - eapply delete_preserves_ri; eauto.
  - eapply update_id_preserves_ri; eauto.
  - split; [eapply update_column_preserves_ri; eauto|].
    cbn [exec_res] in H. destruct (find_id k (tab d t)) as [r|]; [|now injection H as <-].
    destruct (opt_eqb (get_col c r) v); [now injection H as <-|].
    apply upd_same_id in H; [|apply rid_set_col]. destruct H as [-> _].
    apply replaced_uniq; auto. left. apply rid_set_col.
Qed.

Lemma exec_fst fks d s : fst (exec fks d s) = match exec_res fks d s with Ok d' => d' | Err _ => d end.
Proof. unfold exec. destruct (exec_res fks d s); reflexivity. Qed.

Theorem ri_invariant fks : forall h d, uniq d -> RI fks d -> RI fks (run fks d h) /\ uniq (run fks d h).
Proof.
  induction h as [|s h IH]; intros d U HRI; cbn [run]; auto.
  rewrite exec_fst. destruct (exec_res fks d s) as [d'|e] eqn:E; [|now apply IH].
  destruct (ri_preserved _ _ _ _ U HRI E). now apply IH.
Qed.

Lemma tab_repeat_nil n t : tab (repeat [] n) t = [].
Proof. unfold tab. revert t. induction n as [|n IH]; intros [|t]; cbn; auto. Qed.

Theorem ri_from_empty fks n h : RI fks (run fks (repeat [] n) h).
Proof.
  apply ri_invariant.
  - intros t. rewrite tab_repeat_nil. constructor.
  - intros f r k _ Hr. rewrite tab_repeat_nil in Hr. contradiction.
Qed.
