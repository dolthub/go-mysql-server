(* C18 - proofs about the foreign key model of Store/C18FK.v: what the tables hold after an edit, what a successful
   ForeignKeyEditor.Update / Delete has checked, and the statements that run no referential action. *)
From Coq Require Import List ZArith Bool Lia Arith.
Import ListNotations.
From GMS Require Import Base.ListFacts Store.C18FK.
Open Scope Z_scope.

Lemma tab_set_tab_same d t x : (t < length d)%nat -> tab (set_tab d t x) t = x.
Proof.
  revert t. induction d as [|a d IH]; intros [|t] H; cbn in *; try lia; auto. apply IH. lia.
Qed.

Lemma tab_set_tab_other d t x t' : t' <> t -> tab (set_tab d t x) t' = tab d t'.
Proof.
  unfold tab. revert t t'. induction d as [|a d IH]; intros t t' H.
  - destruct t; reflexivity.
  - destruct t as [|t], t' as [|t']; cbn; auto; try congruence.
Qed.

Lemma tab_out_of_range d t : (length d <= t)%nat -> tab d t = [].
Proof. intros H. unfold tab. apply nth_overflow. exact H. Qed.

Lemma set_tab_out_of_range d t x : (length d <= t)%nat -> set_tab d t x = d.
Proof.
  revert t. induction d as [|a d IH]; intros [|t] H; cbn in *; auto; try lia. f_equal. apply IH. lia.
Qed.

(* holds also when t is not a table at all *)
Lemma tab_after_edit d t x t' :
  tab (set_tab d t x) t' = if Nat.eqb t' t && Nat.ltb t (length d) then x else tab d t'.
Proof.
  destruct (Nat.eqb_spec t' t) as [->|Hn]; cbn [andb].
  - destruct (Nat.ltb_spec t (length d)).
    + now apply tab_set_tab_same.
    + now rewrite set_tab_out_of_range.
  - now apply tab_set_tab_other.
Qed.

Lemma in_tab_in_range d t r : In r (tab d t) -> (t < length d)%nat.
Proof. intros H. destruct (Nat.ltb_spec t (length d)); auto. now rewrite tab_out_of_range in H. Qed.

Lemma in_tab_set_tab d t x t' r :
  In r (tab (set_tab d t x) t') <-> (t' = t /\ (t < length d)%nat /\ In r x) \/ (t' <> t /\ In r (tab d t')).
Proof.
  rewrite tab_after_edit. destruct (Nat.eqb_spec t' t) as [->|Hn]; cbn [andb]; [|tauto].
  destruct (Nat.ltb_spec t (length d)) as [Hl|Hl]; [tauto|].
  rewrite tab_out_of_range by auto. cbn. lia.
Qed.

Lemma in_insert_sorted r x l : In x (insert_sorted r l) <-> x = r \/ In x l.
Proof.
  induction l as [|a l IH]; cbn.
  - intuition.
  - destruct (rid r <? rid a); cbn; [intuition|]. rewrite IH. intuition.
Qed.

Lemma has_id_spec k l : has_id k l = true <-> exists p, In p l /\ rid p = k.
Proof.
  unfold has_id. rewrite existsb_exists. split; intros (p & H1 & H2); exists p; split; auto.
  - now apply Z.eqb_eq.
  - now apply Z.eqb_eq.
Qed.

Lemma in_remove_id k x l : In x (remove_id k l) <-> In x l /\ rid x <> k.
Proof.
  unfold remove_id. rewrite filter_In. split; intros [H1 H2]; split; auto.
  - apply negb_true_iff in H2. now apply Z.eqb_neq.
  - apply negb_true_iff. now apply Z.eqb_neq.
Qed.

Lemma find_id_some k l r : find_id k l = Some r -> In r l /\ rid r = k.
Proof. unfold find_id. intros H. apply find_some in H. destruct H as [H1 H2]. split; auto. now apply Z.eqb_eq. Qed.

Lemma opt_eqb_spec a b : reflect (a = b) (opt_eqb a b).
Proof.
  destruct a as [x|], b as [y|]; cbn; try (constructor; congruence).
  destruct (Z.eqb_spec x y); constructor; congruence.
Qed.

Lemma rid_set_col c v r : rid (set_col c v r) = rid r.
Proof. unfold set_col, rid. destruct c; reflexivity. Qed.
Lemma get_set_col c v r : get_col c (set_col c v r) = v.
Proof. unfold set_col, get_col. destruct c; reflexivity. Qed.

Lemma in_children d f k c : In c (children d f k) <-> In c (tab d (child f)) /\ get_col (ccol f) c = Some k.
Proof.
  unfold children. rewrite filter_In. now destruct (opt_eqb_spec (get_col (ccol f) c) (Some k)); intuition.
Qed.

(* CheckReference accepts a parent row, or the row itself in a self-referencing table *)
Lemma check_ref_spec d f r k :
  check_ref d f r = true -> get_col (ccol f) r = Some k ->
  has_id k (tab d (parent f)) = true \/ (child f = parent f /\ k = rid r).
Proof.
  unfold check_ref. intros H Hk. rewrite Hk in H. apply orb_true_iff in H. destruct H as [H|H]; [now left|right].
  apply andb_true_iff in H. destruct H as [H1 H2]. split; [now apply Nat.eqb_eq|now apply Z.eqb_eq].
Qed.

Definition inserted (d : db) (t : nat) (r : row) : db := set_tab d t (insert_sorted r (tab d t)).
Definition removed (d : db) (t : nat) (k : Z) : db := set_tab d t (remove_id k (tab d t)).
Definition replaced (d : db) (t : nat) (old new : row) : db :=
  set_tab d t (insert_sorted new (remove_id (rid old) (tab d t))).

Lemma in_inserted d t r t' x :
  In x (tab (inserted d t r) t') <-> (t' = t /\ (t < length d)%nat /\ x = r) \/ In x (tab d t').
Proof.
  unfold inserted. rewrite in_tab_set_tab, in_insert_sorted.
  destruct (Nat.eq_dec t' t) as [->|]; [|tauto]. pose proof (in_tab_in_range d t x). tauto.
Qed.

Lemma in_removed d t k t' x : In x (tab (removed d t k) t') <-> In x (tab d t') /\ (t' = t -> rid x <> k).
Proof.
  unfold removed. rewrite in_tab_set_tab, in_remove_id.
  destruct (Nat.eq_dec t' t) as [->|]; [|tauto]. pose proof (in_tab_in_range d t x). tauto.
Qed.

Lemma in_replaced d t old new t' x :
  In old (tab d t) ->
  In x (tab (replaced d t old new) t') <-> (t' = t /\ x = new) \/ (In x (tab d t') /\ (t' = t -> rid x <> rid old)).
Proof.
  intros Hold. apply in_tab_in_range in Hold. unfold replaced. rewrite in_tab_set_tab, in_insert_sorted, in_remove_id.
  destruct (Nat.eq_dec t' t) as [->|]; tauto.
Qed.

Lemma has_id_replaced d t old new t' x :
  In old (tab d t) -> rid new = rid old -> has_id x (tab (replaced d t old new) t') = has_id x (tab d t').
Proof.
  intros Hold E. apply eq_true_iff_eq. rewrite !has_id_spec. split; intros (p & Hp & Ep).
  - apply in_replaced in Hp; auto. destruct Hp as [[-> ->]|[Hp _]]; [exists old; split; auto; congruence|eauto].
  - destruct (Nat.eq_dec t' t) as [->|Ht]; [destruct (Z.eq_dec (rid p) (rid old)) as [Hq|Hq]|].
    + exists new. split; [apply in_replaced; auto|congruence].
    + exists p. split; auto. apply in_replaced; auto.
    + exists p. split; auto. apply in_replaced; auto.
Qed.

(* [RI] exempts none; while an id update cascades, the references to the old id are exempt until every key is done *)
Definition RIx (ex : fk -> Z -> Prop) (fks : list fk) (d : db) : Prop :=
  forall f c k, In f fks -> In c (tab d (child f)) -> get_col (ccol f) c = Some k ->
                has_id k (tab d (parent f)) = true \/ ex f k.

Lemma RI_RIx fks d : RI fks d <-> RIx (fun _ _ => False) fks d.
Proof.
  split; intros H f c k Hf Hc Hk.
  - left. apply has_id_spec. eauto.
  - apply has_id_spec. destruct (H f c k Hf Hc Hk); tauto.
Qed.

(* a row replaced by one with the same id: only its own changed key columns can break integrity, and those are
   the ones CheckReference is called for *)
Lemma replaced_RIx ex fks d t old new :
  In old (tab d t) -> rid new = rid old ->
  (forall f, In f fks -> child f = t -> get_col (ccol f) old <> get_col (ccol f) new -> check_ref d f new = true) ->
  RIx ex fks d -> RIx ex fks (replaced d t old new).
Proof.
  intros Hold E Hchk HR f c k Hf Hc Hk. rewrite has_id_replaced by auto.
  apply in_replaced in Hc; auto. destruct Hc as [[Et ->]|[Hc _]]; [|eauto].
  destruct (opt_eqb_spec (get_col (ccol f) old) (get_col (ccol f) new)) as [Es|Es].
  - apply (HR f old k); congruence.
  - destruct (check_ref_spec _ _ _ _ (Hchk f Hf Et Es) Hk) as [H|[Hs ->]]; [now left|].
    left. apply has_id_spec. exists old. split; congruence.
Qed.

Lemma fold_res_all_ok {A} (g : db -> A -> res) l d :
  (forall dc a, In a l -> g dc a = Ok dc) -> fold_res g l d = Ok d.
Proof.
  revert d. induction l as [|a l IH]; intros d H; cbn; auto.
  rewrite (H d a) by now left. cbn. apply IH. intros dc b Hb. apply H. now right.
Qed.

Lemma fold_res_ext {A} (g g' : db -> A -> res) l d : (forall dc a, g dc a = g' dc a) -> fold_res g l d = fold_res g' l d.
Proof. intros H. revert d. induction l as [|a l IH]; intros d; cbn; auto. rewrite H. destruct (g' d a); cbn; auto. Qed.

Lemma fold_res_cons {A} (g : db -> A -> res) a l d d' :
  fold_res g (a :: l) d = Ok d' -> exists d1, g d a = Ok d1 /\ fold_res g l d1 = Ok d'.
Proof. cbn. destruct (g d a) as [d1|e]; cbn; [eauto|discriminate]. Qed.

(* The loop principle for every cascade.  [I l d]: what holds of the database d while the items l are still to be
   processed; [R]: how a database relates to an earlier one; [N a d]: item a has been dealt with in d, and later
   steps do not undo that. *)
Lemma fold_res_inv {A} (g : db -> A -> res) (I : list A -> db -> Prop) (R : db -> db -> Prop) (N : A -> db -> Prop) :
  (forall l d, I l d -> R d d) ->
  (forall a b c, R a b -> R b c -> R a c) ->
  (forall a d d1, R d d1 -> N a d -> N a d1) ->
  (forall a l d d1, I (a :: l) d -> g d a = Ok d1 -> I l d1 /\ R d d1 /\ N a d1) ->
  forall l d d', I l d -> fold_res g l d = Ok d' -> R d d' /\ forall a, In a l -> N a d'.
Proof.
  intros Hrefl Htrans Hstable Hstep. induction l as [|a l IH]; intros d d' HI H.
  - injection H as <-. split; [eauto|]. intros a [].
  - apply fold_res_cons in H. destruct H as (d1 & H1 & H2).
    destruct (Hstep _ _ _ _ HI H1) as (HI1 & R1 & N1). destruct (IH _ _ HI1 H2) as [R2 N2].
    split; [eauto|]. intros b [<-|Hb]; eauto.
Qed.

(* an update that keeps the id runs no referential action *)
Lemma upd_same_id n fks d t old new d' :
  rid new = rid old -> upd (S n) fks d t old new = Ok d' ->
  d' = replaced d t old new /\
  forall f, In f fks -> child f = t -> get_col (ccol f) old <> get_col (ccol f) new -> check_ref d f new = true.
Proof.
  intros E H. cbn [upd] in H. rewrite E, Z.eqb_refl in H. cbn [negb andb] in H.
  destruct (existsb _ fks) eqn:Ex; [discriminate|]. split.
  - clear Ex. destruct (existsb _ fks); [discriminate|].
    rewrite fold_res_all_ok in H by (intros dc f _; now rewrite andb_false_r). now injection H as <-.
  - intros f Hf <- Hne. apply (proj1 (existsb_false_iff _ _) Ex) in Hf. rewrite Nat.eqb_refl in Hf.
    destruct (opt_eqb_spec (get_col (ccol f) old) (get_col (ccol f) new)); [contradiction|].
    now apply negb_false_iff in Hf.
Qed.

(* an update to a new id: the id was free, no RESTRICT-like key had a row referencing the old id, and after the row
   has moved every key pointing at the table runs its action on the rows that reference the old id *)
Lemma upd_new_id n fks d t old new d' :
  rid old <> rid new -> upd (S n) fks d t old new = Ok d' ->
  has_id (rid new) (tab d t) = false /\
  (forall f, In f fks -> parent f = t -> restrictish (eff_onupd f) = true -> children d f (rid old) = []) /\
  fold_res (fun dc f =>
              if Nat.eqb (parent f) t then
                match eff_onupd f with
                | Cascade => fold_res (fun dc' c => upd n fks dc' (child f) c (set_col (ccol f) (Some (rid new)) c))
                                      (children dc f (rid old)) dc
                | SetNull => fold_res (fun dc' c => upd n fks dc' (child f) c (set_col (ccol f) None c))
                                      (children dc f (rid old)) dc
                | _ => Ok dc
                end
              else Ok dc) fks (replaced d t old new) = Ok d'.
Proof.
  intros Hne H. cbn [upd] in H. apply Z.eqb_neq in Hne. rewrite Hne in H. cbn [negb andb] in H.
  destruct (existsb _ fks); [discriminate|]. destruct (existsb _ fks) eqn:Ex; [discriminate|].
  destruct (has_id _ _); [discriminate|]. split; [reflexivity|split].
  - intros f Hf <- Hr. apply (proj1 (existsb_false_iff _ _) Ex) in Hf. rewrite Nat.eqb_refl, Hr in Hf.
    now destruct (children d f (rid old)).
  - rewrite <- H. apply fold_res_ext. intros dc f. now rewrite andb_true_r.
Qed.

(* a delete: no RESTRICT-like key had a row referencing the deleted id, and after the row has gone every key pointing
   at the table runs its action on the rows that reference it *)
Lemma del_inv n fks d t r d' :
  del (S n) fks d t r = Ok d' ->
  (forall f, In f fks -> parent f = t -> restrictish (ondel f) = true -> children d f (rid r) = []) /\
  fold_res (fun dc f =>
              if Nat.eqb (parent f) t then
                match ondel f with
                | Cascade => fold_res (fun dc' c => del n fks dc' (child f) c) (children dc f (rid r)) dc
                | SetNull => fold_res (fun dc' c => upd n fks dc' (child f) c (set_col (ccol f) None c))
                                      (children dc f (rid r)) dc
                | _ => Ok dc
                end
              else Ok dc) fks (removed d t (rid r)) = Ok d'.
Proof.
  intros H. cbn [del] in H. destruct (existsb _ fks) eqn:Ex; [discriminate|]. split; [|exact H].
  intros f Hf <- Hr. apply (proj1 (existsb_false_iff _ _) Ex) in Hf. rewrite Nat.eqb_refl, Hr in Hf.
  now destruct (children d f (rid r)).
Qed.

Theorem insert_preserves_ri fks d t r d' :
  RI fks d -> exec_res fks d (SInsert t r) = Ok d' -> RI fks d'.
Proof.
  intros HRI H. cbn [exec_res] in H.
  destruct (existsb _ fks) eqn:Ex; [discriminate|].
  destruct (has_id (rid r) (tab d t)); [discriminate|]. injection H as <-. fold (inserted d t r).
  intros f c k Hf Hc Hk. apply in_inserted in Hc. destruct Hc as [(Et & Hlt & ->)|Hc].
  - (* the new row: CheckReference passed *)
    apply (proj1 (existsb_false_iff _ _) Ex) in Hf. rewrite Et, Nat.eqb_refl in Hf. apply negb_false_iff in Hf.
    destruct (check_ref_spec _ _ _ _ Hf Hk) as [Hh|[Hs ->]].
    + apply has_id_spec in Hh. destruct Hh as (p & Hp & Hpk). exists p. split; auto. apply in_inserted. now right.
    + exists r. split; auto. apply in_inserted. left. split; [congruence|auto].
  - destruct (HRI f c k Hf Hc Hk) as (p & Hp & Hpk). exists p. split; auto. apply in_inserted. now right.
Qed.

(* DELETE from a table that is only referenced by RESTRICT / NO ACTION keys *)
Theorem delete_restrict_preserves_ri fks d t k d' :
  (forall f, In f fks -> parent f = t -> restrictish (ondel f) = true) ->
  RI fks d -> exec_res fks d (SDelete t k) = Ok d' -> RI fks d'.
Proof.
  intros Hres HRI H. cbn [exec_res] in H.
  destruct (find_id k (tab d t)) as [r|] eqn:Ef; [|now injection H as <-].
  apply del_inv in H. destruct H as [Hno H].
  rewrite fold_res_all_ok in H.
  2:{ intros dc f Hf. destruct (Nat.eqb_spec (parent f) t) as [E|E]; auto.
      specialize (Hres f Hf E). destruct (ondel f); cbn in Hres; try discriminate; reflexivity. }
  injection H as <-.
  intros f c k0 Hf Hc Hk. apply in_removed in Hc. destruct Hc as [Hc _].
  destruct (HRI f c k0 Hf Hc Hk) as (p & Hp & Hpk). exists p. split; auto. apply in_removed. split; auto.
  (* p is not the deleted row: otherwise c would be a child met by the RESTRICT check *)
  intros Et Hpr. assert (Hin : In c (children d f (rid r))) by (apply in_children; split; auto; congruence).
  now rewrite (Hno f Hf Et (Hres f Hf Et)) in Hin.
Qed.

(* UPDATE of a key column of a child row *)
Theorem update_column_preserves_ri fks d t k c v d' :
  RI fks d -> exec_res fks d (SUpdCol t k c v) = Ok d' -> RI fks d'.
Proof.
  intros HRI H. cbn [exec_res] in H.
  destruct (find_id k (tab d t)) as [r|] eqn:Ef; [|now injection H as <-].
  apply find_id_some in Ef. destruct Ef as [Hr _].
  destruct (opt_eqb (get_col c r) v); [now injection H as <-|].
  apply upd_same_id in H; [|apply rid_set_col]. destruct H as [-> Hchk].
  apply RI_RIx, replaced_RIx; auto using rid_set_col. now apply RI_RIx.
Qed.

Theorem failed_statement_no_effect fks d s e : snd (exec fks d s) = Some e -> fst (exec fks d s) = d.
Proof. unfold exec. destruct (exec_res fks d s); cbn; intros H; [discriminate|reflexivity]. Qed.

(* the boolean checker used by the correspondence is the proposition *)
Lemma ri_ok_spec fks d : ri_ok fks d = true <-> RI fks d.
Proof.
  unfold ri_ok, RI. rewrite forallb_forall. split.
  - intros H f r k Hf Hr Hk. specialize (H f Hf). unfold ri_fk in H. rewrite forallb_forall in H.
    specialize (H r Hr). rewrite Hk in H. now apply has_id_spec.
  - intros H f Hf. unfold ri_fk. apply forallb_forall. intros r Hr.
    destruct (get_col (ccol f) r) as [k|] eqn:Ek; auto. apply has_id_spec. eapply H; eauto.
Qed.

(* non-vacuity and a cascade example (diamond with a self reference), decided by computation *)
Definition ex_fks := [mkFk 1 false 0 Cascade Cascade; mkFk 2 false 0 SetNull SetNull; mkFk 2 true 1 Cascade Restrict;
                      mkFk 0 false 0 Cascade Cascade].
Definition ex_h := [SInsert 0 (1, Some 1, None); SInsert 0 (2, Some 1, None); SInsert 1 (10, Some 2, None);
                    SInsert 2 (20, Some 2, Some 10); SInsert 2 (21, Some 1, None); SDelete 0 1].
Lemma cascade_example :
  run ex_fks [[]; []; []] ex_h = [[]; []; [(21, None, None)]] /\
  ri_ok ex_fks (run ex_fks [[]; []; []] (firstn 5 ex_h)) = true /\
  ri_ok ex_fks (run ex_fks [[]; []; []] ex_h) = true.
Proof. repeat split; vm_compute; reflexivity. Qed.
