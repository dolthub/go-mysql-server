(* C19 - the same write pipeline for one DECIMAL(p,1) column and for one VARCHAR(n) column (with a STORED generated
   column CHAR_LENGTH(s)), one statement at a time.

   insertIter.Next: checks on the value AS WRITTEN, then the conversion: DECIMAL rounds to the column's scale (half away
   from zero) and an out-of-range value is an error, IGNORE: 0 (decimal.go ConvertToNullDecimal returns no clamped value,
   insert.go falls back to Type.Zero()); VARCHAR: too long is an error, IGNORE: truncated (convertDataAndWarn).
   UPDATE: SetField.Eval converts FIRST (IGNORE: 0 / truncated), then the checks run on the converted value.
   Comparison `d op k` converts both sides to the LEFT type, i.e. the written value is rounded to the column's scale
   (expression/comparison.go); `d * k op m` is exact decimal arithmetic.
   Decimal values are integers in hundredths (written) and tenths (stored). *)
From Coq Require Import List ZArith Bool String Lia Arith.
Import ListNotations.
Open Scope Z_scope.

Definition round_half_away (h : Z) : Z := if 0 <=? h then (h + 5) / 10 else - ((- h + 5) / 10).

Inductive dcop := DLt | DLe | DGt | DGe | DEq | DNe.
Definition dcop_holds (o : dcop) (x y : Z) : bool :=
  match o with
  | DLt => x <? y | DLe => x <=? y | DGt => y <? x | DGe => y <=? x | DEq => x =? y | DNe => negb (x =? y)
  end.

(* CHECK (d op k)  |  CHECK (d * m op k), k and m integer literals *)
Inductive dcheck := DCmp (o : dcop) (k : Z) | DMulCmp (m : Z) (o : dcop) (k : Z).

(* on a written value h (hundredths) *)
Definition dcheck_written (h : Z) (c : dcheck) : bool :=
  match c with
  | DCmp o k => dcop_holds o (round_half_away h) (k * 10)
  | DMulCmp m o k => dcop_holds o (h * m) (k * 100)
  end.
(* on a stored value v (tenths) *)
Definition dcheck_stored (v : Z) (c : dcheck) : bool := dcheck_written (v * 10) c.

Inductive dstmt :=
| DIns (ign : bool) (h : Z)                (* INSERT [IGNORE] the decimal literal h/100 into an empty table *)
| DUpd (ign : bool) (old : Z) (h : Z).     (* UPDATE [IGNORE] the row holding old/10 to the literal h/100 *)

Inductive dkind := DkCheck | DkRange.
(* stored value (tenths) and warnings, or nothing stored / unchanged and warnings, or an error *)
Inductive dres := DStored (v : Z) (w : N) | DSkipped (w : N) | DErr (k : dkind).

Definition d_in_range (p : Z) (v : Z) : bool := Z.abs v <? 10 ^ p.

Definition dexec (p : Z) (chks : list dcheck) (s : dstmt) : dres :=
  match s with
  | DIns ign h =>
      if forallb (dcheck_written h) chks then
        let v := round_half_away h in
        if d_in_range p v then DStored v 0
        else if ign then DStored 0 1 else DErr DkRange
      else if ign then DSkipped 1 else DErr DkCheck
  | DUpd ign old h =>
      let v := round_half_away h in
      if negb (d_in_range p v) && negb ign then DErr DkRange
      else
        let w := if d_in_range p v then 0%N else 1%N in
        let v := if d_in_range p v then v else 0 in
        if v =? old then DSkipped w
        else if forallb (dcheck_stored v) chks then DStored v w
        else if ign then DSkipped (w + 1) else DErr DkCheck
  end.

Definition dkind_eqb (a b : dkind) : bool :=
  match a, b with DkCheck, DkCheck | DkRange, DkRange => true | _, _ => false end.
Definition dres_eqb (a b : dres) : bool :=
  match a, b with
  | DStored v w, DStored v' w' => (v =? v') && N.eqb w w'
  | DSkipped w, DSkipped w' => N.eqb w w'
  | DErr k, DErr k' => dkind_eqb k k'
  | _, _ => false
  end.

(* the property on the stored value *)
Definition dres_ok (chks : list dcheck) (r : dres) : Prop :=
  match r with DStored v _ => forallb (dcheck_stored v) chks = true | _ => True end.

(* VARCHAR(n) with g INT AS (CHAR_LENGTH(s)) STORED *)
Open Scope string_scope.

(* CHECK (s <> 'lit')  |  CHECK (CHAR_LENGTH(s) op k) *)
Inductive scheck := SNe (lit : string) | SLen (o : dcop) (k : Z).
Definition scheck_holds (s : string) (c : scheck) : bool :=
  match c with
  | SNe lit => negb (String.eqb s lit)
  | SLen o k => dcop_holds o (Z.of_nat (String.length s)) k
  end.

Inductive sstmt :=
| SIns (ign : bool) (s : string)
| SUpd (ign : bool) (old : string) (s : string).

Inductive skind := SkCheck | SkTooLong.
(* stored string, stored generated length, warnings *)
Inductive sres := SStored (s : string) (g : Z) (w : N) | SSkipped (w : N) | SErr (k : skind).

Definition trunc (n : nat) (s : string) : string := substring 0 n s.

Definition sexec (n : nat) (chks : list scheck) (st : sstmt) : sres :=
  match st with
  | SIns ign s =>
      (* row source: s as written, g from s as written; checks; conversion *)
      if forallb (scheck_holds s) chks then
        if (String.length s <=? n)%nat then SStored s (Z.of_nat (String.length s)) 0
        else if ign then SStored (trunc n s) (Z.of_nat (String.length s)) 1 else SErr SkTooLong
      else if ign then SSkipped 1 else SErr SkCheck
  | SUpd ign old s =>
      let long := negb (String.length s <=? n)%nat in
      if long && negb ign then SErr SkTooLong
      else
        let w := if long then 1%N else 0%N in
        let s' := if long then trunc n s else s in
        if String.eqb s' old then SSkipped w
        else if forallb (scheck_holds s') chks then SStored s' (Z.of_nat (String.length s')) w
        else if ign then SSkipped (w + 1) else SErr SkCheck
  end.

Definition skind_eqb (a b : skind) : bool :=
  match a, b with SkCheck, SkCheck | SkTooLong, SkTooLong => true | _, _ => false end.
Definition sres_eqb (a b : sres) : bool :=
  match a, b with
  | SStored s g w, SStored s' g' w' => String.eqb s s' && (g =? g')%Z && N.eqb w w'
  | SSkipped w, SSkipped w' => N.eqb w w'
  | SErr k, SErr k' => skind_eqb k k'
  | _, _ => false
  end.

Definition sres_ok (chks : list scheck) (r : sres) : Prop :=
  match r with
  | SStored s g _ => forallb (scheck_holds s) chks = true /\ g = Z.of_nat (String.length s)
  | _ => True
  end.

Close Scope string_scope.
Open Scope Z_scope.

(* UPDATE converts before the checks: whatever it stores satisfies every CHECK (DECIMAL and VARCHAR, IGNORE or not) *)
Lemma decimal_update_ok p chks ign old h : dres_ok chks (dexec p chks (DUpd ign old h)).
Proof.
  unfold dexec. destruct (_ && negb ign); [exact I|]. cbv zeta.
  destruct (_ =? old); [exact I|]. destruct (forallb _ chks) eqn:E; [exact E|]. now destruct ign.
Qed.

Lemma varchar_update_ok n chks ign old s : sres_ok chks (sexec n chks (SUpd ign old s)).
Proof.
  unfold sexec. destruct (_ && negb ign); [exact I|]. cbv zeta.
  destruct (String.eqb _ old); [exact I|]. destruct (forallb _ chks) eqn:E; [now split|]. now destruct ign.
Qed.

(* a value with one fractional digit is not rounded *)
Lemma round_half_away_exact v : round_half_away (v * 10) = v.
Proof.
  unfold round_half_away. destruct (0 <=? v * 10) eqn:E.
  - apply Z.leb_le in E. rewrite <- (Z.div_unique_pos (v * 10 + 5) 10 v 5); lia.
  - apply Z.leb_gt in E. rewrite <- (Z.div_unique_pos (- (v * 10) + 5) 10 (- v) 5); lia.
Qed.

(* INSERT of a value that needs no conversion (one fractional digit, in range; a string that fits) is fine too *)
Lemma decimal_insert_exact_ok p chks ign v :
  d_in_range p v = true -> dres_ok chks (dexec p chks (DIns ign (v * 10))).
Proof.
  intros Hr. cbn. destruct (forallb (dcheck_written (v * 10)) chks) eqn:E; [|destruct ign; exact I].
  rewrite round_half_away_exact, Hr. exact E.
Qed.

Lemma varchar_insert_fits_ok n chks ign s :
  (String.length s <= n)%nat -> sres_ok chks (sexec n chks (SIns ign s)).
Proof.
  intros Hl. cbn. destruct (forallb (scheck_holds s) chks) eqn:E; [|destruct ign; exact I].
  apply Nat.leb_le in Hl. rewrite Hl. cbn. auto.
Qed.

(* DECIMAL(3,1), CHECK (d * 2 < 20): INSERT 9.96 stores 10.0 *)
Lemma decimal_rounding_witness :
  dexec 3 [DMulCmp 2 DLt 20] (DIns false 996) = DStored 100 0 /\ ~ dres_ok [DMulCmp 2 DLt 20] (DStored 100 0).
Proof. split; [vm_compute; reflexivity|cbn; discriminate]. Qed.

(* DECIMAL(3,1), CHECK (d <> 0): INSERT IGNORE -1000.50 stores 0.0 *)
Lemma decimal_ignore_range_witness :
  dexec 3 [DCmp DNe 0] (DIns true (-100050)) = DStored 0 1 /\ ~ dres_ok [DCmp DNe 0] (DStored 0 1).
Proof. split; [vm_compute; reflexivity|cbn; discriminate]. Qed.

(* VARCHAR(3), CHECK (s <> 'abc'): INSERT IGNORE 'abcd' stores 'abc' with the generated length 4 *)
Lemma varchar_truncate_witness :
  sexec 3 [SNe "abc"] (SIns true "abcd") = SStored "abc" 4 1 /\ ~ sres_ok [SNe "abc"] (SStored "abc" 4 1).
Proof. split; [vm_compute; reflexivity|cbn; intros [H _]; discriminate]. Qed.
