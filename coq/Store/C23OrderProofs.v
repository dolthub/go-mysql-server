(* C23 - proofs about the model of plan.OrderTriggers (Store/C23Order.v): it agrees with the MySQL placement rule when the
   triggers of the event carry no clause or exactly one clause; with two clauses it does not (witness). *)
From Coq Require Import List ZArith Bool Arith Lia.
Import ListNotations.
From GMS Require Import Base.ListFacts Store.C23Trigger Store.C23TriggerProofs Store.C23Order.
Open Scope nat_scope.

Lemma go_loop_no_clause cT : forall rest f i o, Forall no_clause rest -> go_loop cT f i rest o = Some o.
Proof.
  induction rest as [|x r IH]; intros f i o H; destruct f; cbn; auto.
  inversion H as [|? ? Hx Hr]; subst. unfold step. rewrite Hx. apply IH. exact Hr.
Qed.

Lemma go_loop_skip cT : forall l1 rest f i o, Forall no_clause l1 ->
  go_loop cT (length l1 + f) i (l1 ++ rest) o = go_loop cT f (length l1 + i) rest o.
Proof.
  induction l1 as [|x l1 IH]; intros rest f i o H; cbn [length app plus]; auto.
  inversion H as [|? ? Hx Hr]; subst. cbn [go_loop]. unfold step. rewrite Hx.
  rewrite IH by exact Hr. f_equal. lia.
Qed.

Lemma remove_nth_app {A} (l1 : list A) x l2 : remove_nth (length l1) (l1 ++ x :: l2) = l1 ++ l2.
Proof. induction l1 as [|a l1 IH]; cbn; auto. now rewrite IH. Qed.

Lemma find_ref_app g : forall (a : list item) y cy z,
  (forall b, In b a -> t_tag (fst b) <> g) -> t_tag y = g -> find_ref g (a ++ (y, cy) :: z) = Some (length a).
Proof.
  induction a as [|[t c] a IH]; intros y cy z H Hy; cbn.
  - apply Z.eqb_eq in Hy. now rewrite Hy.
  - assert (Z.eqb (t_tag t) g = false) as -> by (apply Z.eqb_neq; apply (H (t, c)); now left).
    rewrite IH; auto. intros b Hb. apply H. now right.
Qed.

(* x put at position length a *)
Lemma insert_at_app {A} (a z : list A) x : firstn (length a) (a ++ z) ++ x :: skipn (length a) (a ++ z) = a ++ x :: z.
Proof. rewrite firstn_app, skipn_app, Nat.sub_diag, firstn_all, skipn_all. cbn. now rewrite app_nil_r. Qed.

(* after the one clause the loop only meets triggers without a clause, whether or not the in-place append has
   overwritten the unvisited part of [triggers] *)
Lemma go_loop_rest cT (fits : bool) r tail f i o : Forall no_clause r -> Forall no_clause tail ->
  go_loop cT f i (if fits then overwrite r tail else r) o = Some o.
Proof.
  intros Hr Ht. apply go_loop_no_clause. destruct fits; [|exact Hr].
  apply Forall_firstn, Forall_app. split; [exact Ht|apply Forall_skipn, Hr].
Qed.

Lemma order_triggers_app u : forall v acc, order_triggers (u ++ v) acc = order_triggers v (order_triggers u acc).
Proof. induction u as [|[x c] u IH]; intros v acc; cbn; auto. destruct c; apply IH. Qed.

(* no placement clause: creation order, as MySQL prescribes *)
Theorem go_order_no_clause l : Forall no_clause l -> go_order l = Some (mysql_order l).
Proof.
  intros H. unfold go_order, go_ordered. rewrite go_loop_no_clause by exact H.
  unfold mysql_order. rewrite !order_triggers_no_clause by (apply Forall_filter; exact H).
  unfold befores, afters. now rewrite !filter_map_comm.
Qed.

(* exactly one placement clause among the triggers of the event, naming an earlier trigger of the same time *)
Definition placed (c : clause) (a : list item) (y x : item) (z : list item) : list item :=
  match c with Precedes _ => a ++ x :: y :: z | _ => a ++ y :: x :: z end.
Definition clause_ref (c : clause) : option Z :=
  match c with NoClause => None | Follows g | Precedes g => Some g end.

Section OneClause.
  Variables (a : list item) (y : trigger) (cy : clause) (b : list item) (x : trigger) (c : clause) (l2 : list item) (g : Z).
  Hypothesis H1 : Forall no_clause (a ++ (y, cy) :: b).
  Hypothesis H2 : Forall no_clause l2.
  Hypothesis Hc : clause_ref c = Some g.
  Hypothesis Ha : forall e, In e a -> t_tag (fst e) <> g.
  Hypothesis Hy : t_tag y = g.

  (* the Go loop and the MySQL rule both end with x next to y, the other triggers in creation order *)
  Lemma go_ordered_one_clause :
    go_ordered ((a ++ (y, cy) :: b) ++ (x, c) :: l2) = Some (placed c a (y, cy) (x, c) (b ++ l2)).
  Proof.
    unfold go_ordered. set (l1 := a ++ (y, cy) :: b) in *. set (cT := gocap _).
    rewrite app_length. cbn [length]. rewrite (go_loop_skip cT l1 ((x, c) :: l2)) by exact H1.
    cbn [go_loop]. unfold step. cbn [snd]. rewrite Nat.add_0_r, !remove_nth_app.
    replace (l1 ++ l2) with (a ++ (y, cy) :: b ++ l2) by (unfold l1; now rewrite <- app_assoc).
    assert (Hnc : Forall no_clause (a ++ (y, cy) :: b ++ l2)).
    { rewrite app_comm_cons, app_assoc. apply Forall_app. split; assumption. }
    destruct c as [|g'|g']; cbn in Hc; [discriminate| |]; injection Hc as ->;
      rewrite (find_ref_app g a y cy (b ++ l2) Ha Hy), go_loop_rest by (try apply Forall_skipn; assumption);
      cbn [placed]; f_equal.
    - replace (a ++ (y, cy) :: b ++ l2) with ((a ++ [(y, cy)]) ++ b ++ l2) by (now rewrite <- app_assoc).
      rewrite <- (last_length a (y, cy)), insert_at_app. now rewrite <- app_assoc.
    - apply insert_at_app.
  Qed.

  Lemma order_triggers_one_clause :
    order_triggers ((a ++ (y, cy) :: b) ++ (x, c) :: l2) [] = map fst (placed c a (y, cy) (x, c) (b ++ l2)).
  Proof.
    rewrite order_triggers_app, (order_triggers_no_clause _ [] H1). cbn [app]. rewrite map_app. cbn [map fst].
    assert (Htags : forall t, In t (map fst a) -> t_tag t <> g).
    { intros t Ht. apply in_map_iff in Ht. destruct Ht as [e [<- He]]. exact (Ha e He). }
    destruct (place_spec x g (map fst a) y (map fst b) Htags Hy) as [Pa Pb].
    destruct c as [|g'|g']; cbn in Hc; [discriminate| |]; injection Hc as ->; cbn [order_triggers placed];
      rewrite ?Pa, ?Pb, (order_triggers_no_clause _ _ H2), !map_app; cbn [map fst]; now rewrite map_app, <- app_assoc.
  Qed.
End OneClause.

(* a class (BEFORE / AFTER) holds both x and y or neither; picking it commutes with the placement *)
Lemma filter_placed (P : item -> bool) c a y x z : P y = P x ->
  filter P (placed c a y x z) =
    if P x then placed c (filter P a) y x (filter P z) else filter P a ++ filter P z.
Proof. intro E. destruct c; cbn [placed]; rewrite filter_app; cbn [filter]; rewrite E; destruct (P x); reflexivity. Qed.

Lemma mysql_one_class (P : item -> bool) a y cy b x c l2 g :
  Forall no_clause (a ++ (y, cy) :: b) -> Forall no_clause l2 -> clause_ref c = Some g ->
  (forall e, In e a -> t_tag (fst e) <> g) -> t_tag y = g -> P (y, cy) = P (x, c) ->
  order_triggers (filter P ((a ++ (y, cy) :: b) ++ (x, c) :: l2)) [] =
    map fst (filter P (placed c a (y, cy) (x, c) (b ++ l2))).
Proof.
  intros H1 H2 Hc Ha Hy HP. rewrite (filter_placed P c a _ _ _ HP), !filter_app. cbn [filter]. rewrite HP.
  apply Forall_app in H1. destruct H1 as [Hfa Hfb]. apply Forall_cons_iff in Hfb. destruct Hfb as [Hcy Hfb].
  pose proof (Forall_filter _ P _ Hfa). pose proof (Forall_filter _ P _ Hfb). pose proof (Forall_filter _ P _ H2).
  destruct (P (x, c)).
  - apply (order_triggers_one_clause _ _ _ _ _ _ _ g); try assumption.
    + apply Forall_app. split; [|constructor]; assumption.
    + intros e He. apply filter_In in He. apply Ha, He.
  - rewrite order_triggers_no_clause; [now rewrite <- app_assoc|]. rewrite !Forall_app. auto.
Qed.

Theorem go_order_one_clause a y cy b x c l2 g :
  Forall no_clause (a ++ (y, cy) :: b) -> Forall no_clause l2 -> clause_ref c = Some g ->
  (forall e, In e a -> t_tag (fst e) <> g) -> t_tag y = g -> is_before y = is_before x ->
  go_order ((a ++ (y, cy) :: b) ++ (x, c) :: l2) = Some (mysql_order ((a ++ (y, cy) :: b) ++ (x, c) :: l2)).
Proof.
  intros H1 H2 Hc Ha Hy Ht. unfold go_order. rewrite (go_ordered_one_clause a y cy b x c l2 g) by assumption.
  unfold mysql_order, befores, afters. rewrite !filter_map_comm. f_equal. f_equal; symmetry.
  - apply (mysql_one_class _ a y cy b x c l2 g); auto.
  - apply (mysql_one_class _ a y cy b x c l2 g); auto. cbn. now rewrite Ht.
Qed.

(* two clauses: the second one is lost (the known finding, inside the model) *)
Open Scope Z_scope.
Definition ow (tm : ttime) (tag : Z) (c : clause) : item := (mkTrig tm tag NewId NewV None, c).
Definition order_witness : list item :=
  [ow After 1 NoClause; ow After 2 NoClause; ow After 3 (Precedes 1);
   ow Before 4 NoClause; ow Before 5 NoClause; ow Before 6 (Follows 4)].
Lemma order_witness_go :
  option_map (fun p => (map t_tag (fst p), map t_tag (snd p))) (go_order order_witness) = Some ([4; 5; 6], [3; 1; 2]).
Proof. vm_compute. reflexivity. Qed.
Lemma order_witness_mysql :
  (fun p => (map t_tag (fst p), map t_tag (snd p))) (mysql_order order_witness) = ([4; 6; 5], [3; 1; 2]).
Proof. vm_compute. reflexivity. Qed.

(* every clause names an earlier trigger of its class, yet one trigger fires twice and another never *)
Definition dup_witness : list item :=
  [ow Before 1 NoClause; ow Before 2 (Precedes 1); ow Before 3 (Precedes 1); ow Before 4 NoClause; ow Before 5 (Precedes 4)].
Lemma dup_witness_go : option_map (fun p => map t_tag (fst p)) (go_order dup_witness) = Some [2; 3; 1; 3; 5].
Proof. vm_compute. reflexivity. Qed.
Lemma dup_witness_mysql : map t_tag (fst (mysql_order dup_witness)) = [2; 3; 1; 5; 4].
Proof. vm_compute. reflexivity. Qed.
