(* C13: the simulation between pkTableEditAccumulator + tableEditor (Store/C14Editor.v) and the reference editor
   (Store/C13Refine.v), under the guard "row key strings injective on the rows present" (+ binary key collation, no
   unique secondary index). *)
From Coq Require Import List NArith ZArith Bool Lia Permutation.
Import ListNotations.
From GMS Require Import Base.ListFacts Store.C14Editor Store.C14EditorProofs Store.C13Refine.

(* searching a filtered list, when the filter treats all the rows searched for alike *)
Lemma find_filter_const : forall (A : Type) (f g : A -> bool) (c : bool) l,
  (forall x, In x l -> f x = true -> g x = c) -> find f (filter g l) = if c then find f l else None.
Proof.
  intros A f g c l. induction l as [|x l IH]; cbn; intros H; [destruct c; reflexivity|].
  assert (IH' := IH (fun y Hy => H y (or_intror Hy))).
  destruct (f x) eqn:Ef.
  - rewrite (H x (or_introl eq_refl) Ef). destruct c; cbn; [rewrite Ef; reflexivity|exact IH'].
  - destruct (g x); cbn; [rewrite Ef|]; exact IH'.
Qed.

Lemma filter_true : forall (A : Type) (l : list A), filter (fun _ => true) l = l.
Proof. intros A l. apply filter_all. reflexivity. Qed.

Lemma nodup_map_app_disjoint : forall (A B : Type) (f : A -> B) l1 l2 x y,
  NoDup (map f (l1 ++ l2)) -> In x l1 -> In y l2 -> f x <> f y.
Proof.
  intros A B f l1 l2 x y H Hx Hy E. induction l1 as [|z l1 IH]; [destruct Hx|].
  inversion H as [|? ? Hn Hd]; subst. destruct Hx as [->|Hx]; [|exact (IH Hd Hx)].
  apply Hn. rewrite E. apply in_map, in_or_app. right. exact Hy.
Qed.

(* where the matching rows all carry one key and keys are pairwise different, removing the first match removes them all *)
Lemma remove_first_filter : forall (f : row -> bool) (kf : row -> list val) l,
  NoDup (map kf l) -> (forall x y, In x l -> In y l -> f x = true -> f y = true -> kf x = kf y) ->
  remove_first f l = filter (fun x => negb (f x)) l.
Proof.
  intros f kf l. induction l as [|x l IH]; cbn; intros Hnd Hf; [reflexivity|].
  inversion Hnd as [|? ? Hn Hd]; subst. destruct (f x) eqn:E; cbn.
  - symmetry. apply filter_all. intros y Hy. destruct (f y) eqn:Ey; [|reflexivity]. exfalso. apply Hn.
    rewrite (Hf x y (or_introl eq_refl) (or_intror Hy) E Ey). apply in_map. exact Hy.
  - f_equal. apply IH; [exact Hd|]. intros a b Ha Hb. apply Hf; right; assumption.
Qed.

Section Sim.
  Variable sch : schema.
  Variable U : row -> Prop.
  Hypothesis Hinj : forall a b, U a -> U b -> key_str sch a = key_str sch b -> key sch a = key sch b.
  Hypothesis Hbin : pk_binary sch.
  Hypothesis Hnu : s_uniq sch = [].

  (* a stored row is part of the logical table while no delete is pending under its row key *)
  Definition notdel (dels : smap) (x : row) : bool :=
    match m_get (key_str sch x) dels with Some _ => false | None => true end.

  (* the logical table L of an accumulator state: the stored rows not deleted, then the pending adds; its keys are
     pairwise different, which is what keeps a pending add from standing beside a stored row with its key *)
  Record R (s : pkst) (L : list row) : Prop := {
    R_nd : keys_nodup sch (p_rows s);
    R_ao : adds_ok sch (p_adds s);
    R_do : adds_ok sch (p_dels s);
    R_Ur : Forall U (p_rows s);
    R_Ua : Forall U (map snd (p_adds s));
    R_Ud : Forall U (map snd (p_dels s));
    R_L : L = filter (notdel (p_dels s)) (p_rows s) ++ map snd (p_adds s);
    R_Lnd : keys_nodup sch L
  }.

  Definition Pre (rows : list row) : Prop := keys_nodup sch rows /\ Forall U rows.

  Lemma R_LU : forall s L, R s L -> Forall U L.
  Proof.
    intros s L HR. rewrite (R_L _ _ HR). apply Forall_app. split; [|exact (R_Ua _ _ HR)].
    exact (incl_Forall (incl_filter _ _) (R_Ur _ _ HR)).
  Qed.

  Lemma R_L_nodels : forall s L, R s L -> p_dels s = [] -> L = p_rows s ++ map snd (p_adds s).
  Proof. intros s L HR Hd. rewrite (R_L _ _ HR), Hd. f_equal. apply filter_true. Qed.

  Lemma find_notdel : forall dels rows r,
    find (fun x => pk_match sch x r) (filter (notdel dels) rows) =
    match m_get (key_str sch r) dels with Some _ => None | None => find (fun x => pk_match sch x r) rows end.
  Proof.
    intros dels rows r. rewrite (find_filter_const _ _ _ (notdel dels r)).
    - unfold notdel. destruct (m_get (key_str sch r) dels); reflexivity.
    - intros y _ Em. apply pk_match_spec in Em. unfold notdel. rewrite (key_str_of_key sch y r Em). reflexivity.
  Qed.

  Lemma get_sim : forall s L r, R s L -> U r -> pk_get sch s r = sp_get sch L r.
  Proof.
    intros s L r HR Hr. unfold pk_get, sp_get. rewrite (R_L _ _ HR), find_app, (find_adds sch _ r (R_ao _ _ HR)).
    2:{ intros v Hv. apply Hinj; [exact (proj1 (Forall_forall _ _) (R_Ua _ _ HR) v Hv)|exact Hr]. }
    destruct (m_get (key_str sch r) (p_adds s)) as [r0|] eqn:Ea.
    - (* a pending add r0 with r's key: no surviving stored row y has it, the keys of L being pairwise different *)
      destruct (find _ (filter _ (p_rows s))) as [y|] eqn:Ef; [exfalso|reflexivity].
      apply find_some in Ef. destruct Ef as [Hy Em]. apply pk_match_spec in Em.
      apply m_get_some_in in Ea. pose proof (in_map snd _ _ Ea) as H0. cbn [snd] in H0.
      pose proof (R_Lnd _ _ HR) as Hnd. rewrite (R_L _ _ HR) in Hnd.
      apply (nodup_map_app_disjoint _ _ _ _ _ y r0 Hnd Hy H0). rewrite Em.
      apply Hinj; [exact Hr|exact (proj1 (Forall_forall _ _) (R_Ua _ _ HR) r0 H0)|].
      exact (proj1 (Forall_forall _ _) (R_ao _ _ HR) _ Ea).
    - rewrite find_notdel. destruct (m_get (key_str sch r) (p_dels s)); [reflexivity|].
      destruct (find _ (p_rows s)); reflexivity.
  Qed.

  Lemma acc_insert_sim : forall s L r, R s L -> U r -> pk_get sch s r = None ->
    R (pk_acc_insert sch s r) (L ++ [r]).
  Proof.
    intros s L r HR Hr Hg.
    constructor; rewrite ?(acc_insert_adds sch s r Hg), ?map_app; cbn [pk_acc_insert p_rows p_dels].
    - exact (R_nd _ _ HR).
    - apply Forall_app. split; [exact (R_ao _ _ HR)|constructor; [reflexivity|constructor]].
    - exact (R_do _ _ HR).
    - exact (R_Ur _ _ HR).
    - apply Forall_app. split; [exact (R_Ua _ _ HR)|constructor; [exact Hr|constructor]].
    - exact (R_Ud _ _ HR).
    - rewrite app_assoc, <- (R_L _ _ HR). reflexivity.
    - unfold keys_nodup. rewrite map_app. apply NoDup_snoc. split; [exact (R_Lnd _ _ HR)|]. apply no_pk_match, find_none_iff.
      rewrite (get_sim s L r HR Hr) in Hg. exact Hg.
  Qed.

  Lemma sp_delete_filter : forall L r, keys_nodup sch L -> Forall U L -> U r ->
    sp_delete sch L r = filter (fun x => negb (str_eqb (key_str sch r) (key_str sch x))) L.
  Proof.
    intros L r Hnd HU Hr. unfold sp_delete.
    rewrite (remove_first_filter (fun x => pk_match sch x r) (key sch) L Hnd).
    - apply filter_ext_in. intros x Hx.
      rewrite (pk_match_key_str sch x r (Hinj x r (proj1 (Forall_forall _ _) HU x Hx) Hr)). reflexivity.
    - intros x y _ _ Hx Hy. apply pk_match_spec in Hx. apply pk_match_spec in Hy. congruence.
  Qed.

  Lemma m_del_values : forall m r, adds_ok sch m ->
    map snd (m_del (key_str sch r) m) = filter (fun x => negb (str_eqb (key_str sch r) (key_str sch x))) (map snd m).
  Proof.
    intros m r. induction m as [|[k v] m IH]; cbn; intros Ha; [reflexivity|].
    inversion Ha as [|? ? Hk Hm]; cbn in Hk; subst.
    destruct (str_eqb (key_str sch r) (key_str sch v)); cbn; rewrite (IH Hm); reflexivity.
  Qed.

  Lemma delete_sim : forall s L r, R s L -> U r -> R (pk_acc_delete sch s r) (sp_delete sch L r).
  Proof.
    intros s L r HR Hr.
    constructor; cbn [pk_acc_delete p_rows p_adds p_dels].
    - exact (R_nd _ _ HR).
    - exact (incl_Forall (m_del_incl _ _) (R_ao _ _ HR)).
    - apply (incl_Forall (m_set_incl _ _ _)). constructor; [reflexivity|exact (R_do _ _ HR)].
    - exact (R_Ur _ _ HR).
    - exact (incl_Forall (incl_map snd (m_del_incl _ _)) (R_Ua _ _ HR)).
    - apply (incl_Forall (incl_map snd (m_set_incl _ _ _))). constructor; [exact Hr|exact (R_Ud _ _ HR)].
    - rewrite (sp_delete_filter L r (R_Lnd _ _ HR) (R_LU _ _ HR) Hr). rewrite (R_L _ _ HR) at 1.
      rewrite filter_app, filter_filter, (m_del_values _ r (R_ao _ _ HR)). f_equal.
      apply filter_ext. intros x. unfold notdel. rewrite m_get_m_set, (str_eqb_sym (key_str sch x)).
      destruct (m_get _ (p_dels s)), (str_eqb _ _); reflexivity.
    - apply remove_first_nodup. exact (R_Lnd _ _ HR).
  Qed.

  Lemma insert_sim : forall s L r, R s L -> U r ->
    match pk_insert sch s r, sp_insert sch L r with
    | ROk a, ROk b => R a b
    | RDup x, RDup y => x = y /\ U x
    | _, _ => False
    end.
  Proof.
    intros s L r HR Hr. unfold pk_insert, sp_insert. rewrite Hnu. cbn [check_unique].
    rewrite <- (get_sim s L r HR Hr). destruct (pk_get sch s r) eqn:Eg.
    - split; [reflexivity|]. rewrite (get_sim s L r HR Hr) in Eg. unfold sp_get in Eg. apply find_some in Eg.
      exact (proj1 (Forall_forall _ _) (R_LU _ _ HR) _ (proj1 Eg)).
    - apply acc_insert_sim; assumption.
  Qed.

  Lemma update_sim : forall s L o n, R s L -> U o -> U n ->
    match pk_update sch s o n, sp_update sch L o n with
    | ROk a, ROk b => R a b
    | RDup _, RDup _ => True
    | _, _ => False
    end.
  Proof.
    intros s L o n HR Ho Hn. unfold pk_update, sp_update. rewrite Hnu. cbn [check_unique].
    pose proof (delete_sim s L o HR Ho) as HR1. rewrite <- (get_sim _ _ n HR1 Hn), !update_get.
    destruct (pk_get sch (pk_acc_delete sch s o) n) eqn:Eg; [exact I|]. apply acc_insert_sim; assumption.
  Qed.

  Lemma begin_sim : forall rows, Pre rows -> R (pk_begin rows) (sp_begin rows).
  Proof.
    intros rows [Hnd HU]. constructor; cbn [pk_begin p_rows p_adds p_dels map]; try constructor; try assumption.
    unfold sp_begin. rewrite app_nil_r. symmetry. apply filter_true.
  Qed.

  (* ApplyEdits *)
  Lemma row_equals_cols : forall i a b, row_equals_from sch i a b = true ->
    forall j, val_cmp (col_coll sch (i + j)) (nth j a VNull) (nth j b VNull) = Eq.
  Proof.
    intros i a. revert i. induction a as [|x a IH]; intros i [|y b] H j; cbn in H; try discriminate.
    - destruct j; reflexivity.
    - destruct (val_cmp (col_coll sch i) x y) eqn:E; try discriminate.
      destruct j as [|j]; cbn [nth]; [rewrite Nat.add_0_r; exact E|].
      rewrite <- Nat.add_succ_comm. apply IH. exact H.
  Qed.

  Lemma row_equals_pk : forall a b, row_equals sch a b = true -> pk_match sch a b = true.
  Proof.
    intros a b H. apply pk_match_spec. unfold key, proj. apply map_ext_in. intros c Hc.
    apply val_cmp_bin_eq. rewrite <- (Hbin c Hc). exact (row_equals_cols 0 a b H c).
  Qed.

  Lemma delete_helper_pk : forall rows d, pk_delete_helper sch rows d = sp_delete sch rows d.
  Proof.
    intros rows d. unfold pk_delete_helper, sp_delete. induction rows as [|x rows IH]; cbn; [reflexivity|].
    destruct (pk_match sch x d) eqn:Em; cbn; [reflexivity|].
    destruct (row_equals sch x d) eqn:Er; [rewrite (row_equals_pk _ _ Er) in Em; discriminate|]. f_equal. exact IH.
  Qed.

  Lemma dh_fold : forall dels rows, adds_ok sch dels -> Forall U (map snd dels) -> keys_nodup sch rows -> Forall U rows ->
    fold_left (pk_delete_helper sch) (map snd dels) rows = filter (notdel dels) rows.
  Proof.
    induction dels as [|[k d] m IH]; cbn [map snd fold_left]; intros rows Ha HUd Hnd HU.
    - symmetry. apply filter_true.
    - inversion HUd as [|? ? Hd Hm]; subst. inversion Ha as [|? ? Hk Ha']; cbn in Hk; subst.
      rewrite delete_helper_pk, (sp_delete_filter rows d Hnd HU Hd), IH.
      + rewrite filter_filter. apply filter_ext. intros x. unfold notdel. cbn [m_get].
        rewrite (str_eqb_sym (key_str sch x)). destruct (str_eqb _ _); reflexivity.
      + exact Ha'.
      + exact Hm.
      + apply NoDup_map_filter. exact Hnd.
      + exact (incl_Forall (incl_filter _ _) HU).
  Qed.

  Lemma ih_fold : forall l acc, keys_nodup sch (acc ++ l) -> fold_left (pk_insert_helper sch) l acc = acc ++ l.
  Proof.
    induction l as [|r l IH]; intros acc H; cbn [fold_left]; [rewrite app_nil_r; reflexivity|].
    rewrite insert_helper_fresh, IH, <- app_assoc; [reflexivity|rewrite <- app_assoc; exact H|].
    apply no_pk_match. unfold keys_nodup in H. rewrite map_app in H. apply NoDup_remove_2 in H.
    intros Hin. apply H, in_or_app. left. exact Hin.
  Qed.

  Lemma commit_sim : forall s L, R s L -> pk_commit sch s = sp_commit sch L /\ Pre (sp_commit sch L).
  Proof.
    intros s L HR. split.
    - unfold pk_commit, sp_commit, pk_apply_unsorted. f_equal.
      rewrite (dh_fold _ _ (R_do _ _ HR) (R_Ud _ _ HR) (R_nd _ _ HR) (R_Ur _ _ HR)).
      rewrite ih_fold; [symmetry; exact (R_L _ _ HR)|]. rewrite <- (R_L _ _ HR). exact (R_Lnd _ _ HR).
    - unfold sp_commit. split.
      + eapply perm_keys_nodup; [apply sort_rows_perm|exact (R_Lnd _ _ HR)].
      + eapply Permutation_Forall; [apply Permutation_sym; apply sort_rows_perm|exact (R_LU _ _ HR)].
  Qed.

  Theorem pk_refines_spec : forall rows st, Pre rows -> stmt_in_U U st ->
    pk_exec sch rows st = spec_exec sch rows st /\ Pre (snd (spec_exec sch rows st)).
  Proof.
    intros rows st. unfold pk_exec, spec_exec. apply exec_sim with (R := R).
    - split; constructor.
    - intros r [_ H]. exact H.
    - exact begin_sim.
    - exact insert_sim.
    - exact delete_sim.
    - exact update_sim.
    - exact commit_sim.
  Qed.

  Theorem history_refines_spec : forall h rows, keyless sch = false -> Pre rows -> Forall (stmt_in_U U) h ->
    run_history sch rows h = spec_history sch rows h.
  Proof.
    intros h rows Hk. unfold run_history. rewrite (impl_exec_keyed sch Hk). revert rows.
    induction h as [|st h IH]; intros rows HP HS; [reflexivity|].
    inversion HS as [|? ? Hst Hh]; subst. destruct (pk_refines_spec rows st HP Hst) as [E HP'].
    cbn [fold_left]. rewrite E. apply IH; assumption.
  Qed.
End Sim.

(* assignments to non-key columns keep the kinds of the key columns *)
Lemma col_set_nth_other : forall r i j v, i <> j -> col (set_nth i v r) j = col r j.
Proof.
  unfold col. induction r as [|x r IH]; intros i j v H; cbn; [destruct i; reflexivity|].
  destruct i as [|i]; destruct j as [|j]; cbn; try reflexivity; [congruence|]. apply IH. congruence.
Qed.

Lemma assign_nonkey_key : forall sch r a, ~ In (fst a) (s_pk sch) -> key sch (apply_assign r a) = key sch r.
Proof.
  intros sch r [c e] Hc. cbn in Hc. unfold key, proj. apply map_ext_in. intros j Hj.
  assert (c <> j) by (intros ->; exact (Hc Hj)).
  unfold apply_assign. destruct e as [v|k]; [apply col_set_nth_other; assumption|].
  destruct (col r c); try reflexivity. apply col_set_nth_other; assumption.
Qed.

Lemma assigns_nonkey_kinds : forall sch ks a, (forall x, In x a -> ~ In (fst x) (s_pk sch)) ->
  forall r, key_kinds sch ks r -> key_kinds sch ks (apply_assigns a r).
Proof.
  intros sch ks a. unfold apply_assigns, key_kinds. induction a as [|x a IH]; intros Ha r Hr; cbn; [exact Hr|].
  apply IH; [intros y Hy; apply Ha; right; exact Hy|]. rewrite assign_nonkey_key; [exact Hr|apply Ha; left; reflexivity].
Qed.

(* PRIMARY KEY(c0,c1), rows (1,12,0), (11,2,0): their row keys were "112" twice while getRowKey wrote the
   parts without length prefixes (before /repo 1b57e874c); both statements refine the reference *)
Definition c13_sch : schema := {| s_pk := [0%nat; 1%nat]; s_uniq := []; s_coll := [CBin; CBin; CBin] |}.
Definition c13_rows : list row := [[VInt 1; VInt 12; VInt 0]; [VInt 11; VInt 2; VInt 0]].
Definition c13_upd : stmt := SUpdate [(2%nat, AAdd 1)] PTrue None None.              (* UPDATE t SET c = c + 1 *)
Definition c13_move : stmt := SUpdate [(0%nat, AAdd 100); (1%nat, AAdd 100)] PTrue None None.

Lemma former_witnesses_refine :
  impl_exec c13_sch c13_rows c13_upd = (OOk 2 2, [[VInt 1; VInt 12; VInt 1]; [VInt 11; VInt 2; VInt 1]]) /\
  spec_exec c13_sch c13_rows c13_upd = (OOk 2 2, [[VInt 1; VInt 12; VInt 1]; [VInt 11; VInt 2; VInt 1]]) /\
  impl_exec c13_sch c13_rows c13_move = (OOk 2 2, [[VInt 101; VInt 112; VInt 0]; [VInt 111; VInt 102; VInt 0]]) /\
  spec_exec c13_sch c13_rows c13_move = (OOk 2 2, [[VInt 101; VInt 112; VInt 0]; [VInt 111; VInt 102; VInt 0]]).
Proof. repeat split; vm_compute; reflexivity. Qed.

Lemma c13_bin : pk_binary c13_sch.
Proof. intros c Hc. cbn in Hc. destruct Hc as [<-|[<-|[]]]; reflexivity. Qed.

Lemma c13_pre : Pre c13_sch (key_kinds c13_sch [KInt; KInt]) c13_rows.
Proof.
  split.
  - unfold keys_nodup. vm_compute. constructor; [intros [H|[]]; discriminate|constructor; [intros []|constructor]].
  - repeat constructor.
Qed.

Lemma c13_upd_typed : stmt_in_U (key_kinds c13_sch [KInt; KInt]) c13_upd.
Proof.
  unfold c13_upd, stmt_in_U. apply (assigns_nonkey_kinds c13_sch [KInt; KInt] [(2%nat, AAdd 1)]).
  intros x [<-|[]]. cbn. intros [H|[H|[]]]; discriminate.
Qed.
