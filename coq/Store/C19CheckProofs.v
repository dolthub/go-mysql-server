(* C19 - proofs about the write pipeline of Store/C19Check.v. *)
From Coq Require Import List ZArith Bool Lia.
Import ListNotations.
From GMS Require Import Base.ListFacts Store.C19Check.
Open Scope Z_scope.

Lemma nth_as_error {A} (l : list A) i d : nth i l d = match nth_error l i with Some x => x | None => d end.
Proof. revert i. induction l as [|a l IH]; intros [|i]; cbn; auto. Qed.

Lemma map2_nth_error {A B C} (f : A -> B -> C) l m i :
  nth_error (map2 f l m) i =
  match nth_error l i, nth_error m i with Some a, Some b => Some (f a b) | _, _ => None end.
Proof.
  revert m i. induction l as [|a l IH]; intros [|b m] [|i]; cbn; auto.
  - destruct (nth_error l i); auto.
Qed.

Lemma map2_length {A B C} (f : A -> B -> C) l m : length l = length m -> length (map2 f l m) = length l.
Proof. revert m. induction l as [|a l IH]; intros [|b m] H; cbn in *; auto; try discriminate. Qed.

Lemma nth_error_some_lt {A} (l : list A) i x : nth_error l i = Some x -> (i < length l)%nat.
Proof. intros H. apply nth_error_Some. congruence. Qed.

Lemma nth_error_same_length {A B} (l : list A) (m : list B) i a :
  length l = length m -> nth_error l i = Some a -> exists b, nth_error m i = Some b.
Proof.
  intros HL H. apply nth_error_some_lt in H. rewrite HL in H.
  destruct (nth_error m i) eqn:E; eauto. apply nth_error_None in E. lia.
Qed.

Lemma list_eq_nth_error {A} (l m : list A) : (forall i, nth_error l i = nth_error m i) -> l = m.
Proof.
  revert m. induction l as [|a l IH]; intros [|b m] H; auto.
  - specialize (H 0%nat). discriminate.
  - specialize (H 0%nat). discriminate.
  - pose proof (H 0%nat) as H0. cbn in H0. injection H0 as ->. f_equal. apply IH. intros i. apply (H (S i)).
Qed.

Lemma first_some_none {A} (l : list (option A)) : first_some l = None -> forall i x, nth_error l i = Some x -> x = None.
Proof.
  induction l as [|[a|] l IH]; intros H i x Hi.
  - destruct i; discriminate.
  - discriminate.
  - destruct i; cbn in Hi; [now injection Hi as <-|]. eapply IH; eauto.
Qed.

Lemma existsb_id_false (l : list bool) : existsb (fun b => b) l = false -> forall i x, nth_error l i = Some x -> x = false.
Proof.
  induction l as [|a l IH]; intros H i x Hi; [destruct i; discriminate|]. cbn in H. apply orb_false_iff in H.
  destruct H as [Ha Hl]. destruct i; cbn in Hi; [congruence|eauto].
Qed.

(* cells that already have the column type *)
Definition int_cell (c : cell) : Prop := match c with CNull | CInt _ => True | _ => False end.

Lemma int_cell_of_opt v : int_cell (cell_of_opt v).
Proof. destruct v; exact I. Qed.

Lemma convert_cell_of_opt v : convert (cell_of_opt v) = v.
Proof. destruct v; reflexivity. Qed.

Lemma cell_of_opt_convert c : int_cell c -> cell_of_opt (convert c) = c.
Proof. destruct c; cbn; intros H; auto; contradiction. Qed.

Lemma cells_convert row : Forall int_cell row -> cells (map convert row) = row.
Proof.
  induction 1 as [|c row Hc _ IH]; cbn; auto. unfold cells in IH. rewrite IH, cell_of_opt_convert; auto.
Qed.

Lemma cells_int r : Forall int_cell (cells r).
Proof. induction r; cbn; constructor; auto. apply int_cell_of_opt. Qed.

Lemma convert_cells r : map convert (cells r) = r.
Proof. unfold cells. induction r as [|x r IH]; cbn; auto. now rewrite convert_cell_of_opt, IH. Qed.

Lemma nth_map_convert i row : nth i (map convert row) None = convert (nth i row CNull).
Proof. rewrite !nth_as_error, nth_error_map. now destruct (nth_error row i). Qed.

Lemma conv_strict ty c : int_cell c -> conv_err false ty c = None -> conv_val false ty c = convert c.
Proof.
  destruct c; cbn; intros Hi H; try contradiction; auto.
  unfold conv_err, conv_val in *. cbn in *. unfold conv_range in *. destruct (in_range ty z); cbn in *; auto; discriminate.
Qed.

Lemma conv_val_not_none ign ty c : c <> CNull -> conv_err ign ty c = None -> conv_val ign ty c <> None.
Proof.
  assert (Hr : forall z, conv_range ign ty z <> COk None)
    by (intros z; unfold conv_range; destruct (in_range ty z); [|destruct ign]; discriminate).
  unfold conv_err, conv_val. intros Hc. destruct (convert_cell ign ty c) as [[v|]|v|e] eqn:E; try discriminate.
  destruct c; cbn in E; [contradiction|now apply Hr in E..|destruct ign; discriminate].
Qed.

Lemma convert_row_nth ign sch row r :
  convert_row ign sch row = inl r ->
  forall i, nth_error r i =
    match nth_error sch i, nth_error row i with
    | Some c, Some x => Some (conv_val ign (cty c) x) | _, _ => None end.
Proof.
  unfold convert_row. destruct (first_some _); [discriminate|]. intros H i. injection H as <-. apply map2_nth_error.
Qed.

Lemma convert_row_noerr ign sch row r :
  convert_row ign sch row = inl r ->
  forall i c x, nth_error sch i = Some c -> nth_error row i = Some x -> conv_err ign (cty c) x = None.
Proof.
  unfold convert_row. destruct (first_some _) eqn:E; [discriminate|]. intros _ i c x Hs Hr.
  apply (first_some_none _ E i). now rewrite map2_nth_error, Hs, Hr.
Qed.

Lemma convert_row_length ign sch row r :
  length row = length sch -> convert_row ign sch row = inl r -> length r = length sch.
Proof.
  unfold convert_row. destruct (first_some _); [discriminate|]. intros HL H. injection H as <-.
  now apply map2_length.
Qed.

Lemma convert_row_strict sch row r :
  length row = length sch -> Forall int_cell row -> convert_row false sch row = inl r -> r = map convert row.
Proof.
  intros HL Hint H. apply list_eq_nth_error. intros i.
  rewrite (convert_row_nth _ _ _ _ H i), nth_error_map.
  destruct (nth_error row i) as [x|] eqn:Er.
  - destruct (nth_error_same_length row sch i x HL Er) as [c Hc]. rewrite Hc. cbn. f_equal.
    apply conv_strict.
    + rewrite Forall_forall in Hint. apply Hint. eapply nth_error_In; eauto.
    + eapply convert_row_noerr; eauto.
  - destruct (nth_error sch i); reflexivity.
Qed.

(* what validateNullability does to one column when it goes through *)
Definition null_fix (c : col) (x : cell) : cell := match x with CNull => if notnull c then CInt 0 else x | _ => x end.

Lemma nullability_some ign : forall sch row row',
  nullability ign sch row = Some row' ->
  row' = map2 null_fix sch row /\
  (ign = false -> forall i c, nth_error sch i = Some c -> notnull c = true -> nth_error row i <> Some CNull).
Proof.
  induction sch as [|c sch IH]; intros [|x row] row' H; cbn in H;
    try (injection H as <-; split; [reflexivity|intros _ [|i]; discriminate]).
  destruct (nullability ign sch row) as [rest|] eqn:E; [|discriminate]. destruct (IH _ _ E) as [-> Hs].
  assert (Hx : row' = null_fix c x :: map2 null_fix sch row /\ (ign = false -> notnull c = true -> x <> CNull)).
  { unfold null_fix. destruct x; try (injection H as <-; split; [reflexivity|discriminate]).
    destruct (notnull c); [destruct ign; [|discriminate]|]; injection H as <-; split; auto; discriminate. }
  destruct Hx as [-> Hx]. split; [reflexivity|]. intros Hi [|i] c0 Hc Hn; cbn in *; [|eauto].
  injection Hc as <-. intros [= ->]. now apply Hx.
Qed.

Lemma nullability_nth ign sch row row' i :
  nullability ign sch row = Some row' ->
  nth_error row' i =
    match nth_error sch i, nth_error row i with Some c, Some x => Some (null_fix c x) | _, _ => None end.
Proof. intros H. apply nullability_some in H. destruct H as [-> _]. apply map2_nth_error. Qed.

Lemma nullability_length ign sch row row' :
  length row = length sch -> nullability ign sch row = Some row' -> length row' = length sch.
Proof. intros HL H. apply nullability_some in H. destruct H as [-> _]. now apply map2_length. Qed.

Lemma nullability_strict_id sch row row' :
  length row = length sch -> nullability false sch row = Some row' -> row' = row.
Proof.
  intros HL H. apply list_eq_nth_error. intros i. rewrite (nullability_nth _ _ _ _ i H).
  apply nullability_some in H. destruct H as [_ H].
  destruct (nth_error row i) as [x|] eqn:Er.
  - destruct (nth_error_same_length row sch i x HL Er) as [c Hc]. rewrite Hc. f_equal.
    unfold null_fix. destruct x; auto. destruct (notnull c) eqn:En; auto. now elim (H eq_refl i c Hc En).
  - now destruct (nth_error sch i).
Qed.

Lemma nullability_notnull ign sch row row' :
  length row = length sch -> nullability ign sch row = Some row' -> row_notnull_ok sch (map convert row').
Proof.
  intros HL H i c Hs Hn. rewrite nth_as_error, nth_error_map, (nullability_nth _ _ _ _ i H), Hs.
  destruct (nth_error_same_length sch row i c (eq_sym HL) Hs) as [x Hx]. rewrite Hx. cbn.
  unfold null_fix. destruct x; cbn; try congruence. rewrite Hn. cbn. congruence.
Qed.

Fixpoint term_all (P : nat -> Prop) (e : term) : Prop :=
  match e with
  | TCol i => P i
  | TLit _ => True
  | TAdd a b | TMul a b => term_all P a /\ term_all P b
  end.

Lemma term_all_impl (P Q : nat -> Prop) e : (forall j, P j -> Q j) -> term_all P e -> term_all Q e.
Proof. intros H. induction e; cbn; auto; intros [A B]; split; auto. Qed.

Lemma eval_term_ext r1 r2 e :
  term_all (fun j => nth j r1 CNull = nth j r2 CNull) e -> eval_term r1 e = eval_term r2 e.
Proof.
  induction e as [i|z|a IHa b IHb|a IHa b IHb]; cbn; intros H; auto.
  - now rewrite H.
  - destruct H. now rewrite IHa, IHb.
  - destruct H. now rewrite IHa, IHb.
Qed.

(* position j is not filled by the second pass *)
Definition free_at (full : list (option term)) (j : nat) : Prop :=
  match nth_error full j with Some (Some _) => False | _ => True end.

Lemma set_nth_length {A} i (x : A) l : length (set_nth i x l) = length l.
Proof. revert i. induction l as [|a l IH]; intros [|i]; cbn; auto. Qed.

Lemma set_nth_other {A} i (x : A) l j : j <> i -> nth_error (set_nth i x l) j = nth_error l j.
Proof.
  revert i j. induction l as [|a l IH]; intros [|i] [|j] H; cbn; auto; try congruence.
Qed.

Lemma set_nth_same {A} i (x : A) l : (i < length l)%nat -> nth_error (set_nth i x l) i = Some x.
Proof. revert i. induction l as [|a l IH]; intros [|i] H; cbn in *; try lia; auto. apply IH. lia. Qed.

Lemma set_nth_id {A} i (x : A) l : nth_error l i = Some x -> set_nth i x l = l.
Proof. revert i. induction l as [|a l IH]; intros [|i] H; cbn in *; try discriminate; [congruence|]. f_equal. auto. Qed.

Lemma set_nth_int i v (row : list cell) : int_cell v -> Forall int_cell row -> Forall int_cell (set_nth i v row).
Proof.
  intros Hv H. revert i. induction H as [|a l Ha Hl IH]; intros [|i]; cbn; auto.
Qed.

Lemma fill_from_length pend : forall i row, length (fill_from pend i row) = length row.
Proof.
  induction pend as [|p pend IH]; intros i row; cbn; auto.
  rewrite IH. destruct p; auto. apply set_nth_length.
Qed.

Lemma fill_from_int pend : forall i row, Forall int_cell row -> Forall int_cell (fill_from pend i row).
Proof.
  induction pend as [|p pend IH]; intros i row H; cbn; auto.
  apply IH. destruct p; auto. apply set_nth_int; auto. apply int_cell_of_opt.
Qed.

(* The main invariant.  pend is what is left to do from position i on; fr holds of positions that no step writes.
   Positions before i and positions in fr keep their value, and a pending position whose expression reads only
   earlier positions and positions in fr ends up holding the value of that expression over the FINAL row. *)
Lemma fill_from_spec (fr : nat -> Prop) : forall pend i row,
  (forall k e, nth_error pend k = Some (Some e) -> ~ fr (i + k)%nat) ->
  let final := fill_from pend i row in
  (forall j, (j < i)%nat \/ fr j -> nth_error final j = nth_error row j) /\
  (forall k e, nth_error pend k = Some (Some e) ->
     term_all (fun j => (j < i + k)%nat \/ fr j) e -> (i + k < length row)%nat ->
     nth (i + k) final CNull = cell_of_opt (eval_term final e)).
Proof.
  induction pend as [|p pend IH]; intros i row Hfr; cbn zeta.
  - split; auto. intros [|k] e H; discriminate.
  - cbn [fill_from].
    set (row' := match p with Some e => set_nth i (cell_of_opt (eval_term row e)) row | None => row end).
    destruct (IH (S i) row') as [I2 I3].
    { intros k e Hk. specialize (Hfr (S k) e Hk). now rewrite Nat.add_succ_r in Hfr. }
    assert (Hrow' : forall j, (j < i)%nat \/ fr j -> nth_error row' j = nth_error row j).
    { intros j Hj. unfold row'. destruct p as [e0|]; auto. apply set_nth_other.
      intros ->. destruct Hj as [Hj|Hj]; [lia|]. apply (Hfr 0%nat e0 eq_refl). now rewrite Nat.add_0_r. }
    split.
    + intros j Hj. rewrite I2; [now apply Hrow'|]. destruct Hj; [left; lia|now right].
    + intros [|k] e Hk Hrefs Hlt.
      * cbn in Hk. injection Hk as ->. rewrite Nat.add_0_r in *.
        rewrite nth_as_error, I2 by (left; lia). unfold row' at 1. rewrite set_nth_same by auto. f_equal.
        apply eval_term_ext. eapply term_all_impl; [|exact Hrefs]. cbn beta. intros j Hj.
        rewrite !nth_as_error, I2 by (destruct Hj; [left; lia|now right]). now rewrite Hrow'.
      * rewrite Nat.add_succ_r in *. apply (I3 k e Hk Hrefs). unfold row'. destruct p; [rewrite set_nth_length|]; exact Hlt.
Qed.

Lemma fill_from_fixed : forall pend i row,
  (forall k e, nth_error pend k = Some (Some e) -> nth_error row (i + k) = Some (cell_of_opt (eval_term row e))) ->
  fill_from pend i row = row.
Proof.
  induction pend as [|p pend IH]; intros i row H; cbn; auto.
  assert (Hp : match p with Some e => set_nth i (cell_of_opt (eval_term row e)) row | None => row end = row).
  { destruct p as [e|]; auto. apply set_nth_id. specialize (H 0%nat e eq_refl). now rewrite Nat.add_0_r in H. }
  rewrite Hp. apply IH. intros k e Hk. specialize (H (S k) e Hk). now rewrite Nat.add_succ_r in H.
Qed.

(* every expression reads earlier positions or positions that are not pending *)
Definition wf_pend (pend : list (option term)) : Prop :=
  forall i e, nth_error pend i = Some (Some e) -> term_all (fun j => (j < i)%nat \/ free_at pend j) e.

Definition row_pending_ok (pend : list (option term)) (r : list (option Z)) : Prop :=
  forall i e, nth_error pend i = Some (Some e) -> nth i r None = eval_term (cells r) e.

Lemma pending_not_free pend k e : nth_error pend k = Some (Some e) -> ~ free_at pend (0 + k).
Proof. unfold free_at. cbn. now intros ->. Qed.

Lemma fill_from_ok pend row :
  wf_pend pend -> length row = length pend -> Forall int_cell row ->
  row_pending_ok pend (map convert (fill_from pend 0 row)).
Proof.
  intros Hwf HL Hint i e Hp.
  rewrite cells_convert by (now apply fill_from_int).
  destruct (fill_from_spec (free_at pend) pend 0%nat row (pending_not_free pend)) as [_ H]. cbn [Nat.add] in H.
  rewrite nth_map_convert, (H i e Hp (Hwf i e Hp)); [apply convert_cell_of_opt|].
  rewrite HL. eapply nth_error_some_lt; eauto.
Qed.

Lemma fill_from_free pend row j : free_at pend j -> nth_error (fill_from pend 0 row) j = nth_error row j.
Proof.
  intros H. destruct (fill_from_spec (free_at pend) pend 0%nat row (pending_not_free pend)) as [H1 _]. apply H1. now right.
Qed.

(* a column that the second pass never fills: no generated expression, no expression default *)
Definition plain_col (sch : list col) (j : nat) : Prop :=
  match nth_error sch j with
  | Some c => gen c = None /\ match dflt c with DExpr _ => False | _ => True end
  | None => True
  end.

(* generated columns and expression defaults read earlier columns and plain columns only *)
Definition wf_schema (sch : list col) : Prop :=
  forall i c e, nth_error sch i = Some c -> (gen c = Some e \/ dflt c = DExpr e) ->
    term_all (fun j => (j < i)%nat \/ plain_col sch j) e.

Definition virt_pend (sch : list col) : list (option term) := map (fun c => if virt c then gen c else None) sch.

(* each pending list of the model takes its expressions from the schema, position by position, and leaves the plain
   columns alone *)
Lemma wf_pend_of_schema sch pend :
  wf_schema sch ->
  (forall i e, nth_error pend i = Some (Some e) ->
               exists c, nth_error sch i = Some c /\ (gen c = Some e \/ dflt c = DExpr e)) ->
  (forall j, plain_col sch j -> free_at pend j) ->
  wf_pend pend.
Proof.
  intros Hwf Hsrc Hfree i e Hp. destruct (Hsrc i e Hp) as (c & Hc & Hge).
  eapply term_all_impl; [|exact (Hwf i c e Hc Hge)]. cbn beta. intros j [Hj|Hj]; auto.
Qed.

Lemma wf_pend_gen sch : wf_schema sch -> wf_pend (map gen sch).
Proof.
  intros Hwf. apply (wf_pend_of_schema sch); auto.
  - intros i e. rewrite nth_error_map. destruct (nth_error sch i) as [c|]; [|discriminate]. intros [= Hg]. eauto.
  - intros j. unfold plain_col, free_at. rewrite nth_error_map.
    destruct (nth_error sch j) as [c|]; cbn; auto. now intros [-> _].
Qed.

Lemma wf_pend_virt sch : wf_schema sch -> wf_pend (virt_pend sch).
Proof.
  intros Hwf. apply (wf_pend_of_schema sch); auto; unfold virt_pend.
  - intros i e. rewrite nth_error_map. destruct (nth_error sch i) as [c|]; [|discriminate]. cbn.
    destruct (virt c); [|discriminate]. intros [= Hg]. eauto.
  - intros j. unfold plain_col, free_at. rewrite nth_error_map.
    destruct (nth_error sch j) as [c|]; cbn; auto. intros [-> _]. now destruct (virt c).
Qed.

Lemma wf_pend_ins sch rs : wf_schema sch -> wf_pend (map2 pend_ins sch rs).
Proof.
  intros Hwf. apply (wf_pend_of_schema sch); auto.
  - intros i e. rewrite map2_nth_error. destruct (nth_error sch i) as [c|]; [|discriminate].
    destruct (nth_error rs i) as [r|]; [|discriminate]. intros [= Hp]. exists c. split; auto.
    unfold pend_ins in Hp. destruct r; try discriminate. destruct (gen c); [left; congruence|].
    destruct (dflt c); try discriminate. right. congruence.
  - intros j. unfold plain_col, free_at. rewrite map2_nth_error.
    destruct (nth_error sch j) as [c|]; cbn; auto. destruct (nth_error rs j) as [r|]; auto.
    intros [Hg Hd]. unfold pend_ins. destruct r; auto. rewrite Hg. now destruct (dflt c).
Qed.

Definition row_ok (sch : list col) (chks : list check) (r : list (option Z)) : Prop :=
  length r = length sch /\ row_checks_ok chks r /\ row_notnull_ok sch r /\ row_generated_ok sch r.

Lemma generated_ok_of_pending sch r : row_pending_ok (map gen sch) r -> row_generated_ok sch r.
Proof. intros H i c e Hs Hg. apply H. now rewrite nth_error_map, Hs, <- Hg. Qed.

Lemma fill_generated_length sch row : length (fill_generated sch row) = length row.
Proof. apply fill_from_length. Qed.

Lemma fill_generated_int sch row : Forall int_cell row -> Forall int_cell (fill_generated sch row).
Proof. apply fill_from_int. Qed.

Lemma fill_generated_ok sch row :
  wf_schema sch -> length row = length sch -> Forall int_cell row ->
  row_generated_ok sch (map convert (fill_generated sch row)).
Proof.
  intros Hwf HL Hint. apply generated_ok_of_pending. apply fill_from_ok; auto.
  - now apply wf_pend_gen.
  - now rewrite map_length.
Qed.

(* reading the virtual columns back changes nothing when the generated columns already equal their expressions *)
Lemma refresh_virtual_id sch r :
  length r = length sch -> row_generated_ok sch r -> refresh_virtual sch r = r.
Proof.
  intros HL Hg. unfold refresh_virtual. fold (cells r). fold (virt_pend sch).
  rewrite fill_from_fixed; [apply convert_cells|].
  intros k e Hk. cbn. unfold virt_pend in Hk. rewrite nth_error_map in Hk.
  destruct (nth_error sch k) as [c|] eqn:Ec; [|discriminate]. cbn in Hk.
  destruct (virt c); [|discriminate]. injection Hk as Hge.
  rewrite <- (Hg k c e Ec Hge). unfold cells. rewrite nth_error_map, nth_as_error.
  assert (Hlt : (k < length r)%nat) by (rewrite HL; eapply nth_error_some_lt; eauto).
  destruct (nth_error r k) eqn:Er; [reflexivity|]. apply nth_error_None in Er. lia.
Qed.

Lemma refresh_virtual_length sch r : length (refresh_virtual sch r) = length r.
Proof. unfold refresh_virtual. now rewrite map_length, fill_from_length, map_length. Qed.

Lemma refresh_virtual_other sch r i c :
  nth_error sch i = Some c -> (virt c = false \/ gen c = None) ->
  nth_error (refresh_virtual sch r) i = nth_error r i.
Proof.
  intros Hs Hv. unfold refresh_virtual. rewrite nth_error_map, fill_from_free.
  - rewrite nth_error_map. destruct (nth_error r i); cbn; auto. now rewrite convert_cell_of_opt.
  - unfold free_at. rewrite nth_error_map, Hs. cbn. destruct Hv as [-> | ->]; auto. now destruct (virt c).
Qed.

Lemma checks_pass_ok chks row :
  Forall int_cell row -> existsb (check_false row) chks = false -> row_checks_ok chks (map convert row).
Proof.
  intros Hint Hex c Hc. rewrite cells_convert by auto. intros Hf.
  assert (existsb (check_false row) chks = true); [|congruence].
  apply existsb_exists. exists c. split; auto. unfold check_false. now rewrite Hf.
Qed.

(* Where INSERT, UPDATE and ON DUPLICATE KEY UPDATE meet: a row of cells of the column types whose generated columns
   hold their expressions, and that passes the checks and validateNullability without IGNORE, is stored as it is. *)
Lemma stored_row_ok sch chks row :
  length row = length sch -> Forall int_cell row -> row_generated_ok sch (map convert row) ->
  existsb (check_false row) chks = false -> nullability false sch row = Some row ->
  row_ok sch chks (refresh_virtual sch (map convert row)).
Proof.
  intros HL Hint Hg Ec En. rewrite refresh_virtual_id by (rewrite ?map_length; auto).
  split; [now rewrite map_length|split; [now apply checks_pass_ok|split; auto]]. eapply nullability_notnull; eauto.
Qed.

Lemma insert_row_inv ign sch chks rs r :
  insert_row ign sch chks rs = Stored r ->
  exists row1 r0, nullability ign sch (source_row sch rs) = Some row1 /\ existsb (check_false row1) chks = false /\
                  convert_row ign sch row1 = inl r0 /\ r = refresh_virtual sch r0.
Proof.
  unfold insert_row. destruct (existsb (fun b => b) _); [discriminate|].
  destruct (nullability ign sch _) as [row1|]; [|discriminate].
  destruct (existsb _ chks) eqn:Ec; [destruct ign; discriminate|].
  destruct (convert_row ign sch row1) as [r0|] eqn:Ecv; [|discriminate]. intros [= <-]. exists row1, r0. auto.
Qed.

Lemma source_row_length sch rs : length rs = length sch -> length (source_row sch rs) = length sch.
Proof. intros HL. unfold source_row. rewrite fill_from_length. now apply map2_length. Qed.

(* values that already have the column type *)
Definition typed_raw (r : raw) : Prop := match r with RStrI _ | RStrF _ | RBad _ => False | _ => True end.

(* a row of an INSERT the typed theorems speak about: one value per column, no strings, DEFAULT in the generated columns *)
Definition typed_row (sch : list col) (rs : list raw) : Prop :=
  length rs = length sch /\ Forall typed_raw rs /\ existsb (fun b => b) (map2 explicit_gen sch rs) = false.

Lemma cell_of_raw_int c r : typed_raw r -> int_cell (cell_of_raw c r).
Proof. destruct r; cbn; intros H; auto; try contradiction. destruct (dflt c); exact I. Qed.

Lemma base_row_int sch rs : Forall typed_raw rs -> Forall int_cell (map2 cell_of_raw sch rs).
Proof.
  intros H. apply Forall_forall. intros x Hx. apply In_nth_error in Hx. destruct Hx as [i Hi].
  rewrite map2_nth_error in Hi. destruct (nth_error sch i) as [c|]; [|discriminate].
  destruct (nth_error rs i) as [r|] eqn:Er; [|discriminate]. injection Hi as <-.
  apply cell_of_raw_int. rewrite Forall_forall in H. apply H. eapply nth_error_In; eauto.
Qed.

(* the stored row of a typed INSERT: every pending expression (generated column, expression default) holds over it *)
Lemma insert_typed_row_shape sch chks rs r :
  wf_schema sch -> typed_row sch rs -> insert_row false sch chks rs = Stored r ->
  row_ok sch chks r /\ row_pending_ok (map2 pend_ins sch rs) r.
Proof.
  intros Hwf (HL & Ht & Hex) H. destruct (insert_row_inv _ _ _ _ _ H) as (row1 & r0 & En & Ec & Ecv & ->).
  pose proof (source_row_length sch rs HL) as HL0.
  assert (Hint : Forall int_cell (source_row sch rs)) by (now apply fill_from_int, base_row_int).
  pose proof (nullability_strict_id _ _ _ HL0 En) as ->. pose proof (convert_row_strict _ _ _ HL0 Hint Ecv) as ->.
  assert (Hpend : row_pending_ok (map2 pend_ins sch rs) (map convert (source_row sch rs))).
  { apply fill_from_ok; [now apply wf_pend_ins| |now apply base_row_int]. now rewrite !map2_length. }
  assert (Hgen : row_generated_ok sch (map convert (source_row sch rs))).
  { intros i c e Hs Hg. apply Hpend. rewrite map2_nth_error, Hs.
    destruct (nth_error_same_length sch rs i c (eq_sym HL) Hs) as [x Hx]. rewrite Hx. f_equal.
    assert (Hx' : explicit_gen c x = false).
    { apply (existsb_id_false _ Hex i). now rewrite map2_nth_error, Hs, Hx. }
    unfold explicit_gen in Hx'. rewrite Hg in Hx'. destruct x; try discriminate. cbn. now rewrite Hg. }
  split; [now apply stored_row_ok|]. rewrite refresh_virtual_id; auto. now rewrite map_length.
Qed.

Theorem insert_typed_row_ok sch chks rs r :
  wf_schema sch -> typed_row sch rs -> insert_row false sch chks rs = Stored r -> row_ok sch chks r.
Proof. intros Hwf Ht H. now destruct (insert_typed_row_shape sch chks rs r Hwf Ht H). Qed.

(* expression defaults: an omitted / DEFAULT column with DEFAULT (e) holds e evaluated over the stored row *)
Theorem expression_defaults_applied sch chks rs r i c e :
  wf_schema sch -> typed_row sch rs -> insert_row false sch chks rs = Stored r ->
  nth_error sch i = Some c -> gen c = None -> dflt c = DExpr e -> nth_error rs i = Some RDef ->
  nth i r None = eval_term (cells r) e.
Proof.
  intros Hwf Ht H Hs Hg Hd Hr. destruct (insert_typed_row_shape sch chks rs r Hwf Ht H) as [_ Hp].
  apply Hp. rewrite map2_nth_error, Hs, Hr. cbn. now rewrite Hg, Hd.
Qed.

(* literal defaults: any values elsewhere, IGNORE or not *)
Theorem defaults_applied ign sch chks rs r i c :
  length rs = length sch -> insert_row ign sch chks rs = Stored r ->
  nth_error sch i = Some c -> gen c = None -> nth_error rs i = Some RDef ->
  match dflt c with
  | DLit d => in_range (cty c) d = true -> nth i r None = Some d
  | DNone => in_range (cty c) 0 = true -> nth i r None = if ign && notnull c then Some 0 else None
  | DExpr _ => True
  end.
Proof.
  intros HL H Hs Hg Hr. destruct (insert_row_inv _ _ _ _ _ H) as (row1 & r0 & En & _ & Ecv & ->).
  destruct (dflt c) as [|d|e] eqn:Ed; [| |exact I]; intros Hin.
  (* the second pass leaves the column alone, so what the first pass put there goes through the two later stages *)
  all: assert (Hsrc : nth_error (source_row sch rs) i = Some (cell_of_raw c RDef))
    by (unfold source_row; rewrite fill_from_free, map2_nth_error, Hs, Hr; [reflexivity|];
        unfold free_at; rewrite map2_nth_error, Hs, Hr; cbn; now rewrite Hg, Ed).
  all: rewrite nth_as_error, (refresh_virtual_other sch r0 i c Hs (or_intror Hg)), (convert_row_nth _ _ _ _ Ecv i), Hs,
         (nullability_nth _ _ _ _ i En), Hs, Hsrc; cbn; rewrite Ed; cbn.
  - destruct (notnull c) eqn:Enn; [destruct ign|]; cbn.
    + unfold conv_val. cbn. unfold conv_range. now rewrite Hin.
    + apply nullability_some in En. destruct En as [_ Hstrict]. elim (Hstrict eq_refl i c Hs Enn).
      rewrite Hsrc. cbn. now rewrite Ed.
    + now rewrite andb_false_r.
  - unfold conv_val. cbn. unfold conv_range. now rewrite Hin.
Qed.

(* NOT NULL holds for every stored row, whatever the values and with or without IGNORE *)
(* virtual generated columns are nullable *)
Definition wf_virtual (sch : list col) : Prop :=
  forall i c, nth_error sch i = Some c -> virt c = true -> notnull c = false.

Definition shape_ok (sch : list col) (r : list (option Z)) : Prop :=
  length r = length sch /\ row_notnull_ok sch r.

Lemma refresh_shape sch r : wf_virtual sch -> shape_ok sch r -> shape_ok sch (refresh_virtual sch r).
Proof.
  intros Hv [HL Hn]. split; [now rewrite refresh_virtual_length|].
  intros i c Hs Hnn. rewrite nth_as_error, (refresh_virtual_other sch r i c Hs).
  - rewrite <- nth_as_error. now apply (Hn i c).
  - left. destruct (virt c) eqn:E; auto. rewrite (Hv i c Hs E) in Hnn. discriminate.
Qed.

Lemma convert_row_shape ign sch row1 row0 r :
  length row0 = length sch -> nullability ign sch row0 = Some row1 -> convert_row ign sch row1 = inl r -> shape_ok sch r.
Proof.
  intros HL En Ecv.
  assert (HL1 : length row1 = length sch) by (eapply nullability_length; eauto).
  split; [eapply convert_row_length; eauto|].
  intros i c Hs Hn. rewrite nth_as_error, (convert_row_nth _ _ _ _ Ecv i), Hs.
  destruct (nth_error_same_length sch row1 i c (eq_sym HL1) Hs) as [x Hx]. rewrite Hx.
  apply conv_val_not_none; [|eapply convert_row_noerr; eauto].
  rewrite (nullability_nth _ _ _ _ i En), Hs in Hx.
  destruct (nth_error row0 i) as [y|]; [|discriminate]. injection Hx as <-.
  unfold null_fix. destruct y; try discriminate. rewrite Hn. discriminate.
Qed.

Theorem insert_row_notnull ign sch chks rs r :
  wf_virtual sch -> length rs = length sch -> insert_row ign sch chks rs = Stored r -> shape_ok sch r.
Proof.
  intros Hv HL H. destruct (insert_row_inv _ _ _ _ _ H) as (row1 & r0 & En & _ & Ecv & ->).
  apply refresh_shape; auto. eapply convert_row_shape; eauto. now apply source_row_length.
Qed.

Definition typed_rhs (x : urhs) : Prop := match x with URaw r => typed_raw r | UTerm _ => True end.

(* SetField.Eval converts: whatever the right side, the working row holds values of the column types *)
Lemma set_value_int ign sch row i rhs v : set_value ign sch row i rhs = inl v -> int_cell v.
Proof.
  unfold set_value. destruct rhs as [r|e].
  - destruct r; intros H; try (injection H as <-; cbn; auto; fail);
      try (destruct ign; [injection H as <-; exact I|discriminate]).
    destruct (gen (nth i sch no_col)); [injection H as <-; destruct (eval_term row t); exact I|].
    destruct (dflt (nth i sch no_col)); try (injection H as <-; exact I).
    destruct (eval_term row e); [injection H as <-; exact I|].
    destruct (notnull (nth i sch no_col)); [discriminate|injection H as <-; exact I].
  - intros H. injection H as <-. destruct (eval_term row e); exact I.
Qed.

Lemma apply_sets_shape ign sch : forall sets row w,
  Forall int_cell row -> apply_sets ign sch row sets = inl w -> length w = length row /\ Forall int_cell w.
Proof.
  induction sets as [|[i rhs] sets IH]; intros row w Hr H; cbn in H.
  - now injection H as <-.
  - destruct (set_value ign sch row i rhs) as [v|] eqn:Ev; [|discriminate].
    destruct (IH _ _ (set_nth_int i v row (set_value_int _ _ _ _ _ _ Ev) Hr) H) as [HL Hw].
    now rewrite HL, set_nth_length.
Qed.

Lemma opt_eqb_eq a b : opt_eqb a b = true -> a = b.
Proof. destruct a, b; cbn; try discriminate; auto. intros H. apply Z.eqb_eq in H. now subst. Qed.

Lemma row_eqb_eq : forall a b, row_eqb a b = true -> a = b.
Proof.
  induction a as [|x a IH]; intros [|y b] H; cbn in H; try discriminate; auto.
  apply andb_true_iff in H. destruct H as [H1 H2]. apply opt_eqb_eq in H1. apply IH in H2. congruence.
Qed.

(* an UPDATE keeps the old row, or stores the working row w with its generated columns recomputed *)
Lemma update_row_inv ign sch chks sets old r :
  update_row ign sch chks sets old = Stored r ->
  r = old \/
  exists w w2, length w = length old /\ Forall int_cell w /\
               existsb (check_false (fill_generated sch w)) chks = false /\
               nullability ign sch (fill_generated sch w) = Some w2 /\ r = refresh_virtual sch (map convert w2).
Proof.
  unfold update_row. fold (cells old). destruct (apply_sets _ _ _ _) as [w|] eqn:Ea; [|discriminate].
  apply apply_sets_shape in Ea; [|apply cells_int]. unfold cells in Ea. rewrite map_length in Ea. destruct Ea as [HL Hw].
  destruct (row_eqb (map convert w) old) eqn:E1.
  - rewrite E1. intros [= <-]. now left.
  - destruct (row_eqb (map convert (fill_generated sch w)) old); [intros [= <-]; now left|].
    destruct (existsb _ chks) eqn:Ec; [destruct ign; discriminate|].
    destruct (nullability _ _ _) as [w2|] eqn:En; [|discriminate]. intros [= <-]. right. exists w, w2. auto.
Qed.

(* ON DUPLICATE KEY UPDATE stores the working row w1: the first half w of the accumulator if that equals the old
   row, w with its generated columns recomputed otherwise *)
Lemma odku_row_inv ign sch chks sets old new r :
  odku_row ign sch chks sets old new = Stored r ->
  exists w w1 w2, length w = length old /\ Forall int_cell w /\
                  (w1 = w /\ map convert w = old \/ w1 = fill_generated sch w) /\
                  existsb (check_false w1) chks = false /\
                  nullability false sch w1 = Some w2 /\ r = refresh_virtual sch (map convert w2).
Proof.
  unfold odku_row. fold (cells old) (cells new). destruct (apply_sets _ _ _ _) as [acc|] eqn:Ea; [|discriminate].
  apply apply_sets_shape in Ea; [|apply Forall_app; split; apply cells_int]. destruct Ea as [HL Hacc].
  set (w := firstn (length old) acc).
  assert (HLw : length w = length old).
  { apply firstn_length_le. rewrite HL, app_length. unfold cells. rewrite map_length. lia. }
  destruct (existsb _ chks) eqn:Ec; [destruct ign; discriminate|].
  destruct (nullability _ _ _) as [w2|] eqn:En; [|discriminate]. intros [= <-].
  exists w, (if row_eqb (map convert w) old then w else fill_generated sch w), w2.
  repeat split; auto; [now apply Forall_firstn|].
  destruct (row_eqb (map convert w) old) eqn:E1; [left; split; auto; now apply row_eqb_eq|now right].
Qed.

Lemma nullability_shape ign sch w1 w2 :
  wf_virtual sch -> length w1 = length sch -> nullability ign sch w1 = Some w2 ->
  shape_ok sch (refresh_virtual sch (map convert w2)).
Proof.
  intros Hv HL En. apply refresh_shape; auto. split.
  - rewrite map_length. eapply nullability_length; eauto.
  - eapply nullability_notnull; eauto.
Qed.

Theorem update_row_notnull ign sch chks sets old r :
  wf_virtual sch -> shape_ok sch old -> update_row ign sch chks sets old = Stored r -> shape_ok sch r.
Proof.
  intros Hv Ho H. destruct (update_row_inv _ _ _ _ _ _ H) as [->|(w & w2 & HLw & _ & _ & En & ->)]; auto.
  apply (nullability_shape ign sch (fill_generated sch w)); auto. rewrite fill_generated_length, HLw. apply Ho.
Qed.

Lemma odku_row_notnull ign sch chks sets old new r :
  wf_virtual sch -> shape_ok sch old -> odku_row ign sch chks sets old new = Stored r -> shape_ok sch r.
Proof.
  intros Hv Ho H. destruct (odku_row_inv _ _ _ _ _ _ _ H) as (w & w1 & w2 & HLw & _ & Hw1 & _ & En & ->).
  apply (nullability_shape false sch w1); auto.
  destruct Hw1 as [[-> _]| ->]; [|rewrite fill_generated_length]; rewrite HLw; apply Ho.
Qed.

Lemma recomputed_row_ok sch chks w r :
  wf_schema sch -> length w = length sch -> Forall int_cell w ->
  existsb (check_false (fill_generated sch w)) chks = false ->
  nullability false sch (fill_generated sch w) = Some r ->
  row_ok sch chks (refresh_virtual sch (map convert r)).
Proof.
  intros Hwf HLw Hiw Ec En.
  assert (HL1 : length (fill_generated sch w) = length sch) by (now rewrite fill_generated_length).
  pose proof (nullability_strict_id _ _ _ HL1 En) as ->.
  apply stored_row_ok; auto using fill_generated_int, fill_generated_ok.
Qed.

Theorem update_typed_row_ok sch chks sets old r :
  wf_schema sch -> row_ok sch chks old -> update_row false sch chks sets old = Stored r -> row_ok sch chks r.
Proof.
  intros Hwf Hold H. destruct (update_row_inv _ _ _ _ _ _ H) as [->|(w & w2 & HLw & Hiw & Ec & En & ->)]; auto.
  apply (recomputed_row_ok sch chks w w2); auto. rewrite HLw. apply Hold.
Qed.

Theorem odku_typed_row_ok sch chks sets old new r :
  wf_schema sch -> row_ok sch chks old -> odku_row false sch chks sets old new = Stored r -> row_ok sch chks r.
Proof.
  intros Hwf Hold H. destruct (odku_row_inv _ _ _ _ _ _ _ H) as (w & w1 & w2 & HLw & Hiw & Hw1 & Ec & En & ->).
  pose proof Hold as (HLo & _ & _ & Hg). rewrite HLo in HLw.
  destruct Hw1 as [[-> E]| ->]; [|now apply (recomputed_row_ok sch chks w w2)].
  pose proof (nullability_strict_id _ _ _ HLw En) as ->. apply stored_row_ok; auto. now rewrite E.
Qed.

(* the statements: one invariant P on rows, preserved by the row-level steps *)
Section Statements.
  Variable sch : list col.
  Variable chks : list check.
  Variable P : list (option Z) -> Prop.

  Lemma insert_rows_forall ign (Q : list raw -> Prop) :
    (forall rs r, Q rs -> insert_row ign sch chks rs = Stored r -> P r) ->
    forall rows acc t', Forall Q rows -> Forall P acc -> insert_rows ign sch chks rows acc = inl t' -> Forall P t'.
  Proof.
    intros Hi. induction rows as [|rs rows IH]; intros acc t' Hl Ha H; cbn in H.
    - now injection H as <-.
    - inversion Hl as [|? ? Hl1 Hl2]; subst.
      destruct (insert_row ign sch chks rs) as [r| |e] eqn:E; try discriminate.
      + apply (IH (acc ++ [r])); auto. apply Forall_app. split; auto. constructor; eauto.
      + apply (IH acc); auto.
  Qed.

  Lemma update_rows_forall ign sets wh :
    (forall old r, P old -> update_row ign sch chks sets old = Stored r -> P r) ->
    forall t t', Forall P t -> update_rows ign sch chks sets wh t = inl t' -> Forall P t'.
  Proof.
    intros Hu. induction t as [|r t IH]; intros t' Ht H; cbn in H.
    - now injection H as <-.
    - inversion Ht as [|? ? Hr Ht']; subst.
      (* the row kept at the head is r or what UPDATE stores for it *)
      assert (Hk : forall r', (if matches wh r then update_row ign sch chks sets r else Stored r) = Stored r' -> P r').
      { destruct (matches wh r); [eauto|now intros r' [= <-]]. }
      destruct (if matches wh r then _ else _) as [r'| |e]; [| |discriminate];
        (destruct (update_rows ign sch chks sets wh t) as [t2|]; [|discriminate]); injection H as <-; constructor; auto.
  Qed.

  Lemma insert_by_id_forall r : forall t, P r -> Forall P t -> Forall P (insert_by_id r t).
  Proof.
    induction t as [|x t IH]; intros Hr Ht; cbn; [constructor; auto|].
    inversion Ht as [|? ? Hx Ht']; subst.
    destruct (nth 0 r None), (nth 0 x None); try (constructor; auto).
    destruct (z <? z0); constructor; auto.
  Qed.

  Lemma replace_id_forall k r : forall t, P r -> Forall P t -> Forall P (replace_id k r t).
  Proof.
    induction t as [|x t IH]; intros Hr Ht; cbn; auto.
    inversion Ht as [|? ? Hx Ht']; subst. destruct (opt_eqb (nth 0 x None) k); constructor; auto.
  Qed.

  Lemma upsert_rows_forall ign sets (Q : list raw -> Prop) :
    (forall rs r, Q rs -> insert_row ign sch chks rs = Stored r -> P r) ->
    (forall old new r, P old -> P new -> odku_row ign sch chks sets old new = Stored r -> P r) ->
    forall rows t t', Forall Q rows -> Forall P t -> upsert_rows ign sch chks sets rows t = inl t' -> Forall P t'.
  Proof.
    intros Hi Hu. induction rows as [|rs rows IH]; intros t t' Hl Ht H; cbn in H.
    - now injection H as <-.
    - inversion Hl as [|? ? Hl1 Hl2]; subst.
      destruct (insert_row ign sch chks rs) as [r| |e] eqn:Ei; try discriminate.
      + assert (Pr : P r) by eauto.
        destruct (find (same_id r) t) as [old|] eqn:Ef.
        * apply find_some in Ef. destruct Ef as [Hin _].
          assert (Pold : P old) by (rewrite Forall_forall in Ht; auto).
          destruct (odku_row ign sch chks sets old r) as [r'| |e] eqn:Eo; try discriminate.
          -- apply (IH _ _ Hl2 (replace_id_forall _ r' t (Hu _ _ _ Pold Pr Eo) Ht) H).
          -- apply (IH _ _ Hl2 Ht H).
        * apply (IH _ _ Hl2 (insert_by_id_forall r t Pr Ht) H).
      + apply (IH _ _ Hl2 Ht H).
  Qed.

  Lemma replace_rows_forall (Q : list raw -> Prop) :
    (forall rs r, Q rs -> insert_row false sch chks rs = Stored r -> P r) ->
    forall rows t t', Forall Q rows -> Forall P t -> replace_rows sch chks rows t = inl t' -> Forall P t'.
  Proof.
    intros Hi. induction rows as [|rs rows IH]; intros t t' Hl Ht H; cbn in H.
    - now injection H as <-.
    - inversion Hl as [|? ? Hl1 Hl2]; subst.
      destruct (insert_row false sch chks rs) as [r| |e] eqn:Ei; try discriminate.
      + apply (IH _ _ Hl2 (insert_by_id_forall r _ (Hi _ _ Hl1 Ei) (incl_Forall (incl_filter _ t) Ht)) H).
      + apply (IH _ _ Hl2 Ht H).
  Qed.
End Statements.

(* A predicate on stored rows that INSERT, UPDATE and ON DUPLICATE KEY UPDATE of one row preserve - for the IGNORE flags
   in okI and the inserted rows in okR - holds after every history of such statements. *)
Section Histories.
  Variable sch : list col.
  Variable chks : list check.
  Variable P : list (option Z) -> Prop.
  Variable okI : bool -> Prop.
  Variable okR : list raw -> Prop.

  Definition stmt_ok (s : stmt) : Prop :=
    match s with
    | Insert ign rows | Upsert ign rows _ => okI ign /\ Forall okR rows
    | Update ign _ _ => okI ign
    | Replace rows => Forall okR rows
    end.

  Hypothesis Hrep : okI false.
  Hypothesis Hins : forall ign rs r,
    okI ign -> okR rs -> insert_row ign sch (eff_checks sch chks) rs = Stored r -> P r.
  Hypothesis Hupd : forall ign sets old r,
    okI ign -> P old -> update_row ign sch (eff_checks sch chks) sets old = Stored r -> P r.
  Hypothesis Hodku : forall ign sets old new r,
    okI ign -> P old -> odku_row ign sch (eff_checks sch chks) sets old new = Stored r -> P r.

  Lemma exec_forall s t : stmt_ok s -> Forall P t -> Forall P (fst (exec sch chks t s)).
  Proof.
    intros Hs Ht. unfold exec. set (ck := eff_checks sch chks) in *.
    assert (Hfin : forall x : table + err, (forall t', x = inl t' -> Forall P t') ->
                   Forall P (fst (match x with inl t' => (t', ROk) | inr e => (t, RErr e) end))).
    { intros [t'|e] H; cbn; auto. }
    destruct s as [ign rows|ign sets wh|ign rows sets|rows]; cbn in Hs;
      try (destruct (first_row_gen_value sch rows); [exact Ht|]); apply Hfin; intros t' E.
    - destruct Hs as [Hi Hr].
      exact (insert_rows_forall sch ck P ign okR (fun rs r => Hins ign rs r Hi) rows t t' Hr Ht E).
    - exact (update_rows_forall sch ck P ign sets wh (fun old r => Hupd ign sets old r Hs) t t' Ht E).
    - destruct Hs as [Hi Hr].
      exact (upsert_rows_forall sch ck P ign sets okR (fun rs r => Hins ign rs r Hi)
               (fun old new r Ho _ => Hodku ign sets old new r Hi Ho) rows t t' Hr Ht E).
    - exact (replace_rows_forall sch ck P okR (fun rs r => Hins false rs r Hrep) rows t t' Hs Ht E).
  Qed.

  Theorem run_forall : forall h t, Forall stmt_ok h -> Forall P t -> Forall P (run sch chks t h).
  Proof.
    induction h as [|s h IH]; intros t Hh Ht; cbn [run]; auto.
    inversion Hh; subst. apply IH; auto. now apply exec_forall.
  Qed.
End Histories.

Definition stmt_lengths_ok (sch : list col) (s : stmt) : Prop :=
  match s with
  | Insert _ rows | Upsert _ rows _ | Replace rows => Forall (fun rs => length rs = length sch) rows
  | Update _ _ _ => True
  end.

Theorem not_null_respected sch chks : wf_virtual sch -> forall h t,
  Forall (stmt_lengths_ok sch) h -> Forall (shape_ok sch) t -> Forall (shape_ok sch) (run sch chks t h).
Proof.
  intros Hv h t Hh. apply (run_forall sch chks (shape_ok sch) (fun _ => True) (fun rs => length rs = length sch)); [exact I| | | |].
  - intros ign rs r _. now apply insert_row_notnull.
  - intros ign sets old r _. now apply update_row_notnull.
  - intros ign sets old new r _. now apply odku_row_notnull.
  - eapply Forall_impl; [|exact Hh]. intros [ | | | ]; cbn; auto.
Qed.

Definition typed_stmt (sch : list col) (s : stmt) : Prop :=
  match s with
  | Insert ign rows => ign = false /\ Forall (typed_row sch) rows
  | Update ign _ _ => ign = false
  | Upsert ign rows _ => ign = false /\ Forall (typed_row sch) rows
  | Replace rows => Forall (typed_row sch) rows
  end.

(* the CHECKs the engine enforces: none at all when the table has a VIRTUAL column *)
Theorem stored_rows_ok_typed_histories sch chks : wf_schema sch -> forall h t,
  Forall (typed_stmt sch) h -> Forall (row_ok sch (eff_checks sch chks)) t ->
  Forall (row_ok sch (eff_checks sch chks)) (run sch chks t h).
Proof.
  intros Hwf h t Hh.
  apply (run_forall sch chks (row_ok sch (eff_checks sch chks)) (fun ign => ign = false) (typed_row sch)); [reflexivity| | | |].
  - intros ign rs r ->. now apply insert_typed_row_ok.
  - intros ign sets old r ->. now apply update_typed_row_ok.
  - intros ign sets old new r ->. now apply odku_typed_row_ok.
  - eapply Forall_impl; [|exact Hh]. intros [ | | | ]; cbn; auto.
Qed.

(* without a VIRTUAL column these are the declared CHECKs *)
Lemma eff_checks_no_virtual sch chks : existsb virt sch = false -> eff_checks sch chks = chks.
Proof. intros H. unfold eff_checks. now rewrite H. Qed.

(* what is false of the faithful model *)
Definition I32 := mkTy (-2147483648) 2147483647 false.
Definition I8 := mkTy (-128) 127 false.
Definition U8 := mkTy 0 255 true.
Definition bcol (nn : bool) := mkCol I32 nn DNone None false.
Definition gcol (e : term) := mkCol I32 false DNone (Some e) false.

(* t (c0 INT PRIMARY KEY, c1 INT, CHECK (c1 < 10)); INSERT INTO t VALUES (1, '9.6') stores 10 *)
Definition w_sch1 := [bcol true; bcol false].
Definition w_chk1 := [mkCheck Lt (TCol 1) (TLit 10)].
Lemma check_before_convert_witness :
  run w_sch1 w_chk1 [] [Insert false [[RInt 1; RStrF 96]]] = [[Some 1; Some 10]] /\
  eval_check (cells [Some 1; Some 10]) (mkCheck Lt (TCol 1) (TLit 10)) = Some false.
Proof. split; vm_compute; reflexivity. Qed.

(* t (c0, c1 INT, c2 INT AS (c1 * 2) STORED); '9.6' stores c1 = 10, c2 = 18 *)
Definition w_sch2 := [bcol true; bcol false; gcol (TMul (TCol 1) (TLit 2))].
Lemma generated_before_convert_witness :
  run w_sch2 [] [] [Insert false [[RInt 1; RStrF 96; RDef]]] = [[Some 1; Some 10; Some 18]] /\
  eval_term (cells [Some 1; Some 10; Some 18]) (TMul (TCol 1) (TLit 2)) = Some 20.
Proof. split; vm_compute; reflexivity. Qed.

(* t (c0, c1 INT NOT NULL, c2 INT AS (c1 + 1) STORED, CHECK (c1 > 5)); UPDATE IGNORE t SET c1 = NULL: c1 = 0, c2 = NULL *)
Definition w_sch3 := [bcol true; bcol true; gcol (TAdd (TCol 1) (TLit 1))].
Definition w_chk3 := [mkCheck Gt (TCol 1) (TLit 5)].
Lemma update_ignore_null_witness :
  run w_sch3 w_chk3 [] [Insert false [[RInt 1; RInt 7; RDef]]; Update true [(1%nat, URaw RNull)] (Some 1)]
    = [[Some 1; Some 0; None]] /\
  eval_check (cells [Some 1; Some 0; None]) (mkCheck Gt (TCol 1) (TLit 5)) = Some false /\
  eval_term (cells [Some 1; Some 0; None]) (TAdd (TCol 1) (TLit 1)) = Some 1.
Proof. repeat split; vm_compute; reflexivity. Qed.

(* INSERT IGNORE of NULL into NOT NULL c1 with c3 = c1 + c2: c1 = 0, c3 = NULL *)
Definition w_sch4 := [bcol true; bcol true; mkCol I32 false (DLit 4) None false; gcol (TAdd (TCol 1) (TCol 2))].
Lemma insert_ignore_null_witness :
  run w_sch4 [] [] [Insert true [[RInt 1; RNull; RDef; RDef]]] = [[Some 1; Some 0; Some 4; None]] /\
  eval_term (cells [Some 1; Some 0; Some 4; None]) (TAdd (TCol 1) (TCol 2)) = Some 4.
Proof. split; vm_compute; reflexivity. Qed.

(* t (c0, c1 TINYINT, c2 TINYINT UNSIGNED, c3 AS (c1 + 1), CHECK (c1 <> 127), CHECK (c2 < 100)):
   INSERT IGNORE (1, 200, -5) stores c1 = 127 (clamped), c2 = 251 (wrapped), c3 = 201 *)
Definition w_sch5 := [bcol true; mkCol I8 false DNone None false; mkCol U8 false DNone None false; gcol (TAdd (TCol 1) (TLit 1))].
Definition w_chk5 := [mkCheck Ne (TCol 1) (TLit 127); mkCheck Lt (TCol 2) (TLit 100)].
Lemma ignore_clamp_witness :
  run w_sch5 w_chk5 [] [Insert true [[RInt 1; RInt 200; RInt (-5); RDef]]] = [[Some 1; Some 127; Some 251; Some 201]] /\
  eval_check (cells [Some 1; Some 127; Some 251; Some 201]) (mkCheck Ne (TCol 1) (TLit 127)) = Some false /\
  eval_check (cells [Some 1; Some 127; Some 251; Some 201]) (mkCheck Lt (TCol 2) (TLit 100)) = Some false /\
  eval_term (cells [Some 1; Some 127; Some 251; Some 201]) (TAdd (TCol 1) (TLit 1)) = Some 128.
Proof. repeat split; vm_compute; reflexivity. Qed.

(* CHECK (c1 <> 12): INSERT IGNORE (1, '12abc') compares 0 with 12 and stores 12 *)
Definition w_chk6 := [mkCheck Ne (TCol 1) (TLit 12)].
Lemma malformed_string_witness :
  run w_sch1 w_chk6 [] [Insert true [[RInt 1; RBad 12]]] = [[Some 1; Some 12]] /\
  eval_check (cells [Some 1; Some 12]) (mkCheck Ne (TCol 1) (TLit 12)) = Some false.
Proof. split; vm_compute; reflexivity. Qed.

(* t (c0, c1 INT, c2 INT DEFAULT (c1 + 1)): INSERT (1, '3.6') stores c1 = 4 and c2 = 3 + 1 *)
Definition w_sch7 := [bcol true; bcol false; mkCol I32 false (DExpr (TAdd (TCol 1) (TLit 1))) None false].
Lemma expression_default_witness :
  run w_sch7 [] [] [Insert false [[RInt 1; RStrF 36; RDef]]] = [[Some 1; Some 4; Some 4]] /\
  eval_term (cells [Some 1; Some 4; Some 4]) (TAdd (TCol 1) (TLit 1)) = Some 5.
Proof. split; vm_compute; reflexivity. Qed.

(* t (c0, c1 INT, c2 INT AS (c1 + 1) VIRTUAL, CHECK (c1 < 10)): no check is enforced: INSERT (1, 30), UPDATE c1 = 50 *)
Definition w_sch8 := [bcol true; bcol false; mkCol I32 false DNone (Some (TAdd (TCol 1) (TLit 1))) true].
Lemma virtual_checks_witness :
  run w_sch8 w_chk1 [] [Insert false [[RInt 1; RInt 30; RDef]]] = [[Some 1; Some 30; Some 31]] /\
  run w_sch8 w_chk1 [] [Insert false [[RInt 1; RInt 3; RDef]]; Update false [(1%nat, URaw (RInt 50))] None]
    = [[Some 1; Some 50; Some 51]] /\
  eval_check (cells [Some 1; Some 30; Some 31]) (mkCheck Lt (TCol 1) (TLit 10)) = Some false.
Proof. repeat split; vm_compute; reflexivity. Qed.

(* t (c0, c1 INT, c2 INT AS (c1 * 2) STORED): INSERT VALUES (1, 1, DEFAULT), (2, 1, 99) stores 99 in the generated column *)
Lemma explicit_generated_witness :
  run w_sch2 [] [] [Insert false [[RInt 1; RInt 1; RDef]; [RInt 2; RInt 1; RInt 99]]]
    = [[Some 1; Some 1; Some 2]; [Some 2; Some 1; Some 99]] /\
  run w_sch2 [] [] [Insert false [[RInt 2; RInt 1; RInt 99]; [RInt 1; RInt 1; RDef]]] = [].
Proof. split; vm_compute; reflexivity. Qed.

(* non-vacuity: a typed history with all four statement kinds that stores rows, with a wf schema *)
Definition w_hist :=
  [Insert false [[RInt 1; RInt 7; RDef; RDef]; [RInt 2; RDec 26; RNull; RDef]];
   Update false [(1%nat, UTerm (TAdd (TCol 2) (TLit 10)))] (Some 1);
   Upsert false [[RInt 2; RInt 5; RInt 1; RDef]; [RInt 3; RInt 6; RInt 2; RDef]] [(1%nat, UTerm (TAdd (TCol 5) (TLit 20)))];
   Replace [[RInt 1; RInt 9; RInt 3; RDef]]].
Lemma nonvacuous_example :
  wf_schema w_sch4 /\ Forall (typed_stmt w_sch4) w_hist /\
  run w_sch4 [mkCheck Lt (TCol 2) (TCol 1)] [] w_hist
    = [[Some 1; Some 9; Some 3; Some 12]; [Some 2; Some 25; None; None]; [Some 3; Some 6; Some 2; Some 8]].
Proof.
  split; [|split].
  - intros i c e Hs Hg. do 4 (destruct i as [|i]; cbn in Hs; [injection Hs as <-; cbn in Hg; destruct Hg as [Hg|Hg]; try discriminate|]).
    + injection Hg as <-. cbn. split; left; lia.
    + destruct i; discriminate.
  - repeat constructor.
  - vm_compute. reflexivity.
Qed.
