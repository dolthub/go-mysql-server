(* C16 — proofs about the storage model of Store/C16Index.v: the index invariant, its preservation by every
   helper, and the consequence "index lookup = filtered scan" (as bags). *)
From Coq Require Import List NArith ZArith Bool Arith Lia Permutation.
Import ListNotations.
From GMS Require Import Store.C16Index.

Lemma ns_eqb_eq a b : ns_eqb a b = true <-> a = b.
Proof.
  revert b; induction a as [|x a IH]; intros [|y b]; cbn; split; intros H; try reflexivity; try discriminate.
  - apply andb_prop in H. destruct H as [H1 H2]. apply N.eqb_eq in H1. apply IH in H2. congruence.
  - injection H as -> ->. rewrite N.eqb_refl. cbn. apply IH. reflexivity.
Qed.

Lemma val_eqb_eq a b : val_eqb a b = true <-> a = b.
Proof.
  destruct a, b; cbn; split; intros H; try reflexivity; try discriminate.
  - apply Z.eqb_eq in H. congruence.
  - injection H as ->. apply Z.eqb_refl.
  - apply ns_eqb_eq in H. congruence.
  - injection H as ->. apply ns_eqb_eq. reflexivity.
Qed.

Lemma eqb_neq {A} (f : A -> A -> bool) :
  (forall a b, f a b = true <-> a = b) -> forall a b, f a b = false <-> a <> b.
Proof. intros H a b. rewrite <- H. destruct (f a b); split; congruence. Qed.

Lemma loc_eqb_eq a b : loc_eqb a b = true <-> a = b.
Proof.
  destruct a as [a1 a2], b as [b1 b2]. unfold loc_eqb. cbn. rewrite andb_true_iff, !Nat.eqb_eq.
  split; [intros [-> ->]; reflexivity | intros H; injection H; auto].
Qed.

Lemma loc_eqb_refl a : loc_eqb a a = true.
Proof. apply loc_eqb_eq. reflexivity. Qed.

Lemma loc_eqb_neq a b : loc_eqb a b = false <-> a <> b.
Proof. apply eqb_neq, loc_eqb_eq. Qed.

Lemma name_eqb_eq a b : name_eqb a b = true <-> a = b.
Proof.
  destruct a as [a1 a2], b as [b1 b2]. unfold name_eqb. cbn. rewrite andb_true_iff, N.eqb_eq, eqb_true_iff.
  split; [intros [-> ->]; reflexivity | intros H; injection H; auto].
Qed.

Lemma name_eqb_refl a : name_eqb a a = true.
Proof. apply name_eqb_eq. reflexivity. Qed.

Lemma name_eqb_neq a b : name_eqb a b = false <-> a <> b.
Proof. apply eqb_neq, name_eqb_eq. Qed.

Lemma lower_idem n : lower (lower n) = lower n.
Proof. reflexivity. Qed.

Lemma upd_part_length ps p f : length (upd_part ps p f) = length ps.
Proof. revert p; induction ps as [|x t IH]; intros [|p]; cbn; auto. Qed.

Lemma part_upd_same ps p f : p < length ps -> part (upd_part ps p f) p = f (part ps p).
Proof.
  unfold part. revert p; induction ps as [|x t IH]; intros [|p] H; cbn in *; [lia|lia|reflexivity|]. apply IH. lia.
Qed.

Lemma part_upd_other ps p q f : p <> q -> part (upd_part ps p f) q = part ps q.
Proof.
  unfold part. revert p q; induction ps as [|x t IH]; intros [|p] [|q] H; cbn; auto; try congruence.
Qed.

Lemma upd_part_oob ps p f : length ps <= p -> upd_part ps p f = ps.
Proof.
  revert p; induction ps as [|x t IH]; intros [|p] H; cbn in *; [reflexivity|reflexivity|lia|]. f_equal. apply IH. lia.
Qed.

Lemma part_oob ps p : length ps <= p -> part ps p = [].
Proof. intros H. unfold part. apply nth_overflow. exact H. Qed.

Definition valid (ps : list (list row)) (l : loc) : Prop := snd l < length (part ps (fst l)).

Lemma valid_part_lt ps l : valid ps l -> fst l < length ps.
Proof.
  unfold valid. intros H. destruct (Nat.lt_ge_cases (fst l) (length ps)) as [L|L]; auto.
  rewrite part_oob in H by exact L. cbn in H. lia.
Qed.

Lemma row_at_valid ps l r : row_at ps l = Some r -> valid ps l.
Proof. unfold row_at, valid. intros H. apply nth_error_Some. congruence. Qed.

Lemma valid_row_at ps l : valid ps l -> exists r, row_at ps l = Some r.
Proof.
  unfold row_at, valid. intros H. destruct (nth_error (part ps (fst l)) (snd l)) eqn:E; eauto.
  apply nth_error_None in E. lia.
Qed.

Lemma remove_nth_length {A} i (l : list A) : i < length l -> length (remove_nth i l) = length l - 1.
Proof.
  revert i; induction l as [|x t IH]; intros [|i] H; cbn in *; [lia|lia|lia|]. rewrite IH by lia. lia.
Qed.

Lemma remove_nth_lt {A} i j (l : list A) : j < i -> nth_error (remove_nth i l) j = nth_error l j.
Proof.
  revert i j; induction l as [|x t IH]; intros [|i] [|j] H; cbn; auto; [lia|lia|]. apply IH. lia.
Qed.

Lemma remove_nth_ge {A} i j (l : list A) : i <= j -> nth_error (remove_nth i l) j = nth_error l (S j).
Proof.
  revert i j; induction l as [|x t IH]; intros [|i] [|j] H; cbn; auto; [lia|]. apply IH. lia.
Qed.

Lemma set_nth_length {A} i (v : A) l : length (set_nth i v l) = length l.
Proof. revert i; induction l as [|x t IH]; intros [|i]; cbn; auto. Qed.

Lemma set_nth_same {A} i (v : A) l : i < length l -> nth_error (set_nth i v l) i = Some v.
Proof. revert i; induction l as [|x t IH]; intros [|i] H; cbn in *; [lia|lia|reflexivity|]. apply IH. lia. Qed.

Lemma set_nth_other {A} i j (v : A) l : i <> j -> nth_error (set_nth i v l) j = nth_error l j.
Proof. revert i j; induction l as [|x t IH]; intros [|i] [|j] H; cbn; auto; try congruence. Qed.

Lemma NoDup_app_intro_c16 {A} (a b : list A) :
  NoDup a -> NoDup b -> (forall x, In x a -> In x b -> False) -> NoDup (a ++ b).
Proof.
  induction a as [|x a IH]; intros Na Nb D; cbn; auto.
  inversion Na as [|? ? NI Na']; subst. constructor.
  - intros H. apply in_app_or in H. destruct H as [H|H]; [contradiction|]. apply (D x); [left; reflexivity|exact H].
  - apply IH; auto. intros y Hy. apply D. right. exact Hy.
Qed.

Definition wf (d : idef) (ps : list (list row)) (es : list entry) : Prop :=
  NoDup (map snd es) /\
  (forall k l, In (k, l) es -> exists r, row_at ps l = Some r /\ k = key_of d r) /\
  (forall l, valid ps l -> In l (map snd es)).

Definition defs_ok (ds : list (name * idef)) : Prop :=
  NoDup (map fst ds) /\ forall k d, In (k, d) ds -> k = lower (iname d).

Definition Inv (td : tdata) : Prop :=
  defs_ok (defs td) /\ forall k d, In (k, d) (defs td) -> wf d (parts td) (stor td (iname d)).

Lemma wf_perm d ps es es' : Permutation es es' -> wf d ps es -> wf d ps es'.
Proof.
  intros P (N & K & C). split; [|split].
  - eapply Permutation_NoDup; [apply Permutation_map; exact P | exact N].
  - intros k l H. apply K. eapply Permutation_in; [apply Permutation_sym; exact P | exact H].
  - intros l V. eapply Permutation_in; [apply Permutation_map; exact P | apply C; exact V].
Qed.

(* looking a definition up: [def_named] and [def_keyed] are both [find] by a key [g] *)
Section FindByKey.
Variable g : name * idef -> name.

Lemma find_key_some ds k kd : find (fun x => name_eqb (g x) k) ds = Some kd -> In kd ds /\ g kd = k.
Proof. intros F. apply find_some in F. destruct F as [F1 F2]. apply name_eqb_eq in F2. auto. Qed.

Lemma find_key_none ds k kd : find (fun x => name_eqb (g x) k) ds = None -> In kd ds -> g kd <> k.
Proof. intros F H. apply name_eqb_neq. exact (find_none _ _ F _ H). Qed.

Lemma find_key_in ds kd : NoDup (map g ds) -> In kd ds -> find (fun x => name_eqb (g x) (g kd)) ds = Some kd.
Proof.
  induction ds as [|x t IH]; intros N H; [contradiction|]. cbn in N. inversion N as [|? ? NI N']; subst. cbn [find].
  destruct H as [->|H]; [now rewrite name_eqb_refl|].
  destruct (name_eqb (g x) (g kd)) eqn:E; [|auto]. apply name_eqb_eq in E.
  exfalso. apply NI. rewrite E. apply in_map. exact H.
Qed.
End FindByKey.

(* the indexes' own names are unique as well: the keys are their lower-cased forms *)
Lemma defs_ok_inames ds : defs_ok ds -> NoDup (map (fun kd => iname (snd kd)) ds).
Proof.
  intros [N L]. apply NoDup_map_inv with (f := lower). rewrite map_map, (map_ext_in _ fst); [exact N|].
  intros [k d] H. symmetry. exact (L k d H).
Qed.

Lemma def_named_in ds k d : defs_ok ds -> In (k, d) ds -> def_named ds (iname d) = Some d.
Proof.
  intros OK H. unfold def_named.
  pose proof (find_key_in (fun kd => iname (snd kd)) ds (k, d) (defs_ok_inames ds OK) H) as E. cbn in E. now rewrite E.
Qed.

Lemma def_keyed_in ds k d : defs_ok ds -> In (k, d) ds -> def_keyed ds k = Some d.
Proof. intros [N _] H. unfold def_keyed. pose proof (find_key_in fst ds (k, d) N H) as E. cbn in E. now rewrite E. Qed.

Lemma def_named_some ds nm d : def_named ds nm = Some d -> exists k, In (k, d) ds /\ iname d = nm.
Proof.
  unfold def_named. destruct (find _ ds) as [[k d']|] eqn:F; [|discriminate].
  intros [= ->]. apply find_key_some in F. eauto.
Qed.

Lemma def_keyed_some ds k d : def_keyed ds k = Some d -> In (k, d) ds.
Proof.
  unfold def_keyed. destruct (find _ ds) as [[k' d']|] eqn:F; [|discriminate].
  intros [= ->]. apply find_key_some in F. destruct F as [F <-]. exact F.
Qed.

Lemma def_named_none ds nm k d : def_named ds nm = None -> In (k, d) ds -> iname d <> nm.
Proof.
  unfold def_named. destruct (find _ ds) eqn:F; [discriminate|]. intros _ H.
  exact (find_key_none (fun kd => iname (snd kd)) ds nm (k, d) F H).
Qed.

Lemma def_keyed_none ds k : def_keyed ds k = None -> ~ In k (map fst ds).
Proof.
  unfold def_keyed. destruct (find _ ds) eqn:F; [discriminate|]. intros _ H.
  apply in_map_iff in H. destruct H as (kd & E & H). exact (find_key_none fst ds k kd F H E).
Qed.

Lemma defs_ok_names ds k1 d1 k2 d2 :
  defs_ok ds -> In (k1, d1) ds -> In (k2, d2) ds -> iname d1 = iname d2 -> (k1, d1) = (k2, d2).
Proof.
  intros OK H1 H2 E. pose proof (def_named_in _ _ _ OK H1) as A.
  rewrite E, (def_named_in _ _ _ OK H2) in A. injection A as ->.
  now rewrite (proj2 OK _ _ H1), (proj2 OK _ _ H2).
Qed.

(* addRowToIndexes after appending a row *)
Lemma wf_append d ps p r es :
  p < length ps -> wf d ps es ->
  wf d (upd_part ps p (fun rs => rs ++ [r])) (es ++ [(key_of d r, (p, length (part ps p)))]).
Proof.
  intros PL (N & K & C).
  set (l := (p, length (part ps p))). set (ps' := upd_part ps p (fun rs => rs ++ [r])).
  assert (NV : ~ valid ps l) by (unfold valid, l; cbn; lia).
  (* the old rows stay where they are, the new one sits at l, and there is no other location *)
  assert (RA : forall l', valid ps l' -> row_at ps' l' = row_at ps l').
  { intros [q i] V. unfold row_at, ps'. cbn. destruct (Nat.eq_dec p q) as [->|NE].
    - rewrite part_upd_same by exact PL. unfold valid in V. cbn in V. rewrite nth_error_app1 by exact V. reflexivity.
    - rewrite part_upd_other by exact NE. reflexivity. }
  assert (RN : row_at ps' l = Some r).
  { unfold row_at, ps', l. cbn. rewrite part_upd_same by exact PL. rewrite nth_error_app2 by lia.
    rewrite Nat.sub_diag. reflexivity. }
  assert (VV : forall l', valid ps' l' -> valid ps l' \/ l' = l).
  { intros [q i] V. unfold valid, ps' in V. cbn in V. destruct (Nat.eq_dec p q) as [->|NE].
    - rewrite part_upd_same in V by exact PL. rewrite app_length in V. cbn in V.
      destruct (Nat.eq_dec i (length (part ps q))) as [->|NE2]; [right; reflexivity|left].
      unfold valid. cbn. lia.
    - rewrite part_upd_other in V by exact NE. left. exact V. }
  split; [|split].
  - rewrite map_app. cbn. apply NoDup_app_intro_c16; auto.
    + repeat constructor. intros [].
    + intros x Hx [Hy|[]]. subst x. apply in_map_iff in Hx. destruct Hx as ([k l'] & E & Hx). cbn in E. subst l'.
      destruct (K _ _ Hx) as (r' & Hr & _). apply row_at_valid in Hr. contradiction.
  - intros k l' H. apply in_app_or in H. destruct H as [H|[H|[]]].
    + destruct (K _ _ H) as (r' & Hr & Hk). exists r'. split; [|exact Hk].
      rewrite RA; [exact Hr | eapply row_at_valid; exact Hr].
    + injection H as <- <-. exists r. split; [exact RN | reflexivity].
  - intros l' V. rewrite map_app. apply in_or_app. destruct (VV _ V) as [V'|E].
    + left. apply C. exact V'.
    + right. cbn. left. symmetry. exact E.
Qed.

(* deleteRowFromIndexes after removing a row *)
Lemma in_del_loc l es x :
  In x (del_loc l es) <-> exists e, In e es /\ snd e <> l /\ x = (fst e, shift l (snd e)).
Proof.
  unfold del_loc. rewrite in_flat_map. split.
  - intros (e & He & Hx). exists e. destruct (loc_eqb (snd e) l) eqn:E; [contradiction|].
    apply loc_eqb_neq in E. destruct Hx as [Hx|[]]. auto.
  - intros (e & He & Hn & ->). exists e. split; [exact He|]. apply loc_eqb_neq in Hn. rewrite Hn. left. reflexivity.
Qed.

(* [shift l] moves the locations behind l in its partition one up and leaves the others *)
Lemma shift_lo l a : fst a <> fst l \/ snd a <= snd l -> shift l a = a.
Proof.
  intros H. unfold shift. destruct (Nat.eqb_spec (fst a) (fst l)) as [E|E]; [|reflexivity].
  destruct (Nat.ltb_spec (snd l) (snd a)); [|reflexivity]. exfalso. destruct H; [contradiction|lia].
Qed.

Lemma shift_hi l a : fst a = fst l -> snd l < snd a -> shift l a = (fst a, snd a - 1).
Proof. intros E L. unfold shift. apply Nat.eqb_eq in E. apply Nat.ltb_lt in L. now rewrite E, L. Qed.

Lemma shift_cases l a :
  fst a <> fst l /\ shift l a = a \/
  fst a = fst l /\ snd a <= snd l /\ shift l a = a \/
  fst a = fst l /\ snd l < snd a /\ shift l a = (fst a, snd a - 1).
Proof.
  destruct (Nat.eq_dec (fst a) (fst l)) as [E|E]; [destruct (Nat.lt_ge_cases (snd l) (snd a))|];
    [right; right|right; left|left]; rewrite ?shift_hi, ?shift_lo by auto; auto.
Qed.

Lemma loc_neq (a l : loc) : a <> l -> fst a = fst l -> snd a <> snd l.
Proof. destruct a, l. cbn. intros H -> ->. now apply H. Qed.

Lemma shift_inj l a b : a <> l -> b <> l -> shift l a = shift l b -> a = b.
Proof.
  intros Ha Hb H. pose proof (loc_neq _ _ Ha) as Ha'. pose proof (loc_neq _ _ Hb) as Hb'.
  destruct (shift_cases l a) as [(A1 & A3)|[(A1 & A2 & A3)|(A1 & A2 & A3)]],
           (shift_cases l b) as [(B1 & B3)|[(B1 & B2 & B3)|(B1 & B2 & B3)]];
    rewrite A3, B3 in H; try exact H;
    destruct a as [q j], b as [q' j'], l as [p i]; cbn in *; injection H as H1 H2; subst; f_equal; lia.
Qed.

Lemma row_at_delete ps l l' :
  valid ps l -> valid ps l' -> l' <> l ->
  row_at (upd_part ps (fst l) (remove_nth (snd l))) (shift l l') = row_at ps l'.
Proof.
  intros V V' NE. pose proof (valid_part_lt _ _ V) as PL. pose proof (loc_neq _ _ NE) as NE'. unfold row_at.
  destruct (shift_cases l l') as [(E & ->)|[(E & L & ->)|(E & L & ->)]]; cbn [fst snd].
  - now rewrite part_upd_other by auto.
  - rewrite E, part_upd_same, remove_nth_lt by (auto; lia). reflexivity.
  - rewrite E, part_upd_same, remove_nth_ge by (auto; lia). now replace (S (snd l' - 1)) with (snd l') by lia.
Qed.

Lemma valid_delete ps l l'' :
  valid ps l -> valid (upd_part ps (fst l) (remove_nth (snd l))) l'' ->
  exists l', valid ps l' /\ l' <> l /\ shift l l' = l''.
Proof.
  destruct l as [p i], l'' as [q j]. intros V V'. pose proof (valid_part_lt _ _ V) as PL.
  unfold valid in *. cbn [fst snd] in *.
  (* the location that ends up at (q, j): itself, or its successor when it lies behind the removed row *)
  destruct (Nat.eq_dec q p) as [->|NE].
  - rewrite part_upd_same, remove_nth_length in V' by assumption. destruct (Nat.lt_ge_cases j i) as [L|L].
    + exists (p, j). rewrite shift_lo by (right; cbn; lia). cbn. repeat split; [lia|]. intros E; injection E; lia.
    + exists (p, S j). rewrite shift_hi by (cbn; lia). cbn. rewrite Nat.sub_0_r. repeat split; [lia|]. intros E; injection E; lia.
  - rewrite part_upd_other in V' by auto. exists (q, j). rewrite shift_lo by (left; exact NE). repeat split; [exact V'|congruence].
Qed.

Lemma wf_delete d ps l es :
  valid ps l -> wf d ps es -> wf d (upd_part ps (fst l) (remove_nth (snd l))) (del_loc l es).
Proof.
  intros V (N & K & C). split; [|split].
  - clear C. induction es as [|e t IH]; [constructor|].
    cbn in N. inversion N as [|? ? NI N']; subst.
    assert (K' : forall k l0, In (k, l0) t -> exists r, row_at ps l0 = Some r /\ k = key_of d r)
      by (intros; apply K; right; assumption).
    unfold del_loc. cbn. fold (del_loc l t). destruct (loc_eqb (snd e) l) eqn:E; cbn; [apply IH; assumption|].
    constructor; [|apply IH; assumption].
    intros H. apply in_map_iff in H. destruct H as (x & Hx1 & Hx2). apply in_del_loc in Hx2.
    destruct Hx2 as (e' & He' & Hn & ->). cbn in Hx1. apply loc_eqb_neq in E.
    apply shift_inj in Hx1; auto. apply NI. rewrite <- Hx1. apply in_map. exact He'.
  - intros k l'' H. apply in_del_loc in H. destruct H as ([k' l'] & He & Hn & E). cbn in *. injection E as -> ->.
    destruct (K _ _ He) as (r & Hr & Hk). exists r. split; [|exact Hk].
    rewrite row_at_delete; auto. eapply row_at_valid; exact Hr.
  - intros l'' V''. destruct (valid_delete _ _ _ V V'') as (l' & V' & Hn & <-).
    apply C in V'. apply in_map_iff in V'. destruct V' as ([k l0] & E & He). cbn in E. subst l0.
    apply in_map_iff. exists (k, shift l l'). split; [reflexivity|]. apply in_del_loc. exists (k, l'). auto.
Qed.

(* partitionssort.Swap *)
Lemma valid_set_row ps l r l' : valid (set_row ps l r) l' <-> valid ps l'.
Proof.
  unfold valid, set_row. destruct (Nat.eq_dec (fst l) (fst l')) as [E|NE].
  - destruct (Nat.lt_ge_cases (fst l) (length ps)) as [L|L].
    + rewrite <- E, part_upd_same by exact L. rewrite set_nth_length. reflexivity.
    + rewrite upd_part_oob by exact L. reflexivity.
  - rewrite part_upd_other by exact NE. reflexivity.
Qed.

Lemma row_at_set_row_same ps l r : valid ps l -> row_at (set_row ps l r) l = Some r.
Proof.
  intros V. pose proof (valid_part_lt _ _ V) as PL. unfold row_at, set_row.
  rewrite part_upd_same by exact PL. apply set_nth_same. exact V.
Qed.

Lemma row_at_set_row_other ps l l' r : l' <> l -> row_at (set_row ps l r) l' = row_at ps l'.
Proof.
  intros NE. unfold row_at, set_row. destruct (Nat.eq_dec (fst l) (fst l')) as [E|NE'].
  - destruct (Nat.lt_ge_cases (fst l) (length ps)) as [L|L].
    + rewrite <- E, part_upd_same by exact L. apply set_nth_other. intros E2. now apply (loc_neq _ _ NE).
    + rewrite upd_part_oob by exact L. reflexivity.
  - rewrite part_upd_other by exact NE'. reflexivity.
Qed.

Lemma patch_invol l1 l2 l : patch l1 l2 (patch l1 l2 l) = l.
Proof.
  unfold patch. destruct (loc_eqb l l1) eqn:E1.
  - apply loc_eqb_eq in E1. subst. destruct (loc_eqb l2 l1) eqn:E2.
    + apply loc_eqb_eq in E2. exact E2.
    + rewrite loc_eqb_refl. reflexivity.
  - destruct (loc_eqb l l2) eqn:E2.
    + apply loc_eqb_eq in E2. subst. rewrite loc_eqb_refl. reflexivity.
    + rewrite E1, E2. reflexivity.
Qed.

Lemma row_at_swap ps l1 l2 r1 r2 l :
  row_at ps l1 = Some r1 -> row_at ps l2 = Some r2 ->
  row_at (set_row (set_row ps l1 r2) l2 r1) (patch l1 l2 l) = row_at ps l.
Proof.
  intros H1 H2. pose proof (row_at_valid _ _ _ H1) as V1. pose proof (row_at_valid _ _ _ H2) as V2.
  unfold patch. destruct (loc_eqb l l1) eqn:E1.
  - apply loc_eqb_eq in E1. subst. rewrite row_at_set_row_same by (apply valid_set_row; exact V2). congruence.
  - apply loc_eqb_neq in E1. destruct (loc_eqb l l2) eqn:E2.
    + apply loc_eqb_eq in E2. subst. rewrite row_at_set_row_other by congruence.
      rewrite row_at_set_row_same by exact V1. congruence.
    + apply loc_eqb_neq in E2. rewrite !row_at_set_row_other by assumption. reflexivity.
Qed.

Lemma valid_patch ps l1 l2 l : valid ps l1 -> valid ps l2 -> valid ps l -> valid ps (patch l1 l2 l).
Proof.
  intros V1 V2 V. unfold patch. destruct (loc_eqb l l1); [exact V2|]. destruct (loc_eqb l l2); assumption.
Qed.

Lemma wf_swap d ps l1 l2 r1 r2 es :
  row_at ps l1 = Some r1 -> row_at ps l2 = Some r2 -> wf d ps es ->
  wf d (set_row (set_row ps l1 r2) l2 r1) (map (fun e => (fst e, patch l1 l2 (snd e))) es).
Proof.
  intros H1 H2 (N & K & C). pose proof (row_at_valid _ _ _ H1) as V1. pose proof (row_at_valid _ _ _ H2) as V2.
  split; [|split].
  - rewrite map_map. cbn. rewrite <- (map_map snd (patch l1 l2)).
    apply FinFun.Injective_map_NoDup; [|exact N]. intros a b H. rewrite <- (patch_invol l1 l2 a), H. apply patch_invol.
  - intros k l H. apply in_map_iff in H. destruct H as ([k0 l0] & E & H). cbn in E. injection E as -> <-.
    destruct (K _ _ H) as (r & Hr & Hk). exists r. split; [|exact Hk]. rewrite (row_at_swap _ _ _ _ _ _ H1 H2). exact Hr.
  - intros l V. apply valid_set_row in V. apply valid_set_row in V.
    pose proof (valid_patch _ _ _ _ V1 V2 V) as V'. apply C in V'. apply in_map_iff in V'.
    destruct V' as ([k l0] & E & H). cbn in E. subst l0. apply in_map_iff.
    exists (k, l). split; [reflexivity|]. apply in_map_iff. exists (k, patch l1 l2 l). split; [|exact H].
    cbn. rewrite patch_invol. reflexivity.
Qed.

Lemma ins_entry_perm n x l : Permutation (ins_entry n x l) (x :: l).
Proof.
  induction l as [|y t IH]; cbn; [reflexivity|].
  destruct (key_cmp n (fst x) (fst y)); try reflexivity.
  rewrite IH. apply perm_swap.
Qed.

Lemma sort_entries_perm n l : Permutation (sort_entries n l) l.
Proof.
  induction l as [|x t IH]; cbn; [reflexivity|]. rewrite ins_entry_perm. constructor. exact IH.
Qed.

(* what every helper preserves, ApplyEdits preserves *)
Section Preserved.
Variable P : tdata -> Prop.

Lemma do_swaps_preserves :
  (forall td l1 l2, P td -> P (swap_td td l1 l2)) -> forall sw td, P td -> P (do_swaps td sw).
Proof.
  intros S. unfold do_swaps. induction sw as [|s t IH]; intros td H; cbn; [exact H|]. apply IH, S, H.
Qed.

Lemma sort_rows_preserves :
  (forall td l1 l2, P td -> P (swap_td td l1 l2)) -> forall td, P td -> P (sort_rows td).
Proof.
  intros S.
  assert (B : forall ls td, P td -> P (bubble_pass td ls)).
  { induction ls as [|l1 t IH]; intros td H; cbn; [exact H|]. destruct t as [|l2 t']; [exact H|].
    apply IH. destruct (row_at (parts td) l1); [|exact H]. destruct (row_at (parts td) l2); [|exact H].
    destruct (row_cmp (pkcols td) r r0); try exact H. apply S, H. }
  intros td. unfold sort_rows. generalize (length (flat_locs (parts td))). intros n. revert td.
  induction n as [|n IH]; intros td H; cbn; [exact H|]. apply IH, B, H.
Qed.

Lemma apply_rows_preserves :
  (forall td r, P td -> P (delete_helper td r)) ->
  (forall td p r, P td -> fresh_insert td p r = true -> P (insert_helper td p r)) ->
  forall td dels adds, P td -> apply_fresh td dels adds = true -> P (apply_rows td dels adds).
Proof.
  intros D I td dels adds H. unfold apply_rows, apply_fresh.
  assert (H1 : P (fold_left delete_helper dels td)).
  { revert td H. induction dels as [|r t IH]; intros td H; cbn; [exact H|]. apply IH, D, H. }
  revert H1. generalize (fold_left delete_helper dels td).
  induction adds as [|a t IH]; intros td0 H0 F; cbn in *; [exact H0|]. apply andb_prop in F. destruct F as [F1 F2].
  apply IH; [apply I; assumption|exact F2].
Qed.
End Preserved.

Lemma find_in_part_spec f rs i0 i :
  find_in_part f rs i0 = Some i -> i0 <= i /\ exists r, nth_error rs (i - i0) = Some r /\ f r = true.
Proof.
  revert i0; induction rs as [|r t IH]; intros i0 H; cbn in H; [discriminate|].
  destruct (f r) eqn:F.
  - injection H as <-. rewrite Nat.sub_diag. cbn. split; [lia|]. eauto.
  - apply IH in H. destruct H as (H1 & r' & H3 & H4). split; [lia|].
    exists r'. split; [|exact H4]. replace (i - i0) with (S (i - S i0)) by lia. exact H3.
Qed.

Lemma find_row_spec f ps p0 l :
  find_row f ps p0 = Some l ->
  p0 <= fst l /\ exists r, nth_error (nth (fst l - p0) ps []) (snd l) = Some r /\ f r = true.
Proof.
  revert p0; induction ps as [|rs t IH]; intros p0 H; cbn in H; [discriminate|].
  destruct (find_in_part f rs 0) as [i|] eqn:F.
  - injection H as <-. cbn. apply find_in_part_spec in F. destruct F as (_ & r & F1 & F2).
    rewrite Nat.sub_0_r in F1. rewrite Nat.sub_diag. split; [lia|]. eauto.
  - apply IH in H. destruct H as (H1 & r & H2 & H3). split; [lia|]. exists r. split; [|exact H3].
    replace (fst l - p0) with (S (fst l - S p0)) by lia. exact H2.
Qed.

Lemma find_row_valid f ps l : find_row f ps 0 = Some l -> valid ps l.
Proof.
  intros H. apply find_row_spec in H. destruct H as (_ & r & H & _). rewrite Nat.sub_0_r in H.
  unfold valid, part. apply nth_error_Some. congruence.
Qed.

Lemma Inv_delete_helper td r : Inv td -> Inv (delete_helper td r).
Proof.
  intros [OK W]. unfold delete_helper. destruct (find_row (del_pred td r) (parts td) 0) as [l|] eqn:F; [|split; assumption].
  apply find_row_valid in F. split; [exact OK|]. cbn. intros k d H.
  rewrite (def_named_in _ _ _ OK H). apply wf_delete; [exact F | apply (W _ _ H)].
Qed.

Lemma parts_len_delete_helper td r : length (parts (delete_helper td r)) = length (parts td).
Proof.
  unfold delete_helper. destruct (find_row (del_pred td r) (parts td) 0); [|reflexivity]. cbn. apply upd_part_length.
Qed.

Lemma pkcols_delete_helper td r : pkcols (delete_helper td r) = pkcols td.
Proof. unfold delete_helper. destruct (find_row (del_pred td r) (parts td) 0); reflexivity. Qed.

Lemma defs_delete_helper td r : defs (delete_helper td r) = defs td.
Proof. unfold delete_helper. destruct (find_row (del_pred td r) (parts td) 0); reflexivity. Qed.

(* under the guard insertHelper takes its append branch *)
Lemma insert_helper_fresh td p r :
  fresh_insert td p r = true ->
  p < length (parts td) /\
  insert_helper td p r =
  add_row_to_indexes (with_parts td (upd_part (parts td) p (fun rs => rs ++ [r]))) r (p, length (part (parts td) p)).
Proof.
  unfold fresh_insert, insert_helper. intros F. apply andb_prop in F. destruct F as [F1 F2]. apply Nat.ltb_lt in F1.
  split; [exact F1|]. destruct (pkcols td); [reflexivity|]. now destruct (find_row _ (parts td) 0).
Qed.

Lemma Inv_insert_helper td p r : Inv td -> fresh_insert td p r = true -> Inv (insert_helper td p r).
Proof.
  intros [OK W] F. destruct (insert_helper_fresh td p r F) as [F1 ->].
  split; [exact OK|]. cbn. intros k d H. rewrite (def_named_in _ _ _ OK H).
  apply wf_append; [exact F1 | apply (W _ _ H)].
Qed.

Lemma parts_len_insert_helper td p r : length (parts (insert_helper td p r)) = length (parts td).
Proof.
  unfold insert_helper.
  destruct (match pkcols td with [] => None | n :: l => find_row (fun x => pk_match (n :: l) x r) (parts td) 0 end);
    cbn; apply upd_part_length.
Qed.

Lemma Inv_apply_rows td dels adds : Inv td -> apply_fresh td dels adds = true -> Inv (apply_rows td dels adds).
Proof. apply apply_rows_preserves; [exact Inv_delete_helper|exact Inv_insert_helper]. Qed.

Lemma Inv_swap_td td l1 l2 : Inv td -> Inv (swap_td td l1 l2).
Proof.
  intros [OK W]. unfold swap_td. destruct (row_at (parts td) l1) as [r1|] eqn:H1; [|split; assumption].
  destruct (row_at (parts td) l2) as [r2|] eqn:H2; [|split; assumption].
  split; [exact OK|]. cbn. intros k d H. apply wf_swap; auto. apply (W _ _ H).
Qed.

(* any sequence of Swap calls, whatever sort.Sort decides to do *)
Lemma Inv_do_swaps sw : forall td, Inv td -> Inv (do_swaps td sw).
Proof. exact (do_swaps_preserves Inv Inv_swap_td sw). Qed.

Lemma Inv_sort_rows td : Inv td -> Inv (sort_rows td).
Proof. exact (sort_rows_preserves Inv Inv_swap_td td). Qed.

Lemma Inv_sort_secondary td td' : Inv td -> sort_secondary td = Ok td' -> Inv td'.
Proof.
  intros [OK W] H. unfold sort_secondary in H. destruct (existsb (stale_key td) (skeys td)); [discriminate|].
  injection H as <-. split; [exact OK|]. cbn. intros k d Hd. specialize (W _ _ Hd).
  destruct (mem_name (iname d) (skeys td)); [|exact W].
  destruct (def_keyed (defs td) (lower (iname d))); [|exact W].
  eapply wf_perm; [apply Permutation_sym; apply sort_entries_perm | exact W].
Qed.

Lemma Inv_apply_edits td dels adds td' :
  Inv td -> apply_fresh td dels adds = true -> apply_edits td dels adds = Ok td' -> Inv td'.
Proof.
  intros H F E. unfold apply_edits in E. pose proof (Inv_apply_rows _ _ _ H F) as H1.
  destruct (pkcols td); [|apply Inv_sort_rows in H1]; exact (Inv_sort_secondary _ _ H1 E).
Qed.

Lemma wf_empty d ps : (forall l, ~ valid ps l) -> wf d ps [].
Proof.
  intros NV. split; [constructor|]. split; [intros k l []|]. intros l V. exfalso. apply (NV l V).
Qed.

Lemma no_valid_truncated (ps : list (list row)) l : ~ valid (map (fun _ => @nil row) ps) l.
Proof.
  assert (E : forall n, nth n (map (fun _ : list row => @nil row) ps) [] = []).
  { induction ps as [|x t IH]; intros [|n]; cbn; auto. }
  unfold valid, part. intros H. rewrite E in H. cbn in H. lia.
Qed.

Lemma Inv_truncate td : defs_ok (defs td) -> Inv (truncate td).
Proof.
  intros OK. split; [exact OK|]. cbn. intros k d H. apply wf_empty. apply no_valid_truncated.
Qed.

Lemma defs_ok_add ds d : defs_ok ds -> def_keyed ds (lower (iname d)) = None -> defs_ok (ds ++ [(lower (iname d), d)]).
Proof.
  intros [N L] F. apply def_keyed_none in F. split.
  - rewrite map_app. cbn. apply NoDup_app_intro_c16; auto.
    + repeat constructor. intros [].
    + intros x Hx [<-|[]]. contradiction.
  - intros k d' H. apply in_app_or in H. destruct H as [H|[H|[]]]; [apply L; exact H|]. injection H as <- <-. reflexivity.
Qed.

Lemma defs_ok_filter ds f : defs_ok ds -> defs_ok (filter f ds).
Proof.
  intros [N L]. split.
  - clear L. induction ds as [|x t IH]; cbn; [constructor|]. cbn in N. inversion N as [|? ? NI N']; subst.
    destruct (f x); cbn; [constructor|]; auto. intros H. apply NI. apply in_map_iff in H.
    destruct H as (y & E & H). apply filter_In in H. destruct H as [H _]. apply in_map_iff. eauto.
  - intros k d H. apply filter_In in H. destruct H as [H _]. apply L. exact H.
Qed.

Lemma Inv_drop_index td nm : Inv td -> Inv (drop_index td nm).
Proof.
  intros [OK W]. unfold drop_index. destruct (def_keyed (defs td) (lower nm)) as [d|] eqn:F; [|split; assumption].
  apply def_keyed_some in F.
  split; cbn; [apply defs_ok_filter; exact OK|]. intros k d2 H. apply filter_In in H. destruct H as [H NE].
  cbn in NE. apply negb_true_iff in NE. apply name_eqb_neq in NE.
  destruct (name_eqb (iname d2) (iname d)) eqn:E.
  - exfalso. apply name_eqb_eq in E. apply NE. pose proof (defs_ok_names _ _ _ _ _ OK H F E) as EE. congruence.
  - apply (W _ _ H).
Qed.

Lemma Inv_create_index hp td d td' :
  Inv td -> step_ok hp td (OCreate d) = true -> create_index hp td d = Ok td' -> Inv td'.
Proof.
  intros [OK W] S E. unfold create_index in E. cbn in S.
  destruct (def_keyed (defs td) (lower (iname d))) eqn:F.
  - injection E as <-. split; assumption.
  - eapply Inv_apply_edits; [|exact S|exact E]. apply Inv_truncate. cbn. apply defs_ok_add; assumption.
Qed.

(* RENAME INDEX needs the stronger invariant of Store/C16IndexOrder.v (a name outside the storage keys holds nothing, every
   storage key is the name of an index); see Good_step *)
Definition op_not_rename (o : op) : bool := match o with ORename _ _ => false | _ => true end.

Theorem Inv_step hp td o td' :
  Inv td -> op_not_rename o = true -> step_ok hp td o = true -> step hp td o = Ok td' -> Inv td'.
Proof.
  intros H NR S E. destruct o as [dels adds| |d|nm|a b| |d]; cbn in E.
  - eapply Inv_apply_edits; [exact H | exact S | exact E].
  - injection E as <-. apply Inv_truncate. apply H.
  - eapply Inv_create_index; eassumption.
  - injection E as <-. apply Inv_drop_index. exact H.
  - discriminate.
  - injection E as <-. exact H.
  - discriminate.
Qed.

Theorem Inv_run hp h : forall td td',
  Inv td -> forallb op_not_rename h = true -> hist_ok hp td h = true -> run hp td h = Ok td' -> Inv td'.
Proof.
  induction h as [|o t IH]; intros td td' H NR S E; cbn in *.
  - injection E as <-. exact H.
  - apply andb_prop in S. destruct S as [S1 S2]. apply andb_prop in NR. destruct NR as [N1 N2].
    destruct (step hp td o) as [td1|] eqn:E1; [|discriminate].
    eapply IH; [eapply Inv_step; eassumption | exact N2 | exact S2 | exact E].
Qed.

Lemma Inv_init n pks : Inv (init n pks).
Proof.
  split; [split; [constructor | intros k d []]|]. intros k d [].
Qed.

Definition rows_of_locs (ps : list (list row)) (ls : list loc) : list row :=
  flat_map (fun l => match row_at ps l with Some r => [r] | None => [] end) ls.

Lemma nth_error_enum {A} (rs : list A) :
  flat_map (fun i => match nth_error rs i with Some r => [r] | None => [] end) (seq 0 (length rs)) = rs.
Proof.
  induction rs as [|r t IH]; [reflexivity|]. cbn [length seq flat_map nth_error]. cbn [app]. f_equal.
  rewrite <- seq_shift, flat_map_concat_map, map_map, <- flat_map_concat_map. exact IH.
Qed.

Lemma rows_of_flat_locs_from ps : forall pre,
  rows_of_locs (pre ++ ps) (flat_locs_from ps (length pre)) = concat ps.
Proof.
  induction ps as [|rs t IH]; intros pre; [reflexivity|].
  cbn [flat_locs_from concat]. unfold rows_of_locs. rewrite flat_map_app. f_equal.
  - rewrite flat_map_concat_map, map_map, <- flat_map_concat_map.
    rewrite <- (nth_error_enum rs) at 2. apply flat_map_ext. intros i. unfold row_at, part. cbn [fst snd].
    rewrite app_nth2 by lia. rewrite Nat.sub_diag. reflexivity.
  - specialize (IH (pre ++ [rs])). rewrite <- app_assoc in IH. cbn [app] in IH.
    rewrite app_length in IH. cbn [length] in IH. rewrite Nat.add_1_r in IH. exact IH.
Qed.

Lemma in_flat_locs_from ps : forall p0 l,
  In l (flat_locs_from ps p0) <-> p0 <= fst l /\ snd l < length (nth (fst l - p0) ps []).
Proof.
  induction ps as [|rs t IH]; intros p0 [q i]; cbn [flat_locs_from fst snd].
  - split; [intros []|]. intros [_ H]. destruct (q - p0); cbn in H; lia.
  - rewrite in_app_iff, in_map_iff, IH. cbn [fst snd]. split.
    + intros [(j & E & H)|[H1 H2]].
      * injection E as <- <-. apply in_seq in H. rewrite Nat.sub_diag. cbn. lia.
      * split; [lia|]. replace (q - p0) with (S (q - S p0)) by lia. exact H2.
    + intros [H1 H2]. destruct (Nat.eq_dec q p0) as [->|NE].
      * left. exists i. split; [reflexivity|]. rewrite Nat.sub_diag in H2. cbn in H2. apply in_seq. lia.
      * right. split; [lia|]. replace (q - p0) with (S (q - S p0)) in H2 by lia. exact H2.
Qed.

Lemma in_flat_locs ps l : In l (flat_locs ps) <-> valid ps l.
Proof.
  unfold flat_locs. rewrite in_flat_locs_from. unfold valid, part. rewrite Nat.sub_0_r. split; [intros [_ H]; exact H|].
  intros H. split; [lia|exact H].
Qed.

Lemma NoDup_flat_locs_from ps : forall p0, NoDup (flat_locs_from ps p0).
Proof.
  induction ps as [|rs t IH]; intros p0; cbn [flat_locs_from]; [constructor|].
  apply NoDup_app_intro_c16.
  - apply FinFun.Injective_map_NoDup; [|apply seq_NoDup]. intros a b H. injection H. auto.
  - apply IH.
  - intros [q i] H1 H2. apply in_map_iff in H1. destruct H1 as (j & E & _). injection E as <- <-.
    apply in_flat_locs_from in H2. cbn in H2. lia.
Qed.

Lemma wf_locs_perm d ps es : wf d ps es -> Permutation (map snd es) (flat_locs ps).
Proof.
  intros (N & K & C). apply NoDup_Permutation; [exact N | apply NoDup_flat_locs_from|].
  intros l. rewrite in_flat_locs. split.
  - intros H. apply in_map_iff in H. destruct H as ([k l'] & E & H). cbn in E. subst l'.
    destruct (K _ _ H) as (r & Hr & _). eapply row_at_valid. exact Hr.
  - apply C.
Qed.

Definition lookup_locs (ps : list (list row)) (q : row -> bool) (ls : list loc) : list row :=
  flat_map (fun l => match row_at ps l with Some r => if q r then [r] else [] | None => [] end) ls.

Lemma lookup_locs_filter ps q ls : lookup_locs ps q ls = filter q (rows_of_locs ps ls).
Proof.
  induction ls as [|l t IH]; [reflexivity|]. unfold lookup_locs, rows_of_locs in *. cbn [flat_map].
  rewrite filter_app, <- IH. f_equal. destruct (row_at ps l) as [r|]; [|reflexivity]. cbn. destruct (q r); reflexivity.
Qed.

Theorem lookup_eq_scan td k d p :
  Inv td -> In (k, d) (defs td) ->
  Permutation (index_lookup td (iname d) p) (filter (fun r => p (key_of d r)) (all_rows td)).
Proof.
  intros [OK W] H. specialize (W _ _ H). unfold index_lookup, all_rows.
  set (q := fun r => p (key_of d r)). set (es := stor td (iname d)) in *.
  assert (E : flat_map (fun e => match row_at (parts td) (snd e) with
                                 | Some r => if p (fst e) then [r] else []
                                 | None => [] end) es
              = lookup_locs (parts td) q (map snd es)).
  { destruct W as (_ & K & _). unfold lookup_locs. rewrite flat_map_concat_map, (flat_map_concat_map _ (map snd es)), map_map.
    f_equal. apply map_ext_in. intros [k0 l] Hin. cbn [fst snd]. destruct (K _ _ Hin) as (r & Hr & ->). rewrite Hr. reflexivity. }
  rewrite E. unfold flat_locs. rewrite <- (rows_of_flat_locs_from (parts td) []), <- lookup_locs_filter.
  unfold lookup_locs. apply Permutation_flat_map. eapply wf_locs_perm. exact W.
Qed.
