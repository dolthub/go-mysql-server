(* C16 — second part of the proofs: the index storage is SORTED after every operation (sortSecondaryIndexes: stable
   insertion by the first [nsort] key columns, NULL first), and guarded histories never panic, whatever the letter
   case of their index names. *)
From Coq Require Import List NArith ZArith Bool Arith Permutation Sorted.
Import ListNotations.
From GMS Require Import Store.C16Index Store.C16IndexProofs.

Lemma ns_cmp_refl a : ns_cmp a a = Eq.
Proof. induction a as [|x a IH]; cbn; auto. rewrite N.compare_refl. exact IH. Qed.

Lemma ns_cmp_eq a : forall b, ns_cmp a b = Eq -> a = b.
Proof.
  induction a as [|x a IH]; intros [|y b] H; cbn in H; try discriminate; auto.
  destruct (N.compare x y) eqn:E; try discriminate. apply N.compare_eq in E. subst. f_equal. apply IH. exact H.
Qed.

Lemma ns_cmp_antisym a : forall b, ns_cmp a b = CompOpp (ns_cmp b a).
Proof.
  induction a as [|x a IH]; intros [|y b]; cbn; auto.
  rewrite (N.compare_antisym y x). destruct (N.compare y x); cbn; auto.
Qed.

Lemma ns_cmp_lt_trans a : forall b c, ns_cmp a b = Lt -> ns_cmp b c = Lt -> ns_cmp a c = Lt.
Proof.
  induction a as [|x a IH]; intros [|y b] [|z c] H1 H2; cbn in *; try discriminate; auto.
  destruct (N.compare_spec x y) as [->| |]; [| |discriminate]; destruct (N.compare_spec y z) as [->|L2|]; try discriminate.
  - eapply IH; eassumption.
  - reflexivity.
  - now apply N.compare_lt_iff in H as ->.
  - now rewrite (proj2 (N.compare_lt_iff x z) (N.lt_trans _ _ _ H L2)).
Qed.

Lemma val_cmp_refl a : val_cmp a a = Eq.
Proof. destruct a; cbn; auto. apply Z.compare_refl. apply ns_cmp_refl. Qed.

Lemma val_cmp_eq a b : val_cmp a b = Eq -> a = b.
Proof.
  destruct a, b; cbn; intros H; try discriminate; auto.
  - apply Z.compare_eq in H. congruence.
  - apply ns_cmp_eq in H. congruence.
Qed.

Lemma val_cmp_antisym a b : val_cmp a b = CompOpp (val_cmp b a).
Proof.
  destruct a, b; cbn; auto. apply Z.compare_antisym. apply ns_cmp_antisym.
Qed.

Lemma val_cmp_lt_trans a b c : val_cmp a b = Lt -> val_cmp b c = Lt -> val_cmp a c = Lt.
Proof.
  destruct a, b, c; cbn; intros H1 H2; try discriminate; auto.
  - apply Z.compare_lt_iff. apply Z.compare_lt_iff in H1. apply Z.compare_lt_iff in H2. eapply Z.lt_trans; eassumption.
  - eapply ns_cmp_lt_trans; eassumption.
Qed.

(* key_cmp on tuples of one length is a total preorder *)
Definition kle (n : nat) (a b : row) : Prop := key_cmp n a b <> Gt.

Lemma key_cmp_antisym n : forall a b, key_cmp n a b = CompOpp (key_cmp n b a).
Proof.
  induction n as [|n IH]; intros [|x a] [|y b]; cbn; auto.
  rewrite (val_cmp_antisym x y). destruct (val_cmp y x); cbn; auto.
Qed.

Lemma kle_trans n : forall a b c, length a = length b -> length b = length c ->
  kle n a b -> kle n b c -> kle n a c.
Proof.
  unfold kle. induction n as [|n IH]; intros [|x a] [|y b] [|z c] L1 L2 H1 H2; cbn in *; try discriminate; auto.
  destruct (val_cmp x y) eqn:E1; [| |congruence].
  - apply val_cmp_eq in E1. subst y. destruct (val_cmp x z) eqn:E2; [|discriminate|congruence].
    apply (IH a b c); auto.
  - destruct (val_cmp y z) eqn:E2; [| |congruence].
    + apply val_cmp_eq in E2. subst z. rewrite E1. discriminate.
    + rewrite (val_cmp_lt_trans _ _ _ E1 E2). discriminate.
Qed.

Definition sorted_by (n : nat) (l : list entry) : Prop :=
  StronglySorted (fun x y => kle n (fst x) (fst y)) l.

Definition keys_len (L : nat) (l : list entry) : Prop := Forall (fun e => length (fst e) = L) l.

Lemma ins_entry_sorted n L (x : entry) (l : list entry) :
  length (fst x) = L -> keys_len L l -> sorted_by n l -> sorted_by n (ins_entry n x l).
Proof.
  intros Lx Ll S. induction l as [|y t IH]; cbn [ins_entry]; [repeat constructor|].
  inversion Ll as [|? ? Ly Lt']; subst. inversion S as [|? ? St Fy]; subst.
  destruct (key_cmp n (fst x) (fst y)) eqn:E.
  3: { (* x goes behind y *)
    constructor; [apply IH; assumption|].
    eapply Permutation_Forall; [apply Permutation_sym, ins_entry_perm|]. constructor; [|exact Fy].
    unfold kle. rewrite key_cmp_antisym, E. discriminate. }
  (* x goes in front: it is below y, hence below everything y is below *)
  all: assert (Hxy : kle n (fst x) (fst y)) by (unfold kle; rewrite E; discriminate);
    constructor; [exact S|]; constructor; [exact Hxy|];
    apply (Forall_impl _ (P := fun z => kle n (fst y) (fst z) /\ length (fst z) = length (fst x)));
    [|apply Forall_and; assumption]; intros z [Hz Lz]; apply (kle_trans n _ (fst y)); [exact (eq_sym Ly)|exact (eq_trans Ly (eq_sym Lz))|exact Hxy|exact Hz].
Qed.

Theorem sort_entries_sorted n L l : keys_len L l -> sorted_by n (sort_entries n l).
Proof.
  induction l as [|x t IH]; intros H; cbn; [constructor|]. inversion H as [|? ? Hx Ht]; subst.
  apply (ins_entry_sorted n (length (fst x))); [reflexivity | | apply IH; exact Ht].
  eapply Permutation_Forall; [apply Permutation_sym, sort_entries_perm | exact Ht].
Qed.

Definition KeysInv (td : tdata) : Prop := forall nm, mem_name nm (skeys td) = false -> stor td nm = [].
Definition SortedInv (td : tdata) : Prop :=
  forall k d, In (k, d) (defs td) -> sorted_by (nsort d) (stor td (iname d)).

Lemma mem_name_In n l : mem_name n l = true <-> In n l.
Proof.
  unfold mem_name. rewrite existsb_exists. split.
  - intros (x & H & E). apply name_eqb_eq in E. subst. exact H.
  - intros H. exists n. split; [exact H | apply name_eqb_refl].
Qed.

Lemma mem_add_key n m l : mem_name n (add_key m l) = mem_name n l || name_eqb n m.
Proof.
  unfold add_key. destruct (mem_name m l) eqn:E.
  - destruct (name_eqb n m) eqn:E2; [|rewrite orb_false_r; reflexivity].
    apply name_eqb_eq in E2. subst. rewrite E. reflexivity.
  - unfold mem_name. rewrite existsb_app. cbn. rewrite orb_false_r. reflexivity.
Qed.

Lemma mem_fold_add n ds : forall l,
  mem_name n (fold_left (fun ks kd => add_key (iname (snd kd)) ks) ds l)
  = mem_name n l || existsb (fun kd : name * idef => name_eqb n (iname (snd kd))) ds.
Proof.
  induction ds as [|kd t IH]; intros l; cbn [fold_left existsb]; [rewrite orb_false_r; reflexivity|].
  rewrite IH, mem_add_key, orb_assoc. reflexivity.
Qed.

Lemma mem_filter_ne n k l :
  mem_name n (filter (fun x => negb (name_eqb x k)) l) = mem_name n l && negb (name_eqb n k).
Proof. apply eq_true_iff_eq. now rewrite andb_true_iff, !mem_name_In, filter_In. Qed.

Lemma del_loc_nil l : del_loc l [] = [].
Proof. reflexivity. Qed.

Lemma def_named_of_in ds k d : In (k, d) ds -> def_named ds (iname d) <> None.
Proof. intros H E. exact (def_named_none ds _ k d E H eq_refl). Qed.

Lemma KeysInv_add_row td r l : KeysInv td -> KeysInv (add_row_to_indexes td r l).
Proof.
  intros K nm H. cbn [add_row_to_indexes skeys stor defs] in *. rewrite mem_fold_add in H. apply orb_false_elim in H.
  destruct H as [H1 H2]. destruct (def_named (defs td) nm) eqn:D; [|apply K; exact H1].
  apply def_named_some in D. destruct D as (k & Hin & <-).
  rewrite (proj2 (existsb_exists _ _)) in H2; [discriminate|]. exists (k, i). split; [exact Hin|apply name_eqb_refl].
Qed.

Lemma KeysInv_delete_helper td r : KeysInv td -> KeysInv (delete_helper td r).
Proof.
  intros K. unfold delete_helper. destruct (find_row (del_pred td r) (parts td) 0); [|exact K].
  intros nm H. cbn in *. rewrite (K nm H). destruct (def_named (defs td) nm); reflexivity.
Qed.

Lemma KeysInv_insert_helper td p r : KeysInv td -> KeysInv (insert_helper td p r).
Proof.
  intros K. unfold insert_helper.
  destruct (match pkcols td with [] => None | n :: l => find_row (fun x => pk_match (n :: l) x r) (parts td) 0 end);
    apply KeysInv_add_row; exact K.
Qed.

Lemma KeysInv_swap td l1 l2 : KeysInv td -> KeysInv (swap_td td l1 l2).
Proof.
  intros K. unfold swap_td. destruct (row_at (parts td) l1); [|exact K]. destruct (row_at (parts td) l2); [|exact K].
  intros nm H. cbn in *. rewrite (K nm H). reflexivity.
Qed.

Lemma KeysInv_sort_secondary td td' : KeysInv td -> sort_secondary td = Ok td' -> KeysInv td'.
Proof.
  intros K H. unfold sort_secondary in H. destruct (existsb (stale_key td) (skeys td)); [discriminate|].
  injection H as <-. intros nm Hm. cbn [stor skeys] in *. rewrite Hm. apply K. exact Hm.
Qed.

Lemma wf_keys_len d ps es : wf d ps es -> keys_len (length (icols d)) es.
Proof.
  intros (_ & K & _). apply Forall_forall. intros [k l] H. cbn. destruct (K _ _ H) as (r & _ & ->).
  unfold key_of. apply map_length.
Qed.

(* sortSecondaryIndexes leaves every index's storage sorted on its first [nsort] key columns *)
Theorem SortedInv_sort_secondary td td' :
  Inv td -> KeysInv td -> sort_secondary td = Ok td' -> SortedInv td'.
Proof.
  intros [OK W] K H. unfold sort_secondary in H. destruct (existsb (stale_key td) (skeys td)); [discriminate|].
  injection H as <-. intros k d Hd. cbn [stor skeys defs parts] in *.
  destruct (mem_name (iname d) (skeys td)) eqn:M.
  - pose proof (proj2 OK _ _ Hd) as Ek. rewrite <- Ek, (def_keyed_in _ _ _ OK Hd).
    eapply sort_entries_sorted. eapply wf_keys_len. apply (W _ _ Hd).
  - rewrite (K _ M). constructor.
Qed.

(* storage keys are names of live indexes (no orphaned storage) *)
Definition NoStaleP (ds : list (name * idef)) (ks : list name) : Prop :=
  forall k, In k ks -> def_named ds k <> None.
Definition NoStale (td : tdata) : Prop := NoStaleP (defs td) (skeys td).

Definition Good (td : tdata) : Prop := Inv td /\ KeysInv td /\ SortedInv td /\ NoStale td.

Lemma NoStaleP_fold_add ds ks : NoStaleP ds ks -> NoStaleP ds (fold_left (fun ks kd => add_key (iname (snd kd)) ks) ds ks).
Proof.
  intros N k H. apply mem_name_In in H. rewrite mem_fold_add in H. apply orb_prop in H. destruct H as [H|H].
  - apply N. apply mem_name_In. exact H.
  - apply existsb_exists in H. destruct H as ([k0 d] & Hin & E). cbn in E. apply name_eqb_eq in E. subst k.
    eapply def_named_of_in. exact Hin.
Qed.

Lemma NoStale_delete_helper td r : NoStale td -> NoStale (delete_helper td r).
Proof. unfold NoStale, delete_helper. now destruct (find_row (del_pred td r) (parts td) 0). Qed.

Lemma NoStale_insert_helper td p r : NoStale td -> NoStale (insert_helper td p r).
Proof.
  unfold NoStale, insert_helper.
  destruct (match pkcols td with [] => None | n :: l => find_row (fun x => pk_match (n :: l) x r) (parts td) 0 end);
    cbn; apply NoStaleP_fold_add.
Qed.

Lemma NoStale_swap td l1 l2 : NoStale td -> NoStale (swap_td td l1 l2).
Proof.
  unfold NoStale, swap_td. destruct (row_at (parts td) l1); [|auto]. destruct (row_at (parts td) l2); auto.
Qed.

(* What the helpers of ApplyEdits keep from one to the next; sortSecondaryIndexes at the end adds [SortedInv]. *)
Definition Unsorted (td : tdata) : Prop := Inv td /\ KeysInv td /\ NoStale td.

Lemma Unsorted_delete_helper td r : Unsorted td -> Unsorted (delete_helper td r).
Proof. intros (I & K & N). split; [|split]; auto using Inv_delete_helper, KeysInv_delete_helper, NoStale_delete_helper. Qed.

Lemma Unsorted_insert_helper td p r : Unsorted td -> fresh_insert td p r = true -> Unsorted (insert_helper td p r).
Proof. intros (I & K & N) F. split; [|split]; auto using Inv_insert_helper, KeysInv_insert_helper, NoStale_insert_helper. Qed.

Lemma Unsorted_swap td l1 l2 : Unsorted td -> Unsorted (swap_td td l1 l2).
Proof. intros (I & K & N). split; [|split]; auto using Inv_swap_td, KeysInv_swap, NoStale_swap. Qed.

(* with no orphaned storage, sortSecondaryIndexes finds an index for every storage key: it cannot panic *)
Lemma Good_sort_secondary td : Unsorted td -> exists td', sort_secondary td = Ok td' /\ Good td'.
Proof.
  intros (I & K & N).
  assert (E : existsb (stale_key td) (skeys td) = false).
  { destruct (existsb (stale_key td) (skeys td)) eqn:E; [|reflexivity]. apply existsb_exists in E.
    destruct E as (k & Hk & S). exfalso. specialize (N _ Hk). destruct (def_named (defs td) k) as [d|] eqn:D; [|congruence].
    apply def_named_some in D. destruct D as (k0 & Hin & <-). unfold stale_key in S. destruct I as [OK _].
    rewrite <- (proj2 OK _ _ Hin), (def_keyed_in _ _ _ OK Hin) in S. discriminate. }
  assert (exists td', sort_secondary td = Ok td') as [td' H] by (unfold sort_secondary; rewrite E; eauto).
  exists td'. split; [exact H|].
  split; [exact (Inv_sort_secondary _ _ I H)|]. split; [exact (KeysInv_sort_secondary _ _ K H)|].
  split; [exact (SortedInv_sort_secondary _ _ I K H)|]. unfold sort_secondary in H. rewrite E in H. now injection H as <-.
Qed.

Lemma Good_apply_edits td dels adds :
  Unsorted td -> apply_fresh td dels adds = true -> exists td', apply_edits td dels adds = Ok td' /\ Good td'.
Proof.
  intros U F. pose proof (apply_rows_preserves Unsorted Unsorted_delete_helper Unsorted_insert_helper td dels adds U F) as U1.
  unfold apply_edits. destruct (pkcols td); [|apply (sort_rows_preserves Unsorted Unsorted_swap) in U1];
    exact (Good_sort_secondary _ U1).
Qed.

Lemma Good_truncate td : defs_ok (defs td) -> Good (truncate td).
Proof.
  intros OK. split; [apply Inv_truncate; exact OK|]. split; [intros nm _; reflexivity|].
  split; [intros k d _; cbn; constructor | intros k []].
Qed.

Lemma wf_icols d d' ps es : icols d = icols d' -> wf d ps es -> wf d' ps es.
Proof.
  intros E (N & K & C). split; [exact N|]. split; [|exact C]. intros k l H. destruct (K _ _ H) as (r & Hr & ->).
  exists r. split; [exact Hr|]. unfold key_of. rewrite E. reflexivity.
Qed.

(* a name with a live index other than the one keyed [k0] keeps it when that one is filtered out *)
Lemma def_named_filtered ds k0 d0 nm extra :
  defs_ok ds -> In (k0, d0) ds -> def_named ds nm <> None -> nm <> iname d0 ->
  def_named (filter (fun kd => negb (name_eqb (fst kd) k0)) ds ++ extra) nm <> None.
Proof.
  intros OK H0 N NE. destruct (def_named ds nm) as [d|] eqn:D; [|congruence].
  apply def_named_some in D. destruct D as (k & H & <-). apply (def_named_of_in _ k d), in_or_app. left.
  apply filter_In. split; [exact H|]. cbn. apply negb_true_iff, name_eqb_neq. intros ->.
  apply NE. f_equal. pose proof (def_keyed_in _ _ _ OK H) as A. rewrite (def_keyed_in _ _ _ OK H0) in A. congruence.
Qed.

Lemma Good_drop_index td nm : Good td -> Good (drop_index td nm).
Proof.
  intros (I & K & S & N). split; [apply Inv_drop_index; exact I|]. unfold drop_index.
  destruct (def_keyed (defs td) (lower nm)) as [d|] eqn:F; [|exact (conj K (conj S N))].
  pose proof (def_keyed_some _ _ _ F) as Hd. destruct I as [OK W]. split; [|split].
  - intros n Hm. cbn [stor skeys] in *. rewrite mem_filter_ne in Hm. destruct (name_eqb n (iname d)); [reflexivity|].
    cbn in Hm. rewrite andb_true_r in Hm. apply K. exact Hm.
  - intros k d2 H2. cbn [stor defs] in *. apply filter_In in H2. destruct H2 as [H2 _].
    destruct (name_eqb (iname d2) (iname d)); [constructor | apply (S _ _ H2)].
  - intros k Hk. cbn [skeys defs] in *. apply filter_In in Hk. destruct Hk as [Hk NE]. apply negb_true_iff in NE.
    apply name_eqb_neq in NE. rewrite <- (app_nil_r (filter _ _)). exact (def_named_filtered _ _ _ _ [] OK Hd (N _ Hk) NE).
Qed.

Lemma Good_rename_index td a b : Good td -> Good (rename_index td a b).
Proof.
  intros (I & K & S & N). unfold rename_index. destruct (name_eqb a b); [exact (conj I (conj K (conj S N)))|].
  destruct (def_keyed (defs td) (lower a)) as [d|] eqn:Fa; [|exact (conj I (conj K (conj S N)))].
  destruct (def_keyed (defs td) (lower b)) eqn:Fb; [exact (conj I (conj K (conj S N)))|].
  pose proof (def_keyed_some _ _ _ Fa) as Hd. destruct I as [OK W].
  cbv zeta. set (td' := Build_tdata _ _ _ _ _).
  set (d' := {| iname := b; icols := icols d; nsort := nsort d |}) in *.
  set (fds := filter (fun kd => negb (name_eqb (fst kd) (lower a))) (defs td)) in *.
  assert (OK' : defs_ok (fds ++ [(lower b, d')])).
  { apply (defs_ok_add fds d'); [apply defs_ok_filter; exact OK|]. unfold def_keyed.
    destruct (find _ fds) as [kd|] eqn:F; [|reflexivity]. apply find_key_some in F. destruct F as [F E].
    apply filter_In in F. destruct (def_keyed_none _ _ Fb). change (lower b) with (lower (iname d')).
    rewrite <- E. apply in_map, F. }
  (* the new name is that of no index, hence of no storage *)
  assert (NB : def_named (defs td) b = None).
  { destruct (def_named (defs td) b) as [d2|] eqn:D; [|reflexivity]. apply def_named_some in D. destruct D as (k & Hin & <-).
    destruct (def_keyed_none _ _ Fb). rewrite <- (proj2 OK _ _ Hin). apply (in_map fst _ _ Hin). }
  assert (SB : mem_name b (skeys td) = false).
  { destruct (mem_name b (skeys td)) eqn:M; [|reflexivity]. apply mem_name_In in M. apply N in M. congruence. }
  (* whether or not a storage entry moves, the new name holds what the old one held and the old one nothing: a name
     outside the storage keys holds nothing *)
  assert (ST : forall n, stor td' n =
                 if name_eqb n b then stor td (iname d) else if name_eqb n (iname d) then [] else stor td n).
  { intros n. unfold td'. cbn [stor]. destruct (mem_name (iname d) (skeys td)) eqn:M; [reflexivity|].
    destruct (name_eqb n b) eqn:E1; [apply name_eqb_eq in E1; subst n; rewrite (K _ M); exact (K _ SB)|].
    destruct (name_eqb n (iname d)) eqn:E2; [apply name_eqb_eq in E2; subst n; exact (K _ M)|reflexivity]. }
  (* so every definition has one before the renaming with its columns, its sort prefix and its storage *)
  assert (OLD : forall k d2, In (k, d2) (defs td') -> exists k1 d1, In (k1, d1) (defs td) /\
                  icols d1 = icols d2 /\ nsort d2 = nsort d1 /\ stor td' (iname d2) = stor td (iname d1)).
  { intros k d2 H. rewrite ST. apply in_app_or in H. destruct H as [H|[H|[]]].
    - apply filter_In in H. destruct H as [H NE]. cbn in NE. apply negb_true_iff, name_eqb_neq in NE.
      rewrite (proj2 (name_eqb_neq _ _) (def_named_none _ _ _ _ NB H)). destruct (name_eqb (iname d2) (iname d)) eqn:E; [|eauto 7].
      apply name_eqb_eq in E. pose proof (defs_ok_names _ _ _ _ _ OK H Hd E). congruence.
    - injection H as <- <-. cbn [iname]. rewrite name_eqb_refl. eauto 7. }
  split; [split; [exact OK'|]|split; [|split]].
  - intros k d2 H. destruct (OLD _ _ H) as (k1 & d1 & H1 & Ei & _ & ->). exact (wf_icols d1 d2 _ _ Ei (W _ _ H1)).
  - intros n Hm. rewrite ST. unfold td' in Hm. cbn [skeys] in Hm. destruct (mem_name (iname d) (skeys td)) eqn:M.
    + rewrite mem_add_key, mem_filter_ne in Hm. apply orb_false_elim in Hm. destruct Hm as [H1 ->].
      destruct (name_eqb n (iname d)); [reflexivity|]. cbn in H1. rewrite andb_true_r in H1. exact (K _ H1).
    + destruct (name_eqb n b); [exact (K _ M)|]. destruct (name_eqb n (iname d)); [reflexivity|exact (K _ Hm)].
  - intros k d2 H. destruct (OLD _ _ H) as (k1 & d1 & H1 & _ & -> & ->). exact (S _ _ H1).
  - intros k Hk. unfold td' in *. cbn [skeys defs] in *. destruct (mem_name (iname d) (skeys td)) eqn:M.
    + apply mem_name_In in Hk. rewrite mem_add_key, mem_filter_ne in Hk. apply orb_prop in Hk. destruct Hk as [Hk|Hk].
      * apply andb_prop in Hk. destruct Hk as [H1 H2]. apply mem_name_In in H1. apply negb_true_iff, name_eqb_neq in H2.
        exact (def_named_filtered _ _ _ _ _ OK Hd (N _ H1) H2).
      * apply name_eqb_eq in Hk. subst k. apply (def_named_of_in _ (lower b) d'). apply in_or_app. right. left. reflexivity.
    + apply (def_named_filtered _ _ _ _ _ OK Hd (N _ Hk)). intros ->. apply mem_name_In in Hk. congruence.
Qed.

(* every operation of a guarded history runs (no panic, whatever the index names) and preserves the invariants *)
Theorem Good_step hp td o : Good td -> step_ok hp td o = true -> exists td', step hp td o = Ok td' /\ Good td'.
Proof.
  intros G SO. pose proof G as (I & K & S & N). destruct o as [dels adds| |d|nm|a b| |d]; cbn [step].
  - apply Good_apply_edits; [exact (conj I (conj K N))|exact SO].
  - eexists. split; [reflexivity|]. apply Good_truncate. apply I.
  - unfold create_index. cbn in SO. destruct (def_keyed (defs td) (lower (iname d))) eqn:F; [eauto|].
    assert (G0 : Good (truncate (add_def td d))) by (apply Good_truncate; cbn; apply defs_ok_add; [apply I | exact F]).
    destruct G0 as (I0 & K0 & _ & N0). apply Good_apply_edits; [exact (conj I0 (conj K0 N0))|exact SO].
  - eexists. split; [reflexivity|]. apply Good_drop_index. exact G.
  - eexists. split; [reflexivity|]. apply Good_rename_index. exact G.
  - eauto.
  - discriminate.
Qed.

Theorem Good_run hp h : forall td, Good td -> hist_ok hp td h = true -> exists td', run hp td h = Ok td' /\ Good td'.
Proof.
  induction h as [|o t IH]; intros td G S; cbn in *; [eauto|].
  apply andb_prop in S. destruct S as [S1 S2]. destruct (Good_step hp td o G S1) as (td1 & E & G1).
  rewrite E in *. apply IH; assumption.
Qed.

Lemma Good_init n pks : Good (init n pks).
Proof. split; [apply Inv_init|]. split; [intros nm _; reflexivity|]. split; [intros k d [] | intros k []]. Qed.
