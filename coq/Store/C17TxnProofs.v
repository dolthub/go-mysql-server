(* C17 - proofs about the transaction state machine of Store/C17Txn.v.  All statements are about ALL states /
   histories; table contents, write operations and multi-table statements are arbitrary. *)
From Coq Require Import List NArith Bool.
Import ListNotations.
From GMS Require Import Store.C17Txn.

Section Proofs.
Variable data : Type.
Variable wop : Type.
Variable apply : wop -> data -> option data.
Variable mop : Type.
Variable mtabs : mop -> list tid.
Variable mwrites : mop -> bool.
Variable mexec : mop -> list data -> mres data.

Notation sess := (sess data).
Notation state := (state data).
Notation stmt := (stmt wop mop).
Notation step := (step apply mtabs mwrites mexec).
Notation run := (run apply mtabs mwrites mexec).
Notation apply_rw := (apply_rw apply mtabs mwrites mexec).
Notation apply_rws := (apply_rws apply mtabs mwrites mexec).
Notation apply_ic := (apply_ic apply).
Notation apply_block := (apply_block apply mtabs mwrites mexec).
Notation serial := (serial apply mtabs mwrites mexec).

(* pointwise equality of session records ([staged] is a function) *)
Definition sess_eq (a b : sess) : Prop :=
  (forall t, staged a t = staged b t) /\ tx a = tx b /\ ign a = ign b /\ ac a = ac b /\ ro a = ro b.

Lemma sess_eq_refl a : sess_eq a a.
Proof. repeat split. Qed.

Lemma set_sess_same (f : sid -> sess) s se : set_sess f s se s = se.
Proof. unfold set_sess. now rewrite N.eqb_refl. Qed.

Lemma set_sess_other (f : sid -> sess) s se s' : s' <> s -> set_sess f s se s' = f s'.
Proof. intros H. unfold set_sess. apply N.eqb_neq in H. now rewrite H. Qed.

Lemma put_same (stg : tid -> option data) t x : put stg t x t = Some x.
Proof. unfold put. now rewrite N.eqb_refl. Qed.

Lemma put_other (stg : tid -> option data) t x t' : t' <> t -> put stg t x t' = stg t'.
Proof. intros H. unfold put. apply N.eqb_neq in H. now rewrite H. Qed.

Lemma upd_same (d : tid -> data) t x : upd d t x t = x.
Proof. unfold upd. now rewrite N.eqb_refl. Qed.

Lemma upd_other (d : tid -> data) t x t' : t' <> t -> upd d t x t' = d t'.
Proof. intros H. unfold upd. apply N.eqb_neq in H. now rewrite H. Qed.

Lemma begin_tx_tx (se : sess) : tx (begin_tx se) = true.
Proof. unfold begin_tx. destruct (tx se) eqn:E; auto. Qed.

Lemma begin_tx_ign (se : sess) : ign (begin_tx se) = ign se.
Proof. unfold begin_tx. destruct (tx se); auto. Qed.

Lemma begin_tx_ac (se : sess) : ac (begin_tx se) = ac se.
Proof. unfold begin_tx. destruct (tx se); auto. Qed.

Lemma begin_tx_open (se : sess) : tx se = true -> begin_tx se = se.
Proof. intros H. unfold begin_tx. now rewrite H. Qed.

Lemma run_cons st s q h :
  run st ((s, q) :: h) =
  (fst (run (fst (step st s q)) h), snd (step st s q) :: snd (run (fst (step st s q)) h)).
Proof.
  cbn. destruct (step st s q) as [st1 r]. cbn. destruct (run st1 h) as [st2 rs]. reflexivity.
Qed.

Lemma run_app st h1 h2 :
  run st (h1 ++ h2) =
  (fst (run (fst (run st h1)) h2), snd (run st h1) ++ snd (run (fst (run st h1)) h2)).
Proof.
  revert st. induction h1 as [|[s q] h1 IH]; intros st.
  - cbn. destruct (run st h2). reflexivity.
  - rewrite <- app_comm_cons, !run_cons. rewrite IH. cbn. reflexivity.
Qed.

(* A statement reads the database and the record of its own session, and writes those two. *)

Lemma step_local st1 st2 s q :
  db st1 = db st2 -> ss st1 s = ss st2 s ->
  exists d se r, step st1 s q = (mkState d (set_sess (ss st1) s se), r) /\
                 step st2 s q = (mkState d (set_sess (ss st2) s se), r).
Proof.
  destruct st1 as [d f1], st2 as [d2 f2]. cbn [db ss]. intros <- Hs.
  unfold C17Txn.step. cbn [db ss]. rewrite <- Hs. generalize (begin_tx (f1 s)). intros se.
  (* whichever way the statement goes, it ends in [rejected], [closed], [closed_ic] or an explicit state of this form *)
  destruct q as [t|t w| | | |b| |t w|t w| | |ts|m]; cbn zeta;
    [|destruct (ro se); [|destruct (apply w _)]| | | | | |destruct (apply w _)|destruct (ro se); [|destruct (apply w _)]
     | | | |destruct (ro se && mwrites m); [|destruct (mexec m _)]];
    do 3 eexists; split; reflexivity.
Qed.

Lemma step_other_sess st s q s' : s' <> s -> ss (fst (step st s q)) s' = ss st s'.
Proof.
  intros Hn. destruct (step_local st st s q eq_refl eq_refl) as (d & se & r & -> & _). now apply set_sess_other.
Qed.

(* the session's staging over the database d shows the contents sd *)
Definition tracks (d : tid -> data) (stg : tid -> option data) (sd : tid -> data) : Prop :=
  forall t, cur d stg t = sd t.

Lemma tracks_put d g sd t x : tracks d g sd -> tracks d (put g t x) (upd sd t x).
Proof. intros H t'. unfold cur, put, upd. destruct (N.eqb t' t); auto. apply H. Qed.

Lemma tracks_touch d g sd t : tracks d g sd -> tracks d (touch d g t) sd.
Proof.
  intros H t'. unfold touch, cur at 1, put. destruct (N.eqb t' t) eqn:E; [|apply H].
  apply N.eqb_eq in E. subst. apply H.
Qed.

Lemma tracks_touch_all d g sd : tracks d g sd -> tracks d (touch_all d g) sd.
Proof. intros H t'. unfold touch_all, cur at 1. apply H. Qed.

Lemma tracks_touch_list d ts : forall g sd, tracks d g sd -> tracks d (touch_list d g ts) sd.
Proof. induction ts as [|t ts IH]; intros g sd H; cbn; auto. apply IH. now apply tracks_touch. Qed.

Lemma tracks_put_list d l : forall g sd, tracks d g sd -> tracks d (put_list g l) (upd_list sd l).
Proof. induction l as [|[t x] l IH]; intros g sd H; cbn; auto. apply IH. now apply tracks_put. Qed.

Hint Resolve tracks_put tracks_touch tracks_touch_all tracks_touch_list tracks_put_list : tracks.

(* a body statement: the session entries afterwards show what the statement does to the contents it saw, and the
   result is the one of running it directly on those contents *)
Lemma rw_shape st s q sd :
  let se := begin_tx (ss st s) in
  tracks (db st) (staged se) sd ->
  exists g, tracks (db st) g (fst (apply_rw (ro se) sd q)) /\
    (step st s (stmt_of q) = closed st s se g (snd (apply_rw (ro se) sd q)) \/
     step st s (stmt_of q) = rejected st s se g /\ apply_rw (ro se) sd q = (sd, RErr)).
Proof.
  cbn zeta. intros Htr. unfold C17Txn.step. set (se := begin_tx (ss st s)) in *. cbn zeta.
  destruct q as [t|t w|t w|m| |]; cbn [stmt_of C17Txn.apply_rw];
    [rewrite (Htr t)|rewrite (Htr t); destruct (ro se); [|destruct (apply w _)]
     |rewrite (Htr t); destruct (ro se); [|destruct (apply w _)]
     |rewrite (map_ext _ _ Htr); destruct (ro se && mwrites m); [|destruct (mexec m _)]| |];
    eexists; (split; [|(left; reflexivity) || (right; split; reflexivity)]); cbn [fst]; eauto with tracks.
Qed.

Lemma ic_shape st s i sd :
  let se := begin_tx (ss st s) in
  tracks (db st) (staged se) sd ->
  exists g, tracks (db st) g (fst (apply_ic sd i)) /\
    step st s (stmt_of_ic i) = closed_ic st s se g (snd (apply_ic sd i)).
Proof.
  cbn zeta. intros Htr. unfold C17Txn.step. set (se := begin_tx (ss st s)) in *. cbn zeta.
  destruct i as [t w|ts]; cbn [stmt_of_ic C17Txn.apply_ic]; [rewrite (Htr t); destruct (apply w _)|];
    eexists; (split; [|reflexivity]); cbn [fst]; eauto with tracks.
Qed.

Lemma rw_result st s q sd :
  let se := begin_tx (ss st s) in
  tracks (db st) (staged se) sd -> snd (step st s (stmt_of q)) = snd (apply_rw (ro se) sd q).
Proof.
  cbn zeta. intros Htr. destruct (rw_shape st s q sd Htr) as (g & _ & [->|[-> ->]]); reflexivity.
Qed.

Lemma closed_ic_publishes (st : state) s (se : sess) g r :
  tx se = true ->
  closed_ic st s se g r = (mkState (publish (db st) g) (set_sess (ss st) s (mkSess g false (ign se) (ac se) false)), r).
Proof. intros Htx. unfold closed_ic, close_ic. cbn. rewrite Htx. reflexivity. Qed.

Lemma view_set d (f : sid -> sess) s se t : tx se = true -> view (mkState d (set_sess f s se)) s t = cur d (staged se) t.
Proof. intros H. unfold view. cbn [db ss]. now rewrite set_sess_same, begin_tx_open. Qed.

Lemma view_closed (st : state) s t : tx (ss st s) = false -> view st s t = db st t.
Proof. intros H. unfold view, begin_tx. rewrite H. reflexivity. Qed.

(* A statement of a session that is inside an explicit transaction or has autocommit off, and that is
   not itself a transaction-control or implicit-commit statement, changes neither the database nor any
   other session. *)

Definition quiet (q : stmt) : bool :=
  match q with Read _ | Write _ _ | WriteAll _ _ | Multi _ | Bad | Savepoint => true | _ => false end.

Lemma quiet_stmt_of q : quiet q = true -> exists q', q = stmt_of q'.
Proof.
  destruct q as [t|t w| | | |b| |t w|t w| | |ts|m]; try discriminate; intros _;
    [exists (RRead t)|exists (RWrite t w)|exists RBad|exists (RWriteAll t w)|exists RSavepoint|exists (RMulti m)]; reflexivity.
Qed.

(* the end of a statement will not commit: ignoreAutocommit is set (explicit START TRANSACTION not yet ended by
   COMMIT / ROLLBACK) or autocommit is off *)
Definition holding (se : sess) : Prop := ign se = true \/ ac se = false.

Lemma close_holding (d : tid -> data) (se : sess) : holding se -> close d se (ac se) = (d, se).
Proof.
  intros Hm. unfold close. destruct (tx se); cbn; auto. destruct (ign se) eqn:Ei; auto.
  destruct Hm as [Hm|Hm]; [congruence|]. now rewrite Hm.
Qed.

Lemma fail_sess_holding (se : sess) : holding se -> fail_sess se = se.
Proof.
  intros Hm. unfold fail_sess. destruct (ign se) eqn:Ei; auto.
  destruct Hm as [Hm|Hm]; [congruence|]. now rewrite Hm.
Qed.

Lemma holding_begin_tx (se : sess) : holding se -> holding (begin_tx se).
Proof. unfold holding. now rewrite begin_tx_ign, begin_tx_ac. Qed.

Lemma closed_holding st s se g r :
  holding se -> closed st s se g r = (mkState (db st) (set_sess (ss st) s (with_stg se g)), r).
Proof. intros H. unfold closed. change (ac se) with (ac (with_stg se g)). now rewrite close_holding. Qed.

Lemma rejected_holding st s se g :
  holding se -> rejected st s se g = (mkState (db st) (set_sess (ss st) s (with_stg se g)), RErr).
Proof. intros H. unfold rejected. now rewrite (fail_sess_holding (with_stg se g) H). Qed.

(* a quiet statement of a holding session only replaces the session's entries; they show what the statement does
   to the contents the session saw *)
Lemma quiet_step st s q sd :
  let se := begin_tx (ss st s) in
  holding (ss st s) -> tracks (db st) (staged se) sd ->
  exists g, tracks (db st) g (fst (apply_rw (ro se) sd q)) /\
    step st s (stmt_of q) = (mkState (db st) (set_sess (ss st) s (with_stg se g)), snd (apply_rw (ro se) sd q)).
Proof.
  cbn zeta. intros Hh Htr. apply holding_begin_tx in Hh.
  destruct (rw_shape st s q sd Htr) as (g & Hg & [->|[-> E]]); exists g; split; auto.
  - now apply closed_holding.
  - rewrite E. now apply rejected_holding.
Qed.

Lemma step_quiet_holding st s q :
  holding (ss st s) -> quiet q = true ->
  let st' := fst (step st s q) in
  (forall t, db st' t = db st t) /\ (forall s', s' <> s -> ss st' s' = ss st s') /\ holding (ss st' s).
Proof.
  intros Hh Hq. cbn zeta. destruct (quiet_stmt_of q Hq) as [q' ->].
  destruct (quiet_step st s q' (view st s) Hh (fun t => eq_refl)) as (g & _ & ->). cbn [fst db ss].
  split; [auto|]. split; [intros; now apply set_sess_other|]. rewrite set_sess_same. now apply holding_begin_tx.
Qed.

(* the session's own view follows the statements as if they were run directly on it *)
Theorem quiet_own_view st s q :
  holding (ss st s) ->
  forall t, view (fst (step st s (stmt_of q))) s t = fst (apply_rw (ro (begin_tx (ss st s))) (view st s) q) t.
Proof.
  intros Hh t. destruct (quiet_step st s q (view st s) Hh (fun t => eq_refl)) as (g & Hg & ->). cbn [fst].
  rewrite view_set by apply begin_tx_tx. apply Hg.
Qed.

(* Non-interference: what the other sessions see and what ends up in the database does not depend on
   the quiet statements of a holding session. *)

Definition agree_but (s : sid) (st1 st2 : state) : Prop :=
  db st1 = db st2 /\ forall s', s' <> s -> ss st1 s' = ss st2 s'.

(* the results seen by sessions other than s *)
Fixpoint others (s : sid) (h : list (sid * stmt)) (rs : list (result data)) : list (result data) :=
  match h, rs with
  | (s', _) :: h', r :: rs' => if N.eqb s' s then others s h' rs' else r :: others s h' rs'
  | _, _ => []
  end.

Definition without (s : sid) (h : list (sid * stmt)) : list (sid * stmt) :=
  filter (fun e => negb (N.eqb (fst e) s)) h.

Definition quiet_in (s : sid) (h : list (sid * stmt)) : Prop :=
  forall e, In e h -> fst e = s -> quiet (snd e) = true.

(* The states stay EQUAL outside s (not merely pointwise equal): a quiet statement of s leaves [db] as it is, and a
   statement of another session computes the same database and record in both runs (step_local). *)
Theorem noninterference s h : forall st1 st2,
  holding (ss st1 s) -> quiet_in s h -> agree_but s st1 st2 ->
  let '(st1', rs1) := run st1 h in
  let '(st2', rs2) := run st2 (without s h) in
  agree_but s st1' st2' /\ holding (ss st1' s) /\ others s h rs1 = rs2.
Proof.
  induction h as [|[s' q] h IH]; intros st1 st2 Hh Hq [Hd Hs].
  - cbn. repeat split; auto.
  - rewrite run_cons. cbn [without filter fst].
    assert (Hq' : quiet_in s h) by (intros e He; apply Hq; now right).
    destruct (N.eqb s' s) eqn:Es; cbn [negb]; fold (without s h).
    + apply N.eqb_eq in Es. subst s'.
      assert (Hqq : quiet q = true) by (apply (Hq (s, q)); [now left|reflexivity]).
      destruct (quiet_stmt_of q Hqq) as [q' ->].
      destruct (quiet_step st1 s q' (view st1 s) Hh (fun t => eq_refl)) as (g & _ & E).
      specialize (IH (fst (step st1 s (stmt_of q'))) st2). rewrite E in *. cbn [fst snd db ss] in IH.
      rewrite set_sess_same in IH.
      destruct (run _ h) as [st1' rs1]. destruct (run st2 (without s h)) as [st2' rs2].
      cbn [fst snd others]. rewrite N.eqb_refl. apply IH; auto.
      * now apply holding_begin_tx.
      * split; auto. intros s'' Hn. cbn [ss]. rewrite set_sess_other by auto. now apply Hs.
    + pose proof (proj1 (N.eqb_neq _ _) Es) as Hn.
      destruct (step_local st1 st2 s' q Hd (Hs s' Hn)) as (d & se & r & E1 & E2).
      rewrite run_cons, E1, E2. cbn [fst snd].
      specialize (IH (mkState d (set_sess (ss st1) s' se)) (mkState d (set_sess (ss st2) s' se))).
      destruct (run (mkState d (set_sess (ss st1) s' se)) h) as [st1' rs1].
      destruct (run (mkState d (set_sess (ss st2) s' se)) (without s h)) as [st2' rs2].
      cbn [fst snd others]. rewrite Es.
      destruct IH as (I1 & I2 & I3); auto.
      * cbn [ss]. now rewrite set_sess_other by auto.
      * split; [reflexivity|]. intros s'' Hn'. cbn [ss]. unfold set_sess. destruct (N.eqb s'' s'); auto.
      * now rewrite I3.
Qed.

Lemma agree_but_refl s st : agree_but s st st.
Proof. split; auto. Qed.

(* ROLLBACK: BEGIN; (own reads/writes/failed statements interleaved with anything the other sessions
   do); ROLLBACK  leaves the database and every other session exactly as if the session had issued
   nothing between BEGIN and ROLLBACK, the others saw the same results, and the session itself is
   back to reading committed data.  The same for START TRANSACTION READ ONLY. *)

Definition is_begin (q : stmt) : bool := match q with Begin | BeginRO => true | _ => false end.

Lemma holding_after_begin st s b : is_begin b = true -> holding (ss (fst (step st s b)) s).
Proof. intros Hb. destruct b; try discriminate; cbn; rewrite set_sess_same; left; reflexivity. Qed.

Theorem rollback_after_holding st0 s h :
  holding (ss st0 s) -> quiet_in s h ->
  let '(st1, rs1) := run st0 h in
  let st2 := fst (step st1 s Rollback) in
  let '(stR, rsR) := run st0 (without s h) in
  db st2 = db stR /\
  (forall s', s' <> s -> ss st2 s' = ss stR s') /\
  others s h rs1 = rsR /\
  (forall t, view st2 s t = db st2 t) /\ tx (ss st2 s) = false /\ ign (ss st2 s) = false /\ ro (ss st2 s) = false.
Proof.
  intros Hh Hq.
  pose proof (noninterference s h _ _ Hh Hq (agree_but_refl s _)) as H.
  destruct (run st0 h) as [st1 rs1].
  destruct (run st0 (without s h)) as [stR rsR].
  destruct H as ([Hd Hs] & Hh' & Ho). cbn zeta.
  split; [exact Hd|]. split.
  { intros s' Hn. rewrite step_other_sess by auto. now apply Hs. }
  split; [exact Ho|]. split.
  { intros t. apply view_closed. cbn. now rewrite set_sess_same. }
  cbn. rewrite set_sess_same. cbn. auto.
Qed.

Theorem rollback_restores st s b h :
  is_begin b = true -> quiet_in s h ->
  let st0 := fst (step st s b) in
  let '(st1, rs1) := run st0 h in
  let st2 := fst (step st1 s Rollback) in
  let '(stR, rsR) := run st0 (without s h) in
  (forall t, db st2 t = db stR t) /\
  (forall s', s' <> s -> sess_eq (ss st2 s') (ss stR s')) /\
  others s h rs1 = rsR /\
  (forall t, view st2 s t = db st2 t) /\ tx (ss st2 s) = false /\ ign (ss st2 s) = false /\ ro (ss st2 s) = false.
Proof.
  intros Hb Hq. cbn zeta.
  pose proof (rollback_after_holding _ s h (holding_after_begin st s b Hb) Hq) as H.
  destruct (run _ h) as [st1 rs1]. destruct (run _ (without s h)) as [stR rsR].
  destruct H as (H1 & H2 & H3). split; [intros t; now rewrite H1|].
  split; [intros s' Hn; rewrite (H2 s' Hn); apply sess_eq_refl|exact H3].
Qed.

Lemma without_own s (qs : list stmt) : without s (map (fun q => (s, q)) qs) = [].
Proof. induction qs as [|q qs IH]; cbn; auto. rewrite N.eqb_refl. cbn. apply IH. Qed.

Lemma quiet_in_own s (qs : list stmt) :
  (forall q, In q qs -> quiet q = true) -> quiet_in s (map (fun q => (s, q)) qs).
Proof. intros Hq e He _. apply in_map_iff in He. destruct He as (q & <- & Hin). now apply Hq. Qed.

(* with no other session active: the database after the quiet statements and ROLLBACK is the one before them *)
Lemma rollback_alone st0 s (qs : list stmt) :
  holding (ss st0 s) -> (forall q, In q qs -> quiet q = true) ->
  let st2 := fst (step (fst (run st0 (map (fun q => (s, q)) qs))) s Rollback) in
  forall t, db st2 t = db st0 t /\ view st2 s t = db st0 t.
Proof.
  intros Hh Hq. cbn zeta. intros t.
  pose proof (rollback_after_holding st0 s (map (fun q => (s, q)) qs) Hh (quiet_in_own s qs Hq)) as H.
  rewrite without_own in H. cbn [C17Txn.run] in H.
  destruct (run st0 (map (fun q => (s, q)) qs)) as [st1 rs1].
  destruct H as (H1 & _ & _ & H4 & _). cbn [fst]. now rewrite H4, H1.
Qed.

Corollary rollback_restores_alone st s b (qs : list stmt) :
  is_begin b = true -> (forall q, In q qs -> quiet q = true) ->
  let st0 := fst (step st s b) in
  let st2 := fst (step (fst (run st0 (map (fun q => (s, q)) qs))) s Rollback) in
  forall t, db st2 t = db st0 t /\ view st2 s t = db st0 t.
Proof. intros Hb. apply rollback_alone. now apply holding_after_begin. Qed.

(* No dirty reads: the results every other session observes, the database and the other sessions'
   state are the same whether or not a holding session issues its (uncommitted) reads and writes. *)

Theorem no_dirty_read st s h :
  holding (ss st s) -> quiet_in s h ->
  let '(st1, rs1) := run st h in
  let '(st2, rs2) := run st (without s h) in
  others s h rs1 = rs2 /\ (forall t, db st1 t = db st2 t) /\
  (forall s', s' <> s -> forall t, view st1 s' t = view st2 s' t).
Proof.
  intros Hh Hq.
  pose proof (noninterference s h _ _ Hh Hq (agree_but_refl s st)) as H.
  destruct (run st h) as [st1 rs1]. destruct (run st (without s h)) as [st2 rs2].
  destruct H as ([Hd Hs] & _ & Ho). split; [exact Ho|]. split; [intros t; now rewrite Hd|].
  intros s' Hn t. unfold view. now rewrite Hd, (Hs s' Hn).
Qed.

(* COMMIT publishes: every table the session has staged (in particular every table it wrote) becomes
   the database content, all other tables stay, and sessions that have not staged the table see it. *)

Theorem commit_publishes st s :
  let se := begin_tx (ss st s) in
  let st' := fst (step st s Commit) in
  (forall t x, staged se t = Some x -> db st' t = x) /\
  (forall t, staged se t = None -> db st' t = db st t) /\
  (forall t, db st' t = view st s t) /\
  (forall s' t, s' <> s -> staged (begin_tx (ss st s')) t = None -> view st' s' t = view st s t) /\
  tx (ss st' s) = false /\ ign (ss st' s) = false /\ ro (ss st' s) = false.
Proof.
  cbn zeta. cbn [C17Txn.step fst ss db]. rewrite set_sess_same. unfold publish, view, cur. cbn [db ss]. repeat split.
  - intros t x H. now rewrite H.
  - intros t H. now rewrite H.
  - intros s' t Hn H. rewrite set_sess_other by auto. now rewrite H.
Qed.

(* what a write leaves in the session's own view: the operation applied to what it saw *)
Theorem write_updates_own_view st s t w :
  holding (ss st s) -> ro (begin_tx (ss st s)) = false ->
  let st' := fst (step st s (Write t w)) in
  view st' s t = match apply w (view st s t) with Some x => x | None => view st s t end /\
  (forall t', t' <> t -> view st' s t' = view st s t').
Proof.
  intros Hh Hro. cbn zeta. pose proof (quiet_own_view st s (RWrite t w) Hh) as H.
  rewrite Hro in H. cbn [stmt_of C17Txn.apply_rw] in H.
  split; [|intros t' Hn]; rewrite H; destruct (apply w (view st s t)); cbn [fst]; auto using upd_same, upd_other.
Qed.

(* Autocommit: a statement of an idle autocommit session is committed on its own. *)

Definition idle (se : sess) : Prop := tx se = false /\ ign se = false /\ ac se = true.

Definition idle0 : sess := mkSess no_tables true false true false.

Lemma begin_tx_idle (se : sess) : idle se -> begin_tx se = idle0.
Proof. intros (Htx & Hi & Ha). unfold begin_tx, idle0. now rewrite Htx, Hi, Ha. Qed.

Lemma closed_idle st s g r :
  closed st s idle0 g r = (mkState (publish (db st) g) (set_sess (ss st) s (mkSess g false false true false)), r).
Proof. reflexivity. Qed.

Lemma rejected_idle st s g :
  rejected st s idle0 g = (mkState (db st) (set_sess (ss st) s (mkSess g false false true false)), RErr).
Proof. reflexivity. Qed.

Lemma auto_step st s q d :
  idle (ss st s) -> (forall t, db st t = d t) ->
  let st' := fst (step st s (stmt_of q)) in
  (forall t, db st' t = fst (apply_rw false d q) t) /\
  snd (step st s (stmt_of q)) = snd (apply_rw false d q) /\
  idle (ss st' s).
Proof.
  intros Hid Hd. cbn zeta. pose proof (rw_shape st s q d) as H. rewrite (begin_tx_idle _ Hid) in H.
  destruct (H Hd) as (g & Hg & [->|[-> E]]).
  - rewrite closed_idle. cbn [fst snd db ss]. rewrite set_sess_same. repeat split. exact Hg.
  - rewrite rejected_idle. cbn [fst snd db ss ro idle0] in *. rewrite set_sess_same, E. repeat split. exact Hd.
Qed.

Theorem autocommit_each_statement st s t w :
  idle (ss st s) ->
  let st' := fst (step st s (Write t w)) in
  db st' t = match apply w (db st t) with Some x => x | None => db st t end /\
  (forall t', t' <> t -> db st' t' = db st t') /\
  snd (step st s (Write t w)) = match apply w (db st t) with Some _ => ROk | None => RErr end /\
  idle (ss st' s) /\ (forall s', s' <> s -> ss st' s' = ss st s').
Proof.
  intros Hid. cbn zeta. destruct (auto_step st s (RWrite t w) (db st) Hid (fun t => eq_refl)) as (A1 & A2 & A3).
  cbn [stmt_of C17Txn.apply_rw] in *. rewrite A2.
  split; [|split; [intros t' Hn|split; [|split; [exact A3|intros; now apply step_other_sess]]]]; rewrite ?A1;
    destruct (apply w (db st t)); cbn [fst snd]; auto using upd_same, upd_other.
Qed.

(* A failed SAVEPOINT / ROLLBACK TO / RELEASE statement changes nothing: not the database, not the other
   sessions, not the transaction state of the session, not what the session reads next.  The premise
   excludes only session records that cannot exist between two statements (an autocommit transaction
   left open). *)

Theorem savepoint_changes_nothing st s :
  tx (ss st s) = false \/ holding (ss st s) ->
  let st' := fst (step st s Savepoint) in
  snd (step st s Savepoint) = RErr /\
  (forall t, db st' t = db st t) /\ (forall s', s' <> s -> ss st' s' = ss st s') /\
  (forall t, view st' s t = view st s t) /\
  ign (ss st' s) = ign (ss st s) /\ ac (ss st' s) = ac (ss st s) /\
  ro (begin_tx (ss st' s)) = ro (begin_tx (ss st s)) /\
  (holding (ss st s) -> sess_eq (ss st' s) (begin_tx (ss st s))).
Proof.
  intros Hwf. cbn zeta.
  change (step st s Savepoint) with (rejected st s (begin_tx (ss st s)) (staged (begin_tx (ss st s)))).
  (* a rejected statement replaces the record of its session and nothing else *)
  unfold rejected, view. cbn [fst snd db ss]. rewrite set_sess_same.
  split; [reflexivity|]. split; [reflexivity|]. split; [intros; now apply set_sess_other|].
  (* either nothing commits at the end of the statement, or the session is idle and its implicit transaction is dropped *)
  assert (Hc : holding (ss st s) \/ idle (ss st s)).
  { unfold holding, idle. destruct Hwf as [Ht|Hh]; [|now left].
    destruct (ign (ss st s)); [left; now left|]. destruct (ac (ss st s)); [right; auto|left; now right]. }
  destruct Hc as [Hh|Hid].
  - rewrite fail_sess_holding by now apply holding_begin_tx.
    rewrite (begin_tx_open (with_stg _ _)) by apply begin_tx_tx. cbn [with_stg staged ign ac ro].
    rewrite begin_tx_ign, begin_tx_ac. repeat split.
  - rewrite (begin_tx_idle _ Hid). destruct Hid as (_ & Hi & Ha). cbn. rewrite Hi, Ha.
    do 4 (split; [reflexivity|]). intros [Hh|Hh]; congruence.
Qed.

(* DDL with an implicit commit inside an open transaction: everything the transaction did so far becomes
   the database content (other sessions without a copy of their own see it), and whatever quiet statements
   follow, a later ROLLBACK takes the database back to the state right after the DDL statement - not
   to the one before the transaction started. *)

Lemma ic_step st s i sd :
  tracks (db st) (staged (begin_tx (ss st s))) sd ->
  let st1 := fst (step st s (stmt_of_ic i)) in
  (forall t, db st1 t = fst (apply_ic sd i) t) /\ snd (step st s (stmt_of_ic i)) = snd (apply_ic sd i) /\
  tx (ss st1 s) = false /\ ign (ss st1 s) = ign (ss st s) /\ ac (ss st1 s) = ac (ss st s) /\ ro (ss st1 s) = false.
Proof.
  cbn zeta. intros Htr. destruct (ic_shape st s i sd Htr) as (g & Hg & ->).
  rewrite closed_ic_publishes by apply begin_tx_tx. cbn [fst snd db ss]. rewrite set_sess_same. cbn.
  rewrite begin_tx_ign, begin_tx_ac. repeat split. exact Hg.
Qed.

Lemma ddl_step st s ts :
  holding (ss st s) ->
  let st1 := fst (step st s (Ddl ts)) in (forall t, db st1 t = view st s t) /\ holding (ss st1 s).
Proof.
  intros Hh. destruct (ic_step st s (IDdl ts) (view st s) (fun t => eq_refl)) as (P1 & _ & _ & P3 & P4 & _).
  cbn [stmt_of_ic] in *. split; [exact P1|]. unfold holding. now rewrite P3, P4.
Qed.

Theorem ddl_commits_pending_work st s ts h :
  holding (ss st s) -> quiet_in s h ->
  let st1 := fst (step st s (Ddl ts)) in
  (forall t, db st1 t = view st s t) /\
  (forall s' t, s' <> s -> staged (begin_tx (ss st s')) t = None -> view st1 s' t = view st s t) /\
  let '(st2, rs2) := run st1 h in
  let st3 := fst (step st2 s Rollback) in
  let '(stR, rsR) := run st1 (without s h) in
  (forall t, db st3 t = db stR t) /\ (forall s', s' <> s -> sess_eq (ss st3 s') (ss stR s')) /\ others s h rs2 = rsR.
Proof.
  intros Hh Hq. cbn zeta. destruct (ddl_step st s ts Hh) as (P1 & Hh1).
  split; [exact P1|]. split.
  { intros s' t Hn Hnone. unfold view at 1. rewrite step_other_sess by auto. unfold cur. rewrite Hnone. apply P1. }
  pose proof (rollback_after_holding _ s h Hh1 Hq) as H.
  destruct (run (fst (step st s (Ddl ts))) h) as [st2 rs2].
  destruct (run (fst (step st s (Ddl ts))) (without s h)) as [stR rsR].
  cbn zeta in H. destruct H as (H1 & H2 & H3 & _). split; [intros t; now rewrite H1|].
  split; [intros s' Hn; rewrite (H2 s' Hn); apply sess_eq_refl|exact H3].
Qed.

Corollary ddl_then_rollback_alone st s ts (qs : list stmt) :
  holding (ss st s) -> (forall q, In q qs -> quiet q = true) ->
  let st1 := fst (step st s (Ddl ts)) in
  let st3 := fst (step (fst (run st1 (map (fun q => (s, q)) qs))) s Rollback) in
  forall t, db st3 t = view st s t.
Proof.
  intros Hh Hq. cbn zeta. intros t. destruct (ddl_step st s ts Hh) as (P1 & Hh1).
  destruct (rollback_alone _ s qs Hh1 Hq t) as [-> _]. apply P1.
Qed.

(* READ ONLY ends with the transaction: after COMMIT / ROLLBACK (of any transaction, in any state) the
   session has no transaction, the next one starts READ WRITE, and its writes are executed. *)

Theorem read_only_ends st s e :
  e = Commit \/ e = Rollback ->
  let st' := fst (step st s e) in
  tx (ss st' s) = false /\ ign (ss st' s) = false /\ ro (begin_tx (ss st' s)) = false /\
  forall t w, snd (step st' s (Write t w)) = match apply w (db st' t) with Some _ => ROk | None => RErr end.
Proof.
  intros He. cbn zeta.
  assert (H : tx (ss (fst (step st s e)) s) = false /\ ign (ss (fst (step st s e)) s) = false).
  { destruct He as [->| ->]; cbn; rewrite set_sess_same; auto. }
  destruct H as [H1 H2]. split; [exact H1|]. split; [exact H2|].
  set (st' := fst (step st s e)) in *.
  assert (Hb : begin_tx (ss st' s) = mkSess no_tables true (ign (ss st' s)) (ac (ss st' s)) false).
  { unfold begin_tx. now rewrite H1. }
  split; [now rewrite Hb|]. intros t w.
  pose proof (rw_result st' s (RWrite t w) (db st')) as R. rewrite Hb in R. cbn [stmt_of ro C17Txn.apply_rw] in R.
  rewrite (R (fun _ => eq_refl)). destruct (apply w (db st' t)); reflexivity.
Qed.

(* inside a READ ONLY transaction a DML statement (one table, all tables registered, several tables) is refused and
   changes nothing: not the database, not the other sessions, not what the session itself reads *)
Definition is_dml (q : stmt) : bool :=
  match q with Write _ _ | WriteAll _ _ => true | Multi m => mwrites m | _ => false end.

Lemma dml_stmt_of q : is_dml q = true -> exists q', q = stmt_of q' /\ forall sd, apply_rw true sd q' = (sd, RErr).
Proof.
  destruct q as [t|t w| | | |b| |t w|t w| | |ts|m]; try discriminate; intros H;
    [exists (RWrite t w)|exists (RWriteAll t w)|exists (RMulti m)]; split; try reflexivity.
  intros sd. cbn in *. now rewrite H.
Qed.

Theorem read_only_refuses_dml st s q :
  tx (ss st s) = true -> ro (ss st s) = true -> holding (ss st s) -> is_dml q = true ->
  let st' := fst (step st s q) in
  snd (step st s q) = RErr /\ (forall t, db st' t = db st t) /\ (forall s', s' <> s -> ss st' s' = ss st s') /\
  (forall t, view st' s t = view st s t) /\ tx (ss st' s) = true /\ ro (ss st' s) = true.
Proof.
  intros Htx Hro Hh Hq. cbn zeta. destruct (dml_stmt_of q Hq) as (q' & -> & Hq').
  destruct (quiet_step st s q' (view st s) Hh (fun t => eq_refl)) as (g & Hg & ->).
  rewrite (begin_tx_open _ Htx), Hro, Hq' in *. cbn [fst snd db ss]. rewrite set_sess_same.
  repeat split; auto.
  - intros; now apply set_sess_other.
  - intros t. rewrite view_set by exact Htx. apply Hg.
Qed.

(* Non-overlapping transactions: the machine equals the serial reference, results included. *)

Definition all_idle (st : state) : Prop := forall s, idle (ss st s).

Lemma run_app_eq {st h1 h2 st1 r1 st2 r2} :
  run st h1 = (st1, r1) -> run st1 h2 = (st2, r2) -> run st (h1 ++ h2) = (st2, r1 ++ r2).
Proof. intros E1 E2. rewrite run_app, E1. cbn [fst snd]. now rewrite E2. Qed.

Lemma run_one st s q : run st [(s, q)] = (fst (step st s q), [snd (step st s q)]).
Proof. rewrite run_cons. reflexivity. Qed.

Lemma apply_rws_cons r d q qs :
  apply_rws r d (q :: qs) =
  (fst (apply_rws r (fst (apply_rw r d q)) qs), snd (apply_rw r d q) :: snd (apply_rws r (fst (apply_rw r d q)) qs)).
Proof. cbn. destruct (apply_rw r d q) as [d1 x]. cbn. destruct (apply_rws r d1 qs). reflexivity. Qed.

Lemma apply_block_eq d b :
  apply_block d b =
  match b with
  | Auto _ q => (fst (apply_rw false d q), [snd (apply_rw false d q)])
  | AutoIC _ i => (fst (apply_ic d i), [snd (apply_ic d i)])
  | OffSet _ body => (fst (apply_rws false d body), ROk :: snd (apply_rws false d body) ++ [ROk])
  | Txn _ k body fin c =>
      let x := apply_rws (is_ro k) d body in
      (match fin with None => if c then fst x else d | Some i => fst (apply_ic (fst x) i) end,
       ROk :: snd x ++ match fin with Some i => [snd (apply_ic (fst x) i)] | None => [] end
                    ++ ROk :: match k with KOff => [ROk] | _ => [] end)
  end.
Proof.
  destruct b as [s q|s i|s body|s k body fin c]; cbn.
  - now destruct (apply_rw false d q).
  - now destruct (apply_ic d i).
  - now destruct (apply_rws false d body).
  - destruct (apply_rws (is_ro k) d body) as [d1 rs], fin as [i|]; cbn; [destruct (apply_ic d1 i)|]; now destruct k.
Qed.

Lemma serial_cons d b bs :
  serial d (b :: bs) =
  (fst (serial (fst (apply_block d b)) bs), snd (apply_block d b) ++ snd (serial (fst (apply_block d b)) bs)).
Proof. cbn. destruct (apply_block d b) as [d1 r]. cbn. destruct (serial d1 bs). reflexivity. Qed.

Lemma auto_ic_step st s i d :
  idle (ss st s) -> (forall t, db st t = d t) ->
  let st' := fst (step st s (stmt_of_ic i)) in
  (forall t, db st' t = fst (apply_ic d i) t) /\
  snd (step st s (stmt_of_ic i)) = snd (apply_ic d i) /\
  idle (ss st' s).
Proof.
  intros Hid Hd. cbn zeta. destruct (ic_step st s i d) as (P1 & P2 & P3 & P4 & P5 & _).
  { now rewrite (begin_tx_idle _ Hid). }
  destruct Hid as (_ & Hi & Ha). repeat split; auto; congruence.
Qed.

(* the transaction of a block: opened by START TRANSACTION (ignoreAutocommit set, autocommit on) or by
   SET autocommit = 0 (neither) *)
Definition explicit (k : bkind) : bool := match k with KBegin _ => true | KOff => false end.

(* session s is inside such a transaction (READ ONLY iff r), the database shows d and the session sees sd *)
Definition intx (st : state) (s : sid) (r a : bool) (d sd : tid -> data) : Prop :=
  tx (ss st s) = true /\ ign (ss st s) = a /\ ac (ss st s) = a /\ ro (ss st s) = r /\
  (forall t, db st t = d t) /\ tracks (db st) (staged (ss st s)) sd.

Lemma intx_holding st s r a d sd : intx st s r a d sd -> holding (ss st s).
Proof. intros (_ & Hi & Ha & _). unfold holding. rewrite Hi, Ha. destruct a; auto. Qed.

Lemma body_step st s q r a d sd :
  intx st s r a d sd ->
  intx (fst (step st s (stmt_of q))) s r a d (fst (apply_rw r sd q)) /\
  snd (step st s (stmt_of q)) = snd (apply_rw r sd q).
Proof.
  intros Hin. pose proof (intx_holding _ _ _ _ _ _ Hin) as Hh. destruct Hin as (Htx & Hi & Ha & Hro & Hd & Htr).
  pose proof (quiet_step st s q sd Hh) as H. rewrite (begin_tx_open _ Htx), Hro in H.
  destruct (H Htr) as (g & Hg & ->). unfold intx. cbn [fst snd db ss]. rewrite set_sess_same. cbn. auto 10.
Qed.

Lemma body_run s r a d : forall (body : list (rw wop mop)) st sd,
  intx st s r a d sd ->
  exists st', run st (map (fun q => (s, stmt_of q)) body) = (st', snd (apply_rws r sd body)) /\
    intx st' s r a d (fst (apply_rws r sd body)).
Proof.
  induction body as [|q body IH]; intros st sd Hin.
  - exists st. auto.
  - destruct (body_step st s q r a d sd Hin) as (B1 & B2). destruct (IH _ _ B1) as (st' & E & I).
    exists st'. cbn [map]. rewrite run_cons, E, B2, apply_rws_cons. auto.
Qed.

Lemma opener_step st s k d :
  idle (ss st s) -> (forall t, db st t = d t) ->
  intx (fst (step st s (opener k))) s (is_ro k) (explicit k) d d /\ snd (step st s (opener k)) = ROk.
Proof.
  intros Hid Hd. unfold intx.
  destruct k as [[|]|]; cbn [opener C17Txn.step is_ro explicit fst snd db ss]; rewrite (begin_tx_idle _ Hid), set_sess_same;
    cbn; auto 10.
Qed.

Lemma end_step st s (c : bool) :
  let st' := fst (step st s (if c then Commit else Rollback)) in
  (forall t, db st' t = if c then view st s t else db st t) /\
  tx (ss st' s) = false /\ ign (ss st' s) = false /\ ac (ss st' s) = ac (ss st s) /\
  snd (step st s (if c then Commit else Rollback)) = ROk.
Proof.
  cbn zeta. destruct c; cbn; rewrite set_sess_same; cbn; rewrite begin_tx_ac; repeat split; auto.
Qed.

Lemma setac_on_step st s :
  tx (ss st s) = false -> ign (ss st s) = false ->
  let st' := fst (step st s (SetAC true)) in
  (forall t, db st' t = db st t) /\ idle (ss st' s) /\ snd (step st s (SetAC true)) = ROk.
Proof.
  intros Htx Hi. cbn zeta. unfold C17Txn.step, begin_tx. rewrite Htx, Hi. cbn. rewrite set_sess_same.
  repeat split.
Qed.

(* SET autocommit = 1 of a session with autocommit off and no explicit transaction: commits the pending work *)
Lemma setac_on_commits st s r d sd :
  intx st s r false d sd ->
  let st' := fst (step st s (SetAC true)) in
  (forall t, db st' t = sd t) /\ idle (ss st' s) /\ snd (step st s (SetAC true)) = ROk.
Proof.
  intros (Htx & Hi & _ & _ & _ & Htr). cbn zeta. unfold C17Txn.step. rewrite (begin_tx_open _ Htx). cbn zeta.
  unfold close. cbn [tx ign]. rewrite Htx, Hi. cbn. rewrite set_sess_same. repeat split. exact Htr.
Qed.

(* the optional implicit-commit statement at the end of a transaction block; afterwards COMMIT (c = true) would
   publish, and ROLLBACK leave, the contents on the right *)
Lemma fin_run st s r a d sd fin :
  intx st s r a d sd ->
  exists st', run st (match fin with Some i => [(s, stmt_of_ic i)] | None => [] end)
              = (st', match fin with Some i => [snd (apply_ic sd i)] | None => [] end) /\
    (forall t (c : bool), (if c then view st' s t else db st' t)
                          = match fin with None => if c then sd else d | Some i => fst (apply_ic sd i) end t) /\
    ign (ss st' s) = a /\ ac (ss st' s) = a.
Proof.
  intros (Htx & Hi & Ha & _ & Hd & Htr). destruct fin as [i|].
  - destruct (ic_step st s i sd) as (P1 & P2 & P3 & P4 & P5 & _); [now rewrite begin_tx_open|].
    eexists. rewrite run_one, P2. split; [reflexivity|]. split; [|split; congruence].
    intros t c. rewrite view_closed, P1 by exact P3. now destruct c.
  - exists st. split; [reflexivity|]. split; [|auto]. intros t c. unfold view. rewrite begin_tx_open by exact Htx.
    destruct c; [apply Htr|apply Hd].
Qed.

Lemma end_run st s k (c : bool) :
  ign (ss st s) = explicit k -> ac (ss st s) = explicit k ->
  exists st', run st ((s, if c then Commit else Rollback) :: match k with KOff => [(s, SetAC true)] | _ => [] end)
              = (st', ROk :: match k with KOff => [ROk] | _ => [] end) /\
    (forall t, db st' t = if c then view st s t else db st t) /\ idle (ss st' s).
Proof.
  intros Hi Ha. destruct (end_step st s c) as (N1 & N2 & N3 & N4 & N5).
  set (st1 := fst (step st s (if c then Commit else Rollback))) in *.
  destruct k as [r|]; cbn [explicit] in *.
  - exists st1. rewrite run_one. fold st1. rewrite N5. repeat split; auto; congruence.
  - destruct (setac_on_step st1 s N2 N3) as (S1 & S2 & S3).
    eexists. rewrite run_cons, run_one. fold st1. rewrite N5, S3. split; [reflexivity|].
    split; [intros t; now rewrite S1|exact S2].
Qed.

Lemma all_idle_after (st st' : state) s :
  all_idle st -> idle (ss st' s) -> (forall s', s' <> s -> ss st' s' = ss st s') -> all_idle st'.
Proof. intros Hid Hs Ho s0. destruct (N.eq_dec s0 s) as [->|Hn]; [exact Hs|]. rewrite Ho by auto. apply Hid. Qed.

Lemma run_other_sess s (qs : list stmt) : forall st s',
  s' <> s -> ss (fst (run st (map (fun q => (s, q)) qs))) s' = ss st s'.
Proof.
  induction qs as [|q qs IH]; intros st s' Hn; [reflexivity|].
  cbn [map]. rewrite run_cons. cbn [fst]. rewrite IH by auto. now apply step_other_sess.
Qed.

Definition bsid (b : block wop mop) : sid := match b with Auto s _ | AutoIC s _ | OffSet s _ | Txn s _ _ _ _ => s end.

Lemma flatten_own b : exists qs, flatten b = map (fun q => (bsid b, q)) qs.
Proof.
  destruct b as [s q|s i|s body|s k body fin c]; cbn [flatten bsid].
  - now exists [stmt_of q].
  - now exists [stmt_of_ic i].
  - exists (SetAC false :: map stmt_of body ++ [SetAC true]). cbn [map]. now rewrite map_app, map_map.
  - exists (opener k :: map stmt_of body ++ match fin with Some i => [stmt_of_ic i] | None => [] end
              ++ (if c then Commit else Rollback) :: match k with KOff => [SetAC true] | _ => [] end).
    cbn [map]. rewrite !map_app, map_map. now destruct fin, k.
Qed.

Lemma block_own st b d :
  idle (ss st (bsid b)) -> (forall t, db st t = d t) ->
  exists st', run st (flatten b) = (st', snd (apply_block d b)) /\
    (forall t, db st' t = fst (apply_block d b) t) /\ idle (ss st' (bsid b)).
Proof.
  intros Hid Hd. destruct b as [s q|s i|s body|s k body fin c]; rewrite apply_block_eq; cbn [flatten bsid fst snd] in *.
  - destruct (auto_step st s q d Hid Hd) as (A1 & A2 & A3). eexists. rewrite run_one, A2. split; [reflexivity|auto].
  - destruct (auto_ic_step st s i d Hid Hd) as (A1 & A2 & A3). eexists. rewrite run_one, A2. split; [reflexivity|auto].
  - destruct (opener_step st s KOff d Hid Hd) as (O1 & O2). cbn [opener] in O1, O2.
    destruct (body_run s _ _ _ body _ _ O1) as (st1 & E1 & I1).
    destruct (setac_on_commits st1 s _ _ _ I1) as (S1 & S2 & S3).
    eexists. rewrite run_cons, O2, (run_app_eq E1 (run_one st1 s _)), S3. split; [reflexivity|auto].
  - destruct (opener_step st s k d Hid Hd) as (O1 & O2).
    destruct (body_run s _ _ _ body _ _ O1) as (st1 & E1 & I1).
    destruct (fin_run st1 s _ _ _ _ fin I1) as (st2 & E2 & F2 & Hi2 & Ha2).
    destruct (end_run st2 s k c Hi2 Ha2) as (st3 & E3 & D3 & I3).
    exists st3. rewrite run_cons, O2, (run_app_eq E1 (run_app_eq E2 E3)).
    split; [reflexivity|]. split; [intros t; now rewrite D3, F2|exact I3].
Qed.

Lemma block_run st b d :
  all_idle st -> (forall t, db st t = d t) ->
  exists st', run st (flatten b) = (st', snd (apply_block d b)) /\
    (forall t, db st' t = fst (apply_block d b) t) /\ all_idle st'.
Proof.
  intros Hid Hd. destruct (block_own st b d (Hid _) Hd) as (st' & E & D & I).
  exists st'. split; [exact E|]. split; [exact D|].
  apply (all_idle_after st st' (bsid b) Hid I). intros s' Hn.
  destruct (flatten_own b) as [qs Eq]. pose proof (run_other_sess (bsid b) qs st s' Hn) as H.
  now rewrite <- Eq, E in H.
Qed.

Theorem serial_run bs : forall st d,
  all_idle st -> (forall t, db st t = d t) ->
  exists st', run st (flat_map flatten bs) = (st', snd (serial d bs)) /\
    (forall t, db st' t = fst (serial d bs) t) /\ all_idle st'.
Proof.
  induction bs as [|b bs IH]; intros st d Hid Hd.
  - exists st. auto.
  - destruct (block_run st b d Hid Hd) as (st1 & E1 & D1 & I1). destruct (IH st1 _ I1 D1) as (st2 & E2 & D2 & I2).
    exists st2. cbn [flat_map]. rewrite (run_app_eq E1 E2), serial_cons. auto.
Qed.

Theorem serial_equivalence bs : forall st,
  all_idle st ->
  let '(st', rs) := run st (flat_map flatten bs) in
  (forall t, db st' t = fst (serial (db st) bs) t) /\ rs = snd (serial (db st) bs) /\ all_idle st'.
Proof.
  intros st Hid. destruct (serial_run bs st (db st) Hid (fun t => eq_refl)) as (st' & -> & D & I). auto.
Qed.

End Proofs.

(* Facts about the concrete machine of the correspondence (witnesses by computation). *)
From Coq Require Import ZArith.
Open Scope Z_scope.

Definition tabs0 : tid -> rows := fun t => if N.eqb t 0 then [(1, 10)] else if N.eqb t 1 then [(1, 1)] else [].

(* COMMIT publishes every table the session touched, so a transaction that only READ a table overwrites what
   another session committed to it in the meantime (overlapping transactions) *)
Definition lost_update_history : list (sid * stmt cwop cmop) :=
  [ (1%N, Begin); (1%N, Read 0%N);                 (* session 1 only reads table 0 *)
    (2%N, Write 0%N (Ins [(4, 40)]));              (* session 2 inserts (4,40), autocommit *)
    (0%N, Read 0%N);                               (* a third session sees it: it is committed *)
    (1%N, Commit);                                 (* session 1 commits a transaction without writes *)
    (0%N, Read 0%N) ].                             (* the committed row is gone *)

Lemma lost_update_results :
  snd (crun (init (fun _ => [(1, 10)])) lost_update_history) =
  [ ROk; RRows [(1, 10)]; ROk; RRows [(1, 10); (4, 40)]; ROk; RRows [(1, 10)] ].
Proof. vm_compute. reflexivity. Qed.

(* an unfiltered DELETE FROM t0 registers EVERY table in the session: a later read of t1 inside the own open
   transaction is the snapshot taken then, and the commit republishes it (overlapping transactions) *)
Definition delete_all_history : list (sid * stmt cwop cmop) :=
  [ (1%N, Begin); (1%N, WriteAll 0%N DelAll);      (* session 1 empties table 0 *)
    (2%N, Write 1%N (Ins [(6, 6)]));               (* session 2 inserts into table 1, autocommit *)
    (0%N, Read 1%N);                               (* committed *)
    (1%N, Read 1%N);                               (* session 1 reads table 1 for the first time: the old contents *)
    (1%N, Commit); (0%N, Read 1%N) ].              (* and its commit puts the old contents back *)

Lemma delete_all_results :
  snd (crun (init tabs0) delete_all_history) =
  [ ROk; ROk; ROk; RRows [(1, 1); (6, 6)]; RRows [(1, 1)]; ROk; RRows [(1, 1)] ].
Proof. vm_compute. reflexivity. Qed.

(* the implicit commit of a DDL statement ends the transaction (its work is published, no transaction object is
   left, autocommit is on) but ignoreAutocommit stays set: the next INSERT succeeds, is NOT committed on its
   own, and a ROLLBACK discards it *)
Definition after_ddl : state rows :=
  fst (crun (init tabs0) [(1%N, Begin); (1%N, Write 0%N (Ins [(2, 20)])); (1%N, Ddl [])]).

Lemma not_autocommitted_witness :
  exists (st : state rows) s t w x,
    st = fst (crun (init tabs0) [(1%N, Begin); (1%N, Write 0%N (Ins [(2, 20)])); (1%N, Ddl [])]) /\
    tx (ss st s) = false /\ ac (ss st s) = true /\
    capply w (db st t) = Some x /\ x <> db st t /\
    snd (cstep st s (Write t w)) = ROk /\ db (fst (cstep st s (Write t w))) t = db st t /\
    snd (crun st [(s, Write t w); (0%N, Read t); (s, Rollback); (s, Read t)]) = [ROk; RRows (db st t); ROk; RRows (db st t)].
Proof.
  exists after_ddl, 1%N, 0%N, (Ins [(3, 30)]), [(1, 10); (2, 20); (3, 30)].
  split; [reflexivity|]. vm_compute. repeat split; discriminate.
Qed.

Definition example_blocks : list (block cwop cmop) :=
  [Txn 1%N (KBegin false) [RWrite 0%N (Ins [(2, 20)]); RRead 0%N] None true; Auto 2%N (RRead 0%N);
   Txn 2%N (KBegin false) [RWrite 0%N (DelKey 1)] None false;
   Txn 1%N KOff [RWrite 0%N (Ins [(3, 30)]); RSavepoint] (Some (IDdl [0%N])) false;
   Txn 2%N (KBegin true) [RWrite 0%N (DelKey 1); RMulti (MJoinRead 0%N 1%N)] None true;
   AutoIC 2%N (IWrite 1%N DelAll); Auto 1%N (RMulti (MInsSel 1%N 0%N 10)); Auto 1%N (RRead 1%N);
   OffSet 2%N [RWrite 2%N (Ins [(5, 50)]); RRead 2%N]; Auto 1%N (RRead 2%N)].

Lemma nonvacuous_example :
  let st0 := fst (cstep (init tabs0) 1%N Begin) in
  holding rows (ss st0 1%N) /\ all_idle rows (init tabs0) /\
  snd (crun (init tabs0) (flat_map flatten example_blocks)) =
  [ROk; ROk; RRows [(1, 10); (2, 20)]; ROk; RRows [(1, 10); (2, 20)];
   ROk; ROk; ROk; ROk; ROk; RErr; ROk; ROk; ROk; ROk; RErr;
   RRows [(1, 11)]; ROk; ROk; ROk; RRows [(11, 10); (12, 20); (13, 30)];
   ROk; ROk; RRows [(5, 50)]; ROk; RRows [(5, 50)]].
Proof.
  split; [|split].
  - left; reflexivity.
  - intros s. repeat split.
  - vm_compute. reflexivity.
Qed.
