(* C13, keyed tables WITH unique secondary indexes: the refinement pk_exec = spec_exec (Store/C13Refine.v; the reference
   rejects a row iff the logical table holds a row with the same unique value: sp_get_by_cols is a plain find) for
     - INSERT and INSERT IGNORE (no pending delete exists, so GetByCols cannot give up) and DELETE (no probe at all);
     - UPDATE under a static guard that excludes the GetByCols defect: the rows written by the statement carry pairwise
       different unique values ([news_ok]; if two of them collide the reference rejects the statement anyway), and the
       stored rows respect the unique indexes ([urows]).
   REPLACE / ON DUPLICATE KEY UPDATE delete rows found by the probe itself and stay outside (a REPLACE witness below). *)
From Coq Require Import List NArith ZArith Bool Lia Permutation.
Import ListNotations.
From GMS Require Import Base.ListFacts Store.C14Editor Store.C14EditorProofs Store.C13Refine Store.C13RefineProofs Store.C13Keyless.

(* columnsMatch is an equivalence test on the truncated projections *)
Lemma cols_match_sym : forall cols pls x y, cols_match cols pls x y = true -> cols_match cols pls y x = true.
Proof.
  induction cols as [|c cs IH]; intros pls x y H; cbn in *; [reflexivity|].
  apply andb_prop in H. destruct H as [A B]. apply andb_true_intro. split; [|apply IH; exact B].
  apply val_eqb_spec in A. apply val_eqb_spec. congruence.
Qed.

Lemma cols_match_eucl : forall cols pls x d r,
  cols_match cols pls x r = true -> cols_match cols pls d r = true -> cols_match cols pls x d = true.
Proof.
  induction cols as [|c cs IH]; intros pls x d r H1 H2; cbn in *; [reflexivity|].
  apply andb_prop in H1. apply andb_prop in H2. destruct H1 as [A1 B1]. destruct H2 as [A2 B2].
  apply andb_true_intro. split; [|eapply IH; eassumption].
  apply val_eqb_spec in A1. apply val_eqb_spec in A2. apply val_eqb_spec. congruence.
Qed.

Lemma has_null_match : forall cols pls x r,
  cols_match cols pls x r = true -> has_null cols r = false -> has_null cols x = false.
Proof.
  induction cols as [|c cs IH]; intros pls x r H1 H2; cbn in *; [reflexivity|].
  apply andb_prop in H1. destruct H1 as [A B]. apply orb_false_elim in H2. destruct H2 as [N1 N2].
  apply orb_false_intro; [|eapply IH; eassumption].
  unfold trunc in A. destruct (col x c); [|reflexivity|reflexivity].
  destruct (col r c); [discriminate|discriminate|]. destruct (0 <? hd 0%N pls)%N; discriminate.
Qed.

Lemma keys_nodup_inj : forall sch rows x y, keys_nodup sch rows -> In x rows -> In y rows -> key sch x = key sch y -> x = y.
Proof.
  intros sch rows x y. unfold keys_nodup. induction rows as [|z rows IH]; cbn; intros Hnd Hx Hy Hk; [contradiction|].
  inversion Hnd as [|? ? Hn Hd]; subst.
  destruct Hx as [<-|Hx], Hy as [<-|Hy].
  - reflexivity.
  - exfalso. apply Hn. rewrite Hk. apply in_map. exact Hy.
  - exfalso. apply Hn. rewrite <- Hk. apply in_map. exact Hx.
  - apply IH; assumption.
Qed.

(* checkUniqueConstraints over two probes that find a row together: rejected together *)
Lemma check_unique_agree : forall (g1 g2 : row -> list nat -> list N -> option row) r u,
  (forall cols pls, In (cols, pls) u -> has_null cols r = false -> (g1 r cols pls = None <-> g2 r cols pls = None)) ->
  match check_unique g1 u r, check_unique g2 u r with Some _, Some _ | None, None => True | _, _ => False end.
Proof.
  intros g1 g2 r u H.
  assert (Hiff : check_unique g1 u r = None <-> check_unique g2 u r = None).
  { rewrite !check_unique_none_iff, !Forall_forall. split; intros A [c p] Hin Hn; apply (H c p Hin Hn), (A _ Hin Hn). }
  destruct (check_unique g1 u r), (check_unique g2 u r); try exact I;
    [discriminate (proj2 Hiff eq_refl)|discriminate (proj1 Hiff eq_refl)].
Qed.

Section Uniq.
  Variable sch : schema.
  Variable U : row -> Prop.
  Hypothesis Hinj : forall a b, U a -> U b -> key_str sch a = key_str sch b -> key sch a = key sch b.
  Hypothesis Hbin : pk_binary sch.

  Notation Rk := (R sch U).

  (* Insert and Update end alike: checkUniqueConstraints, then the row is queued.  Where the two probes find a row
     together this end is simulated, and the accumulator has queued the row *)
  Lemma probe_then_queue : forall s L n, Rk s L -> U n -> pk_get sch s n = None ->
    (forall cols pls, In (cols, pls) (s_uniq sch) -> has_null cols n = false ->
       (pk_get_by_cols s n cols pls = None <-> sp_get_by_cols L n cols pls = None)) ->
    match check_unique (pk_get_by_cols s) (s_uniq sch) n, check_unique (sp_get_by_cols L) (s_uniq sch) n with
    | None, None => Rk (pk_acc_insert sch s n) (L ++ [n])
    | Some _, Some _ => True
    | _, _ => False
    end.
  Proof.
    intros s L n HR Hn Hg Hp. pose proof (check_unique_agree _ _ n (s_uniq sch) Hp) as H.
    destruct (check_unique (pk_get_by_cols s) (s_uniq sch) n), (check_unique (sp_get_by_cols L) (s_uniq sch) n);
      try exact H.
    apply acc_insert_sim; assumption.
  Qed.

  Definition R0 (s : pkst) (L : list row) : Prop := Rk s L /\ p_dels s = [].

  Lemma probe_nodels : forall s L r cols pls, R0 s L ->
    (pk_get_by_cols s r cols pls = None <-> sp_get_by_cols L r cols pls = None).
  Proof.
    intros s L r cols pls [HR Hd]. unfold sp_get_by_cols.
    rewrite (gbc_plain s r cols pls Hd), find_none_iff, (R_L_nodels _ _ _ _ HR Hd). reflexivity.
  Qed.

  Lemma insert_sim0 : forall s L r, R0 s L -> U r -> ins_agree R0 (pk_insert sch s r) (sp_insert sch L r).
  Proof.
    intros s L r HR0 Hr. pose proof HR0 as [HR Hd]. unfold pk_insert, sp_insert.
    rewrite <- (get_sim sch U Hinj s L r HR Hr).
    destruct (pk_get sch s r) eqn:Eg; [exact I|].
    pose proof (probe_then_queue s L r HR Hr Eg (fun cols pls _ _ => probe_nodels s L r cols pls HR0)) as H.
    destruct (check_unique (pk_get_by_cols s) (s_uniq sch) r), (check_unique (sp_get_by_cols L) (s_uniq sch) r);
      try exact H.
    exact (conj H Hd).
  Qed.

  Lemma begin_sim0 : forall rows, Pre sch U rows -> R0 (pk_begin rows) (sp_begin rows).
  Proof. intros rows HP. split; [apply begin_sim; exact HP|reflexivity]. Qed.

  Theorem uniq_insert_delete_refines : forall rows st, Pre sch U rows ->
    match st with
    | SInsert IPlain news => Forall U news
    | SInsert IIgnore news => Forall U news
    | SDelete _ _ _ => True
    | _ => False
    end ->
    pk_exec sch rows st = spec_exec sch rows st /\ Pre sch U (snd (spec_exec sch rows st)).
  Proof.
    intros rows st HP HS. unfold pk_exec, spec_exec.
    pose proof (commit_sim sch U Hinj Hbin) as Hc.
    destruct st as [[| | |a] news|a w ord lim|w ord lim]; try contradiction.
    - apply exec_sim_plain with (U := U) (R := R0); auto using begin_sim0, insert_sim0. intros s L [HR _]. auto.
    - apply exec_sim_ignore with (U := U) (R := R0); auto using begin_sim0, insert_sim0. intros s L [HR _]. auto.
    - apply exec_sim_delete with (U := U) (R := Rk); auto using begin_sim, delete_sim.
      + split; constructor.
      + intros r [_ H]. exact H.
  Qed.

  (* b may be stored next to a: on no unique index does b (without NULL there) carry a's value *)
  Definition noconf (a b : row) : Prop :=
    forall cols pls, In (cols, pls) (s_uniq sch) -> has_null cols b = false -> cols_match cols pls a b = false.

  (* the stored rows respect the unique indexes *)
  Definition urows (rows : list row) : Prop :=
    forall cols pls x y, In (cols, pls) (s_uniq sch) -> In x rows -> In y rows ->
      has_null cols y = false -> cols_match cols pls x y = true -> x = y.

  (* the rows written by the statement, in the order written: no later one carries the unique value of an earlier one *)
  Fixpoint news_ok (ns : list row) : Prop :=
    match ns with
    | [] => True
    | n :: ns' => (forall b, In b ns' -> noconf n b) /\ news_ok ns'
    end.

  Definition I1 (s : pkst) : Prop := forall kv, In kv (p_dels s) -> In (snd kv) (p_rows s).
  Definition G (s : pkst) (r : row) : Prop := forall kv, In kv (p_adds s) -> noconf (snd kv) r.

  (* while every pending delete is a stored row, the stored rows hidden from the logical table are the deleted rows *)
  Lemma notdel_false_iff : forall s L x, Rk s L -> I1 s -> In x (p_rows s) ->
    (notdel sch (p_dels s) x = false <-> In x (map snd (p_dels s))).
  Proof.
    intros s L x HR H1 Hx. unfold notdel. split.
    - destruct (m_get (key_str sch x) (p_dels s)) as [d|] eqn:E; [intros _|discriminate].
      apply m_get_some_in in E. pose proof (in_map snd _ _ E) as Hd. cbn [snd] in Hd.
      replace x with d; [exact Hd|]. apply (keys_nodup_inj sch _ d x (R_nd _ _ _ _ HR) (H1 _ E) Hx).
      apply Hinj; [exact (proj1 (Forall_forall _ _) (R_Ud _ _ _ _ HR) d Hd)|exact (proj1 (Forall_forall _ _) (R_Ur _ _ _ _ HR) x Hx)|].
      symmetry. exact (proj1 (Forall_forall _ _) (R_do _ _ _ _ HR) _ E).
    - intros Hin. apply in_map_iff in Hin. destruct Hin as [kv [<- Hkv]].
      destruct (m_get (key_str sch (snd kv)) (p_dels s)) eqn:E; [reflexivity|].
      destruct (proj1 (m_get_none_iff _ _) E kv Hkv). exact (proj1 (Forall_forall _ _) (R_do _ _ _ _ HR) kv Hkv).
  Qed.

  Lemma probe_guard : forall s L r cols pls, Rk s L -> I1 s -> urows (p_rows s) -> G s r ->
    In (cols, pls) (s_uniq sch) -> has_null cols r = false ->
    (pk_get_by_cols s r cols pls = None <-> sp_get_by_cols L r cols pls = None).
  Proof.
    intros s L r cols pls HR H1 Hu HG Hin Hnull. unfold pk_get_by_cols, sp_get_by_cols.
    rewrite (R_L _ _ _ _ HR), find_app, find_map.
    set (f := fun x => cols_match cols pls x r).
    change (fun kv : str * row => cols_match cols pls (snd kv) r) with (fun kv : str * row => f (snd kv)).
    assert (Ea : find (fun kv : str * row => f (snd kv)) (p_adds s) = None).
    { apply find_none_iff, existsb_false_iff. intros kv Hkv. exact (HG kv Hkv cols pls Hin Hnull). }
    rewrite Ea. cbn [option_map].
    transitivity (find f (filter (notdel sch (p_dels s)) (p_rows s)) = None); [|destruct (find f (filter _ _)); split; congruence].
    rewrite find_none_iff, existsb_false_iff.
    destruct (existsb (fun kv : str * row => f (snd kv)) (p_dels s)) eqn:Ed.
    - (* a pending delete carries the value: the stored row it deletes is the only stored row with it *)
      split; [intros _ x Hx|reflexivity]. apply filter_In in Hx. destruct Hx as [Hx Hn].
      destruct (f x) eqn:Efx; [exfalso|reflexivity].
      apply existsb_exists in Ed. destruct Ed as [kv [Hkv Hfd]].
      assert (Exd : x = snd kv).
      { apply (Hu cols pls x (snd kv) Hin Hx (H1 kv Hkv)); [eapply has_null_match|eapply cols_match_eucl]; eassumption. }
      rewrite (proj2 (notdel_false_iff s L x HR H1 Hx)) in Hn; [discriminate|]. rewrite Exd. apply in_map. exact Hkv.
    - (* no pending delete carries the value: a stored row with it has not been deleted *)
      rewrite find_none_iff, existsb_false_iff. split.
      + intros H x Hx. apply filter_In in Hx. apply H, Hx.
      + intros H x Hx. destruct (notdel sch (p_dels s) x) eqn:En; [apply H, filter_In; split; assumption|].
        apply (notdel_false_iff s L x HR H1 Hx), in_map_iff in En. destruct En as [kv [<- Hkv]].
        exact (proj1 (existsb_false_iff _ _) Ed kv Hkv).
  Qed.

  Lemma update_sim_g : forall s L o n, Rk s L -> I1 s -> urows (p_rows s) -> U o -> U n -> In o (p_rows s) -> G s n ->
    match pk_update sch s o n, sp_update sch L o n with
    | ROk a, ROk b => Rk a b /\ I1 a /\ p_rows a = p_rows s /\
                      (forall kv, In kv (p_adds a) -> In kv (p_adds s) \/ snd kv = n)
    | RDup _, RDup _ => True
    | _, _ => False
    end.
  Proof.
    intros s L o n HR H1 Hu Ho Hn Hin HG.
    pose proof (delete_sim sch U Hinj s L o HR Ho) as HR1.
    assert (H11 : I1 (pk_acc_delete sch s o)).
    { intros kv Hkv. apply m_set_incl in Hkv. destruct Hkv as [<-|Hkv]; [exact Hin|apply H1; exact Hkv]. }
    assert (Hsub : incl (p_adds (pk_acc_delete sch s o)) (p_adds s)) by apply m_del_incl.
    unfold pk_update, sp_update. rewrite <- (get_sim sch U Hinj _ _ n HR1 Hn), !update_get.
    destruct (pk_get sch (pk_acc_delete sch s o) n) eqn:Eg; [exact I|].
    pose proof (probe_then_queue _ _ n HR1 Hn Eg (fun cols pls =>
                  probe_guard _ _ n cols pls HR1 H11 Hu (fun kv Hkv => HG kv (Hsub kv Hkv)))) as H.
    destruct (check_unique (pk_get_by_cols _) (s_uniq sch) n), (check_unique (sp_get_by_cols _) (s_uniq sch) n);
      try exact H.
    split; [exact H|]. split; [exact H11|]. split; [reflexivity|].
    intros kv Hkv. apply m_set_incl in Hkv. destruct Hkv as [<-|Hkv]; [right; reflexivity|left; exact (Hsub kv Hkv)].
  Qed.

  Definition news (a : list assign) (ts : list row) : list row := map (apply_assigns a) (changed sch a ts).

  Lemma upd_sim_g : forall a, (forall r, U r -> U (apply_assigns a r)) ->
    forall ts s L m c, Rk s L -> I1 s -> urows (p_rows s) ->
      Forall (fun o => In o (p_rows s)) ts -> Forall U ts ->
      (forall kv b, In kv (p_adds s) -> In b (news a ts) -> noconf (snd kv) b) -> news_ok (news a ts) ->
      match upd_loop (pk_update sch) sch a s ts m c, upd_loop (sp_update sch) sch a L ts m c with
      | Some (x, m1, c1), Some (y, m2, c2) => Rk x y /\ m1 = m2 /\ c1 = c2
      | None, None => True
      | _, _ => False
      end.
  Proof.
    intros a Ha. induction ts as [|o ts IH]; intros s L m c HR H1 Hu Hts HU Hadds Hnews; cbn [upd_loop];
      [split; [exact HR|split; reflexivity]|].
    inversion Hts as [|? ? Hoin Hts']; subst. inversion HU as [|? ? Ho HU']; subst.
    unfold news, changed in Hadds, Hnews. cbn [filter] in Hadds, Hnews.
    destruct (row_equals sch o (apply_assigns a o)) eqn:Eq; cbn [negb map] in Hadds, Hnews.
    - apply IH; assumption.
    - fold (changed sch a ts) in Hadds, Hnews. fold (news a ts) in Hadds, Hnews. destruct Hnews as [Hhd Htl].
      set (n := apply_assigns a o) in *.
      assert (HG : G s n) by (intros kv Hkv; apply (Hadds kv n Hkv); left; reflexivity).
      pose proof (update_sim_g s L o n HR H1 Hu Ho (Ha o Ho) Hoin HG) as H.
      destruct (pk_update sch s o n) as [x|], (sp_update sch L o n) as [y|]; try contradiction; [|exact I].
      destruct H as [HRx [H1x [Erows Haddsx]]].
      apply IH; try assumption.
      + rewrite Erows. exact Hu.
      + rewrite Erows. exact Hts'.
      + intros kv b Hkv Hb. destruct (Haddsx kv Hkv) as [Hold| ->].
        * apply (Hadds kv b Hold). right. exact Hb.
        * apply Hhd. exact Hb.
  Qed.

  Theorem uniq_update_refines : forall rows a w ord lim, Pre sch U rows -> urows rows ->
    (forall r, U r -> U (apply_assigns a r)) ->
    news_ok (news a (targets sch w ord lim rows)) ->
    pk_exec sch rows (SUpdate a w ord lim) = spec_exec sch rows (SUpdate a w ord lim) /\
    Pre sch U (snd (spec_exec sch rows (SUpdate a w ord lim))).
  Proof.
    intros rows a w ord lim HP Hu Ha Hn. unfold pk_exec, spec_exec. cbn [exec].
    pose proof (targets_incl sch w ord lim rows) as Hti.
    pose proof (upd_sim_g a Ha (targets sch w ord lim rows) (pk_begin rows) (sp_begin rows) 0%N 0%N
                  (begin_sim sch U rows HP) (fun kv (F : In kv []) => match F with end) Hu
                  (proj2 (Forall_forall _ _) Hti) (incl_Forall Hti (proj2 HP))
                  (fun kv b (F : In kv []) _ => match F with end) Hn) as H.
    destruct (upd_loop (pk_update sch) sch a (pk_begin rows) _ 0 0) as [[[x m1] k1]|],
             (upd_loop (sp_update sch) sch a (sp_begin rows) _ 0 0) as [[[y m2] k2]|]; try contradiction;
      [|split; [reflexivity|exact HP]].
    destruct H as [H [-> ->]]. destruct (commit_sim sch U Hinj Hbin _ _ H) as [E HP']. rewrite E.
    split; [reflexivity|exact HP'].
  Qed.
End Uniq.

Definition uq_sch : schema := {| s_pk := [0%nat]; s_uniq := [([1%nat], [0%N])]; s_coll := [CBin; CBin] |}.

(* guard holds: UPDATE t SET c0 = c0 + 10, c1 = c1 + 1 on (1,5), (2,6): (1,5) -> (11,6) takes the value 6 that the
   reference still sees on the stored (2,6): both reject *)
Definition uq_rows : list row := [[VInt 1; VInt 5]; [VInt 2; VInt 6]].
Definition uq_shift : stmt := SUpdate [(0%nat, AAdd 10); (1%nat, AAdd 1)] PTrue None None.
Definition uq_shift_desc : stmt := SUpdate [(0%nat, AAdd 10); (1%nat, AAdd 1)] PTrue (Some (1%nat, true)) None.

Lemma uq_guarded_examples :
  pk_exec uq_sch uq_rows uq_shift = (ODupKey, uq_rows) /\ spec_exec uq_sch uq_rows uq_shift = (ODupKey, uq_rows) /\
  pk_exec uq_sch uq_rows uq_shift_desc = (OOk 2 2, [[VInt 11; VInt 6]; [VInt 12; VInt 7]]) /\
  spec_exec uq_sch uq_rows uq_shift_desc = (OOk 2 2, [[VInt 11; VInt 6]; [VInt 12; VInt 7]]).
Proof. repeat split; vm_compute; reflexivity. Qed.

Lemma uq_bin : pk_binary uq_sch.
Proof. intros c Hc. cbn in Hc. destruct Hc as [<-|[]]. reflexivity. Qed.

Lemma uq_pre : Pre uq_sch (key_kinds uq_sch [KInt]) uq_rows.
Proof.
  split.
  - unfold keys_nodup. vm_compute. constructor; [intros [H|[]]; discriminate|constructor; [intros []|constructor]].
  - repeat constructor.
Qed.

Lemma uq_urows : urows uq_sch uq_rows.
Proof.
  intros cols pls x y Hu Hx Hy _ Hm. cbn in Hu. destruct Hu as [Hu|[]]. injection Hu as <- <-.
  cbn in Hx, Hy. destruct Hx as [<-|[<-|[]]], Hy as [<-|[<-|[]]]; try reflexivity; vm_compute in Hm; discriminate.
Qed.

Lemma uq_news_ok : news_ok uq_sch (news uq_sch [(0%nat, AAdd 10); (1%nat, AAdd 1)] (targets uq_sch PTrue None None uq_rows)).
Proof.
  vm_compute. split; [|split; [intros b []|exact I]].
  intros b [<-|[]] cols pls [Hu|[]] _. injection Hu as <- <-. reflexivity.
Qed.

(* the unguarded statement is false, twice:
   (1) freed value taken twice: UPDATE t SET c0 = c0 + 10, c1 = 5 on (1,5), (2,6): GetByCols gives up on the pending
       delete of (1,5) for BOTH new rows; the editor stores (11,5), (12,5), the reference rejects;
   (2) overwritten pending delete: REPLACE INTO t VALUES (1,6),(1,7),(2,5) on (1,5): the pending delete of the stored (1,5)
       is overwritten by the delete of the re-added (1,6); the probe for (2,5) finds the stored (1,5) again, REPLACE
       deletes "it" once more and thereby drops the pending add (1,7): the editor stores (2,5) alone (6 affected), the
       reference (1,7), (2,5) (5 affected). *)
Definition uq_take : stmt := SUpdate [(0%nat, AAdd 10); (1%nat, AConst (VInt 5))] PTrue None None.
Definition uq_stale_rows : list row := [[VInt 1; VInt 5]].
Definition uq_stale : stmt := SInsert IReplace [[VInt 1; VInt 6]; [VInt 1; VInt 7]; [VInt 2; VInt 5]].

Lemma uq_unguarded_refuted :
  (pk_exec uq_sch uq_rows uq_take = (OOk 2 2, [[VInt 11; VInt 5]; [VInt 12; VInt 5]]) /\
   spec_exec uq_sch uq_rows uq_take = (ODupKey, uq_rows)) /\
  (pk_exec uq_sch uq_stale_rows uq_stale = (OOk 6 0, [[VInt 2; VInt 5]]) /\
   spec_exec uq_sch uq_stale_rows uq_stale = (OOk 5 0, [[VInt 1; VInt 7]; [VInt 2; VInt 5]])).
Proof. repeat split; vm_compute; reflexivity. Qed.
