(* Proofs for C20 over Store/C20AutoInc.v: invariants over ALL guarded histories (single table, then several sessions). *)
From Coq Require Import List ZArith Bool Lia Sorting.Sorted.
Import ListNotations.
From GMS Require Import Store.C20AutoInc.
Open Scope Z_scope.

Definition below (c : Z) (l : list Z) : Prop := Forall (fun x => x < c) l.

Record Inv (s : st) : Prop := {
  I_pos : 1 <= ctr s;
  I_sc : ctr s <= sctr s;
  I_ids : below (ctr s) (ids s);
  I_seen : below (ctr s) (seen s);
  I_gens : below (ctr s) (gens s);
  I_sorted : StronglySorted Z.lt (gens s)
}.

Lemma below_mono : forall c c' l, c <= c' -> below c l -> below c' l.
Proof. intros c c' l H. apply Forall_impl. intros x Hx. lia. Qed.

Lemma below_snoc : forall c l x, below c l -> x < c -> below c (l ++ [x]).
Proof. intros c l x H Hx. apply Forall_app. split; [exact H|constructor; [exact Hx|constructor]]. Qed.

Lemma below_filter : forall c (f : Z * Z -> bool) l, below c (map fst l) -> below c (map fst (filter f l)).
Proof. intros c f l. apply incl_Forall, incl_map, incl_filter. Qed.

Lemma set_id_below : forall c k k' l, below c (map fst l) -> k' < c -> below c (map fst (set_id k k' l)).
Proof.
  intros c k k' l H Hk. unfold below, set_id in *. rewrite map_map. rewrite Forall_map in *.
  eapply Forall_impl; [|exact H]. intros r Hr. cbn. destruct (fst r =? k); [exact Hk|exact Hr].
Qed.

Lemma sorted_snoc : forall l x, StronglySorted Z.lt l -> below x l -> StronglySorted Z.lt (l ++ [x]).
Proof.
  induction l as [|y l IH]; intros x Hs Hb; cbn.
  - constructor; constructor.
  - inversion Hs as [|? ? Hs' Hy]; subst. inversion Hb as [|? ? Hyx Hb']; subst.
    constructor; [apply IH; assumption|]. apply Forall_app. split; [exact Hy|constructor; [exact Hyx|constructor]].
Qed.

(* tableEditor.Insert's bump: never down; past the id unless pinned at the maximum; never past the maximum *)
Lemma ins_bump_bounds : forall tmax id c,
  c <= ins_bump tmax id c /\ (ins_bump tmax id c < tmax -> id < ins_bump tmax id c) /\
  (id <= tmax -> c <= tmax -> ins_bump tmax id c <= tmax).
Proof. intros tmax id c. unfold ins_bump, bump. destruct (Z.leb_spec c id), (Z.ltb_spec id tmax); lia. Qed.

(* the invariant depends on the counters and the three id lists only, and the counters may rise *)
Lemma inv_raise : forall s s', Inv s -> ctr s <= ctr s' <= sctr s' ->
  rows s' = rows s -> seen s' = seen s -> gens s' = gens s -> Inv s'.
Proof.
  intros s s' [Hp Hsc Hi Hs Hg Hso] [Hc Hc'] Er Es Eg.
  constructor; unfold ids; rewrite ?Er, ?Es, ?Eg;
    [lia|exact Hc'|exact (below_mono _ _ _ Hc Hi)|exact (below_mono _ _ _ Hc Hs)|exact (below_mono _ _ _ Hc Hg)|exact Hso].
Qed.

Lemma inv_rows : forall s l sn, Inv s -> below (ctr s) (map fst l) -> below (ctr s) sn -> Inv (with_rows_seen s l sn).
Proof. intros s l sn [Hp Hsc Hi Hs Hg Hso] Hl Hsn. constructor; assumption. Qed.

(* UPDATE of an id (tableEditor.Update, also through ON DUPLICATE KEY UPDATE): fine while the new id is below the counter *)
Lemma inv_set_id : forall s k k', Inv s -> k' < ctr s -> Inv (with_rows_seen s (set_id k k' (rows s)) (seen s ++ [k'])).
Proof.
  intros s k k' HI Hk. apply inv_rows; [exact HI| |].
  - apply set_id_below; [exact (I_ids _ HI)|exact Hk].
  - apply below_snoc; [exact (I_seen _ HI)|exact Hk].
Qed.

(* a generated id is at or above the counter, so it extends the sorted list of generated ids *)
Lemma do_insert_inv : forall tmax m s gen id u l, Inv s -> below (ctr s) (map fst l) -> (gen = true -> ctr s <= id) ->
  ctr (do_insert tmax m s gen id u l) < tmax -> Inv (do_insert tmax m s gen id u l).
Proof.
  intros tmax m s gen id u l [Hp Hsc Hi Hs Hg Hso] Hl Hgen Hlt. cbn in Hlt.
  destruct (ins_bump_bounds tmax id (ctr s)) as [Hn1 [Hn2 _]]. specialize (Hn2 Hlt).
  constructor; cbn; unfold ids; cbn.
  - lia.
  - lia.
  - rewrite map_app. apply below_snoc; [exact (below_mono _ _ _ Hn1 Hl)|exact Hn2].
  - apply below_snoc; [exact (below_mono _ _ _ Hn1 Hs)|exact Hn2].
  - destruct gen; [apply below_snoc; [|exact Hn2]|]; exact (below_mono _ _ _ Hn1 Hg).
  - destruct gen; [|exact Hso]. apply sorted_snoc; [exact Hso|]. exact (below_mono _ _ _ (Hgen eq_refl) Hg).
Qed.

(* AutoIncrement.Eval *)
Lemma eval_id_fields : forall s sp id s', eval_id s sp = (id, s') ->
  id = match sp with None => sctr s | Some k => k end /\
  rows s' = rows s /\ seen s' = seen s /\ gens s' = gens s /\ lid s' = lid s /\ cnt s' = cnt s.
Proof.
  intros s sp id s' E. unfold eval_id in E.
  destruct sp as [k|]; [destruct (k <? 0)|]; injection E as <- <-; repeat split.
Qed.

(* an explicit id raises the counter of the session's table data, and the accumulator's while both are one object *)
Lemma eval_id_ctr : forall s sp id s', eval_id s sp = (id, s') ->
  ctr s <= ctr s' <= Z.max (ctr s) id /\ sctr s' <= Z.max (sctr s) id /\ (ctr s <= sctr s -> ctr s' <= sctr s').
Proof.
  intros s sp id s' E. unfold eval_id in E.
  destruct sp as [k|]; [destruct (k <? 0)|]; injection E as <- <-; cbn; try lia. destruct (linked s); lia.
Qed.

Lemma min_u_in : forall u l best r, min_u u l best = Some r -> best = Some r \/ In r l.
Proof.
  intros u. induction l as [|y l IH]; cbn; intros best r H; [left; exact H|].
  destruct (IH _ _ H) as [H1|H1]; [|right; right; exact H1].
  destruct (snd y =? u); [|left; exact H1].
  destruct best as [b|]; [destruct (fst y <? fst b)|]; first [left; exact H1|injection H1 as <-; right; left; reflexivity].
Qed.

Lemma existing_in : forall id u l dl ex, existing id u l dl = Some ex -> In ex l.
Proof.
  intros id u l dl ex H. unfold existing in H. destruct (find (fun r => fst r =? id) l) as [r|] eqn:E.
  - injection H as <-. exact (proj1 (find_some _ _ E)).
  - destruct (existsb (Z.eqb u) dl); [discriminate|]. destruct (min_u_in _ _ _ _ H) as [H1|H1]; [discriminate|exact H1].
Qed.

(* what a row that goes through does to the state [s1] left by AutoIncrement.Eval: it is inserted (over the rows or, for
   REPLACE, a part of them), or nothing the invariant speaks of changes, or ON DUPLICATE KEY UPDATE moves a stored id *)
Lemma row_step_cases : forall tmax m s sp u s' id s1, eval_id s sp = (id, s1) -> row_step tmax m s (sp, u) = Some s' ->
  (exists l, incl l (rows s1) /\ s' = do_insert tmax m s1 (match sp with None => true | Some _ => false end) id u l) \/
  (ctr s' = ctr s1 /\ sctr s' = sctr s1 /\ rows s' = rows s1 /\ seen s' = seen s1 /\ gens s' = gens s1) \/
  (exists ex d, m = MOdku (OAdd d) /\ In ex (rows s1) /\
     s' = with_rows_seen (with_delu s1 (snd ex)) (set_id (fst ex) (fst ex + d) (rows s1)) (seen s1 ++ [fst ex + d])).
Proof.
  intros tmax m s sp u s' id s1 Ee H. unfold row_step in H. rewrite Ee in H.
  destruct (existing id u (rows s1) (delu s1)) as [ex|] eqn:Eex.
  2:{ injection H as <-. left. exists (rows s1). split; [apply incl_refl|reflexivity]. }
  destruct m as [| | |[| |d]].
  - discriminate.
  - injection H as <-. right; left. repeat split.
  - injection H as <-. left. eexists. split; [apply incl_filter|reflexivity].
  - injection H as <-. right; left. repeat split.
  - injection H as <-. right; left. repeat split.
  - cbn [rows with_delu] in H. destruct (fst ex + d =? fst ex); [injection H as <-; right; left; repeat split|].
    destruct (has_id (fst ex + d) (rows s1)); [discriminate|]. injection H as <-. right; right.
    exists ex, d. split; [reflexivity|split; [exact (existing_in _ _ _ _ _ Eex)|reflexivity]].
Qed.

Lemma row_step_mono : forall tmax m s spu s', row_step tmax m s spu = Some s' -> ctr s <= ctr s'.
Proof.
  intros tmax m s [sp u] s' H. destruct (eval_id s sp) as [id s1] eqn:Ee.
  destruct (eval_id_ctr _ _ _ _ Ee) as [[Hc _] _].
  destruct (row_step_cases _ _ _ _ _ _ _ _ Ee H) as [[l [_ ->]]|[[-> _]|[ex [d [_ [_ ->]]]]]]; [|exact Hc|exact Hc].
  cbn. pose proof (ins_bump_bounds tmax id (ctr s1)). lia.
Qed.

Definition mode_ok (m : imode) : Prop := match m with MOdku (OAdd d) => d <= 0 | _ => True end.

Lemma row_step_inv : forall tmax m s spu s', mode_ok m -> Inv s -> row_step tmax m s spu = Some s' -> ctr s' < tmax -> Inv s'.
Proof.
  intros tmax m s [sp u] s' Hm HI H Hlt. destruct (eval_id s sp) as [id s1] eqn:Ee.
  destruct (eval_id_fields _ _ _ _ Ee) as [Hid [Er [Es [Eg _]]]]. destruct (eval_id_ctr _ _ _ _ Ee) as [Hc [_ Hcs]].
  pose proof (I_sc _ HI) as Hsc.
  assert (HI1 : Inv s1) by (apply (inv_raise s); [exact HI|lia|assumption..]).
  destruct (row_step_cases _ _ _ _ _ _ _ _ Ee H) as [[l [Hl ->]]|[[Ec [Ec' [Er' [Es' Eg']]]]|[ex [d [-> [Hex ->]]]]]].
  - apply do_insert_inv; [exact HI1|exact (incl_Forall (incl_map fst Hl) (I_ids _ HI1))| |exact Hlt].
    destruct sp; [discriminate|]. intros _. lia.
  - apply (inv_raise s1); [exact HI1|pose proof (I_sc _ HI1); lia|assumption..].
  - apply (inv_set_id (with_delu s1 (snd ex))); [apply (inv_raise s1); [exact HI1|exact (conj (Z.le_refl _) (I_sc _ HI1))|reflexivity..]|].
    pose proof (proj1 (Forall_forall _ _) (I_ids _ HI1) _ (in_map fst _ _ Hex)). cbn in *. lia.
Qed.

(* a property that every row keeps holds after the statement's rows, whether or not it failed on the way *)
Lemma rows_run_preserves : forall (P : st -> Prop) tmax m specs,
  (forall s sp s', In sp specs -> P s -> row_step tmax m s sp = Some s' -> P s') ->
  forall s s' b, P s -> rows_run tmax m s specs = (s', b) -> P s'.
Proof.
  intros P tmax m. induction specs as [|sp r IH]; cbn [rows_run]; intros Hstep s s' b Hs H.
  - injection H as <- _. exact Hs.
  - destruct (row_step tmax m s sp) as [s1|] eqn:E; [|injection H as <- _; exact Hs].
    apply (IH (fun a q a' Hq => Hstep a q a' (or_intror Hq)) s1 s' b); [|exact H].
    exact (Hstep s sp s1 (or_introl eq_refl) Hs E).
Qed.

(* the guard bounds the counter at the END of the statement; the counter only rises, so it was below the maximum at every row *)
Lemma rows_run_inv : forall tmax m specs s s' b, mode_ok m -> Inv s -> rows_run tmax m s specs = (s', b) -> ctr s' < tmax -> Inv s'.
Proof.
  intros tmax m specs s s' b Hm HI H.
  apply (rows_run_preserves (fun a => ctr a < tmax -> Inv a) tmax m specs) with s b; [|intros _; exact HI|exact H].
  intros a sp a' _ Ha E Hlt. apply (row_step_inv tmax m a sp a' Hm); [|exact E|exact Hlt].
  apply Ha. pose proof (row_step_mono _ _ _ _ _ E). lia.
Qed.

Lemma ev_ok_mode : forall s m specs, ev_ok s (EInsert m specs) = true -> mode_ok m.
Proof. intros s m specs H. destruct m as [| | |[| |d]]; cbn; try exact I. cbn in H. apply Z.leb_le. exact H. Qed.

Lemma step_inv : forall tmax s e, Inv s -> ev_ok s e = true -> ctr (fst (step tmax s e)) < tmax -> Inv (fst (step tmax s e)).
Proof.
  intros tmax s e HI Hg. pose proof (I_sc _ HI) as Hsc. destruct e as [m specs|k|k|n|k k'|n]; cbn [step].
  - destruct (rows_run tmax m (begin_insert s specs) specs) as [s1 b] eqn:E.
    destruct b; cbn [fst]; intros Hlt; [|apply (inv_raise s); [exact HI|cbn; lia|reflexivity..]].
    assert (HI1 : Inv s1).
    { apply (rows_run_inv _ _ _ _ _ _ (ev_ok_mode _ _ _ Hg)) in E; [exact E| |exact Hlt].
      apply (inv_raise s); [exact HI|cbn; lia|reflexivity..]. }
    apply (inv_raise s1); [exact HI1|cbn; lia|reflexivity..].
  - intros _. apply inv_rows; [exact HI|exact (below_filter _ _ _ (I_ids _ HI))|exact (I_seen _ HI)].
  - intros _. apply inv_rows; [exact HI|exact (below_filter _ _ _ (I_ids _ HI))|exact (I_seen _ HI)].
  - intros _. cbn in Hg. apply Z.leb_le in Hg. apply (inv_raise s); [exact HI|cbn; lia|reflexivity..].
  - intros _. cbn in Hg. apply Z.ltb_lt in Hg. destruct (has_id k (rows s) && negb (k' =? k)); [|exact HI].
    destruct (has_id k' (rows s)); [exact HI|]. exact (inv_set_id s k k' HI Hg).
  - intros _. apply (inv_raise s); [exact HI|cbn; lia|reflexivity..].
Qed.

Theorem run_inv : forall tmax h s, Inv s -> guarded tmax s h = true -> Inv (run tmax s h).
Proof.
  intros tmax. induction h as [|e h IH]; intros s HI Hg; cbn; [exact HI|].
  cbn in Hg. apply andb_prop in Hg. destruct Hg as [H1 H2]. apply andb_prop in H1. destruct H1 as [H0 H1].
  apply Z.ltb_lt in H1. apply IH; [apply step_inv; assumption|exact H2].
Qed.

Lemma init_inv : Inv init.
Proof. constructor; cbn; try constructor; lia. Qed.

(* a failed statement leaves counter, rows and the ghost lists as they were (DiscardChanges) *)
Theorem failed_statement_restores : forall tmax s e iid, snd (step tmax s e) = (false, iid) -> tb_of (fst (step tmax s e)) = tb_of s.
Proof.
  intros tmax s e iid. destruct e as [m specs|k|k|n|k k'|n]; cbn [step]; try (cbn; discriminate).
  - destruct (rows_run tmax m (begin_insert s specs) specs) as [s1 b]. destruct b; cbn; [discriminate|reflexivity].
  - destruct (has_id k (rows s) && negb (k' =? k)); [|cbn; discriminate].
    destruct (has_id k' (rows s)); cbn; [reflexivity|discriminate].
Qed.

(* saturation: the counter pins at the type maximum and never wraps *)
Definition fits (tmax : Z) (s : st) : Prop := ctr s <= tmax /\ sctr s <= tmax.

Lemma row_step_le : forall tmax m s spu s', fits tmax s ->
  (match fst spu with Some k => k <=? tmax | None => true end) = true ->
  row_step tmax m s spu = Some s' -> fits tmax s'.
Proof.
  intros tmax m s [sp u] s' [Hc Hs] Hk H. destruct (eval_id s sp) as [id s1] eqn:Ee.
  destruct (eval_id_fields _ _ _ _ Ee) as [Hid _]. destruct (eval_id_ctr _ _ _ _ Ee) as [Hc1 [Hs1 _]].
  assert (Hidm : id <= tmax) by (destruct sp; [apply Z.leb_le in Hk|]; cbn in *; lia).
  destruct (row_step_cases _ _ _ _ _ _ _ _ Ee H) as [[l [_ ->]]|[[Ec [Ec' _]]|[ex [d [_ [_ ->]]]]]]; unfold fits; cbn.
  - pose proof (ins_bump_bounds tmax id (ctr s1)). lia.
  - lia.
  - lia.
Qed.

Lemma step_le : forall tmax s e, ctr s <= tmax -> ev_fits tmax e = true -> ctr (fst (step tmax s e)) <= tmax.
Proof.
  intros tmax s e Hc Hf. destruct e as [m specs|k|k|n|k k'|n]; cbn [step]; try exact Hc.
  - destruct (rows_run tmax m (begin_insert s specs) specs) as [s1 b] eqn:E.
    destruct b; cbn; [|exact Hc].
    apply (rows_run_preserves (fits tmax) tmax m specs) with (begin_insert s specs) true; [|split; exact Hc|exact E].
    intros a sp a' Hin Ha. exact (row_step_le tmax m a sp a' Ha (proj1 (forallb_forall _ _) Hf sp Hin)).
  - cbn in Hf. apply Z.leb_le. exact Hf.
  - destruct (has_id k (rows s) && negb (k' =? k)); [|exact Hc]. destruct (has_id k' (rows s)); exact Hc.
Qed.

Theorem run_le : forall tmax h s, ctr s <= tmax -> forallb (ev_fits tmax) h = true -> ctr (run tmax s h) <= tmax.
Proof.
  intros tmax. induction h as [|e h IH]; intros s Hc Hf; cbn; [exact Hc|].
  cbn in Hf. apply andb_prop in Hf. destruct Hf as [H1 H2]. apply IH; [apply step_le; assumption|exact H2].
Qed.

Lemma find_id_some : forall id l, In id (map fst l) -> exists r, find (fun r : Z * Z => fst r =? id) l = Some r.
Proof.
  intros id. induction l as [|r l IH]; cbn; intros H; [contradiction|].
  destruct (fst r =? id) eqn:E; [exists r; reflexivity|]. destruct H as [H|H]; [apply Z.eqb_neq in E; contradiction|exact (IH H)].
Qed.

(* at the maximum with the maximum stored: a generated insert fails (duplicate key) and the counter stays *)
Theorem pinned_insert_fails : forall tmax s u, ctr s = tmax -> In tmax (ids s) ->
  snd (step tmax s (EInsert MPlain [(None, u)])) = (false, 0) /\ ctr (fst (step tmax s (EInsert MPlain [(None, u)]))) = tmax.
Proof.
  intros tmax s u Hc Hin. cbn. unfold row_step. cbn. rewrite Hc. unfold existing. cbn.
  destruct (find_id_some tmax (rows s) Hin) as [r ->]. cbn. split; [reflexivity|exact Hc].
Qed.

(* the next generated id is the counter of the session's table data (= the counter when the statement begins) *)
Lemma generated_is_counter : forall tmax m s u s', row_step tmax m s (None, u) = Some s' -> existing (sctr s) u (rows s) (delu s) = None ->
  gens s' = gens s ++ [sctr s] /\ ids s' = ids s ++ [sctr s] /\ ctr s' = ins_bump tmax (sctr s) (ctr s).
Proof.
  intros tmax m s u s' H Hex. unfold row_step in H. cbn in H. rewrite Hex in H. injection H as <-. cbn. unfold ids. cbn.
  rewrite map_app. repeat split.
Qed.

(* LAST_INSERT_ID() after a successful plain INSERT is the first generated id *)
Lemma row_step_plain_fields : forall tmax s sp u s', row_step tmax MPlain s (sp, u) = Some s' ->
  exists id, lid s' = (if cnt s =? 0 then id else lid s) /\
             cnt s' = (if cnt s <? 0 then cnt s else cnt s - 1) /\
             gens s' = (match sp with None => gens s ++ [id] | Some _ => gens s end).
Proof.
  intros tmax s sp u s' E. unfold row_step in E. destruct (eval_id s sp) as [id s1] eqn:Ee.
  destruct (eval_id_fields _ _ _ _ Ee) as [_ [_ [_ [Hg [Hl Hc]]]]].
  destruct (existing id u (rows s1) (delu s1)); [discriminate|]. injection E as <-. exists id. cbn. rewrite Hl, Hc, Hg.
  destruct sp; repeat split.
Qed.

(* once the countdown is negative LAST_INSERT_ID() stays *)
Lemma rows_run_neg : forall tmax specs s s', cnt s < 0 -> rows_run tmax MPlain s specs = (s', true) ->
  lid s' = lid s /\ exists rest, gens s' = gens s ++ rest.
Proof.
  intros tmax specs s s' Hc H.
  apply (rows_run_preserves (fun a => cnt a < 0 /\ lid a = lid s /\ exists rest, gens a = gens s ++ rest) tmax MPlain specs)
    with (s' := s') (b := true) in H.
  - exact (proj2 H).
  - intros a [sp u] a' _ [Ha [Hl [rest Hr]]] E. destruct (row_step_plain_fields _ _ _ _ _ E) as [id [Hl' [Hn Hg]]].
    destruct (Z.ltb_spec (cnt a) 0); [|lia]. destruct (Z.eqb_spec (cnt a) 0); [lia|].
    split; [lia|split; [congruence|]]. rewrite Hg, Hr. destruct sp; [exists rest|exists (rest ++ [id]); rewrite app_assoc]; reflexivity.
  - split; [exact Hc|split; [reflexivity|exists []; symmetry; apply app_nil_r]].
Qed.

Lemma first_gen_index_ge : forall specs, -1 <= first_gen_index specs.
Proof.
  induction specs as [|[[k|] ud] r IH]; cbn; try lia. destruct (first_gen_index r <? 0) eqn:E; [lia|apply Z.ltb_ge in E; lia].
Qed.

Lemma rows_run_lid : forall tmax specs s s', cnt s = first_gen_index specs -> 0 <= cnt s ->
  rows_run tmax MPlain s specs = (s', true) -> exists g rest, gens s' = gens s ++ g :: rest /\ lid s' = g.
Proof.
  intros tmax. induction specs as [|[sp ud] r IH]; cbn [rows_run first_gen_index]; intros s s' Hc Hp H; [cbn in Hc; lia|].
  destruct (row_step tmax MPlain s (sp, ud)) as [s1|] eqn:E; [|discriminate].
  destruct (row_step_plain_fields _ _ _ _ _ E) as [id [Hl [Hn Hg]]].
  destruct (Z.ltb_spec (cnt s) 0); [lia|].
  destruct sp as [k|].
  - destruct (Z.ltb_spec (first_gen_index r) 0); [lia|].
    destruct (IH s1 s') as [g [rest [Hr Hlg]]]; [lia|lia|exact H|]. exists g, rest. split; [rewrite Hr, Hg; reflexivity|exact Hlg].
  - destruct (Z.eqb_spec (cnt s) 0); [|lia].
    destruct (rows_run_neg tmax r s1 s') as [Hl' [rest Hr]]; [lia|exact H|].
    exists id, rest. split; [rewrite Hr, Hg, <- app_assoc; reflexivity|congruence].
Qed.

Theorem plain_insert_lid : forall tmax s specs s' iid,
  step tmax s (EInsert MPlain specs) = (s', (true, iid)) -> 0 <= first_gen_index specs ->
  exists g rest, gens s' = gens s ++ g :: rest /\ lid s' = g.
Proof.
  intros tmax s specs s' iid H Hf. cbn in H.
  destruct (rows_run tmax MPlain (begin_insert s specs) specs) as [s1 b] eqn:E. destruct b; [|discriminate].
  injection H as <- _. cbn.
  exact (rows_run_lid tmax specs (begin_insert s specs) s1 (eq_refl : cnt (begin_insert s specs) = first_gen_index specs) Hf E).
Qed.

Definition TInv (t : tb) : Prop := Inv (st_of t 0).
Definition OInv (o : option tb) : Prop := match o with Some t => TInv t | None => True end.
Definition WInv (w : world) : Prop := TInv (wdb w) /\ Forall OInv (wtx w).

Lemma inv_st_of : forall t l l', Inv (st_of t l) -> Inv (st_of t l').
Proof. intros t l l' [Hp Hsc Hi Hs Hg Hso]. constructor; assumption. Qed.

Lemma inv_tb_of : forall s l, Inv s -> Inv (st_of (tb_of s) l).
Proof. intros s l [Hp Hsc Hi Hs Hg Hso]. constructor; cbn; try assumption. lia. Qed.

Lemma forall_nth : forall {A} (P : A -> Prop) d l i, P d -> Forall P l -> P (nth i l d).
Proof.
  intros A P d. induction l as [|x l IH]; intros i Hd H; destruct i; cbn; try exact Hd; inversion H; subst; [assumption|].
  apply IH; assumption.
Qed.

Lemma forall_set_nth : forall {A} (P : A -> Prop) d i v l, P d -> P v -> Forall P l -> Forall P (set_nth d i v l).
Proof.
  intros A P d. induction i as [|i IH]; intros v l Hd Hv H; destruct l as [|x l]; cbn.
  - constructor; [exact Hv|constructor].
  - inversion H; subst. constructor; assumption.
  - constructor; [exact Hd|]. apply IH; [exact Hd|exact Hv|constructor].
  - inversion H; subst. constructor; [assumption|]. apply IH; assumption.
Qed.

Lemma nth_set_nth_same : forall {A} (d : A) i v l, nth i (set_nth d i v l) d = v.
Proof. intros A d. induction i as [|i IH]; intros v l; destruct l; cbn; try reflexivity; apply IH. Qed.

Lemma nth_set_nth_other : forall {A} (d : A) i j v l, i <> j -> nth j (set_nth d i v l) d = nth j l d.
Proof.
  intros A d. induction i as [|i IH]; intros j v l Hij; destruct l as [|x l]; destruct j as [|j]; cbn; try reflexivity; try congruence.
  - destruct j; reflexivity.
  - rewrite IH; [destruct j; reflexivity|congruence].
  - apply IH. congruence.
Qed.

Lemma wtable_inv : forall w i, WInv w -> TInv (wtable w i).
Proof.
  intros w i [Hd Ht]. unfold wtable. pose proof (forall_nth OInv None (wtx w) i I Ht) as H.
  destruct (nth i (wtx w) None); [exact H|exact Hd].
Qed.

Lemma wstep_inv : forall tmax w e, WInv w -> wev_ok tmax w e = true -> WInv (fst (wstep tmax w e)).
Proof.
  intros tmax w e HW Hg. pose proof HW as [Hd Ht].
  assert (Hset : forall i o, OInv o -> Forall OInv (set_nth None i o (wtx w))).
  { intros i o Ho. apply forall_set_nth; [exact I|exact Ho|exact Ht]. }
  destruct e as [i ev|i|i|i]; cbn [wstep].
  - cbn in Hg. apply andb_prop in Hg. destruct Hg as [G1 G2]. apply Z.ltb_lt in G2.
    pose proof (step_inv tmax _ ev (inv_st_of _ 0 (nth i (wlid w) 0) (wtable_inv w i HW)) G1 G2) as HI.
    destruct (step tmax (st_of (wtable w i) (nth i (wlid w) 0)) ev) as [s' res]. apply (inv_tb_of _ 0) in HI.
    destruct (nth i (wtx w) None); split; cbn; [exact Hd|exact (Hset i (Some (tb_of s')) HI)|exact HI|exact Ht].
  - split; [exact (wtable_inv w i HW)|exact (Hset i (Some (wtable w i)) (wtable_inv w i HW))].
  - split; [exact (wtable_inv w i HW)|exact (Hset i None I)].
  - split; [exact Hd|exact (Hset i None I)].
Qed.

Theorem wrun_inv : forall tmax h w, WInv w -> wguarded tmax w h = true -> WInv (wrun tmax w h).
Proof.
  intros tmax. induction h as [|e h IH]; intros w HW Hg; cbn; [exact HW|].
  cbn in Hg. apply andb_prop in Hg. destruct Hg as [H1 H2]. apply IH; [apply wstep_inv; assumption|exact H2].
Qed.

Lemma winit_inv : WInv winit.
Proof. split; [exact (inv_tb_of _ 0 init_inv)|constructor]. Qed.

Definition wevent_session (e : wevent) : nat :=
  match e with WStmt i _ => i | WBegin i => i | WCommit i => i | WRollback i => i end.

(* LAST_INSERT_ID() is per session: what session i does leaves the value of every other session alone *)
Theorem lid_per_session : forall tmax w e j, wevent_session e <> j ->
  nth j (wlid (fst (wstep tmax w e))) 0 = nth j (wlid w) 0.
Proof.
  intros tmax w e j Hj. destruct e as [i ev|i|i|i]; cbn [wstep wevent_session] in *; try reflexivity.
  destruct (step tmax (st_of (wtable w i) (nth i (wlid w) 0)) ev) as [s' res].
  destruct (nth i (wtx w) None); cbn; apply nth_set_nth_other; exact Hj.
Qed.

(* inside BEGIN ... ROLLBACK nothing reaches the stored table: the counter is rolled back with the rows *)
Theorem rollback_restores : forall tmax evs w i t, nth i (wtx w) None = Some t ->
  wdb (wrun tmax w (map (WStmt i) evs ++ [WRollback i])) = wdb w /\
  nth i (wtx (wrun tmax w (map (WStmt i) evs ++ [WRollback i]))) None = None.
Proof.
  intros tmax. induction evs as [|ev evs IH]; intros w i t Ht; cbn.
  - split; [reflexivity|apply nth_set_nth_same].
  - unfold wrun in IH. cbn [wstep].
    destruct (step tmax (st_of (wtable w i) (nth i (wlid w) 0)) ev) as [s' res]. rewrite Ht. cbn [fst].
    match goal with |- context [fold_left _ _ ?w'] => specialize (IH w' i (tb_of s')) end.
    cbn in IH. rewrite nth_set_nth_same in IH. exact (IH eq_refl).
Qed.

Definition big : Z := 9223372036854775807.
Definition g (u : Z) : option Z * Z := (None, u).
Definition x (k u : Z) : option Z * Z := (Some k, u).

Lemma alter_below_max_stuck :
  guarded big init [EInsert MPlain [g 1; g 2; g 3]; EAlter 2; EInsert MPlain [g 4]] = false /\
  ctr (run big init [EInsert MPlain [g 1; g 2; g 3]; EAlter 2]) = 2 /\ In 3 (ids (run big init [EInsert MPlain [g 1; g 2; g 3]; EAlter 2])) /\
  snd (step big (run big init [EInsert MPlain [g 1; g 2; g 3]; EAlter 2]) (EInsert MPlain [g 4])) = (false, 0).
Proof. repeat split; vm_compute; auto. Qed.

Lemma ignore_lid_shift :
  let s := run big init [EInsert MPlain [g 1]] in
  let r := step big s (EInsert MIgnore [x 1 2; g 3; x 20 4]) in
  snd r = (true, 2) /\ gens (fst r) = [1; 2] /\ lid (fst r) = 20.
Proof. repeat split; vm_compute; reflexivity. Qed.

Lemma insert_id_explicit_first :
  let r := step big init (EInsert MPlain [x 5 1; g 2]) in
  snd r = (true, 5) /\ gens (fst r) = [6] /\ lid (fst r) = 6.
Proof. repeat split; vm_compute; reflexivity. Qed.

(* TINYINT: the maximum 127 is generated, deleted and generated AGAIN (the counter is pinned, it does not wrap) *)
Lemma max_id_reused_after_delete :
  let s := run 127 init [EAlter 127; EInsert MPlain [g 1]; EDelEq 127; EInsert MPlain [g 2]] in
  gens s = [127; 127] /\ ctr s = 127.
Proof. split; vm_compute; reflexivity. Qed.

(* REPLACE generates 2 but LAST_INSERT_ID() and OkResult.InsertID stay at the value of the statement before *)
Lemma replace_keeps_lid :
  let s := run big init [EInsert MPlain [g 1]] in
  let r := step big s (EInsert MReplace [g 2]) in
  snd r = (true, 1) /\ gens (fst r) = [1; 2] /\ lid (fst r) = 1.
Proof. repeat split; vm_compute; reflexivity. Qed.

(* ODKU: the row before the first generated one takes the UPDATE path and does not count down *)
Lemma odku_lid_shift :
  let s := run big init [EInsert MPlain [g 1]] in
  let r := step big s (EInsert (MOdku OSetV) [x 1 2; g 3; x 20 4]) in
  snd r = (true, 20) /\ gens (fst r) = [1; 2] /\ lid (fst r) = 20.
Proof. repeat split; vm_compute; reflexivity. Qed.

(* UPDATE does not move the counter: id 1 becomes 2 = the counter; the guard is violated and every later generated insert fails *)
Lemma update_to_counter_stuck :
  let h := [EInsert MPlain [g 1]; EUpdId 1 2] in
  guarded big init h = false /\ ctr (run big init h) = 2 /\ ids (run big init h) = [2] /\
  snd (step big (run big init h) (EInsert MPlain [g 2])) = (false, 0) /\
  run big (run big init h) [EInsert MPlain [g 2]; EInsert MPlain [g 3]] = run big init h.
Proof. repeat split; vm_compute; auto. Qed.

(* the same through ON DUPLICATE KEY UPDATE id = id + 5 *)
Lemma odku_add_above_counter :
  let h := [EInsert MPlain [g 1]; EInsert (MOdku (OAdd 5)) [g 1]] in
  guarded big init h = false /\ ctr (run big init h) = 2 /\ ids (run big init h) = [6].
Proof. repeat split; vm_compute; auto. Qed.

(* INSERT IGNORE, two copies of the table data: (NULL -> 2), (100 skipped: u duplicate; only the session copy is raised),
   then (NULL -> 100); but when the skipped row is the last one the raise is lost *)
Lemma ignore_two_copies :
  let s := run big init [EInsert MPlain [g 1]] in
  ids (fst (step big s (EInsert MIgnore [g 2; x 100 1; g 3]))) = [1; 2; 100] /\
  ctr (fst (step big s (EInsert MIgnore [g 2; x 100 1; g 3]))) = 101 /\
  ctr (fst (step big s (EInsert MIgnore [g 2; x 100 1]))) = 3 /\
  ctr (fst (step big s (EInsert MIgnore [x 100 1]))) = 100.
Proof. repeat split; vm_compute; reflexivity. Qed.

(* sessions 0 and 1: 0 opens a transaction and generates 2 in its private copy, 1 generates 2 in the stored table, 0
   commits: both statements succeeded and reported 2; the stored table is 0's copy *)
Definition interleaved : list wevent :=
  [WStmt 0 (EInsert MPlain [g 1]); WBegin 0; WStmt 0 (EInsert MPlain [g 2]); WStmt 1 (EInsert MPlain [g 3]); WCommit 0].

Lemma interleaved_same_id :
  let w := wrun big winit interleaved in
  nth 0 (wlid w) 0 = 2 /\ nth 1 (wlid w) 0 = 2 /\ t_rows (wdb w) = [(1, 1); (2, 2)] /\
  snd (wstep big (wrun big winit (firstn 2 interleaved)) (WStmt 0 (EInsert MPlain [g 2]))) = (true, 2) /\
  snd (wstep big (wrun big winit (firstn 3 interleaved)) (WStmt 1 (EInsert MPlain [g 3]))) = (true, 2).
Proof. repeat split; vm_compute; reflexivity. Qed.

(* ids generated inside a rolled-back transaction are generated again (the decision: uniqueness is over committed statements) *)
Lemma rollback_reuses :
  let w := wrun big winit [WStmt 0 (EInsert MPlain [g 1]); WBegin 0; WStmt 0 (EInsert MPlain [g 2]); WRollback 0; WStmt 0 (EInsert MPlain [g 2])] in
  t_gens (wdb w) = [1; 2] /\ t_ctr (wdb w) = 3.
Proof. split; vm_compute; reflexivity. Qed.
