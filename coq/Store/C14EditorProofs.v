(* Proofs about the editor model (Store/C14Editor.v).  First the facts that C13 and C14 share: the equality tests, the
   association lists of the accumulator, the statement iterators lifting an editor invariant.  Then C14's results:
   - ApplyEdits keeps the primary keys of the stored rows pairwise different (as Go values), whatever the pending
     edits are; hence every statement and every history does;
   - for binary collations / integers that is difference under the collation;
   - exactness of a plain multi-row INSERT when the row-key strings are injective on the inserted rows, which they are on
     rows whose key columns hold integers / strings of fixed kinds. *)
From Coq Require Import List NArith ZArith Bool Lia Permutation DecimalN.
Import ListNotations.
From GMS Require Import Base.ListFacts Store.C14Editor.

Lemma str_eqb_spec : forall a b, str_eqb a b = true <-> a = b.
Proof.
  induction a as [|x a IH]; intros [|y b]; cbn; rewrite ?andb_true_iff, ?N.eqb_eq, ?IH; intuition congruence.
Qed.

Lemma val_eqb_spec : forall a b, val_eqb a b = true <-> a = b.
Proof. intros [|x|x] [|y|y]; cbn; rewrite ?Z.eqb_eq, ?str_eqb_spec; intuition congruence. Qed.

Lemma row_eqb_spec : forall a b, row_eqb a b = true <-> a = b.
Proof.
  induction a as [|x a IH]; intros [|y b]; cbn; rewrite ?andb_true_iff, ?val_eqb_spec, ?IH; intuition congruence.
Qed.

Lemma str_eqb_refl : forall a, str_eqb a a = true.
Proof. intros a. apply str_eqb_spec. reflexivity. Qed.

Lemma str_eqb_sym : forall a b, str_eqb a b = str_eqb b a.
Proof. intros a b. apply eq_true_iff_eq. rewrite !str_eqb_spec. split; congruence. Qed.

Lemma trunc_zero : forall v, trunc 0 v = v.
Proof. intros [| |s]; reflexivity. Qed.

Lemma cols_match_nil_spec : forall cols r1 r2, cols_match cols [] r1 r2 = true <-> proj cols r1 = proj cols r2.
Proof.
  induction cols as [|c cs IH]; intros r1 r2; cbn; [tauto|].
  rewrite !trunc_zero, andb_true_iff, val_eqb_spec, IH. unfold proj. intuition congruence.
Qed.

Lemma pk_match_spec : forall sch r1 r2, pk_match sch r1 r2 = true <-> key sch r1 = key sch r2.
Proof. intros. apply cols_match_nil_spec. Qed.

Lemma key_str_of_key : forall sch a b, key sch a = key sch b -> key_str sch a = key_str sch b.
Proof. intros sch a b H. unfold key_str. rewrite H. reflexivity. Qed.

(* where the row key string decides the key, the accumulator's string comparison is the stored rows' key comparison *)
Lemma pk_match_key_str : forall sch a b, (key_str sch a = key_str sch b -> key sch a = key sch b) ->
  pk_match sch a b = str_eqb (key_str sch b) (key_str sch a).
Proof.
  intros sch a b H. apply eq_true_iff_eq. rewrite pk_match_spec, str_eqb_spec. split.
  - intros E. symmetry. apply key_str_of_key. exact E.
  - intros E. apply H. symmetry. exact E.
Qed.

Lemma find_none_iff : forall (A : Type) (f : A -> bool) l, find f l = None <-> existsb f l = false.
Proof.
  intros A f l. induction l as [|y l IH]; cbn; [split; reflexivity|].
  destruct (f y); cbn; [split; discriminate|exact IH].
Qed.

Lemma find_app : forall (A : Type) (f : A -> bool) l1 l2,
  find f (l1 ++ l2) = match find f l1 with Some x => Some x | None => find f l2 end.
Proof. intros A f l1 l2. induction l1 as [|x l1 IH]; cbn; [reflexivity|]. destruct (f x); [reflexivity|exact IH]. Qed.

Lemma find_map : forall (A B : Type) (g : A -> B) (f : B -> bool) l,
  find f (map g l) = option_map g (find (fun x => f (g x)) l).
Proof. intros A B g f l. induction l as [|x l IH]; cbn; [reflexivity|]. destruct (f (g x)); [reflexivity|exact IH]. Qed.

Lemma fold_left_preserves : forall (A B : Type) (P : A -> Prop) (f : A -> B -> A) (l : list B) (a : A),
  (forall a b, P a -> P (f a b)) -> P a -> P (fold_left f l a).
Proof. intros A B P f l. induction l as [|b l IH]; intros a Hf Ha; cbn; [exact Ha|]. apply IH; [exact Hf|]. apply Hf. exact Ha. Qed.

Lemma insert_sorted_perm : forall lt r l, Permutation (insert_sorted lt r l) (r :: l).
Proof.
  intros lt r l. induction l as [|x l IH]; cbn.
  - apply Permutation_refl.
  - destruct (lt r x).
    + apply Permutation_refl.
    + eapply Permutation_trans; [apply perm_skip; exact IH | apply perm_swap].
Qed.

Lemma sort_by_perm_acc : forall lt l acc,
  Permutation (fold_left (fun acc r => insert_sorted lt r acc) l acc) (l ++ acc).
Proof.
  intros lt l. induction l as [|x l IH]; intros acc; cbn.
  - apply Permutation_refl.
  - eapply Permutation_trans; [apply IH|].
    eapply Permutation_trans; [apply Permutation_app_head; apply insert_sorted_perm|].
    apply Permutation_sym. apply Permutation_middle.
Qed.

Lemma sort_by_perm : forall lt l, Permutation (sort_by lt l) l.
Proof. intros. unfold sort_by. rewrite <- (app_nil_r l) at 2. apply sort_by_perm_acc. Qed.

Lemma sort_rows_perm : forall sch l, Permutation (sort_rows sch l) l.
Proof. intros. apply sort_by_perm. Qed.

Lemma order_rows_perm : forall sch ord l, Permutation (order_rows sch ord l) l.
Proof. intros sch [[c desc]|] l; [apply sort_by_perm|apply Permutation_refl]. Qed.

(* WHERE / ORDER BY / LIMIT select among the stored rows *)
Lemma targets_incl : forall sch w ord lim rows, incl (targets sch w ord lim rows) rows.
Proof.
  intros sch w ord lim rows x Hx. unfold targets in Hx.
  assert (Ho : In x (order_rows sch ord (filter (pred_true sch w) rows))).
  { destruct lim as [n|]; [|exact Hx]. rewrite <- (firstn_skipn (N.to_nat n)). apply in_or_app. left. exact Hx. }
  apply (Permutation_in _ (order_rows_perm _ _ _)), filter_In in Ho. exact (proj1 Ho).
Qed.

(* cmap.Map as an association list *)
Lemma m_get_none_iff : forall k m, m_get k m = None <-> forall kv, In kv m -> fst kv <> k.
Proof.
  intros k m. induction m as [|[k' v] m IH]; cbn.
  - split; [intros _ kv []|reflexivity].
  - destruct (str_eqb k k') eqn:E.
    + apply str_eqb_spec in E. subst k'. split; [discriminate|]. intros H. exfalso. apply (H (k, v)); [left; reflexivity|reflexivity].
    + rewrite IH. split.
      * intros H kv [<-|Hin]; [cbn; intros ->; rewrite str_eqb_refl in E; discriminate|apply H; exact Hin].
      * intros H kv Hin. apply H. right. exact Hin.
Qed.

Lemma m_get_some_in : forall k m v, m_get k m = Some v -> In (k, v) m.
Proof.
  intros k m v. induction m as [|[k' v'] m IH]; cbn; intros H; [discriminate|].
  destruct (str_eqb k k') eqn:E.
  - apply str_eqb_spec in E. subst. injection H as ->. left. reflexivity.
  - right. apply IH. exact H.
Qed.

Lemma m_get_m_set : forall k' k v m, m_get k' (m_set k v m) = if str_eqb k' k then Some v else m_get k' m.
Proof.
  intros k' k v m. induction m as [|[k1 v1] m IH]; cbn; [reflexivity|].
  destruct (str_eqb k k1) eqn:E; cbn.
  - apply str_eqb_spec in E. subst k1. destruct (str_eqb k' k); reflexivity.
  - rewrite IH. destruct (str_eqb k' k1) eqn:E1, (str_eqb k' k) eqn:E2; try reflexivity.
    apply str_eqb_spec in E1, E2. subst. rewrite str_eqb_refl in E. discriminate.
Qed.

Lemma m_set_none : forall k v m, m_get k m = None -> m_set k v m = m ++ [(k, v)].
Proof.
  intros k v m. induction m as [|[k' v'] m IH]; cbn; intros H; [reflexivity|].
  destruct (str_eqb k k'); [discriminate|]. rewrite IH; [reflexivity|exact H].
Qed.

Lemma m_set_incl : forall k v m, incl (m_set k v m) ((k, v) :: m).
Proof.
  intros k v m. induction m as [|[k' v'] m IH]; cbn; [apply incl_refl|].
  destruct (str_eqb k k').
  - intros kv [<-|H]; [left; reflexivity|right; right; exact H].
  - intros kv [<-|H]; [right; left; reflexivity|]. destruct (IH kv H) as [<-|H']; [left; reflexivity|right; right; exact H'].
Qed.

Lemma m_del_filter : forall k m, m_del k m = filter (fun kv => negb (str_eqb k (fst kv))) m.
Proof.
  intros k m. induction m as [|[k' v] m IH]; cbn; [reflexivity|].
  destruct (str_eqb k k'); cbn; [exact IH|f_equal; exact IH].
Qed.

Lemma m_del_incl : forall k m, incl (m_del k m) m.
Proof. intros k m. rewrite m_del_filter. apply incl_filter. Qed.

Lemma m_get_m_del : forall k m, m_get k (m_del k m) = None.
Proof.
  intros k m. induction m as [|[k' v] m IH]; cbn; [reflexivity|].
  destruct (str_eqb k k') eqn:E; [exact IH|]. cbn. rewrite E. exact IH.
Qed.

(* checkUniqueConstraints accepts iff the probe finds nothing on every unique index in which the row has no NULL *)
Lemma check_unique_none_iff : forall (g : row -> list nat -> list N -> option row) u r,
  check_unique g u r = None <->
  Forall (fun cp => has_null (fst cp) r = false -> g r (fst cp) (snd cp) = None) u.
Proof.
  intros g u r. induction u as [|[c p] u IH]; cbn [check_unique]; [split; [constructor|reflexivity]|].
  rewrite Forall_cons_iff, <- IH. cbn [fst snd].
  destruct (has_null c r); [|destruct (g r c p)]; intuition discriminate.
Qed.

Definition keys_nodup (sch : schema) (rows : list row) : Prop := NoDup (map (key sch) rows).

Lemma remove_first_incl : forall (f : row -> bool) l, incl (remove_first f l) l.
Proof.
  intros f l. induction l as [|y l IH]; cbn; intros x H; [exact H|].
  destruct (f y); [right; exact H|]. destruct H as [H|H]; [left; exact H|right; apply IH; exact H].
Qed.

Lemma remove_first_nodup : forall sch (f : row -> bool) l, keys_nodup sch l -> keys_nodup sch (remove_first f l).
Proof.
  intros sch f l. unfold keys_nodup. induction l as [|y l IH]; cbn; intros H; [exact H|].
  inversion H as [|? ? Hn Hd]; subst. destruct (f y); [exact Hd|].
  cbn. constructor; [|apply IH; exact Hd].
  intros Hin. apply Hn. revert Hin. apply incl_map, remove_first_incl.
Qed.

Lemma no_pk_match : forall sch r l,
  existsb (fun x => pk_match sch x r) l = false <-> ~ In (key sch r) (map (key sch) l).
Proof.
  intros sch r l. rewrite existsb_false_iff, in_map_iff. split.
  - intros H [x [Hk Hx]]. apply pk_match_spec in Hk. rewrite (H x Hx) in Hk. discriminate.
  - intros H x Hx. destruct (pk_match sch x r) eqn:E; [|reflexivity]. exfalso. apply H. exists x.
    split; [apply pk_match_spec; exact E|exact Hx].
Qed.

Lemma replace_first_none_iff : forall f r l, replace_first f r l = None <-> existsb f l = false.
Proof.
  intros f r l. induction l as [|y l IH]; cbn; [split; reflexivity|].
  destruct (f y); cbn; [split; discriminate|]. destruct (replace_first f r l); [rewrite <- IH; split; discriminate|exact IH].
Qed.

Lemma replace_first_some_keys : forall sch r l l',
  replace_first (fun pr => pk_match sch pr r) r l = Some l' -> map (key sch) l' = map (key sch) l.
Proof.
  intros sch r l. induction l as [|y l IH]; cbn; intros l' H; [discriminate|].
  destruct (pk_match sch y r) eqn:E.
  - injection H as <-. cbn. apply pk_match_spec in E. rewrite E. reflexivity.
  - destruct (replace_first _ r l) eqn:E2; [|discriminate]. injection H as <-. cbn. f_equal. apply IH. reflexivity.
Qed.

Lemma insert_helper_fresh : forall sch l r,
  existsb (fun x => pk_match sch x r) l = false -> pk_insert_helper sch l r = l ++ [r].
Proof. intros sch l r H. unfold pk_insert_helper. apply (replace_first_none_iff _ r) in H. rewrite H. reflexivity. Qed.

Lemma insert_helper_nodup : forall sch l r, keys_nodup sch l -> keys_nodup sch (pk_insert_helper sch l r).
Proof.
  intros sch l r H. unfold pk_insert_helper, keys_nodup in *.
  destruct (replace_first _ r l) eqn:E.
  - rewrite (replace_first_some_keys _ _ _ _ E). exact H.
  - rewrite map_app. apply NoDup_snoc. split; [exact H|]. apply replace_first_none_iff, no_pk_match in E. exact E.
Qed.

Lemma perm_keys_nodup : forall sch l l', Permutation l l' -> keys_nodup sch l' -> keys_nodup sch l.
Proof.
  intros sch l l' Hp H. unfold keys_nodup in *.
  eapply Permutation_NoDup; [apply Permutation_sym; apply Permutation_map; exact Hp|exact H].
Qed.

(* the central fact: whatever the accumulator holds, ApplyEdits yields pairwise different primary keys *)
Lemma pk_commit_nodup : forall sch s, keys_nodup sch (p_rows s) -> keys_nodup sch (pk_commit sch s).
Proof.
  intros sch s H. unfold pk_commit. eapply perm_keys_nodup; [apply sort_rows_perm|].
  unfold pk_apply_unsorted. apply fold_left_preserves.
  - intros a b Ha. apply insert_helper_nodup. exact Ha.
  - apply fold_left_preserves; [|exact H]. intros a b Ha. apply remove_first_nodup. exact Ha.
Qed.

Section ExecInv.
  Context {St : Type}.
  Variable e_begin : list row -> St.
  Variable e_insert : St -> row -> res St.
  Variable e_delete : St -> row -> St.
  Variable e_update : St -> row -> row -> res St.
  Variable e_commit : St -> list row.
  Variable sch : schema.
  Variable P : list row -> Prop.
  Variable Inv : St -> Prop.
  Hypothesis Hnil : P [].
  Hypothesis Hb : forall rows, P rows -> Inv (e_begin rows).
  Hypothesis Hi : forall s r s', Inv s -> e_insert s r = ROk s' -> Inv s'.
  Hypothesis Hd : forall s r, Inv s -> Inv (e_delete s r).
  Hypothesis Hu : forall s o n s', Inv s -> e_update s o n = ROk s' -> Inv s'.
  Hypothesis Hc : forall s, Inv s -> P (e_commit s).

  Lemma ins_plain_inv : forall rows s n s' n', Inv s -> ins_plain e_insert s rows n = Some (s', n') -> Inv s'.
  Proof.
    induction rows as [|r rows IH]; cbn; intros s n s' n' HI H.
    - injection H as <- _. exact HI.
    - destruct (e_insert s r) eqn:E; [|discriminate]. eapply IH; [|exact H]. eapply Hi; eauto.
  Qed.

  Lemma ins_ignore_inv : forall rows cur n, P cur -> P (fst (ins_ignore e_begin e_insert e_commit cur rows n)).
  Proof.
    induction rows as [|r rows IH]; cbn; intros cur n HP; [exact HP|].
    destruct (e_insert (e_begin cur) r) eqn:E.
    - apply IH. apply Hc. eapply Hi; [apply Hb; exact HP|exact E].
    - apply IH. exact HP.
  Qed.

  Lemma replace_one_inv : forall fuel s r d s' d', Inv s -> replace_one e_insert e_delete fuel s r d = Some (s', d') -> Inv s'.
  Proof.
    induction fuel as [|f IH]; cbn; intros s r d s' d' HI H; [discriminate|].
    destruct (e_insert s r) eqn:E.
    - injection H as <- _. eapply Hi; eauto.
    - eapply IH; [|exact H]. apply Hd. exact HI.
  Qed.

  Lemma ins_replace_inv : forall fuel rows s n s' n',
    Inv s -> ins_replace e_insert e_delete fuel s rows n = Some (s', n') -> Inv s'.
  Proof.
    intros fuel. induction rows as [|r rows IH]; cbn; intros s n s' n' HI H.
    - injection H as <- _. exact HI.
    - destruct (replace_one e_insert e_delete fuel s r false) as [[s1 d]|] eqn:E; [|discriminate].
      eapply IH; [|exact H]. eapply replace_one_inv; eauto.
  Qed.

  Lemma ins_odku_inv : forall a rows s n s' n',
    Inv s -> ins_odku e_insert e_update sch a s rows n = Some (s', n') -> Inv s'.
  Proof.
    intros a. induction rows as [|r rows IH]; cbn; intros s n s' n' HI H.
    - injection H as <- _. exact HI.
    - destruct (e_insert s r) eqn:E.
      + eapply IH; [|exact H]. eapply Hi; eauto.
      + destruct (e_update s existing (apply_assigns a existing)) eqn:E2; [|discriminate].
        eapply IH; [|exact H]. eapply Hu; eauto.
  Qed.

  Lemma upd_loop_inv : forall a ts s m c s' m' c',
    Inv s -> upd_loop e_update sch a s ts m c = Some (s', m', c') -> Inv s'.
  Proof.
    intros a. induction ts as [|o ts IH]; cbn; intros s m c s' m' c' HI H.
    - injection H as <- _ _. exact HI.
    - destruct (row_equals sch o (apply_assigns a o)).
      + eapply IH; [|exact H]. exact HI.
      + destruct (e_update s o (apply_assigns a o)) eqn:E; [|discriminate].
        eapply IH; [|exact H]. eapply Hu; eauto.
  Qed.

  Lemma exec_preserves : forall rows st, P rows ->
    P (snd (exec e_begin e_insert e_delete e_update e_commit sch rows st)).
  Proof.
    intros rows st HP. destruct st as [m news|a w ord lim|w ord lim]; cbn.
    - destruct m as [| | |a].
      + destruct (ins_plain e_insert (e_begin rows) news 0) as [[s n]|] eqn:E; cbn; [|exact HP].
        apply Hc. eapply ins_plain_inv; [apply Hb; exact HP|exact E].
      + pose proof (ins_ignore_inv news rows 0%N HP) as H.
        destruct (ins_ignore e_begin e_insert e_commit rows news 0) as [cur n]. exact H.
      + destruct (ins_replace e_insert e_delete _ (e_begin rows) news 0) as [[s n]|] eqn:E; cbn; [|exact HP].
        apply Hc. eapply ins_replace_inv; [apply Hb; exact HP|exact E].
      + destruct (ins_odku e_insert e_update sch a (e_begin rows) news 0) as [[s n]|] eqn:E; cbn; [|exact HP].
        apply Hc. eapply ins_odku_inv; [apply Hb; exact HP|exact E].
    - destruct (upd_loop e_update sch a (e_begin rows) _ 0 0) as [[[s m] c]|] eqn:E; cbn; [|exact HP].
      apply Hc. eapply upd_loop_inv; [apply Hb; exact HP|exact E].
    - destruct (is_truncate w ord lim); cbn; [exact Hnil|].
      apply Hc. apply fold_left_preserves; [|apply Hb; exact HP]. intros s r HI. apply Hd. exact HI.
  Qed.
End ExecInv.

(* newTableEditAccumulator's choice of accumulator *)
Lemma impl_exec_keyed : forall sch, keyless sch = false -> impl_exec sch = pk_exec sch.
Proof. intros sch H. unfold impl_exec. rewrite H. reflexivity. Qed.

Lemma impl_exec_keyless : forall sch, keyless sch = true -> impl_exec sch = kl_exec sch.
Proof. intros sch H. unfold impl_exec. rewrite H. reflexivity. Qed.

Lemma pk_insert_rows : forall sch s r s', pk_insert sch s r = ROk s' -> p_rows s' = p_rows s.
Proof.
  intros sch s r s' H. unfold pk_insert in H.
  destruct (pk_get sch s r); [discriminate|].
  destruct (check_unique _ _ r); [discriminate|]. injection H as <-. reflexivity.
Qed.

Lemma pk_update_rows : forall sch s o n s', pk_update sch s o n = ROk s' -> p_rows s' = p_rows s.
Proof.
  intros sch s o n s' H. unfold pk_update in H.
  destruct (if pk_match sch o n then None else pk_get sch (pk_acc_delete sch s o) n); [discriminate|].
  destruct (check_unique _ _ n); [discriminate|]. injection H as <-. reflexivity.
Qed.

Theorem pk_exec_keys_nodup : forall sch rows st,
  keys_nodup sch rows -> keys_nodup sch (snd (pk_exec sch rows st)).
Proof.
  intros sch rows st. unfold pk_exec.
  apply exec_preserves with (Inv := fun s => keys_nodup sch (p_rows s)).
  - constructor.
  - intros r Hr. exact Hr.
  - intros s r s' HI E. rewrite (pk_insert_rows _ _ _ _ E). exact HI.
  - intros s r HI. exact HI.
  - intros s o n s' HI E. rewrite (pk_update_rows _ _ _ _ _ E). exact HI.
  - apply pk_commit_nodup.
Qed.

Theorem history_keys_nodup : forall sch h rows,
  keyless sch = false -> keys_nodup sch rows -> keys_nodup sch (run_history sch rows h).
Proof.
  intros sch h rows Hk. unfold run_history. rewrite (impl_exec_keyed sch Hk).
  apply fold_left_preserves. intros rs st. apply pk_exec_keys_nodup.
Qed.

(* from Go equality to equality under the collation *)
Definition coll_key_eq (sch : schema) (a b : row) : bool :=
  forallb (fun c => match val_cmp (col_coll sch c) (col a c) (col b c) with Eq => true | _ => false end) (s_pk sch).

Definition pk_binary (sch : schema) : Prop := forall c, In c (s_pk sch) -> col_coll sch c = CBin.

Lemma str_cmp_eq : forall a b, str_cmp a b = Eq -> a = b.
Proof.
  induction a as [|x a IH]; intros [|y b]; cbn; intros H; try reflexivity; try discriminate.
  destruct (N.compare x y) eqn:E; try discriminate. apply N.compare_eq in E. f_equal; [exact E|apply IH; exact H].
Qed.

Lemma val_cmp_bin_eq : forall a b, val_cmp CBin a b = Eq -> a = b.
Proof.
  intros [|x|x] [|y|y]; cbn; intros H; try reflexivity; try discriminate.
  - apply Z.compare_eq in H. congruence.
  - apply str_cmp_eq in H. congruence.
Qed.

Lemma coll_key_eq_binary : forall sch a b, pk_binary sch -> coll_key_eq sch a b = true -> key sch a = key sch b.
Proof.
  intros sch a b Hb H. apply map_ext_in. intros c Hc. apply val_cmp_bin_eq. rewrite <- (Hb c Hc).
  unfold coll_key_eq in H. rewrite forallb_forall in H. specialize (H c Hc).
  destruct (val_cmp (col_coll sch c) (col a c) (col b c)); [reflexivity|discriminate|discriminate].
Qed.

(* "no two stored rows are equal in the primary key under the collation" *)
Definition no_equal_keys (sch : schema) (rows : list row) : Prop :=
  ForallOrdPairs (fun a b => coll_key_eq sch a b = false) rows.

Lemma nodup_no_equal_keys : forall sch l, pk_binary sch -> keys_nodup sch l -> no_equal_keys sch l.
Proof.
  intros sch l Hb. unfold keys_nodup, no_equal_keys. induction l as [|x l IH]; cbn; intros H; [constructor|].
  inversion H as [|? ? Hn Hd]; subst. constructor; [|exact (IH Hd)].
  apply Forall_forall. intros y Hy. destruct (coll_key_eq sch x y) eqn:E; [|reflexivity].
  exfalso. apply Hn. rewrite (coll_key_eq_binary sch x y Hb E). apply in_map. exact Hy.
Qed.

Theorem history_no_equal_keys_binary : forall sch h rows,
  keyless sch = false -> pk_binary sch -> keys_nodup sch rows -> no_equal_keys sch (run_history sch rows h).
Proof. intros sch h rows Hk Hb H. apply nodup_no_equal_keys; [exact Hb|]. apply history_keys_nodup; assumption. Qed.

Definition adds_ok (sch : schema) (m : smap) : Prop := Forall (fun kv => fst kv = key_str sch (snd kv)) m.

(* Get's lookup among the pending adds, by row key string, is a search by primary key when the string decides the key *)
Lemma find_adds : forall sch adds r, adds_ok sch adds ->
  (forall v, In v (map snd adds) -> key_str sch v = key_str sch r -> key sch v = key sch r) ->
  find (fun x => pk_match sch x r) (map snd adds) = m_get (key_str sch r) adds.
Proof.
  intros sch adds r. induction adds as [|[k v] m IH]; cbn; intros Ha Hr; [reflexivity|].
  inversion Ha as [|? ? Hk Hm]; cbn in Hk; subst.
  rewrite (pk_match_key_str sch v r (Hr v (or_introl eq_refl))).
  destruct (str_eqb (key_str sch r) (key_str sch v)); [reflexivity|].
  apply IH; [exact Hm|]. intros x Hx. apply Hr. right. exact Hx.
Qed.

Lemma pk_get_nodels : forall sch s r, p_dels s = [] -> adds_ok sch (p_adds s) ->
  (forall v, In v (map snd (p_adds s)) -> key_str sch v = key_str sch r -> key sch v = key sch r) ->
  pk_get sch s r = find (fun x => pk_match sch x r) (map snd (p_adds s) ++ p_rows s).
Proof.
  intros sch s r Hd Ha Hr. unfold pk_get. rewrite Hd, find_app, (find_adds sch _ r Ha Hr). reflexivity.
Qed.

Lemma gbc_nodels : forall s r cols pls, p_dels s = [] ->
  pk_get_by_cols s r cols pls = find (fun x => cols_match cols pls x r) (map snd (p_adds s) ++ p_rows s).
Proof.
  intros s r cols pls Hd. unfold pk_get_by_cols. rewrite Hd, find_app, find_map. cbn [existsb].
  destruct (find _ (p_adds s)); reflexivity.
Qed.

Lemma acc_insert_adds : forall sch s r, pk_get sch s r = None ->
  p_adds (pk_acc_insert sch s r) = p_adds s ++ [(key_str sch r, r)].
Proof.
  intros sch s r H. apply m_set_none. unfold pk_get in H. destruct (m_get _ (p_adds s)); [discriminate|reflexivity].
Qed.

(* Update skips Get when the new row keeps the key, and Get would have found nothing: the old row's key is pending as
   a delete and no longer as an add *)
Lemma update_get : forall sch s o n,
  (if pk_match sch o n then None else pk_get sch (pk_acc_delete sch s o) n) = pk_get sch (pk_acc_delete sch s o) n.
Proof.
  intros sch s o n. destruct (pk_match sch o n) eqn:Em; [|reflexivity].
  apply pk_match_spec in Em. unfold pk_get. cbn [pk_acc_delete p_adds p_dels].
  rewrite <- (key_str_of_key sch o n Em), m_get_m_del, m_get_m_set, str_eqb_refl. reflexivity.
Qed.

Definition inj_on (sch : schema) (l : list row) : Prop :=
  forall a b, In a l -> In b l -> key_str sch a = key_str sch b -> key sch a = key sch b.

(* some unique index in which r has no NULL already holds r's (prefix of the) values, as Go values *)
Definition uq_conf (uniq : list (list nat * list N)) (cur : list row) (r : row) : bool :=
  existsb (fun u => negb (has_null (fst u) r) && existsb (fun x => cols_match (fst u) (snd u) x r) cur) uniq.

Definition conflicts (sch : schema) (cur : list row) (r : row) : bool :=
  existsb (fun x => pk_match sch x r) cur || uq_conf (s_uniq sch) cur r.

(* reference: rows go in one by one; the first row that collides with a stored or an earlier row fails the statement *)
Fixpoint spec_insert (sch : schema) (cur news : list row) : option (list row) :=
  match news with
  | [] => Some cur
  | r :: ns => if conflicts sch cur r then None else spec_insert sch (cur ++ [r]) ns
  end.

Lemma gbc_plain : forall s r cols pls,
  p_dels s = [] ->
  (pk_get_by_cols s r cols pls = None <->
   existsb (fun x => cols_match cols pls x r) (p_rows s ++ map snd (p_adds s)) = false).
Proof. intros s r cols pls Hd. rewrite (gbc_nodels s r cols pls Hd), find_none_iff, !existsb_app, orb_comm. reflexivity. Qed.

Lemma check_unique_plain : forall s r uniq,
  p_dels s = [] ->
  (check_unique (pk_get_by_cols s) uniq r = None <-> uq_conf uniq (p_rows s ++ map snd (p_adds s)) r = false).
Proof.
  intros s r uniq Hd. unfold uq_conf. rewrite check_unique_none_iff, Forall_forall, existsb_false_iff.
  split; intros H [cols pls] Hin; specialize (H (cols, pls) Hin); cbn [fst snd] in *.
  - destruct (has_null cols r); [reflexivity|]. apply (gbc_plain s r cols pls Hd), H. reflexivity.
  - intros En. rewrite En in H. apply (gbc_plain s r cols pls Hd). exact H.
Qed.

(* Insert while no delete is pending: rejected iff the row collides with a stored row or a pending add; else queued *)
Lemma pk_insert_plain : forall sch s r,
  p_dels s = [] -> adds_ok sch (p_adds s) -> inj_on sch (r :: map snd (p_adds s)) ->
  match pk_insert sch s r with
  | ROk s' => conflicts sch (p_rows s ++ map snd (p_adds s)) r = false /\
              p_rows s' = p_rows s /\ p_adds s' = p_adds s ++ [(key_str sch r, r)] /\ p_dels s' = []
  | RDup _ => conflicts sch (p_rows s ++ map snd (p_adds s)) r = true
  end.
Proof.
  intros sch s r Hd Ha Hinj. unfold pk_insert, conflicts.
  assert (Hg : pk_get sch s r = None <->
               existsb (fun x => pk_match sch x r) (p_rows s ++ map snd (p_adds s)) = false).
  { rewrite (pk_get_nodels sch s r Hd Ha), find_none_iff, !existsb_app, orb_comm; [reflexivity|].
    intros v Hv. apply Hinj; [right; exact Hv|left; reflexivity]. }
  destruct (pk_get sch s r) eqn:Eg.
  - apply orb_true_iff. left. apply not_false_iff_true. intros H. apply Hg in H. discriminate.
  - rewrite (proj1 Hg eq_refl). cbn [orb]. destruct (check_unique (pk_get_by_cols s) (s_uniq sch) r) eqn:Ec.
    + apply not_false_iff_true. intros H. apply (check_unique_plain s r _ Hd) in H. congruence.
    + split; [apply check_unique_plain; assumption|]. split; [reflexivity|]. split; [apply acc_insert_adds; exact Eg|exact Hd].
Qed.

Lemma inj_on_incl : forall sch l l', incl l l' -> inj_on sch l' -> inj_on sch l.
Proof. intros sch l l' Hi H a b Ha Hb. apply H; apply Hi; assumption. Qed.

(* the loop of a plain INSERT with some rows already pending: they are all new keys, so ApplyEdits will append them *)
Lemma ins_plain_exact : forall sch news s n,
  p_dels s = [] -> adds_ok sch (p_adds s) ->
  inj_on sch (map snd (p_adds s) ++ news) ->
  fold_left (pk_insert_helper sch) (map snd (p_adds s)) (p_rows s) = p_rows s ++ map snd (p_adds s) ->
  match spec_insert sch (p_rows s ++ map snd (p_adds s)) news with
  | None => ins_plain (pk_insert sch) s news n = None
  | Some l => exists s', ins_plain (pk_insert sch) s news n = Some (s', (n + N.of_nat (length news))%N) /\
                         p_dels s' = [] /\
                         fold_left (pk_insert_helper sch) (map snd (p_adds s')) (p_rows s') = l
  end.
Proof.
  intros sch news. induction news as [|r ns IH]; intros s n Hd Ha Hinj Hf; cbn [spec_insert ins_plain].
  - exists s. rewrite N.add_0_r. auto.
  - assert (Hinj1 : inj_on sch (r :: map snd (p_adds s))).
    { eapply inj_on_incl; [|exact Hinj]. intros x [<-|Hx]; apply in_or_app; [right; left; reflexivity|left; exact Hx]. }
    pose proof (pk_insert_plain sch s r Hd Ha Hinj1) as H.
    destruct (pk_insert sch s r) as [s1|ex]; [|rewrite H; reflexivity].
    destruct H as [Hc [Er [Ea Hd1]]]. rewrite Hc. apply orb_false_elim in Hc.
    assert (E1 : p_rows s1 ++ map snd (p_adds s1) = (p_rows s ++ map snd (p_adds s)) ++ [r]).
    { rewrite Er, Ea, map_app, app_assoc. reflexivity. }
    assert (Ha1 : adds_ok sch (p_adds s1)).
    { rewrite Ea. apply Forall_app. split; [exact Ha|]. constructor; [reflexivity|constructor]. }
    assert (Hinj' : inj_on sch (map snd (p_adds s1) ++ ns)) by (rewrite Ea, map_app, <- app_assoc; exact Hinj).
    assert (Hf1 : fold_left (pk_insert_helper sch) (map snd (p_adds s1)) (p_rows s1) = p_rows s1 ++ map snd (p_adds s1)).
    { rewrite E1, Er, Ea, map_app, fold_left_app, Hf. apply insert_helper_fresh, Hc. }
    pose proof (IH s1 (n + 1)%N Hd1 Ha1 Hinj' Hf1) as IH'. rewrite E1 in IH'.
    destruct (spec_insert sch ((p_rows s ++ map snd (p_adds s)) ++ [r]) ns); [|exact IH'].
    destruct IH' as [s' [E H']]. exists s'. split; [|exact H']. rewrite E. do 2 f_equal. cbn [length]. lia.
Qed.

Theorem insert_plain_exact : forall sch rows news,
  keyless sch = false -> inj_on sch news ->
  impl_exec sch rows (SInsert IPlain news) =
  match spec_insert sch rows news with
  | Some l => (OOk (N.of_nat (length news)) 0, sort_rows sch l)
  | None => (ODupKey, rows)
  end.
Proof.
  intros sch rows news Hk Hinj. rewrite (impl_exec_keyed sch Hk). unfold pk_exec. cbn [exec].
  pose proof (ins_plain_exact sch news (pk_begin rows) 0%N eq_refl (Forall_nil _) Hinj (eq_sym (app_nil_r rows))) as H.
  cbn [pk_begin p_adds p_rows map] in H. rewrite app_nil_r in H.
  destruct (spec_insert sch rows news) as [l|]; [|rewrite H; reflexivity].
  destruct H as [s' [-> [Hd <-]]]. unfold pk_commit, pk_apply_unsorted. rewrite Hd. reflexivity.
Qed.

(* the row key string is injective (length-prefix decoding) *)
Definition is_digit (c : N) : Prop := (48 <= c <= 57)%N.

Lemma bytes_of_uint_digits : forall u, Forall is_digit (bytes_of_uint u).
Proof. induction u; cbn; constructor; try assumption; unfold is_digit; lia. Qed.

Lemma bytes_of_uint_inj : forall u v, bytes_of_uint u = bytes_of_uint v -> u = v.
Proof. induction u; destruct v; cbn; intros H; try discriminate; try reflexivity; injection H as H; f_equal; apply IHu; exact H. Qed.

Lemma render_N_inj : forall a b, render_N a = render_N b -> a = b.
Proof. intros a b H. apply DecimalN.Unsigned.to_uint_inj. apply bytes_of_uint_inj. exact H. Qed.

Lemma render_N_digits : forall n, Forall is_digit (render_N n).
Proof. intros n. apply bytes_of_uint_digits. Qed.

Lemma render_Z_inj : forall a b, render_Z a = render_Z b -> a = b.
Proof.
  (* a rendering with a minus sign is not a rendering without *)
  assert (Hm : forall n x, render_N n <> 45%N :: x).
  { intros p x H. pose proof (render_N_digits p) as D. rewrite H in D. inversion D as [|? ? Hd _]. unfold is_digit in Hd. lia. }
  intros [|p|p] [|q|q]; unfold render_Z; intros H; try reflexivity;
    try (apply render_N_inj in H; congruence); try (destruct (Hm _ _ H)); try (destruct (Hm _ _ (eq_sym H))).
  injection H as H. apply render_N_inj in H. congruence.
Qed.

(* %v is injective on the values of one column kind: integers (decimal) and strings (the bytes themselves) *)
Inductive kind := KInt | KStr.
Definition has_kind (k : kind) (v : val) : Prop :=
  match k, v with KInt, VInt _ => True | KStr, VStr _ => True | _, _ => False end.

Lemma render_inj_kind : forall k a b, has_kind k a -> has_kind k b -> render a = render b -> a = b.
Proof.
  intros [|] [|x|x] [|y|y]; cbn; intros Ha Hb H; try contradiction.
  - apply render_Z_inj in H. congruence.
  - congruence.
Qed.

Lemma split_colon : forall l1 l2 r1 r2, Forall is_digit l1 -> Forall is_digit l2 ->
  l1 ++ 58%N :: r1 = l2 ++ 58%N :: r2 -> l1 = l2 /\ r1 = r2.
Proof.
  induction l1 as [|x l1 IH]; intros [|y l2] r1 r2 H1 H2 H; cbn in H.
  - injection H as H. split; [reflexivity|exact H].
  - injection H as Hx _. inversion H2 as [|? ? Hd _]. unfold is_digit in Hd. lia.
  - injection H as Hx _. inversion H1 as [|? ? Hd _]. unfold is_digit in Hd. lia.
  - injection H as Hx H. inversion H1; inversion H2; subst. destruct (IH l2 r1 r2) as [E1 E2]; try assumption. split; congruence.
Qed.

Lemma app_eq_len : forall (A : Type) (p1 p2 t1 t2 : list A), length p1 = length p2 -> p1 ++ t1 = p2 ++ t2 -> p1 = p2 /\ t1 = t2.
Proof.
  induction p1 as [|x p1 IH]; intros [|y p2] t1 t2 Hl H; cbn in *; try discriminate.
  - split; [reflexivity|exact H].
  - injection H as -> H. injection Hl as Hl. destruct (IH p2 t1 t2 Hl H) as [-> ->]. split; reflexivity.
Qed.

Lemma key_part_app_inj : forall a b t1 t2, key_part a ++ t1 = key_part b ++ t2 -> render a = render b /\ t1 = t2.
Proof.
  intros a b t1 t2 H. unfold key_part in H. rewrite <- !app_assoc in H. cbn [app] in H.
  destruct (split_colon _ _ _ _ (render_N_digits _) (render_N_digits _) H) as [Hn Hr].
  apply render_N_inj in Hn. apply Nat2N.inj in Hn. exact (app_eq_len _ _ _ _ _ Hn Hr).
Qed.

Lemma key_parts_inj : forall ks k1 k2, Forall2 has_kind ks k1 -> Forall2 has_kind ks k2 ->
  concat (map key_part k1) = concat (map key_part k2) -> k1 = k2.
Proof.
  induction ks as [|k ks IH]; intros k1 k2 H1 H2 H; inversion H1; inversion H2; subst; [reflexivity|].
  cbn in H. destruct (key_part_app_inj _ _ _ _ H) as [Hr Ht]. f_equal.
  - eapply render_inj_kind; eassumption.
  - apply IH; assumption.
Qed.

(* the key columns of r hold values of the kinds ks (integers / strings; a primary key has no NULL) *)
Definition key_kinds (sch : schema) (ks : list kind) (r : row) : Prop := Forall2 has_kind ks (key sch r).

Theorem row_key_injective : forall sch ks a b,
  key_kinds sch ks a -> key_kinds sch ks b -> key_str sch a = key_str sch b -> key sch a = key sch b.
Proof. intros sch ks a b Ha Hb H. exact (key_parts_inj ks _ _ Ha Hb H). Qed.

Theorem insert_plain_exact_typed : forall sch ks rows news,
  keyless sch = false -> Forall (key_kinds sch ks) news ->
  impl_exec sch rows (SInsert IPlain news) =
  match spec_insert sch rows news with
  | Some l => (OOk (N.of_nat (length news)) 0, sort_rows sch l)
  | None => (ODupKey, rows)
  end.
Proof.
  intros sch ks rows news Hk Hn. apply insert_plain_exact; [exact Hk|].
  intros a b Ha Hb. rewrite Forall_forall in Hn. apply (row_key_injective sch ks); [apply Hn; exact Ha|apply Hn; exact Hb].
Qed.

(* the faithful model violates the property: witnesses *)
Definition sch_ci : schema := {| s_pk := [0%nat]; s_uniq := []; s_coll := [CCi; CBin] |}.
Definition h_ci : list stmt :=
  [SInsert IPlain [[VStr [97%N]; VInt 1]]; SInsert IPlain [[VStr [65%N]; VInt 2]]].    (* 'a' then 'A' *)

Lemma missed_duplicate_ci : keyless sch_ci = false /\ ~ no_equal_keys sch_ci (run_history sch_ci [] h_ci).
Proof.
  split; [reflexivity|]. intros H.
  assert (E : run_history sch_ci [] h_ci = [[VStr [97%N]; VInt 1]; [VStr [65%N]; VInt 2]]) by (vm_compute; reflexivity).
  rewrite E in H. inversion H as [|a l Hfa Hl]; subst. inversion Hfa as [|b l' Hb Hl']; subst.
  vm_compute in Hb. discriminate.
Qed.

Definition sch_ab : schema := {| s_pk := [0%nat; 1%nat]; s_uniq := []; s_coll := [CBin; CBin; CBin] |}.
Definition news_ab : list row := [[VInt 1; VInt 12; VInt 0]; [VInt 11; VInt 2; VInt 0]].

(* (1,12) and (11,2) have the row keys "1:12:12" and "2:111:2" and are both accepted; without the length prefixes (before
   /repo 1b57e874c) both keys were "112" and the second row was rejected as a duplicate *)
Lemma former_false_duplicate_accepted :
  key_str sch_ab [VInt 1; VInt 12; VInt 0] <> key_str sch_ab [VInt 11; VInt 2; VInt 0] /\
  impl_exec sch_ab [] (SInsert IPlain news_ab) = (OOk 2 0, news_ab).
Proof. split; [vm_compute; discriminate|vm_compute; reflexivity]. Qed.

Definition sch_u : schema := {| s_pk := [0%nat]; s_uniq := [([1%nat], [0%N])]; s_coll := [CBin; CBin] |}.
Definition h_u : list stmt :=
  [SInsert IPlain [[VInt 1; VInt 5]; [VInt 2; VInt 6]; [VInt 3; VInt 7]];
   SInsert IReplace [[VInt 1; VInt 9]; [VInt 2; VInt 5]; [VInt 3; VInt 5]]].

Lemma unique_freed_value_taken_twice :
  run_history sch_u [] h_u = [[VInt 1; VInt 9]; [VInt 2; VInt 5]; [VInt 3; VInt 5]] /\
  uq_conf (s_uniq sch_u) [[VInt 2; VInt 5]] [VInt 3; VInt 5] = true.
Proof. split; vm_compute; reflexivity. Qed.

(* non-vacuity *)
Lemma key_kinds_example : Forall (key_kinds sch_ab [KInt; KInt]) news_ab.
Proof. repeat constructor. Qed.
