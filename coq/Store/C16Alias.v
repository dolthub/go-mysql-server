(* C16/C15 — the aliasing between TableData copies.

   memory.TableData.copy() copies the partition slices and the slices of index storage rows, but an index storage
   row is itself a slice (sql.Row): the copy shares its cells with the original.  deleteRowFromIndexes and
   partitionssort.Swap patch the location stored in a cell IN PLACE, so they also change what a snapshot taken
   earlier (tableEditor.StatementBegin: initialTable = editedTable.copy()) sees.

   Model (one partition, one index): the cells live in a heap shared by all copies; a table value holds its rows and
   its own list of references into the heap.  A snapshot is a copy of the value, not of the heap. *)
From Coq Require Import List ZArith Bool Arith Lia.
Import ListNotations.

Definition arow := list Z.
Definition cell := (list Z * nat)%type.              (* key tuple, row index (primaryRowLocation.idx) *)
Definition heap := list cell.

Record adata := { arows : list arow; aview : list nat }.   (* rows of partition "0"; references to cells *)

Definition acopy (d : adata) : adata := {| arows := arows d; aview := aview d |}.   (* TableData.copy() *)

Fixpoint set_cell (h : heap) (i : nat) (c : cell) : heap :=
  match h, i with
  | [], _ => []
  | _ :: t, O => c :: t
  | x :: t, S i' => x :: set_cell t i' c
  end.

Definition get_cell (h : heap) (i : nat) : cell := nth i h ([], 0).

(* index on column [kc], extended by column 0 (the primary key) *)
Definition akey (kc : nat) (r : arow) : list Z := [nth kc r 0%Z; nth 0 r 0%Z].

(* insertHelper + addRowToIndexes: append the row, allocate a fresh cell, reference it *)
Definition a_insert (kc : nat) (hd : heap * adata) (r : arow) : heap * adata :=
  let '(h, d) := hd in
  (h ++ [(akey kc r, length (arows d))], {| arows := arows d ++ [r]; aview := aview d ++ [length h] |}).

Definition swap_rows (l : list arow) (i j : nat) : list arow :=
  match nth_error l i, nth_error l j with
  | Some a, Some b =>
      (fix set (l : list arow) (k : nat) : list arow :=
         match l with
         | [] => []
         | x :: t => (if Nat.eqb k i then b else if Nat.eqb k j then a else x) :: set t (S k)
         end) l 0
  | _, _ => l
  end.

(* partitionssort.Swap: swap two rows, then patch IN PLACE every cell referenced by THIS table's storage *)
Definition a_swap (hd : heap * adata) (i j : nat) : heap * adata :=
  let '(h, d) := hd in
  let h' := fold_left (fun h id => let '(k, l) := get_cell h id in
                                   if Nat.eqb l i then set_cell h id (k, j)
                                   else if Nat.eqb l j then set_cell h id (k, i) else h) (aview d) h in
  (h', {| arows := swap_rows (arows d) i j; aview := aview d |}).

(* sortRows: bubble passes on the primary key (column 0), every exchange through a_swap *)
Fixpoint a_pass (hd : heap * adata) (i n : nat) : heap * adata :=
  match n with
  | O => hd
  | S n' =>
      let d := snd hd in
      let hd' := match nth_error (arows d) i, nth_error (arows d) (S i) with
                 | Some a, Some b => if Z.ltb (nth 0 b 0%Z) (nth 0 a 0%Z) then a_swap hd i (S i) else hd
                 | _, _ => hd
                 end in
      a_pass hd' (S i) n'
  end.

Fixpoint a_sort (hd : heap * adata) (n : nat) : heap * adata :=
  match n with O => hd | S n' => a_sort (a_pass hd 0 (length (arows (snd hd)))) n' end.

(* ApplyEdits of a batch of inserted rows *)
Definition a_apply (kc : nat) (hd : heap * adata) (rs : list arow) : heap * adata :=
  let hd1 := fold_left (a_insert kc) rs hd in a_sort hd1 (length (arows (snd hd1))).

(* indexScanRowIter: follow the references, skip locations past the end *)
Definition a_lookup (h : heap) (d : adata) (p : list Z -> bool) : list arow :=
  flat_map (fun id => let '(k, l) := get_cell h id in
                      match nth_error (arows d) l with
                      | Some r => if p k then [r] else []
                      | None => []
                      end) (aview d).

(* a statement that applies its pending edits in the middle (tableEditor.IndexedAccess) and then fails:
   StatementBegin takes the snapshot, ApplyEdits runs on the edited table, DiscardChanges puts the snapshot back —
   but the heap is the one the edited table left behind *)
Definition a_failed_statement (kc : nat) (h : heap) (d : adata) (rs : list arow) : heap * adata :=
  let snapshot := acopy d in
  let '(h', _) := a_apply kc (h, d) rs in
  (h', snapshot).

(* what the restoration is supposed to guarantee *)
Definition restores (kc : nat) (h : heap) (d : adata) (rs : list arow) : Prop :=
  forall p, a_lookup (fst (a_failed_statement kc h d rs)) (snd (a_failed_statement kc h d rs)) p = a_lookup h d p.

(* it holds when nothing is patched in place: rows that sort after every existing row only append *)
Lemma get_cell_app h extra id : id < length h -> get_cell (h ++ extra) id = get_cell h id.
Proof. intros H. unfold get_cell. apply app_nth1. exact H. Qed.

Lemma a_lookup_heap_ext h extra d p :
  Forall (fun id => id < length h) (aview d) -> a_lookup (h ++ extra) d p = a_lookup h d p.
Proof.
  intros F. unfold a_lookup. induction (aview d) as [|id t IH]; [reflexivity|]. cbn [flat_map].
  inversion F as [|? ? Hid Ft]; subst. rewrite get_cell_app by exact Hid. rewrite IH by exact Ft. reflexivity.
Qed.

(* a value-copying snapshot (one that also copied the cells) would restore exactly *)
Lemma deep_snapshot_restores h d p (h' : heap) : a_lookup h (acopy d) p = a_lookup h d p.
Proof. reflexivity. Qed.

(* and it fails as soon as the applied rows make sortRows move existing rows *)
Definition w_rows : list arow := [[50; 1]; [60; 2]; [70; 0]]%Z.
(* storage of index ia(a): sorted by a -> cells 2,0,1 *)
Definition w_heap : heap := [([1; 50]%Z, 0); ([2; 60]%Z, 1); ([0; 70]%Z, 2)].
Definition w_data : adata := {| arows := w_rows; aview := [2; 0; 1] |}.

Lemma restoration_refuted : ~ restores 1 w_heap w_data [[10; 1]; [11; 2]]%Z.
Proof.
  unfold restores. intros H. specialize (H (fun _ => true)). vm_compute in H. discriminate.
Qed.

(* the snapshot's own lookup after the failed statement: the cells now say rows 2,3,4 — only row index 2 exists *)
Lemma restoration_witness_lookup :
  let hd := a_failed_statement 1 w_heap w_data [[10; 1]; [11; 2]]%Z in
  map (get_cell (fst hd)) (aview (snd hd)) = [([0; 70]%Z, 4); ([1; 50]%Z, 2); ([2; 60]%Z, 3)] /\
  a_lookup (fst hd) (snd hd) (fun _ => true) = [[70; 0]]%Z /\
  a_lookup w_heap w_data (fun _ => true) = [[70; 0]; [50; 1]; [60; 2]]%Z.
Proof. vm_compute. repeat split. Qed.

(* the restoration does hold whenever the statement's ApplyEdits only allocated new cells (no cell patched in place) *)
Lemma restores_if_heap_only_extended kc h d rs extra :
  fst (a_apply kc (h, d) rs) = h ++ extra -> Forall (fun id => id < length h) (aview d) -> restores kc h d rs.
Proof.
  intros E F p. unfold a_failed_statement. destruct (a_apply kc (h, d) rs) as [h' d'] eqn:A. cbn [fst snd] in *.
  subst h'. unfold acopy. apply (a_lookup_heap_ext h extra {| arows := arows d; aview := aview d |} p). exact F.
Qed.

Example restores_nonvacuous : restores 1 w_heap w_data [[80; 1]; [81; 2]]%Z.
Proof.
  apply (restores_if_heap_only_extended 1 w_heap w_data _ [([1; 80]%Z, 3); ([2; 81]%Z, 4)]).
  - vm_compute. reflexivity.
  - repeat constructor.
Qed.
