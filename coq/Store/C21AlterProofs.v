(* C21 -- proofs: retained columns keep their (converted) values; failure has no effect; the row/schema
   invariant is preserved; sequences. *)
From Coq Require Import List NArith ZArith Bool Lia.
Import ListNotations.
From GMS Require Import Base.ListFacts Store.C21Alter.
Open Scope N_scope.

(* lists of things that carry a name: rows (entries, fst) and schemas (columns, cn) *)
Lemma keys_without {A} (key : A -> N) d l n :
  In n (map key (filter (fun x => negb (key x =? d)) l)) <-> In n (map key l) /\ n <> d.
Proof.
  rewrite !in_map_iff. split.
  - intros [x [E H]]. apply filter_In in H. destruct H as [H1 H2]. apply negb_true_iff, N.eqb_neq in H2. subst. eauto.
  - intros [[x [E H]] Hn]. exists x. split; [exact E|]. apply filter_In. split; [exact H|].
    apply negb_true_iff, N.eqb_neq. congruence.
Qed.

(* the elements named a replaced by elements named b *)
Lemma keys_replaced {A} (key : A -> N) a b (g : A -> A) l n : (forall x, key (g x) = b) ->
  In n (map key (map (fun x => if key x =? a then g x else x) l)) <->
  (In n (map key l) /\ n <> a) \/ (n = b /\ In a (map key l)).
Proof.
  intro Hg. induction l as [|x l IH]; cbn; [intuition|].
  destruct (N.eqb_spec (key x) a) as [E|E]; rewrite IH, ?Hg; intuition (subst; auto; congruence).
Qed.

Lemma keys_kept {A} (key : A -> N) (g : A -> A) l : (forall x, key (g x) = key x) -> map key (map g l) = map key l.
Proof. intro Hg. rewrite map_map. apply map_ext. exact Hg. Qed.

Lemma has_in n cs : has n cs = true <-> In n (map cn cs).
Proof.
  unfold has. rewrite existsb_exists. split.
  - intros [c [Hc E]]. apply N.eqb_eq in E. subst. apply in_map. exact Hc.
  - intro H. apply in_map_iff in H. destruct H as [c [E Hc]]. exists c. split; [exact Hc|]. apply N.eqb_eq. exact E.
Qed.

Lemma has_false n cs : has n cs = false <-> ~ In n (map cn cs).
Proof. rewrite <- has_in. destruct (has n cs); split; congruence. Qed.

Lemma lookup_in n r : In n (map fst r) -> exists v, lookup n r = Some v.
Proof.
  induction r as [|[k v] r IH]; cbn; [intros []|]. intros [E|H].
  - subst. rewrite N.eqb_refl. eauto.
  - destruct (k =? n); eauto.
Qed.

Lemma lookup_some_in n r v : lookup n r = Some v -> In n (map fst r).
Proof.
  induction r as [|[k w] r IH]; cbn; [discriminate|]. destruct (N.eqb_spec k n); [left; assumption|right; auto].
Qed.

Lemma lookup_remove_neq n d r : n <> d -> lookup n (remove_key d r) = lookup n r.
Proof.
  intro H. induction r as [|[k v] r IH]; [reflexivity|].
  unfold remove_key in *. cbn [filter fst lookup].
  destruct (N.eqb_spec k d) as [->|Hk]; cbn [negb lookup].
  - destruct (N.eqb_spec d n); [congruence|exact IH].
  - rewrite IH. reflexivity.
Qed.

Lemma keys_remove d r n : In n (map fst (remove_key d r)) <-> In n (map fst r) /\ n <> d.
Proof. apply (keys_without fst). Qed.

(* the entries named a replaced by entries not named m: m is found as before *)
Lemma lookup_replaced_other m a (g : name * val -> name * val) (r : row) : m <> a -> (forall kv, fst (g kv) <> m) ->
  lookup m (map (fun kv => if fst kv =? a then g kv else kv) r) = lookup m r.
Proof.
  intros Ha Hg. induction r as [|[k v] r IH]; [reflexivity|]. cbn [map fst].
  destruct (N.eqb_spec k a) as [->|Hk]; [|cbn [lookup]; rewrite IH; reflexivity].
  specialize (Hg (a, v)). destruct (g (a, v)) as [k' v']. cbn [lookup fst] in *.
  destruct (N.eqb_spec k' m); [contradiction|]. destruct (N.eqb_spec a m); [congruence|exact IH].
Qed.

Lemma lookup_rename_same a b r : ~ In b (map fst r) -> lookup b (rename_key a b r) = lookup a r.
Proof.
  unfold rename_key. induction r as [|[k v] r IH]; [reflexivity|]. cbn [map fst snd In lookup]. intro H.
  destruct (N.eqb_spec k a) as [->|Hk]; cbn [lookup].
  - rewrite N.eqb_refl. reflexivity.
  - destruct (N.eqb_spec k b); [tauto|]. apply IH. tauto.
Qed.

Lemma lookup_rename_other n a b r : n <> a -> n <> b -> lookup n (rename_key a b r) = lookup n r.
Proof. intros Ha Hb. apply lookup_replaced_other; [exact Ha|intro; cbn; congruence]. Qed.

Lemma keys_rename a b r n :
  In n (map fst (rename_key a b r)) <-> (In n (map fst r) /\ n <> a) \/ (n = b /\ In a (map fst r)).
Proof. apply (keys_replaced fst). reflexivity. Qed.

(* Forall2: how the rows before and after a statement are compared *)
Lemma mapM_Forall2 {A B} (f : A -> option B) l l' : mapM f l = Some l' -> Forall2 (fun x y => f x = Some y) l l'.
Proof.
  revert l'. induction l as [|x l IH]; cbn; intros l' H.
  - injection H as <-. constructor.
  - destruct (f x) eqn:E; [|discriminate]. destruct (mapM f l) eqn:E2; [|discriminate].
    injection H as <-. constructor; [exact E|apply IH; reflexivity].
Qed.

Lemma Forall2_map_r {A B} (P : A -> B -> Prop) (g : A -> B) l : (forall x, In x l -> P x (g x)) -> Forall2 P l (map g l).
Proof.
  induction l as [|x l IH]; cbn; intro H; constructor; [apply H; left; reflexivity|apply IH; intros; apply H; right; assumption].
Qed.

Lemma Forall2_refl_in {A} (P : A -> A -> Prop) l : (forall x, In x l -> P x x) -> Forall2 P l l.
Proof. intro H. rewrite <- (map_id l) at 2. apply Forall2_map_r. exact H. Qed.

Lemma Forall2_impl_in {A B} (P Q : A -> B -> Prop) l l' :
  (forall x y, In x l -> P x y -> Q x y) -> Forall2 P l l' -> Forall2 Q l l'.
Proof.
  intros H F. induction F as [|x y l l' Hxy F IH]; constructor; [apply H; [left; reflexivity|exact Hxy]|].
  apply IH. intros a b Ha. apply H. right. exact Ha.
Qed.

Lemma Forall2_Forall {A B} (R : A -> B -> Prop) (P : A -> Prop) (Q : B -> Prop) l l' :
  (forall x y, P x -> R x y -> Q y) -> Forall2 R l l' -> Forall P l -> Forall Q l'.
Proof.
  intros H F. induction F as [|x y l l' Hxy F IH]; intro HP; constructor; inversion HP; subst; [eapply H; eassumption|auto].
Qed.

Lemma Forall2_map_eq {A B C} (f : A -> C) (g : B -> C) l l' : Forall2 (fun x y => f x = g y) l l' -> map f l = map g l'.
Proof. induction 1; cbn; congruence. Qed.

Definition col_rel (o : op) (t : table) (n n' : name) (r r' : row) : Prop :=
  exists v v', lookup n r = Some v /\ lookup n' r' = Some v' /\ convd o t n v = Some v'.

Lemma cn_eff t n c : cn (eff t n c) = cn c.
Proof. unfold eff. destruct (memb n (pk t)); reflexivity. Qed.

Lemma setnn_names (f : col -> bool) cs : map cn (map (fun c => if f c then mkc (cn c) (cty c) false else c) cs) = map cn cs.
Proof. apply keys_kept. intro c. destruct (f c); reflexivity. Qed.

(* what it means that a statement succeeds; the statements not listed leave rows and column names alone *)
Lemma alter_some o t t' : alter o t = Some t' ->
  match o with
  | OAdd c fill p => exists v, has (cn c) (cols t) = false /\ insert_col p c (cols t) = Some (cols t') /\
      rows t' = map (cons (cn c, v)) (rows t)
  | ODrop n => cols t' = remove_col n (cols t) /\ rows t' = map (remove_key n) (rows t)
  | OModify n c0 p => has n (cols t) = true /\ (cn c0 = n \/ has (cn c0) (cols t) = false) /\
      new_cols n (eff t n c0) p (cols t) = Some (cols t') /\ mapM (modify_row n (eff t n c0)) (rows t) = Some (rows t')
  | ORename a b => has b (cols t) = false /\
      cols t' = map (fun c => if cn c =? a then mkc b (cty c) (cnullable c) else c) (cols t) /\
      rows t' = map (rename_key a b) (rows t)
  | _ => names t' = names t /\ rows t' = rows t
  end.
Proof.
  destruct o as [c fill p|d|m c0 p|a b|tn'| |ks|]; cbn [alter]; intro Ha.
  - destruct (has (cn c) (cols t)); [discriminate|]. destruct (conv c fill) as [v|]; [|discriminate].
    destruct (insert_col p c (cols t)) as [cs|]; [|discriminate]. injection Ha as <-. exists v. auto.
  - destruct (_ && _); [|discriminate]. injection Ha as <-. auto.
  - cbv zeta in Ha. rewrite cn_eff in Ha. destruct (has m (cols t)); [|discriminate]. cbn [andb] in Ha.
    destruct (_ || _) eqn:Hc; [|discriminate]. destruct (mapM _ (rows t)) as [rs|]; [|discriminate].
    destruct (new_cols _ _ p (cols t)) as [cs|]; [|discriminate]. injection Ha as <-.
    apply orb_prop in Hc. rewrite N.eqb_eq, negb_true_iff in Hc. auto.
  - destruct (has a (cols t)); [|discriminate]. destruct (has b (cols t)); [discriminate|]. injection Ha as <-. auto.
  - injection Ha as <-. auto.
  - injection Ha as <-. auto.
  - destruct (pk t); [|discriminate]. destruct ks; [discriminate|]. destruct (_ && _); [|discriminate].
    injection Ha as <-. split; [apply setnn_names|reflexivity].
  - destruct (pk t); [discriminate|]. injection Ha as <-. auto.
Qed.

Theorem alter_preserves_retained o t t' n n' :
  inv t -> alter o t = Some t' -> In n (names t) -> retained o n = Some n' ->
  Forall2 (col_rel o t n n') (rows t) (rows t').
Proof.
  intros Hinv Ha Hn Hr. unfold inv, names in *. rewrite Forall_forall in Hinv.
  (* a row in which n' is afterwards bound to what n was bound to, for a statement that converts nothing at n *)
  assert (Hsame : forall r r', In r (rows t) -> lookup n' r' = lookup n r -> (forall v, convd o t n v = Some v) ->
                  col_rel o t n n' r r').
  { intros r r' Hr0 E Hc. destruct (lookup_in n r) as [v Hv]; [apply (Hinv r Hr0), Hn|]. exists v, v. rewrite E. auto. }
  apply alter_some in Ha. destruct o as [c fill p|d|m c0 p|a b| | | |]; cbn [retained] in Hr;
    [| | | |destruct Ha as [_ ->]; injection Hr as <-; apply Forall2_refl_in; intros r Hr0; apply Hsame; auto..].
  - destruct Ha as [v [Hh [_ ->]]]. injection Hr as <-. apply has_false in Hh.
    apply Forall2_map_r. intros r Hr0. apply Hsame; [exact Hr0| |reflexivity].
    cbn. destruct (N.eqb_spec (cn c) n); [congruence|reflexivity].
  - destruct Ha as [_ ->]. destruct (N.eqb_spec n d) as [->|Hnd]; [discriminate|]. injection Hr as <-.
    apply Forall2_map_r. intros r Hr0. apply Hsame; [exact Hr0|apply lookup_remove_neq; exact Hnd|reflexivity].
  - destruct Ha as [_ [Hc [_ Hmm]]]. rewrite <- (cn_eff t m c0) in Hr, Hc. set (c' := eff t m c0) in *.
    apply mapM_Forall2 in Hmm. revert Hmm. apply Forall2_impl_in. intros r r' Hr0 Hrr'.
    unfold modify_row in Hrr'. destruct (lookup m r) as [v|] eqn:Hv; [|discriminate].
    destruct (conv c' v) as [v'|] eqn:Hcv; [|discriminate]. injection Hrr' as <-.
    destruct (N.eqb_spec n m) as [->|Hnm]; injection Hr as <-.
    + exists v, v'. cbn. rewrite !N.eqb_refl. auto.
    + apply Hsame; [exact Hr0| |intro; cbn; destruct (N.eqb_spec n m); [contradiction|reflexivity]].
      cbn. destruct (N.eqb_spec (cn c') n) as [E|_]; [|apply lookup_remove_neq; exact Hnm].
      destruct Hc as [Hc|Hc]; [congruence|]. apply has_false in Hc. congruence.
  - destruct Ha as [Hhb [_ ->]]. apply has_false in Hhb.
    apply Forall2_map_r. intros r Hr0. apply Hsame; [exact Hr0| |reflexivity].
    destruct (N.eqb_spec n a) as [->|Hna]; injection Hr as <-.
    + apply lookup_rename_same. intro H. apply Hhb, (Hinv r Hr0), H.
    + apply lookup_rename_other; congruence.
Qed.

Theorem alter_keeps_row_count o t t' : alter o t = Some t' -> length (rows t') = length (rows t).
Proof.
  intro Ha. apply alter_some in Ha. destruct o as [c fill p|d|m c0 p|a b| | | |]; [| | | |destruct Ha as [_ ->]; reflexivity..].
  - destruct Ha as [v [_ [_ ->]]]. apply map_length.
  - destruct Ha as [_ ->]. apply map_length.
  - destruct Ha as [_ [_ [_ Hmm]]]. symmetry. exact (Forall2_length _ _ _ (mapM_Forall2 _ _ _ Hmm)).
  - destruct Ha as [_ [_ ->]]. apply map_length.
Qed.

Lemma insert_after_names a c cs l n :
  insert_after a c cs = Some l -> (In n (map cn l) <-> n = cn c \/ In n (map cn cs)).
Proof.
  revert l. induction cs as [|x cs IH]; cbn; intros l H; [discriminate|].
  destruct (cn x =? a).
  - injection H as <-. cbn. intuition congruence.
  - destruct (insert_after a c cs) as [l0|]; [|discriminate]. injection H as <-. cbn. rewrite (IH l0 eq_refl). tauto.
Qed.

Lemma insert_col_names p c cs l n :
  insert_col p c cs = Some l -> (In n (map cn l) <-> n = cn c \/ In n (map cn cs)).
Proof.
  destruct p; cbn; intro H; [| |exact (insert_after_names a c cs l n H)|]; injection H as <-;
    rewrite ?map_app, ?in_app_iff; cbn; intuition congruence.
Qed.

Lemma remove_col_names m cs n : In n (map cn (remove_col m cs)) <-> In n (map cn cs) /\ n <> m.
Proof. apply (keys_without cn). Qed.

Lemma replace_col_names m c' cs n :
  In n (map cn (replace_col m c' cs)) <-> (In n (map cn cs) /\ n <> m) \/ (n = cn c' /\ In m (map cn cs)).
Proof. apply (keys_replaced cn). reflexivity. Qed.

Lemma rename_col_names a b cs n :
  In n (map cn (map (fun c => if cn c =? a then mkc b (cty c) (cnullable c) else c) cs)) <->
  (In n (map cn cs) /\ n <> a) \/ (n = b /\ In a (map cn cs)).
Proof. apply (keys_replaced cn). reflexivity. Qed.

Lemma new_cols_names m c' p cs l n :
  new_cols m c' p cs = Some l -> In m (map cn cs) ->
  (In n (map cn l) <-> n = cn c' \/ (In n (map cn cs) /\ n <> m)).
Proof.
  intros H Hm. destruct p; cbn [new_cols] in H;
    try (rewrite (insert_col_names _ c' _ l n H), remove_col_names; tauto).
  injection H as <-. rewrite replace_col_names. intuition congruence.
Qed.

Theorem alter_preserves_inv o t t' : inv t -> alter o t = Some t' -> inv t'.
Proof.
  unfold inv. intros Hinv Ha. apply alter_some in Ha.
  destruct o as [c fill p|d|m c0 p|a b| | | |]; [| | | |destruct Ha as [-> ->]; exact Hinv..]; unfold names in *.
  - destruct Ha as [v [_ [Hi ->]]]. apply Forall_map. revert Hinv. apply Forall_impl.
    intros r Hr n. rewrite (insert_col_names p c (cols t) _ n Hi), <- Hr. cbn. intuition congruence.
  - destruct Ha as [-> ->]. apply Forall_map. revert Hinv. apply Forall_impl.
    intros r Hr n. rewrite keys_remove, remove_col_names, Hr. reflexivity.
  - destruct Ha as [Hm [_ [Hnc Hmm]]]. apply has_in in Hm.
    apply mapM_Forall2 in Hmm. revert Hmm Hinv. apply Forall2_Forall. intros r r' Hr Hrr' n.
    unfold modify_row in Hrr'. destruct (lookup m r); [|discriminate]. destruct (conv _ v); [|discriminate].
    injection Hrr' as <-. rewrite (new_cols_names m _ p (cols t) _ n Hnc Hm). cbn [map fst In].
    rewrite keys_remove, Hr. intuition congruence.
  - destruct Ha as [_ [-> ->]]. apply Forall_map. revert Hinv. apply Forall_impl.
    intros r Hr n. rewrite keys_rename, rename_col_names, !Hr. reflexivity.
Qed.

(* the corrupting failure keeps keys, row count and every other column *)
Lemma keys_set_key n v r : map fst (set_key n v r) = map fst r.
Proof. apply keys_kept. intros [k w]. cbn. destruct (N.eqb_spec k n); cbn; congruence. Qed.

Lemma lookup_set_key_other m n v r : m <> n -> lookup m (set_key n v r) = lookup m r.
Proof. intro H. apply lookup_replaced_other; [exact H|intro; cbn; congruence]. Qed.

Lemma corrupt_rows_spec n b old new rs :
  Forall2 (fun r r' => map fst r' = map fst r /\ forall m, m <> n -> lookup m r' = lookup m r) rs (corrupt_rows n b old new rs).
Proof.
  assert (Hrefl : forall l : list row,
            Forall2 (fun r r' => map fst r' = map fst r /\ forall m, m <> n -> lookup m r' = lookup m r) l l).
  { intro l. apply Forall2_refl_in. auto. }
  induction rs as [|r rs IH]; [constructor|].
  cbn [corrupt_rows]. destruct (lookup n r) as [[|z|s|u sc|tm]|]; try apply Hrefl.
  - destruct b; [|apply Hrefl]. constructor; auto.
  - destruct (index_of_b s new 0) as [j|]; [|apply Hrefl].
    constructor; [|exact IH]. split; [apply keys_set_key|]. intros m Hm. apply lookup_set_key_other. exact Hm.
Qed.

(* the only statement whose failure is not [t] itself: MODIFY of an ENUM column to an ENUM type *)
Lemma corrupt_cases o t :
  corrupt o t = t \/
  exists n c0 p oc b old new, o = OModify n c0 p /\ find_col n (cols t) = Some oc /\ cty oc = TEnum old /\ cty c0 = TEnum new /\
    corrupt o t = mkt (tn t) (cols t) (pk t) (corrupt_rows n b old new (rows t)).
Proof.
  destruct o as [c fill p|d|m c0 p|a b|tn'| |ks|]; try (left; reflexivity).
  cbn [corrupt]. cbv zeta. destruct (has m (cols t) && _); [|left; reflexivity].
  destruct (find_col m (cols t)) as [oc|] eqn:Ef; [|left; reflexivity].
  destruct (new_cols m (eff t m c0) p (cols t)) as [cs|]; [|left; reflexivity].
  destruct (cty oc) eqn:Eo; try (left; reflexivity).
  replace (cty (eff t m c0)) with (cty c0) by (unfold eff; destruct (memb m (pk t)); reflexivity).
  destruct (cty c0) eqn:En; try (left; reflexivity). destruct (_ || _ || _); [|left; reflexivity].
  right. do 7 eexists. split; [reflexivity|split; [exact Ef|split; [exact Eo|split; [exact En|reflexivity]]]].
Qed.

Theorem corrupt_preserves_inv o t : inv t -> inv (corrupt o t).
Proof.
  intro H. destruct (corrupt_cases o t) as [->|[n [c0 [p [oc [b [old [new [_ [_ [_ [_ ->]]]]]]]]]]]]; [exact H|].
  unfold inv, names in *. cbn [rows cols]. revert H. apply Forall2_Forall with (2 := corrupt_rows_spec n b old new (rows t)). intros r r' Hr Hrr' m.
  rewrite (proj1 Hrr'). apply Hr.
Qed.

Theorem exec_preserves_inv o t : inv t -> inv (exec o t).
Proof.
  intro H. unfold exec. destruct (alter o t) eqn:E; [exact (alter_preserves_inv o t t0 H E)|exact (corrupt_preserves_inv o t H)].
Qed.

Lemma corrupt_row_count o t : length (rows (corrupt o t)) = length (rows t).
Proof.
  destruct (corrupt_cases o t) as [->|[n [c0 [p [oc [b [old [new [_ [_ [_ [_ ->]]]]]]]]]]]]; [reflexivity|].
  symmetry. exact (Forall2_length _ _ _ (corrupt_rows_spec n b old new (rows t))).
Qed.

Theorem exec_seq_inv_rows os : forall t, inv t -> inv (exec_seq os t) /\ length (rows (exec_seq os t)) = length (rows t).
Proof.
  induction os as [|o os IH]; intros t H; [cbn; auto|].
  change (exec_seq (o :: os) t) with (exec_seq os (exec o t)).
  destruct (IH (exec o t) (exec_preserves_inv o t H)) as [H1 H2]. split; [exact H1|]. rewrite H2.
  unfold exec. destruct (alter o t) eqn:E; [apply (alter_keeps_row_count o t t0 E)|apply corrupt_row_count].
Qed.

(* a failed statement has no effect -- except the ENUM redefinition above *)
Definition not_enum_modify (o : op) (t : table) : bool :=
  match o with
  | OModify n _ _ => match find_col n (cols t) with
                     | Some oc => match cty oc with TEnum _ => false | _ => true end
                     | None => true
                     end
  | _ => true
  end.

Theorem failed_alter_no_effect o t : not_enum_modify o t = true -> alter o t = None -> exec o t = t.
Proof.
  intros Hg H. unfold exec. rewrite H.
  destruct (corrupt_cases o t) as [E|[n [c0 [p [oc [b [old [new [-> [Hf [Ho _]]]]]]]]]]]; [exact E|].
  cbn in Hg. rewrite Hf, Ho in Hg. discriminate.
Qed.

(* a column that no statement of the sequence drops, modifies or renames keeps its values *)
Definition touches (o : op) (n : name) : bool :=
  match o with
  | ODrop d => n =? d
  | OModify m c' _ => (n =? m) || (n =? cn c')
  | ORename a b => (n =? a) || (n =? b)
  | OAdd c _ _ => n =? cn c
  | _ => false
  end.

Definition column (t : table) (n : name) : list (option val) := map (lookup n) (rows t).

Lemma untouched_retained o t n v : touches o n = false -> retained o n = Some n /\ convd o t n v = Some v.
Proof.
  destruct o; cbn; intro Ht; try apply orb_false_elim in Ht as [Ht _]; rewrite ?Ht; auto.
Qed.

Lemma alter_retained_name o t t' n n' : alter o t = Some t' -> In n (names t) -> retained o n = Some n' -> In n' (names t').
Proof.
  intros Ha Hn Hr. apply alter_some in Ha. destruct o as [c fill p|d|m c0 p|a b| | | |]; cbn [retained] in Hr;
    [| | | |destruct Ha as [-> _]; injection Hr as <-; exact Hn..]; unfold names in *.
  - destruct Ha as [v [_ [Hi _]]]. injection Hr as <-. apply (insert_col_names p c (cols t) _ n Hi). auto.
  - destruct Ha as [-> _]. destruct (N.eqb_spec n d); [discriminate|]. injection Hr as <-. apply remove_col_names. auto.
  - destruct Ha as [Hm [_ [Hnc _]]]. apply has_in in Hm. apply (new_cols_names m _ p (cols t) _ n' Hnc Hm).
    rewrite cn_eff. destruct (N.eqb_spec n m); injection Hr as <-; auto.
  - destruct Ha as [_ [-> _]]. apply rename_col_names. destruct (N.eqb_spec n a) as [->|]; injection Hr as <-; auto.
Qed.

Lemma exec_untouched o t n : inv t -> In n (names t) -> touches o n = false ->
  column (exec o t) n = column t n /\ In n (names (exec o t)).
Proof.
  intros Hinv Hn Ht. unfold exec, column. destruct (alter o t) as [t'|] eqn:Ha.
  - destruct (untouched_retained o t n VNull Ht) as [Hr _]. split; [|exact (alter_retained_name o t t' n n Ha Hn Hr)].
    symmetry. apply Forall2_map_eq. generalize (alter_preserves_retained o t t' n n Hinv Ha Hn Hr). apply Forall2_impl_in.
    intros r r' _ [v [v' [H1 [H2 H3]]]]. rewrite (proj2 (untouched_retained o t n v Ht)) in H3. congruence.
  - destruct (corrupt_cases o t) as [->|[m [c0 [p [oc [b [old [new [-> [_ [_ [_ ->]]]]]]]]]]]]; [auto|].
    split; [|exact Hn]. cbn in Ht. apply orb_false_elim in Ht. destruct Ht as [E _]. apply N.eqb_neq in E.
    symmetry. apply Forall2_map_eq. generalize (corrupt_rows_spec m b old new (rows t)). apply Forall2_impl_in.
    intros r r' _ [_ Hk]. symmetry. exact (Hk n E).
Qed.

Theorem untouched_column_unchanged os : forall t n,
  inv t -> In n (names t) -> forallb (fun o => negb (touches o n)) os = true ->
  column (exec_seq os t) n = column t n.
Proof.
  induction os as [|o os IH]; intros t n Hinv Hn Ht; [reflexivity|]. cbn in Ht. apply andb_prop in Ht.
  destruct Ht as [H1 H2]. apply negb_true_iff in H1.
  change (exec_seq (o :: os) t) with (exec_seq os (exec o t)).
  destruct (exec_untouched o t n Hinv Hn H1) as [E Hn'].
  rewrite (IH (exec o t) n (exec_preserves_inv o t Hinv) Hn' H2). exact E.
Qed.

Theorem modify_representable n c0 p t t' :
  inv t -> alter (OModify n c0 p) t = Some t' -> In n (names t) ->
  Forall (fun r => exists v v', lookup n r = Some v /\ conv (eff t n c0) v = Some v') (rows t).
Proof.
  intros Hi Ha Hn.
  assert (Hr : retained (OModify n c0 p) n = Some (cn c0)) by (cbn; rewrite N.eqb_refl; reflexivity).
  pose proof (alter_preserves_retained (OModify n c0 p) t t' n (cn c0) Hi Ha Hn Hr) as H.
  induction H as [|r r' l l' [v [v' [H1 [_ H3]]]] _ IH]; constructor; [|exact IH].
  cbn in H3. rewrite N.eqb_refl in H3. exists v, v'. auto.
Qed.

Theorem add_pk_spec ks t t' :
  alter (OAddPK ks) t = Some t' ->
  rows t' = rows t /\ pk t' = ks /\ pk t = [] /\
  distinct_keys (map (key_of ks) (rows t)) = true /\
  forallb (fun r => forallb (fun k => non_null (lookup k r)) ks) (rows t) = true.
Proof.
  cbn [alter]. destruct (pk t); [|discriminate]. destruct ks as [|k ks]; [discriminate|].
  destruct (_ && _ && _ && _) eqn:E; [|discriminate]. intro H. injection H as <-. cbn [rows pk].
  apply andb_prop in E. destruct E as [E E4]. apply andb_prop in E. destruct E as [_ E3]. auto.
Qed.

Theorem drop_pk_spec t t' : alter ODropPK t = Some t' -> rows t' = rows t /\ cols t' = cols t /\ pk t' = [].
Proof. cbn [alter]. destruct (pk t); [discriminate|]. intro H. injection H as <-. auto. Qed.

(* conversions: exact when representable *)
Lemma pow10_pos n : (0 < pow10 n)%Z.
Proof. unfold pow10. apply Z.pow_pos_nonneg; lia. Qed.

Theorem conv_int_to_dec_exact c z u s : conv c (VInt z) = Some (VDec u s) -> u = (z * pow10 s)%Z.
Proof.
  cbn [conv]. destruct (cty c) as [lo hi|n k|ms|p sc| |]; try discriminate.
  - destruct ((lo <=? z)%Z && (z <=? hi)%Z); discriminate.
  - cbv zeta. destruct (fits_dec (z * pow10 sc) p); [|discriminate]. intro H. inversion H; subst. reflexivity.
Qed.

Lemma conv_dec_rescale c u s0 u' s : conv c (VDec u s0) = Some (VDec u' s) -> u' = rescale u s0 s.
Proof.
  cbn [conv]. destruct (cty c) as [lo hi|n k|ms|p sc| |]; try discriminate.
  - cbv zeta. destruct ((lo =? 0)%Z && (hi =? 18446744073709551615)%Z && (u <? 0)%Z); [discriminate|].
    destruct ((lo <=? rescale u s0 0)%Z && (rescale u s0 0 <=? hi)%Z); discriminate.
  - cbv zeta. destruct (fits_dec (rescale u s0 sc) p); [|discriminate]. intro H. inversion H; subst. reflexivity.
Qed.

(* widening the scale keeps the number: u' * 10^-s = u * 10^-s0 *)
Theorem conv_dec_widen_exact c u s0 u' s :
  conv c (VDec u s0) = Some (VDec u' s) -> s0 <= s -> (u' * pow10 s0 = u * pow10 s)%Z.
Proof.
  intros H Hs. rewrite (conv_dec_rescale _ _ _ _ _ H). unfold rescale. destruct (N.leb_spec s0 s); [|lia]. unfold pow10.
  replace (Z.of_N s) with (Z.of_N (s - s0) + Z.of_N s0)%Z by lia.
  rewrite Z.pow_add_r by lia. ring.
Qed.

(* narrowing the scale rounds to a nearest value: |u' * 10^(s0-s) - u| * 2 <= 10^(s0-s) *)
Lemma rdiv_nearest a b : (0 < b)%Z -> (Z.abs (rdiv a b * b - a) * 2 <= b)%Z.
Proof.
  intro Hb. unfold rdiv. pose proof (Z.div_mod (2 * Z.abs a + b) (2 * b) ltac:(lia)) as E.
  pose proof (Z.mod_pos_bound (2 * Z.abs a + b) (2 * b) ltac:(lia)) as B.
  set (q := ((2 * Z.abs a + b) / (2 * b))%Z) in *. set (r := ((2 * Z.abs a + b) mod (2 * b))%Z) in *.
  destruct (Z.sgn_spec a) as [[Ha ->]|[[Ha ->]|[Ha ->]]]; nia.
Qed.

Theorem conv_dec_narrow_nearest c u s0 u' s :
  conv c (VDec u s0) = Some (VDec u' s) -> s < s0 -> (Z.abs (u' * pow10 (s0 - s) - u) * 2 <= pow10 (s0 - s))%Z.
Proof.
  intros H Hs. rewrite (conv_dec_rescale _ _ _ _ _ H). unfold rescale. destruct (N.leb_spec s0 s); [lia|].
  apply rdiv_nearest, pow10_pos.
Qed.

(* DATE -> DATETIME keeps the instant; DATETIME -> DATE keeps the day (exactly the value when it is a midnight) *)
Theorem conv_to_datetime_exact c t v : cty c = TDatetime -> conv c (VTime t) = Some v -> v = VTime t.
Proof. intros E. cbn. rewrite E. congruence. Qed.

Theorem conv_to_date_day c t v :
  cty c = TDate -> conv c (VTime t) = Some v ->
  exists d, v = VTime d /\ (d mod 86400 = 0 /\ d <= t < d + 86400)%Z /\ ((t mod 86400 = 0)%Z -> d = t).
Proof.
  intros E. cbn. rewrite E. intro H. injection H as <-. eexists. split; [reflexivity|].
  pose proof (Z.mod_pos_bound t 86400 ltac:(lia)) as B. pose proof (Z.div_mod t 86400 ltac:(lia)) as D.
  split; [split|].
  - replace (t - t mod 86400)%Z with (86400 * (t / 86400))%Z by lia. rewrite Z.mul_comm. apply Z.mod_mul. lia.
  - lia.
  - intro H0. lia.
Qed.

(* a collation change (or any MODIFY to a VARCHAR definition) keeps the bytes of every string *)
Theorem conv_to_varchar_keeps_bytes c s v n k : cty c = TStr n k -> conv c (VStr s) = Some v -> v = VStr s.
Proof. intros E. cbn. rewrite E. destruct (_ <=? _); congruence. Qed.

(* an ENUM redefinition keeps the member string *)
Theorem conv_to_enum_keeps_member c s v ms : cty c = TEnum ms -> conv c (VStr s) = Some v -> v = VStr s /\ existsb (bytes_eqb s) ms = true.
Proof. intros E. cbn. rewrite E. destruct (existsb _ _); [|discriminate]. intro H. injection H as <-. auto. Qed.
