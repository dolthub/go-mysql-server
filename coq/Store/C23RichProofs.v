(* C23 - proofs about the rich trigger model (Store/C23Rich.v). *)
From Coq Require Import List ZArith Bool Lia.
Import ListNotations.
From GMS Require Import Store.C23Trigger Store.C23Rich.
Open Scope Z_scope.

(* what one affected row writes: the BEFORE bodies chained through NEW, then the AFTER bodies on the stored row *)
Definition row_effs child (blk : blkT) (ts : list rtrigger) (old new : row) : list eff :=
  let '(eb, new', _) := run_bef child blk (rbefores ts) old new in
  eb ++ fst (run_aft child blk (rafters ts) old new').

(* NEW as the BEFORE triggers leave it *)
Definition stored_new child (blk : blkT) (ts : list rtrigger) (old new : row) : row :=
  snd (fst (run_bef child blk (rbefores ts) old new)).

Lemma row_step_ok child blk ts op cur old new cur' e :
  row_step child blk ts op cur old new = (cur', e, Ok) ->
  e = row_effs child blk ts old new /\ op old (stored_new child blk ts old new) cur = Some cur'.
Proof.
  unfold row_step, row_effs, stored_new.
  destruct (run_bef child blk (rbefores ts) old new) as [[eb n'] fb]. cbn [fst snd].
  destruct fb; [discriminate|].
  destruct (op old n' cur) as [c1|]; [|discriminate].
  destruct (run_aft child blk (rafters ts) old n') as [ea fa]. cbn [fst].
  destruct fa; [discriminate|]. intros H. injection H as <- <-. auto.
Qed.

(* a statement that succeeds: exactly one block per affected row, in row order; every row operation was done on NEW as
   the BEFORE triggers left it *)
Theorem proc_ok_blocks child blk ts op : forall rows cur cur' e,
  proc (fun c p => row_step child blk ts op c (fst p) (snd p)) rows cur = (cur', e, Ok) ->
  e = flat_map (fun p => row_effs child blk ts (fst p) (snd p)) rows /\
  fold_left (fun c p => match c with
                        | Some c => op (fst p) (stored_new child blk ts (fst p) (snd p)) c
                        | None => None end) rows (Some cur) = Some cur'.
Proof.
  induction rows as [|p rows IH]; intros cur cur' e H; cbn in H.
  - injection H as <- <-. auto.
  - destruct (row_step child blk ts op cur (fst p) (snd p)) as [[c1 e1] o1] eqn:E.
    destruct o1; try discriminate.
    destruct (proc _ rows c1) as [[c2 e2] o2] eqn:E2. injection H as <- <- ->.
    apply row_step_ok in E. destruct E as [-> Hop]. apply IH in E2. destruct E2 as [-> Hf].
    cbn [flat_map fold_left]. rewrite Hop. auto.
Qed.

(* a statement that fails in a BEFORE trigger or in the row operation leaves the table as it was *)
Lemma rexec_restore blk s tb q tb' e : rexec_with blk s tb q = (tb', e, FailRestore) -> tb' = tb.
Proof.
  unfold rexec_with. destruct (proc _ (affected q tb) tb) as [[c e'] o]. destruct o; intros H; injection H; congruence.
Qed.

(* IF branches: the engine agrees with MySQL when no SET stands before the end of the branch *)
Definition is_set (s : sstmt) : bool := match s with SSetV _ => true | _ => false end.
Fixpoint set_only_last (l : list sstmt) : bool :=
  match l with
  | [] => true
  | s :: l' => match l' with [] => true | _ => negb (is_set s) && set_only_last l' end
  end.

Lemma run_block_cons child s l old new : l <> [] -> is_set s = false ->
  run_block child (s :: l) old new =
    (fst (run_s child s old new) ++ fst (run_block child l old new), snd (run_block child l old new)).
Proof.
  intros Hl Hs. unfold run_block. cbn [flat_map fst snd has_set existsb].
  replace (match s with SSetV _ => true | _ => false end) with false by (destruct s; cbn in Hs; congruence).
  cbn [orb]. destruct l as [|a l]; [congruence|]. reflexivity.
Qed.

Theorem run_block_seq child : forall l old new, set_only_last l = true -> run_block child l old new = run_seq child l old new.
Proof.
  induction l as [|s l IH]; intros old new H; [reflexivity|].
  destruct l as [|a l].
  - unfold run_block. cbn. destruct s; cbn; now rewrite ?app_nil_r.
  - change (set_only_last (s :: a :: l)) with (negb (is_set s) && set_only_last (a :: l)) in H.
    apply andb_true_iff in H. destruct H as [Hs Hl]. apply negb_true_iff in Hs.
    assert (Hne : a :: l <> []) by discriminate.
    remember (a :: l) as l' eqn:El.
    rewrite run_block_cons by auto. rewrite (IH old new Hl).
    change (run_seq child (s :: l') old new) with
      (let '(e1, n1) := run_s child s old new in let '(e2, n2) := run_seq child l' old n1 in (e1 ++ e2, n2)).
    assert (Hn : run_s child s old new = (fst (run_s child s old new), new)) by (destruct s; cbn in *; congruence).
    rewrite Hn. cbn [fst]. destruct (run_seq child l' old new) as [e2 n2]. reflexivity.
Qed.

(* BEFORE INSERT: IF NEW.v > 5 THEN SET NEW.v = 5; INSERT INTO audit VALUES (1, NEW.id, NEW.v); END IF *)
Definition if_trigs := mkRS [mkR Before [BIf 5 [SSetV (RConst 5); SAudit 1 NewId NewV]]] [] [] [].
Lemma if_witness_engine : rexec if_trigs [] (RIns [(2, 9)]) = ([(2, 9)], [EA (1, 2, 9)], Ok).
Proof. vm_compute. reflexivity. Qed.
Lemma if_witness_mysql : rexec_spec if_trigs [] (RIns [(2, 9)]) = ([(2, 5)], [EA (1, 2, 5)], Ok).
Proof. vm_compute. reflexivity. Qed.

(* AFTER INSERT: IF NEW.v > 5 THEN SIGNAL; INSERT INTO t VALUES (1,3),(2,9),(3,1) fails, rows 1 and 2 stay *)
Definition sig_trigs := mkRS [mkR After [BSignal NewV 5]] [] [] [].
Lemma after_fail_witness : rexec sig_trigs [] (RIns [(1, 3); (2, 9); (3, 1)]) = ([(1, 3); (2, 9)], [], FailKeep).
Proof. vm_compute. reflexivity. Qed.

(* nested chain, SIGNAL-free: b1 BEFORE INSERT ON t: audit 1; INSERT INTO t2 (NEW.id, NEW.v); a1 AFTER INSERT ON t: audit 2;
   c1 BEFORE INSERT ON t2: audit 11; SET NEW.b = NEW.b + 1;  c2 AFTER INSERT ON t2: audit 12 *)
Definition chain_trigs := mkRS
  [mkR Before [BS (SAudit 1 NewId NewV); BS (SChild NewId NewV)]; mkR After [BS (SAudit 2 NewId NewV)]] [] []
  [mkR Before [BS (SAudit 11 NewId NewV); BS (SSetV (RAdd 1))]; mkR After [BS (SAudit 12 NewId NewV)]].
Lemma chain_example : rexec chain_trigs [] (RIns [(1, 3); (2, 9)]) =
  ([(1, 3); (2, 9)],
   [EA (1, 1, 3); EA (11, 1, 3); EC (1, 4); EA (12, 1, 4); EA (2, 1, 3);
    EA (1, 2, 9); EA (11, 2, 9); EC (2, 10); EA (12, 2, 10); EA (2, 2, 9)], Ok).
Proof. vm_compute. reflexivity. Qed.
