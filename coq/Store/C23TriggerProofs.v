(* C23 - proofs about the trigger model of Store/C23Trigger.v. *)
From Coq Require Import List ZArith Bool Lia.
Import ListNotations.
From GMS Require Import Store.C23Trigger.
Open Scope Z_scope.

Definition tag_of (e : entry) : Z := fst (fst e).

(* the head trigger logs what it sees, the others run on NEW as its SET leaves it *)
Lemma run_before_cons t ts old new :
  run_before (t :: ts) old new =
    ((t_tag t, get (t_x t) old new, get (t_y t) old new) :: fst (run_before ts old (apply_set (t_set t) new)),
     snd (run_before ts old (apply_set (t_set t) new))).
Proof. cbn. destruct (run_before ts old (apply_set (t_set t) new)). reflexivity. Qed.

Lemma run_before_tags ts : forall old new, map tag_of (fst (run_before ts old new)) = map t_tag ts.
Proof. induction ts as [|t ts IH]; intros old new; [reflexivity|]. rewrite run_before_cons. cbn. now rewrite IH. Qed.

Lemma run_after_tags ts old new : map tag_of (run_after ts old new) = map t_tag ts.
Proof. unfold run_after. rewrite map_map. reflexivity. Qed.

(* the tags one affected row contributes: BEFORE triggers in order, then AFTER triggers in order *)
Definition row_tags (ts : list trigger) : list Z := map t_tag (befores ts) ++ map t_tag (afters ts).

Lemma block_tags ts old new old' new' :
  map tag_of (fst (run_before (befores ts) old new) ++ run_after (afters ts) old' new') = row_tags ts.
Proof. now rewrite map_app, run_before_tags, run_after_tags. Qed.

(* what the BEFORE triggers leave in NEW: the SET operations composed in firing order *)
Definition final_new (ts : list trigger) (new : row) : row :=
  fold_left (fun n t => apply_set (t_set t) n) ts new.

Lemma run_before_new ts : forall old new, snd (run_before ts old new) = final_new ts new.
Proof. induction ts as [|t ts IH]; intros old new; [reflexivity|]. rewrite run_before_cons. apply IH. Qed.

(* what the k-th BEFORE trigger sees: NEW after the SETs of the triggers fired before it *)
Lemma run_before_sees ts : forall old new k t,
  nth_error ts k = Some t ->
  nth_error (fst (run_before ts old new)) k =
    Some (t_tag t, get (t_x t) old (final_new (firstn k ts) new), get (t_y t) old (final_new (firstn k ts) new)).
Proof.
  induction ts as [|a ts IH]; intros old new k t H; [destruct k; discriminate|].
  rewrite run_before_cons. destruct k as [|k]; cbn in *; [now injection H as <-|]. apply IH. exact H.
Qed.

Theorem update_fires_once_per_row_in_order ts c m tb :
  map tag_of (snd (upd_rows ts c m tb)) = flat_map (fun _ => row_tags ts) (filter m tb) /\
  fst (upd_rows ts c m tb) =
    map (fun r => if m r then final_new (befores ts) (fst r, snd r + c) else r) tb.
Proof.
  induction tb as [|r tb [IH1 IH2]]; cbn; auto.
  destruct (upd_rows ts c m tb) as [tb2 log2]. cbn in *.
  destruct (m r); cbn; [|split; [exact IH1|now rewrite IH2]].
  pose proof (block_tags ts r (fst r, snd r + c) r) as Hb. pose proof (run_before_new (befores ts) r (fst r, snd r + c)) as Hn.
  destruct (run_before (befores ts) r (fst r, snd r + c)) as [lb r']. cbn in Hb, Hn |- *.
  split; [now rewrite app_assoc, map_app, Hb, IH1|now rewrite Hn, IH2].
Qed.

Theorem delete_fires_once_per_row_in_order ts m tb :
  map tag_of (snd (del_rows ts m tb)) = flat_map (fun _ => row_tags ts) (filter m tb) /\
  fst (del_rows ts m tb) = filter (fun r => negb (m r)) tb.
Proof.
  induction tb as [|r tb [IH1 IH2]]; cbn; auto.
  destruct (del_rows ts m tb) as [tb2 log2]. cbn in *.
  destruct (m r); cbn; [|split; [exact IH1|now rewrite IH2]].
  split; [|exact IH2]. now rewrite app_assoc, map_app, block_tags, IH1.
Qed.

(* INSERT (a statement that succeeds) *)
Lemma insert_sorted_in x r : forall l, In x (insert_sorted r l) <-> x = r \/ In x l.
Proof.
  induction l as [|a l IH]; cbn; [intuition congruence|].
  destruct (fst r <? fst a); cbn; [intuition congruence|]. rewrite IH. intuition congruence.
Qed.

Theorem insert_fires_once_per_row_in_order ts : forall rows tb log0 tb' log,
  ins_rows ts rows tb log0 = (tb', log, false) ->
  map tag_of log = map tag_of log0 ++ flat_map (fun _ => row_tags ts) rows /\
  (forall r, In r tb' <-> In r tb \/ In r (map (fun r => final_new (befores ts) r) rows)).
Proof.
  induction rows as [|r rows IH]; intros tb log0 tb' log H; cbn in H.
  - injection H as <- <-. cbn. rewrite app_nil_r. split; auto. intros r. tauto.
  - pose proof (block_tags ts r r) as Hb. pose proof (run_before_new (befores ts) r r) as Hn.
    destruct (run_before (befores ts) r r) as [lb r']. cbn in Hb, Hn.
    destruct (has_id (fst r') tb); [discriminate|].
    apply IH in H. destruct H as [H1 H2]. split.
    + cbn. now rewrite H1, map_app, Hb, <- app_assoc.
    + intros x. rewrite H2, insert_sorted_in. cbn. rewrite <- Hn. intuition congruence.
Qed.

(* without placement clauses the firing order is the creation order *)
Lemma order_triggers_no_clause l : forall acc, Forall (fun x => snd x = NoClause) l -> order_triggers l acc = acc ++ map fst l.
Proof.
  induction l as [|[x c] l IH]; intros acc H; cbn; [now rewrite app_nil_r|].
  inversion H as [|? ? Hx Hl]; subst. cbn in Hx. subst c. rewrite IH by exact Hl. now rewrite <- app_assoc.
Qed.

Lemma order_triggers_creation l : forall acc, order_triggers (map (fun t => (t, NoClause)) l) acc = acc ++ l.
Proof.
  intro acc. rewrite order_triggers_no_clause, map_map, map_id; [reflexivity|]. apply Forall_map, Forall_forall. reflexivity.
Qed.

(* FOLLOWS puts the new trigger right after the named one, PRECEDES right before it *)
Lemma place_spec x g l1 a l2 : (forall b, In b l1 -> t_tag b <> g) -> t_tag a = g ->
  place_after x g (l1 ++ a :: l2) = l1 ++ a :: x :: l2 /\ place_before x g (l1 ++ a :: l2) = l1 ++ x :: a :: l2.
Proof.
  intros H Ha. induction l1 as [|b l1 IH]; cbn.
  - rewrite Ha, Z.eqb_refl. split; reflexivity.
  - destruct (Z.eqb_spec (t_tag b) g) as [E|_]; [destruct (H b (or_introl eq_refl) E)|].
    destruct IH as [IH1 IH2]; [intros c Hc; apply H; right; exact Hc|]. rewrite IH1, IH2. split; reflexivity.
Qed.

(* what is false: the triggers' effects are not discarded with a failing statement *)
Definition w_trigs := mkSet [mkTrig Before 1 NewId NewV (Some (SAdd 10)); mkTrig After 2 NewId NewV None] [] [].
Lemma effects_not_atomic_witness :
  exec w_trigs [(1, 11); (2, 12)] (SIns [(3, 3); (1, 5)]) =
    ([(1, 11); (2, 12)], [(1, 3, 3); (2, 3, 13); (1, 1, 5)], true).
Proof. vm_compute. reflexivity. Qed.

Lemma nonvacuous_example :
  exec w_trigs [] (SIns [(1, 1); (2, 2)]) = ([(1, 11); (2, 12)], [(1, 1, 1); (2, 1, 11); (1, 2, 2); (2, 2, 12)], false).
Proof. vm_compute. reflexivity. Qed.
