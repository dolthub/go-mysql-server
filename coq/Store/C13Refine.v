(* C13: the reference table model (a keyed map held as a list of rows with pairwise different keys, edits applied
   immediately, row at a time) and the generic simulation exec_sim: two editors whose operations keep a relation give
   equal statement results.  Store/C13RefineProofs.v instantiates it with the accumulator-based editor of
   Store/C14Editor.v. *)
From Coq Require Import List NArith ZArith Bool Lia Permutation.
Import ListNotations.
From GMS Require Import Store.C14Editor Store.C14EditorProofs.

Definition sp_get (sch : schema) (L : list row) (r : row) : option row := find (fun x => pk_match sch x r) L.

Definition sp_get_by_cols (L : list row) (r : row) (cols : list nat) (pls : list N) : option row :=
  find (fun x => cols_match cols pls x r) L.

Definition sp_insert (sch : schema) (L : list row) (r : row) : res (list row) :=
  match sp_get sch L r with
  | Some ex => RDup ex
  | None => match check_unique (sp_get_by_cols L) (s_uniq sch) r with
            | Some ex => RDup ex
            | None => ROk (L ++ [r])
            end
  end.

Definition sp_delete (sch : schema) (L : list row) (r : row) : list row := remove_first (fun x => pk_match sch x r) L.

Definition sp_update (sch : schema) (L : list row) (old new : row) : res (list row) :=
  let L1 := sp_delete sch L old in
  match (if pk_match sch old new then None else sp_get sch L1 new) with
  | Some ex => RDup ex
  | None => match check_unique (sp_get_by_cols L1) (s_uniq sch) new with
            | Some ex => RDup ex
            | None => ROk (L1 ++ [new])
            end
  end.

Definition sp_begin (rows : list row) : list row := rows.
Definition sp_commit (sch : schema) (L : list row) : list row := sort_rows sch L.

(* the same statement iterators, run directly on the logical table *)
Definition spec_exec (sch : schema) :=
  exec sp_begin (sp_insert sch) (sp_delete sch) (sp_update sch) (sp_commit sch) sch.

Definition spec_history (sch : schema) (rows : list row) (h : list stmt) : list row :=
  fold_left (fun rs st => snd (spec_exec sch rs st)) h rows.

Section ExecSim.
  Context {S1 S2 : Type}.
  Variable b1 : list row -> S1.
  Variable i1 : S1 -> row -> res S1.
  Variable d1 : S1 -> row -> S1.
  Variable u1 : S1 -> row -> row -> res S1.
  Variable c1 : S1 -> list row.
  Variable b2 : list row -> S2.
  Variable i2 : S2 -> row -> res S2.
  Variable d2 : S2 -> row -> S2.
  Variable u2 : S2 -> row -> row -> res S2.
  Variable c2 : S2 -> list row.
  Variable sch : schema.
  Variable U : row -> Prop.
  Variable Pre : list row -> Prop.
  Variable R : S1 -> S2 -> Prop.
  Hypothesis PreNil : Pre [].
  Hypothesis PreU : forall rows, Pre rows -> Forall U rows.
  Hypothesis Hb : forall rows, Pre rows -> R (b1 rows) (b2 rows).
  Hypothesis Hi : forall s1 s2 r, R s1 s2 -> U r ->
    match i1 s1 r, i2 s2 r with
    | ROk a, ROk b => R a b
    | RDup x, RDup y => x = y /\ U x
    | _, _ => False
    end.
  Hypothesis Hd : forall s1 s2 r, R s1 s2 -> U r -> R (d1 s1 r) (d2 s2 r).
  Hypothesis Hu : forall s1 s2 o n, R s1 s2 -> U o -> U n ->
    match u1 s1 o n, u2 s2 o n with
    | ROk a, ROk b => R a b
    | RDup _, RDup _ => True
    | _, _ => False
    end.
  Hypothesis Hc : forall s1 s2, R s1 s2 -> c1 s1 = c2 s2 /\ Pre (c2 s2).

  Definition rel_opt {A : Type} (x : option (S1 * A)) (y : option (S2 * A)) : Prop :=
    match x, y with
    | Some (a, n), Some (b, m) => R a b /\ n = m
    | None, None => True
    | _, _ => False
    end.

  (* plain INSERT and INSERT IGNORE never look at the row a rejected Insert reports: for them it is enough that the two
     editors accept together, into related states *)
  Definition ins_agree (x : res S1) (y : res S2) : Prop :=
    match x, y with ROk a, ROk b => R a b | RDup _, RDup _ => True | _, _ => False end.

  Lemma insert_agrees : forall s1 s2 r, R s1 s2 -> U r -> ins_agree (i1 s1 r) (i2 s2 r).
  Proof. intros s1 s2 r HR Hr. pose proof (Hi s1 s2 r HR Hr) as H. destruct (i1 s1 r), (i2 s2 r); try exact H. exact I. Qed.

  Lemma sim_plain : (forall s1 s2 r, R s1 s2 -> U r -> ins_agree (i1 s1 r) (i2 s2 r)) ->
    forall rows s1 s2 n, R s1 s2 -> Forall U rows -> rel_opt (ins_plain i1 s1 rows n) (ins_plain i2 s2 rows n).
  Proof.
    intros Hw. induction rows as [|r rows IH]; cbn; intros s1 s2 n HR HU; [split; [exact HR|reflexivity]|].
    inversion HU as [|? ? Hr Hrs]; subst. pose proof (Hw s1 s2 r HR Hr) as H.
    destruct (i1 s1 r), (i2 s2 r); try contradiction; [apply IH; assumption|exact I].
  Qed.

  Lemma sim_ignore : (forall s1 s2 r, R s1 s2 -> U r -> ins_agree (i1 s1 r) (i2 s2 r)) ->
    forall rows cur n, Pre cur -> Forall U rows ->
    ins_ignore b1 i1 c1 cur rows n = ins_ignore b2 i2 c2 cur rows n /\
    Pre (fst (ins_ignore b2 i2 c2 cur rows n)).
  Proof.
    intros Hw. induction rows as [|r rows IH]; cbn; intros cur n HP HU; [split; [reflexivity|exact HP]|].
    inversion HU as [|? ? Hr Hrs]; subst. pose proof (Hw _ _ r (Hb cur HP) Hr) as H.
    destruct (i1 (b1 cur) r), (i2 (b2 cur) r); try contradiction.
    - destruct (Hc _ _ H) as [E HP']. rewrite E. apply IH; assumption.
    - apply IH; assumption.
  Qed.

  Lemma sim_replace_one : forall fuel s1 s2 r d, R s1 s2 -> U r ->
    rel_opt (replace_one i1 d1 fuel s1 r d) (replace_one i2 d2 fuel s2 r d).
  Proof.
    induction fuel as [|f IH]; cbn; intros s1 s2 r d HR Hr; [exact I|].
    pose proof (Hi s1 s2 r HR Hr) as H.
    destruct (i1 s1 r), (i2 s2 r); try contradiction; [split; [exact H|reflexivity]|].
    destruct H as [<- Hx]. apply IH; [apply Hd; assumption|exact Hr].
  Qed.

  Lemma sim_replace : forall fuel rows s1 s2 n, R s1 s2 -> Forall U rows ->
    rel_opt (ins_replace i1 d1 fuel s1 rows n) (ins_replace i2 d2 fuel s2 rows n).
  Proof.
    intros fuel. induction rows as [|r rows IH]; cbn; intros s1 s2 n HR HU; [split; [exact HR|reflexivity]|].
    inversion HU as [|? ? Hr Hrs]; subst. pose proof (sim_replace_one fuel s1 s2 r false HR Hr) as H. unfold rel_opt in H.
    destruct (replace_one i1 d1 fuel s1 r false) as [[a x]|], (replace_one i2 d2 fuel s2 r false) as [[b y]|];
      try contradiction; [|exact I].
    destruct H as [H ->]. apply IH; assumption.
  Qed.

  Lemma sim_odku : forall a, (forall r, U r -> U (apply_assigns a r)) ->
    forall rows s1 s2 n, R s1 s2 -> Forall U rows ->
    rel_opt (ins_odku i1 u1 sch a s1 rows n) (ins_odku i2 u2 sch a s2 rows n).
  Proof.
    intros a Ha. induction rows as [|r rows IH]; cbn; intros s1 s2 n HR HU; [split; [exact HR|reflexivity]|].
    inversion HU as [|? ? Hr Hrs]; subst. pose proof (Hi s1 s2 r HR Hr) as H.
    destruct (i1 s1 r), (i2 s2 r); try contradiction; [apply IH; assumption|].
    destruct H as [<- Hx]. pose proof (Hu s1 s2 existing (apply_assigns a existing) HR Hx (Ha _ Hx)) as H2.
    destruct (u1 s1 existing (apply_assigns a existing)), (u2 s2 existing (apply_assigns a existing));
      try contradiction; [apply IH; assumption|exact I].
  Qed.

  Lemma sim_update : forall a, (forall r, U r -> U (apply_assigns a r)) ->
    forall ts s1 s2 m c, R s1 s2 -> Forall U ts ->
    match upd_loop u1 sch a s1 ts m c, upd_loop u2 sch a s2 ts m c with
    | Some (x, m1, c1'), Some (y, m2, c2') => R x y /\ m1 = m2 /\ c1' = c2'
    | None, None => True
    | _, _ => False
    end.
  Proof.
    intros a Ha. induction ts as [|o ts IH]; cbn; intros s1 s2 m c HR HU; [repeat split; exact HR|].
    inversion HU as [|? ? Ho Hts]; subst.
    destruct (row_equals sch o (apply_assigns a o)); [apply IH; assumption|].
    pose proof (Hu s1 s2 o (apply_assigns a o) HR Ho (Ha _ Ho)) as H.
    destruct (u1 s1 o (apply_assigns a o)), (u2 s2 o (apply_assigns a o)); try contradiction; [apply IH; assumption|exact I].
  Qed.

  Lemma sim_delete : forall ts s1 s2, R s1 s2 -> Forall U ts -> R (fold_left d1 ts s1) (fold_left d2 ts s2).
  Proof.
    induction ts as [|r ts IH]; cbn; intros s1 s2 HR HU; [exact HR|].
    inversion HU; subst. apply IH; [apply Hd; assumption|assumption].
  Qed.

  Definition stmt_in_U (st : stmt) : Prop :=
    match st with
    | SInsert (IOdku a) news => Forall U news /\ forall r, U r -> U (apply_assigns a r)
    | SInsert _ news => Forall U news
    | SUpdate a _ _ _ => forall r, U r -> U (apply_assigns a r)
    | SDelete _ _ _ => True
    end.

  (* related loop results are committed to equal tables *)
  Lemma sim_finish : forall o rows x y, Pre rows -> rel_opt x y ->
    match x with Some (s, n) => (OOk n 0, c1 s) | None => (o, rows) end =
      match y with Some (s, n) => (OOk n 0, c2 s) | None => (o, rows) end /\
    Pre (snd (match y with Some (s, n) => (OOk n 0, c2 s) | None => (o, rows) end)).
  Proof.
    intros o rows x y HP H. destruct x as [[a n]|], y as [[b m]|]; try contradiction; [|split; [reflexivity|exact HP]].
    destruct H as [H ->]. destruct (Hc _ _ H) as [-> HP']. split; [reflexivity|exact HP'].
  Qed.

  (* statement by statement, each from the editor operations it calls *)
  Lemma exec_sim_plain : (forall s1 s2 r, R s1 s2 -> U r -> ins_agree (i1 s1 r) (i2 s2 r)) ->
    forall rows news, Pre rows -> Forall U news ->
    exec b1 i1 d1 u1 c1 sch rows (SInsert IPlain news) = exec b2 i2 d2 u2 c2 sch rows (SInsert IPlain news) /\
    Pre (snd (exec b2 i2 d2 u2 c2 sch rows (SInsert IPlain news))).
  Proof. intros Hw rows news HP HU. exact (sim_finish _ rows _ _ HP (sim_plain Hw news _ _ 0%N (Hb rows HP) HU)). Qed.

  Lemma exec_sim_ignore : (forall s1 s2 r, R s1 s2 -> U r -> ins_agree (i1 s1 r) (i2 s2 r)) ->
    forall rows news, Pre rows -> Forall U news ->
    exec b1 i1 d1 u1 c1 sch rows (SInsert IIgnore news) = exec b2 i2 d2 u2 c2 sch rows (SInsert IIgnore news) /\
    Pre (snd (exec b2 i2 d2 u2 c2 sch rows (SInsert IIgnore news))).
  Proof.
    intros Hw rows news HP HU. cbn [exec]. destruct (sim_ignore Hw news rows 0%N HP HU) as [-> HP'].
    destruct (ins_ignore b2 i2 c2 rows news 0) as [cur n]. split; [reflexivity|exact HP'].
  Qed.

  Lemma exec_sim_delete : forall rows w ord lim, Pre rows ->
    exec b1 i1 d1 u1 c1 sch rows (SDelete w ord lim) = exec b2 i2 d2 u2 c2 sch rows (SDelete w ord lim) /\
    Pre (snd (exec b2 i2 d2 u2 c2 sch rows (SDelete w ord lim))).
  Proof.
    intros rows w ord lim HP. cbn [exec]. destruct (is_truncate w ord lim); [split; [reflexivity|exact PreNil]|].
    destruct (Hc _ _ (sim_delete _ _ _ (Hb rows HP) (incl_Forall (targets_incl sch w ord lim rows) (PreU rows HP))))
      as [-> HP'].
    split; [reflexivity|exact HP'].
  Qed.

  Theorem exec_sim : forall rows st, Pre rows -> stmt_in_U st ->
    exec b1 i1 d1 u1 c1 sch rows st = exec b2 i2 d2 u2 c2 sch rows st /\
    Pre (snd (exec b2 i2 d2 u2 c2 sch rows st)).
  Proof.
    intros rows st HP HS. pose proof (Hb rows HP) as HR0.
    destruct st as [[| | |a] news|a w ord lim|w ord lim]; cbn in HS.
    - apply exec_sim_plain; [exact insert_agrees|exact HP|exact HS].
    - apply exec_sim_ignore; [exact insert_agrees|exact HP|exact HS].
    - exact (sim_finish _ rows _ _ HP (sim_replace _ news _ _ 0%N HR0 HS)).
    - destruct HS as [HS Ha]. exact (sim_finish _ rows _ _ HP (sim_odku a Ha news _ _ 0%N HR0 HS)).
    - pose proof (sim_update a HS (targets sch w ord lim rows) _ _ 0%N 0%N HR0
                    (incl_Forall (targets_incl sch w ord lim rows) (PreU rows HP))) as H.
      cbn [exec].
      destruct (upd_loop u1 sch a (b1 rows) _ 0 0) as [[[x m1] k1]|], (upd_loop u2 sch a (b2 rows) _ 0 0) as [[[y m2] k2]|];
        try contradiction; [|split; [reflexivity|exact HP]].
      destruct H as [H [-> ->]]. destruct (Hc _ _ H) as [-> HP']. split; [reflexivity|exact HP'].
    - apply exec_sim_delete. exact HP.
  Qed.
End ExecSim.
