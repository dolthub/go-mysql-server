(* C01, layer (a): proofs.  (1) the sound table is sound for all relations and ON conditions;
   (2) every entry of the TRANSLATED Go tables, read through the model of checkProperty, is below it. *)
From Coq Require Import List NArith Bool Permutation Lia.
Import ListNotations.
From GMS Require Import Base.ListFacts gen.C01Tables Plan.C01Reorder.

Lemma c01_flat_map_flat_map {A B C} (f : B -> list C) (g : A -> list B) l :
  flat_map f (flat_map g l) = flat_map (fun x => flat_map f (g x)) l.
Proof. induction l as [|a l IH]; cbn; [reflexivity|]. rewrite flat_map_app, IH. reflexivity. Qed.

Lemma c01_map_flat_map {A B C} (f : B -> C) (g : A -> list B) l :
  map f (flat_map g l) = flat_map (fun x => map f (g x)) l.
Proof. induction l as [|a l IH]; cbn; [reflexivity|]. rewrite map_app, IH. reflexivity. Qed.

Lemma c01_map_filter_as_flat_map {A B} (f : A -> B) (p : A -> bool) l :
  map f (filter p l) = flat_map (fun x => if p x then [f x] else []) l.
Proof. induction l as [|a l IH]; cbn; [reflexivity|]. destruct (p a); cbn; congruence. Qed.

Lemma c01_existsb_const {A} (f : A -> bool) b l :
  (b = true -> l <> []) -> (forall x, In x l -> f x = b) -> existsb f l = b.
Proof.
  intros Hn H. destruct (existsb f l) eqn:E.
  - apply existsb_exists in E as (x & Hx & Fx). rewrite <- (H x Hx), Fx. reflexivity.
  - destruct b; [|reflexivity]. destruct l as [|x l]; [destruct (Hn eq_refl eq_refl)|].
    cbn in E. rewrite (H x) in E by (left; reflexivity). discriminate.
Qed.

Lemma c01_perm_flat_map_pw {A B} (f g : A -> list B) l :
  (forall a, Permutation (f a) (g a)) -> Permutation (flat_map f l) (flat_map g l).
Proof. intros H. induction l as [|a l IH]; cbn; [constructor|]. apply Permutation_app; auto. Qed.

Lemma c01_perm_flat_map_app {A B} (f g : A -> list B) l :
  Permutation (flat_map (fun x => f x ++ g x) l) (flat_map f l ++ flat_map g l).
Proof.
  induction l as [|a l IH]; cbn; [constructor|]. rewrite IH.
  rewrite <- !app_assoc. apply Permutation_app_head.
  rewrite !app_assoc. apply Permutation_app_tail. apply Permutation_app_comm.
Qed.

Lemma c01_flat_map_swap {A B C} (F : A -> B -> list C) xs ys :
  Permutation (flat_map (fun x => flat_map (fun y => F x y) ys) xs)
              (flat_map (fun y => flat_map (fun x => F x y) xs) ys).
Proof.
  induction xs as [|a xs IH]; cbn.
  - induction ys; cbn; auto.
  - rewrite IH. symmetry. apply c01_perm_flat_map_app.
Qed.

Lemma c01_map_as_flat_map {A B} (f : A -> B) l : map f l = flat_map (fun x => [f x]) l.
Proof. induction l; cbn; congruence. Qed.

Lemma c01_prod_swap {X Y Z} (f : X -> Y -> Z) xs ys :
  Permutation (flat_map (fun x => map (fun y => f x y) ys) xs)
              (flat_map (fun y => map (fun x => f x y) xs) ys).
Proof.
  rewrite (flat_map_ext _ (fun x => flat_map (fun y => [f x y]) ys)) by (intros; apply c01_map_as_flat_map).
  rewrite (flat_map_ext (fun y => map _ xs) (fun y => flat_map (fun x => [f x y]) xs)) by (intros; apply c01_map_as_flat_map).
  apply c01_flat_map_swap.
Qed.

Lemma orelse_none_r {X} (a : option X) : orelse a None = a.
Proof. destruct a; reflexivity. Qed.

Definition sel {B} (o : op) (q : B -> bool) (r : list B) : list (option B) :=
  match o with
  | Cross => map Some r
  | Inner => map Some (filter q r)
  | Semi => if existsb q r then [None] else []
  | Anti => if existsb q r then [] else [None]
  | LeftJ | Full => match filter q r with [] => [None] | m => map Some m end
  end.

Lemma sel_left_nonempty {X} (q : X -> bool) r : sel LeftJ q r <> [].
Proof. unfold sel. destruct (filter q r); cbn; discriminate. Qed.

Section Proofs.
  Context {A1 A2 A3 : Type}.
  Notation T := (@T A1 A2 A3).
  Notation Q12 := (option A1 -> option A2 -> bool).
  Notation Q13 := (option A1 -> option A3 -> bool).
  Notation Q23 := (option A2 -> option A3 -> bool).

  Lemma join_nf o (p : T -> bool) l r : o <> Full -> join o p l r = flat_map (ext o p r) l.
  Proof. intros H. unfold join. destruct o; try apply app_nil_r. congruence. Qed.

  Lemma join_cross (p : T -> bool) l r : join Cross p l r = join Inner (fun _ => true) l r.
  Proof. reflexivity. Qed.

  (* The rows of one left tuple t against a leaf: if merging t with the leaf row of b fills one slot of t
     ([put (Some b)], with [put None = t]), they are the selection [sel] of the leaf, put into that slot. *)
  Lemma ext_sel {B} o (p : T -> bool) t (lift : B -> T) (put : option B -> T) e :
    (forall b, merge t (lift b) = put (Some b)) -> put None = t ->
    ext o p (map lift e) t = map put (sel o (fun b => p (put (Some b))) e).
  Proof.
    intros Hm Hn.
    assert (H : map (merge t) (map lift e) = map (fun b => put (Some b)) e) by (rewrite map_map; apply map_ext, Hm).
    destruct o; unfold ext, matches, sel; rewrite H.
    - rewrite (filter_const _ true), map_map by reflexivity. reflexivity.
    - rewrite filter_map_comm, map_map. reflexivity.
    - rewrite existsb_map. destruct (existsb _ e); cbn; congruence.
    - rewrite existsb_map. destruct (existsb _ e); cbn; congruence.
    - rewrite filter_map_comm. destruct (filter _ e); cbn; rewrite ?map_map; congruence.
    - rewrite filter_map_comm. destruct (filter _ e); cbn; rewrite ?map_map; congruence.
  Qed.

  Lemma ext_slot2 o (p : T -> bool) x z (e2 : list A2) :
    ext o p (map lift2 e2) (x, None, z) = map (fun oy => (x, oy, z)) (sel o (fun y => p (x, Some y, z)) e2).
  Proof.
    apply (ext_sel o p _ lift2 (fun oy => (x, oy, z))); [|reflexivity].
    intros y. unfold merge, lift2, c1, c2, c3. cbn. rewrite !orelse_none_r. reflexivity.
  Qed.

  Lemma ext_slot3 o (p : T -> bool) x y (e3 : list A3) :
    ext o p (map lift3 e3) (x, y, None) = map (fun oz => (x, y, oz)) (sel o (fun z => p (x, y, Some z)) e3).
  Proof.
    apply (ext_sel o p _ lift3 (fun oz => (x, y, oz))); [|reflexivity].
    intros z. unfold merge, lift3, c1, c2, c3. cbn. rewrite !orelse_none_r. reflexivity.
  Qed.

  (* the joins that keep every left tuple *)
  Definition keeps (o : op) : Prop := o = LeftJ \/ o = Full.

  Lemma ext_keeps o (p : T -> bool) r t : keeps o -> ext o p r t = match matches p t r with [] => [t] | m => m end.
  Proof. intros [-> | ->]; reflexivity. Qed.

  (* the right rows a full join appends *)
  Definition rest (o : op) (p : T -> bool) (l r : list T) : list T :=
    match o with Full => unmatched_right p l r | _ => [] end.

  Lemma join_rest o (p : T -> bool) l r : join o p l r = flat_map (ext o p r) l ++ rest o p l r.
  Proof. reflexivity. Qed.

  Lemma rest_in o (p : T -> bool) l r t : In t (rest o p l r) -> o = Full /\ In t r.
  Proof. destruct o; try contradiction. intros H. apply filter_In in H. tauto. Qed.

  Lemma keeps_pass o (p : T -> bool) l r : keeps o ->
    (forall t v, In t l -> In v r -> p (merge t v) = false) -> flat_map (ext o p r) l = l.
  Proof.
    intros Ho H. induction l as [|t l IH]; [reflexivity|].
    cbn [flat_map]. rewrite IH by (intros; apply H; [right|]; assumption).
    rewrite ext_keeps by assumption. unfold matches. rewrite (filter_const _ false); [reflexivity|].
    intros w (v & <- & Hv)%in_map_iff. apply H; [left; reflexivity|assumption].
  Qed.

  (* The right rows that a later full join on p leaves unmatched are the same before and after a join o that keeps
     the left tuples, when p does not look at what o merges into a left tuple and rejects the rows o appends:
     every left tuple survives in at least one row, and all its rows answer p alike. *)
  Lemma rest_through o' o (pA p : T -> bool) l rA r : keeps o ->
    (forall t v u, In t l -> In v rA -> p (merge (merge t v) u) = p (merge t u)) ->
    (forall t u, In t (rest o pA l rA) -> In u r -> p (merge t u) = false) ->
    rest o' p (join o pA l rA) r = rest o' p l r.
  Proof.
    intros Ho Hi Hx. destruct o'; try reflexivity. apply filter_ext_in. intros u Hu. f_equal.
    rewrite join_rest, existsb_app, existsb_flat_map.
    rewrite (c01_existsb_const _ false (rest o pA l rA)) by (discriminate || auto). rewrite orb_false_r.
    apply existsb_ext_in. intros t Ht. rewrite ext_keeps by assumption. unfold matches.
    destruct (filter pA (map (merge t) rA)) as [|w m] eqn:E; [apply orb_false_r|].
    apply c01_existsb_const; [discriminate|]. rewrite <- E.
    intros x [(v & <- & Hv)%in_map_iff _]%filter_In. auto.
  Qed.

  Variables (e1 : list A1) (e2 : list A2) (e3 : list A3).
  Notation L1 := (map (@lift1 A1 A2 A3) e1).
  Notation L2 := (map (@lift2 A1 A2 A3) e2).
  Notation L3 := (map (@lift3 A1 A2 A3) e3).

  (* the product part common to both trees, for any operators *)
  Lemma lasscom_core A B (q12 : Q12) (q13 : Q13) :
    Permutation (flat_map (ext B (on13 q13) L3) (flat_map (ext A (on12 q12) L2) L1))
                (flat_map (ext A (on12 q12) L2) (flat_map (ext B (on13 q13) L3) L1)).
  Proof.
    rewrite !c01_flat_map_flat_map, !flat_map_map.
    apply c01_perm_flat_map_pw. intros a. unfold lift1.
    rewrite ext_slot2, ext_slot3, !flat_map_map.
    erewrite flat_map_ext; [|intros oy; rewrite ext_slot3; reflexivity].
    erewrite (flat_map_ext (fun x => ext A _ _ _)); [|intros oz; rewrite ext_slot2; reflexivity].
    unfold on12, on13, c1, c2, c3. cbn [fst snd].
    apply (c01_prod_swap (fun oy oz => (Some a, oy, oz))).
  Qed.

  Lemma lasscom_nf A B (q12 : Q12) (q13 : Q13) : A <> Full -> B <> Full ->
    Permutation (lasscom_lhs e1 e2 e3 A B q12 q13) (lasscom_rhs e1 e2 e3 A B q12 q13).
  Proof. intros HA HB. unfold lasscom_lhs, lasscom_rhs. rewrite !join_nf by assumption. apply lasscom_core. Qed.

  (* left and full joins: a full join must reject NULLs on e1 in the OTHER join's filter, so that the rows it
     appends (empty slot 1) pass through the other join and are not matched by it *)
  Lemma lasscom_keeps A B (q12 : Q12) (q13 : Q13) :
    keeps A -> keeps B -> (A = Full -> rejects_l q13) -> (B = Full -> rejects_l q12) ->
    Permutation (lasscom_lhs e1 e2 e3 A B q12 q13) (lasscom_rhs e1 e2 e3 A B q12 q13).
  Proof.
    intros HA HB RA RB. unfold lasscom_lhs, lasscom_rhs.
    assert (N13 : forall t u, In t (rest A (on12 q12) L1 L2) -> In u L3 -> on13 q13 (merge t u) = false).
    { intros t u [E (y & <- & _)%in_map_iff]%rest_in (z & <- & _)%in_map_iff. apply (RA E). }
    assert (N12 : forall t u, In t (rest B (on13 q13) L1 L3) -> In u L2 -> on12 q12 (merge t u) = false).
    { intros t u [E (z & <- & _)%in_map_iff]%rest_in (y & <- & _)%in_map_iff. apply (RB E). }
    rewrite (join_rest B), (join_rest A _ (join B _ _ _)).
    rewrite (rest_through B A), (rest_through A B); try assumption;
      try (intros t v u (a & <- & _)%in_map_iff (x & <- & _)%in_map_iff; reflexivity).
    rewrite !join_rest, !flat_map_app, (keeps_pass B _ (rest A _ _ _)), (keeps_pass A _ (rest B _ _ _)) by assumption.
    rewrite <- !app_assoc. apply Permutation_app; [apply lasscom_core|apply Permutation_app_comm].
  Qed.

  (* the rows of left tuple a, given the e2 rows (or the padding) selected for it *)
  Definition rows23 (B : op) (q23 : Q23) (a : A1) (S2 : list (option A2)) : list T :=
    flat_map (fun oy => map (fun oz => (Some a, oy, oz)) (sel B (fun z => q23 oy (Some z)) e3)) S2.

  Lemma assoc_lhs_nf A B (q12 : Q12) (q23 : Q23) : A <> Full -> B <> Full ->
    assoc_lhs e1 e2 e3 A B q12 q23
    = flat_map (fun a => rows23 B q23 a (sel A (fun y => q12 (Some a) (Some y)) e2)) e1.
  Proof.
    intros HA HB. unfold assoc_lhs. rewrite !join_nf by assumption.
    rewrite c01_flat_map_flat_map, flat_map_map. apply flat_map_ext. intros a.
    unfold lift1. rewrite ext_slot2, flat_map_map. apply flat_map_ext. intros oy. apply ext_slot3.
  Qed.

  (* the e2 rows that match a, each with its own e3 selection *)
  Lemma assoc_core B (a : A1) (q12 : Q12) (q23 : Q23) :
    matches (on12 q12) (lift1 a) (flat_map (ext B (on23 q23) L3) L2)
    = rows23 B q23 a (map Some (filter (fun y => q12 (Some a) (Some y)) e2)).
  Proof.
    unfold matches, rows23. induction e2 as [|y l IH]; [reflexivity|].
    cbn [map flat_map]. rewrite map_app, filter_app, IH. clear IH.
    unfold lift2 at 1. rewrite ext_slot3, map_map, filter_map_comm.
    rewrite (filter_const _ (q12 (Some a) (Some y))) by reflexivity.
    cbn [filter]. destruct (q12 (Some a) (Some y)); reflexivity.
  Qed.

  Lemma assoc_inner B (q12 : Q12) (q23 : Q23) : B <> Full ->
    assoc_lhs e1 e2 e3 Inner B q12 q23 = assoc_rhs e1 e2 e3 Inner B q12 q23.
  Proof.
    intros HB. rewrite assoc_lhs_nf by (discriminate || assumption).
    unfold assoc_rhs. rewrite (join_nf Inner), (join_nf B), flat_map_map by (discriminate || assumption).
    apply flat_map_ext. intros a. symmetry. apply assoc_core.
  Qed.

  Lemma assoc_left_left (q12 : Q12) (q23 : Q23) : rejects_l q23 ->
    assoc_lhs e1 e2 e3 LeftJ LeftJ q12 q23 = assoc_rhs e1 e2 e3 LeftJ LeftJ q12 q23.
  Proof.
    intros HR. rewrite assoc_lhs_nf by discriminate.
    unfold assoc_rhs. rewrite !(join_nf LeftJ), flat_map_map by discriminate.
    apply flat_map_ext. intros a. cbn [ext]. rewrite assoc_core. cbn [sel].
    destruct (filter (fun y => q12 (Some a) (Some y)) e2) as [|y m].
    - (* a matches nothing: its padded row matches nothing in e3 either *)
      cbn. rewrite (filter_const _ false) by (intros; apply HR). reflexivity.
    - cbn. destruct (filter (fun z => q23 (Some y) (Some z)) e3); reflexivity.
  Qed.

  Lemma inner_inner_nf (p p' : T -> bool) (l m r : list T) :
    join Inner p l (join Inner p' m r)
    = flat_map (fun t => flat_map (fun u => map (fun v => merge t (merge u v))
                 (filter (fun v => p' (merge u v) && p (merge t (merge u v))) r)) m) l.
  Proof.
    rewrite !(join_nf Inner) by discriminate. apply flat_map_ext. intros t. cbn [ext]. unfold matches at 1.
    rewrite c01_map_flat_map, filter_flat_map. apply flat_map_ext. intros u. unfold ext, matches.
    rewrite !filter_map_comm, map_map, filter_filter. reflexivity.
  Qed.

  Lemma rasscom_inner (q13 : Q13) (q23 : Q23) :
    Permutation (rasscom_lhs e1 e2 e3 Inner Inner q13 q23) (rasscom_rhs e1 e2 e3 Inner Inner q13 q23).
  Proof.
    unfold rasscom_lhs, rasscom_rhs. rewrite !inner_inner_nf, c01_flat_map_swap, !flat_map_map.
    apply Permutation_refl'. apply flat_map_ext. intros y.
    rewrite !flat_map_map. apply flat_map_ext. intros a.
    rewrite !filter_map_comm, !map_map. f_equal. apply filter_ext. intros z. apply andb_comm.
  Qed.

  Lemma inner_pairs (p : T -> bool) l r :
    join Inner p l r = flat_map (fun t => flat_map (fun u => if p (merge t u) then [merge t u] else []) r) l.
  Proof.
    rewrite join_nf by discriminate. apply flat_map_ext. intros t. unfold ext, matches.
    rewrite filter_map_comm. apply c01_map_filter_as_flat_map.
  Qed.

  Lemma commute_inner (q12 : Q12) :
    Permutation (commute_lhs (A3:=A3) e1 e2 Inner q12) (commute_rhs e1 e2 Inner q12).
  Proof.
    unfold commute_lhs, commute_rhs. rewrite !inner_pairs, c01_flat_map_swap, !flat_map_map.
    apply Permutation_refl'. apply flat_map_ext. intros y. rewrite !flat_map_map. reflexivity.
  Qed.

  Lemma commute_cross (q12 : Q12) :
    Permutation (commute_lhs (A3:=A3) e1 e2 Cross q12) (commute_rhs e1 e2 Cross q12).
  Proof. exact (commute_inner (fun _ _ => true)). Qed.
End Proofs.

Section Sound.
  Context {A1 A2 A3 : Type}.
  Variables (e1 : list A1) (e2 : list A2) (e3 : list A3).
  Variables (q12 : option A1 -> option A2 -> bool) (q13 : option A1 -> option A3 -> bool)
            (q23 : option A2 -> option A3 -> bool).

  Theorem reorder_sound x A B :
    cond_sem q12 q13 q23 x (sound_table x A B) ->
    Permutation (lhs e1 e2 e3 q12 q13 q23 x A B) (rhs e1 e2 e3 q12 q13 q23 x A B).
  Proof.
    destruct x.
    - (* assoc; a cross join is the inner join on the condition that is always true *)
      destruct A; try (destruct B; cbn; intros H; contradiction); intros H; apply Permutation_refl'.
      + exact (assoc_inner e1 e2 e3 B (fun _ _ => true) q23 ltac:(intros ->; exact H)).
      + apply assoc_inner. intros ->. exact H.
      + destruct B; try contradiction. apply assoc_left_left. exact (Forall_inv H).
    - (* l-asscom *)
      destruct A, B; cbn [sound_table cond_sem]; intros H; try contradiction;
        cbn [lhs rhs]; try (apply lasscom_nf; discriminate);
        apply lasscom_keeps; unfold keeps; auto; intros E; try discriminate E.
      (* the atoms of the entry are what the full joins ask of the other filter *)
      + (* left, full *) exact (Forall_inv H).
      + (* full, left *) exact (Forall_inv H).
      + (* full, full *) exact (Forall_inv (Forall_inv_tail H)).
      + exact (Forall_inv H).
    - (* r-asscom *)
      destruct A, B; cbn [sound_table cond_sem]; intros H; try contradiction; cbn [lhs rhs].
      + exact (rasscom_inner e1 e2 e3 (fun _ _ => true) (fun _ _ => true)).
      + exact (rasscom_inner e1 e2 e3 (fun _ _ => true) q23).
      + exact (rasscom_inner e1 e2 e3 q13 (fun _ _ => true)).
      + exact (rasscom_inner e1 e2 e3 q13 q23).
  Qed.
End Sound.

Lemma translated_tables_le_sound_holds : translated_tables_le_sound = true.
Proof. vm_compute. reflexivity. Qed.

Lemma op_idx_consistent_holds : op_idx_consistent = true.
Proof. vm_compute. reflexivity. Qed.

Lemma op_of_jt_logical j a : op_of_jt j = Some a -> In j logical_jts.
Proof. destruct j; cbn; intros H; try discriminate; auto 10. Qed.

Lemma atom_holds_range nrA nrB w i : atom_holds nrA nrB (w, i) = true -> (i = 1 \/ i = 2 \/ i = 3)%N.
Proof.
  unfold atom_holds, intersects. cbn [fst snd].
  destruct i as [|[[p|p|]|[p|p|]|]]; auto; rewrite N.land_0_r; discriminate.
Qed.

Section Tie.
  Context {A1 A2 A3 : Type}.
  Variables (e1 : list A1) (e2 : list A2) (e3 : list A3).
  Variables (q12 : option A1 -> option A2 -> bool) (q13 : option A1 -> option A3 -> bool)
            (q23 : option A2 -> option A3 -> bool).

  Lemma cond_holds_sem x c nrA nrB :
    nr_correct q12 q13 q23 x nrA nrB -> cond_holds c nrA nrB = true -> cond_sem q12 q13 q23 x c.
  Proof.
    intros HC. destruct c as [| |l]; cbn; intros H; [discriminate|exact I|].
    rewrite forallb_forall in H. apply Forall_forall. intros [w i] Hin. apply HC. apply H. assumption.
  Qed.

  Theorem translated_reorder_sound s jA jB a b nrA nrB :
    op_of_jt jA = Some a -> op_of_jt jB = Some b ->
    In nrA (possible_nr (e_ses (fst (site_edges s jA jB 0 0)))) ->
    In nrB (possible_nr (e_ses (snd (site_edges s jA jB 0 0)))) ->
    nr_correct q12 q13 q23 (site_xform s) nrA nrB ->
    go_xform (site_xform s) (fst (site_edges s jA jB nrA nrB)) (snd (site_edges s jA jB nrA nrB)) = Some true ->
    Permutation (lhs e1 e2 e3 q12 q13 q23 (site_xform s) a b) (rhs e1 e2 e3 q12 q13 q23 (site_xform s) a b).
  Proof.
    intros Ha Hb HnA HnB HC Hgo.
    pose proof translated_tables_le_sound_holds as H.
    apply (forallb_in _ _ s) in H; [|destruct s; cbn; auto].
    apply (forallb_in _ _ jA (op_of_jt_logical _ _ Ha)), (forallb_in _ _ jB (op_of_jt_logical _ _ Hb)) in H.
    unfold entry_le in H. rewrite Ha, Hb in H.
    apply (forallb_in _ _ nrA HnA), (forallb_in _ _ nrB HnB) in H. cbv beta in H.
    destruct (site_edges s jA jB nrA nrB) as [eA eB]. cbn [fst snd] in Hgo. rewrite Hgo in H.
    apply reorder_sound. eapply cond_holds_sem; eassumption.
  Qed.
End Tie.

Lemma translated_commute_ok j : go_commute j = true -> op_of_jt j = Some Inner \/ op_of_jt j = Some Cross.
Proof. destruct j; vm_compute; intros H; try discriminate; auto. Qed.

Lemma nonvacuous_holds :
  go_xform XAssoc (fst (site_edges AssocUp JoinTypeInner JoinTypeLeftOuter 0 0)) (snd (site_edges AssocUp JoinTypeInner JoinTypeLeftOuter 0 0)) = Some true
  /\ go_xform XLasscom (fst (site_edges LasscomUp JoinTypeLeftOuter JoinTypeSemi 0 0)) (snd (site_edges LasscomUp JoinTypeLeftOuter JoinTypeSemi 0 0)) = Some true
  /\ lhs [1;2]%N [1;1;3]%N [1;5]%N (fun _ _ => true) (fun _ _ => true)
         (fun y z => match y, z with Some y, Some z => N.eqb y z | _, _ => false end) XAssoc Inner LeftJ
     = [(Some 1, Some 1, Some 1); (Some 1, Some 1, Some 1); (Some 1, Some 3, None);
        (Some 2, Some 1, Some 1); (Some 2, Some 1, Some 1); (Some 2, Some 3, None)]%N.
Proof. repeat split; vm_compute; reflexivity. Qed.

Lemma assoc_left_inner_unsound :
  exists (e1 e2 e3 : list N) q12 q23,
    ~ Permutation (assoc_lhs e1 e2 e3 LeftJ Inner q12 q23) (assoc_rhs e1 e2 e3 LeftJ Inner q12 q23).
Proof.
  exists [1%N], [], [], (fun _ _ => true), (fun _ _ => true).
  vm_compute. intros H. apply Permutation_length in H. discriminate.
Qed.
