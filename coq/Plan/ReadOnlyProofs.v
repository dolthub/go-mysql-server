(* C42 -- proofs: table-level checks by computation over the generated enumeration, and the tree theorem by
   induction (plans of unbounded depth and width). *)
From Coq Require Import String List Bool Arith Lia.
Import ListNotations.
From GMS Require Import Base.ListFacts Plan.C42Base gen.C42Flags Plan.ReadOnly.
Open Scope string_scope.

(* table-level facts; bound: the kinds present in sql/plan at translation time *)
Lemma all_kinds_classified : forallb classified entries = true.
Proof. vm_compute. reflexivity. Qed.

Lemma flags_sound_table : forallb entry_sound entries = true.
Proof. vm_compute. reflexivity. Qed.

Lemma delegation_complete_table : forallb delegation_complete_entry entries = true.
Proof. vm_compute. reflexivity. Qed.

Lemma flags_complete_table : forallb entry_complete entries = true.
Proof. vm_compute. reflexivity. Qed.

Lemma spec_kinds_exist_ok : spec_kinds_exist = true.
Proof. vm_compute. reflexivity. Qed.

Lemma no_unrecognised_body : forallb (fun e => match e_flag e with ROther => false | _ => true end) entries = true.
Proof. vm_compute. reflexivity. Qed.

Lemma all_kinds_classified_forall : forall e, In e entries -> exists w, spec_of (e_kind e) = Some w.
Proof.
  intros e H. apply forallb_in with (f := classified) in H; [|exact all_kinds_classified].
  unfold classified in H. destruct (spec_of (e_kind e)) as [w|]; [exists w; reflexivity | discriminate].
Qed.

Lemma every_body_recognised : forall e, In e entries -> e_flag e <> ROther.
Proof. intros e H E. pose proof (forallb_in _ _ _ H no_unrecognised_body) as C. cbv beta in C. rewrite E in C. discriminate. Qed.

Lemma flags_sound_forall : forall e alt, In e entries -> In alt (implied (e_flag e)) -> alt_ok e alt = true.
Proof. intros e alt He Ha. exact (forallb_in _ _ _ Ha (forallb_in _ _ _ He flags_sound_table)). Qed.

Lemma delegation_complete_forall : forall e, In e entries -> delegation_complete_entry e = true.
Proof. intros e H. exact (forallb_in _ _ _ H delegation_complete_table). Qed.

Lemma flags_complete_forall : forall e, In e entries -> spec_of (e_kind e) = Some WNever -> positive (e_flag e) = true.
Proof.
  intros e H Hs. apply forallb_in with (f := entry_complete) in H; [|exact flags_complete_table].
  unfold entry_complete in H. rewrite Hs in H. exact H.
Qed.

Lemma find_entry_some : forall k l e, find_entry k l = Some e -> In e l /\ e_kind e = k.
Proof.
  intros k l. induction l as [|x l IH]; intros e H; cbn in H; [discriminate|].
  destruct (String.eqb k (e_kind x)) eqn:E.
  - injection H as <-. apply String.eqb_eq in E. split; [left; reflexivity | symmetry; exact E].
  - destruct (IH _ H) as [Hin Hk]. split; [right; exact Hin | exact Hk].
Qed.

Lemma fact_eqb_eq : forall a b, fact_eqb a b = true -> a = b.
Proof.
  intros [x|x|x|] [y|y|y|] H; cbn in H; try discriminate; try reflexivity;
    apply String.eqb_eq in H; subst; reflexivity.
Qed.

Lemma has_in : forall a l, has a l = true -> In a l.
Proof.
  intros a l H. unfold has in H. apply existsb_exists in H. destruct H as [x [Hin Hx]].
  apply fact_eqb_eq in Hx. subst. exact Hin.
Qed.

Definition holds (rec : tree -> res) (t : tree) (a : fact) : Prop :=
  match a with
  | FRo f => Forall (fun c => rec c = Ro true) (field t f)
  | FNil f => field t f = []
  | FNotNil f => field t f <> []
  | FData => data_of t = true
  end.

Lemma holds_has : forall rec t a alt, has a alt = true -> Forall (holds rec t) alt -> holds rec t a.
Proof. intros rec t a alt Hh Hall. exact (proj1 (Forall_forall _ _) Hall a (has_in _ _ Hh)). Qed.

Lemma all_ro_true : forall rec l k, all_ro rec l k = Ro true -> Forall (fun c => rec c = Ro true) l /\ k = Ro true.
Proof.
  intros rec l k. induction l as [|c l IH]; cbn; intros H.
  - split; [constructor | exact H].
  - destruct (rec c) as [[|]| | |] eqn:E; try discriminate.
    destruct (IH H) as [H1 H2]. split; [constructor; assumption | exact H2].
Qed.

Lemma get_path_cons : forall t f g p,
  get_path t (f :: g :: p) = match field t f with [c] => get_path c (g :: p) | _ => None end.
Proof. reflexivity. Qed.

(* [implied] records a fact only for a path of one component, [f]; for any other path (the empty one included, on
   which the flag panics) it promises nothing about that path *)
Lemma eval_implied : forall rec t r, eval rec t r = Ro true ->
  exists alt, In alt (implied r) /\ Forall (holds rec t) alt.
Proof.
  intros rec t r. induction r as [| |p|a IHa b IHb|p rest IH|p a IHa b IHb|p| |]; intros H; cbn [eval] in H;
    try discriminate.
  - exists []. split; [left; reflexivity | constructor].
  - destruct p as [|f [|g p']].
    2:{ cbn in H. destruct (field t f) as [|c [|c' l]] eqn:Ef; try discriminate.
        exists [FNotNil f; FRo f]. split; [left; reflexivity|].
        repeat constructor; cbn; rewrite Ef; [discriminate | constructor; [exact H|constructor]]. }
    all: exists []; split; [left; reflexivity | constructor].
  - destruct (eval rec t a) as [[|]| | |] eqn:Ea; try discriminate.
    destruct (IHa eq_refl) as [x [Hx Fx]]. destruct (IHb H) as [y [Hy Fy]].
    exists (x ++ y)%list. split; [|apply Forall_app; split; assumption].
    cbn [implied]. apply in_flat_map. exists x. split; [exact Hx|]. apply in_map. exact Hy.
  - destruct (get_path t p) as [l|] eqn:Ep; [|discriminate].
    apply all_ro_true in H as [H1 H2]. destruct (IH H2) as [x [Hx Fx]].
    destruct p as [|f [|g p']].
    2:{ injection Ep as <-. exists (FRo f :: x). split; [apply in_map; exact Hx | constructor; assumption]. }
    all: exists x; split; assumption.
  - destruct (get_path t p) as [[|c l]|] eqn:Ep; [| |discriminate];
      [destruct (IHa H) as [x [Hx Fx]] | destruct (IHb H) as [x [Hx Fx]]];
      (destruct p as [|f [|g p']]; [| injection Ep as Ef |]).
    + exists x. split; [apply in_or_app; left; exact Hx | exact Fx].
    + exists (FNil f :: x). split; [apply in_or_app; left; apply in_map; exact Hx | constructor; assumption].
    + exists x. split; [apply in_or_app; left; exact Hx | exact Fx].
    + exists x. split; [apply in_or_app; right; exact Hx | exact Fx].
    + exists (FNotNil f :: x). split; [apply in_or_app; right; apply in_map; exact Hx|].
      constructor; [cbn; rewrite Ef; discriminate | exact Fx].
    + exists x. split; [apply in_or_app; right; exact Hx | exact Fx].
  - exists [FData]. split; [left; reflexivity|]. repeat constructor. cbn. congruence.
Qed.

(* the nodes that executing a plan executes *)
Inductive exec_node : tree -> tree -> Prop :=
| ex_self : forall t, exec_node t t
| ex_child : forall t e f c n,
    find_entry (kind_of t) entries = Some e -> In f (required e) -> In c (field t f) ->
    exec_node c n -> exec_node t n.

(* what the root flag answering true gives, for one node *)
Lemma ro_true_node : forall fuel t, is_ro fuel t = Ro true ->
  exists f' e alt, fuel = S f' /\ find_entry (kind_of t) entries = Some e /\
    alt_ok e alt = true /\ Forall (holds (is_ro f') t) alt.
Proof.
  intros fuel t H. destruct fuel as [|f']; [discriminate|].
  unfold is_ro in H. cbn [is_ro_in] in H.
  destruct (find_entry (kind_of t) entries) as [e|] eqn:E; [|discriminate].
  apply eval_implied in H as [alt [Hin Hall]].
  exists f', e, alt. repeat split; [|exact Hall].
  exact (flags_sound_forall e alt (proj1 (find_entry_some _ _ _ E)) Hin).
Qed.

Theorem tree_readonly_sound : forall t n, exec_node t n ->
  forall fuel, is_ro fuel t = Ro true -> node_writes n = false.
Proof.
  intros t n Hex. induction Hex as [t | t e f c n E Hf Hc Hex IH]; intros fuel H;
    destruct (ro_true_node _ _ H) as (f' & e' & alt & -> & E' & [Hreq Hs]%andb_prop & Hall).
  - (* the node itself: what its kind needs in order not to write is a fact of the alternative *)
    destruct (find_entry_some _ _ _ E') as [_ Hk]. unfold node_writes. rewrite <- Hk.
    destruct (spec_of (e_kind e')) as [[| |g|]|]; try discriminate; try reflexivity;
      apply (holds_has _ _ _ _ Hs) in Hall; cbn in Hall.
    + destruct (field t g); [contradiction Hall; reflexivity | reflexivity].
    + rewrite Hall. reflexivity.
  - (* a field it executes was asked, or is nil *)
    rewrite E in E'. injection E' as <-.
    apply (forallb_in _ _ _ Hf), orb_prop in Hreq.
    destruct Hreq as [Hr|Hr]; apply (holds_has _ _ _ _ Hr) in Hall; cbn in Hall.
    + exact (IH f' (proj1 (Forall_forall _ _) Hall c Hc)).
    + rewrite Hall in Hc. contradiction.
Qed.

(* the engine-level reading: under a read-only engine, a statement whose plan executes a writing node is not allowed *)
Theorem readonly_rejects_every_write : forall fuel t n,
  exec_node t n -> node_writes n = true -> engine_check true fuel t <> Ro true.
Proof.
  intros fuel t n Hex Hw Hc. unfold engine_check in Hc.
  destruct (is_ro fuel t) as [[|]| | |] eqn:E; try discriminate.
  rewrite (tree_readonly_sound _ _ Hex _ E) in Hw. discriminate.
Qed.

Lemma all_ro_mono : forall (r1 r2 : tree -> res) l k1 k2 b,
  (forall c b, In c l -> r1 c = Ro b -> r2 c = Ro b) -> (forall b, k1 = Ro b -> k2 = Ro b) ->
  all_ro r1 l k1 = Ro b -> all_ro r2 l k2 = Ro b.
Proof.
  intros r1 r2 l k1 k2 b. induction l as [|c l IH]; cbn; intros Hr Hk H.
  - exact (Hk _ H).
  - destruct (r1 c) as [[|]| | |] eqn:E; try discriminate.
    + rewrite (Hr c true (or_introl eq_refl) E). apply IH; [intros; apply Hr; [right|]; assumption | exact Hk | exact H].
    + rewrite (Hr c false (or_introl eq_refl) E). exact H.
Qed.

Lemma eval_mono : forall (r1 r2 : tree -> res) t r b,
  (forall c b, r1 c = Ro b -> r2 c = Ro b) -> eval r1 t r = Ro b -> eval r2 t r = Ro b.
Proof.
  intros r1 r2 t r. induction r as [| |p|a IHa x IHx|p rest IH|p a IHa x IHx|p| |]; intros b Hr H; cbn [eval] in *;
    try exact H.
  - destruct (get_path t p) as [[|c [|c' l]]|]; try discriminate. exact (Hr _ _ H).
  - destruct (eval r1 t a) as [[|]| | |] eqn:Ea; try discriminate.
    + rewrite (IHa true Hr eq_refl). exact (IHx _ Hr H).
    + rewrite (IHa false Hr eq_refl). exact H.
  - destruct (get_path t p) as [l|]; [|discriminate].
    eapply all_ro_mono; [intros c b' _ Hc; exact (Hr _ _ Hc) | intros b' Hb; exact (IH _ Hr Hb) | exact H].
  - destruct (get_path t p) as [[|c l]|]; [exact (IHa _ Hr H) | exact (IHx _ Hr H) | discriminate].
Qed.

Lemma is_ro_mono : forall fuel t b, is_ro fuel t = Ro b -> forall k, is_ro (fuel + k) t = Ro b.
Proof.
  induction fuel as [|f IH]; intros t b H k; [discriminate|].
  unfold is_ro in *. cbn [is_ro_in Nat.add] in *.
  destruct (find_entry (kind_of t) entries) as [e|]; [|discriminate].
  eapply eval_mono; [|exact H]. intros c b' Hc. exact (IH c b' Hc k).
Qed.

(* a clean plan: every node (through every field the flags reach) is of a kind that never writes, and the paths its
   flag dereferences are non-nil *)
Fixpoint paths_ok (t : tree) (r : rexp) : Prop :=
  match r with
  | ROne p => exists c, get_path t p = Some [c]
  | RAnd a b => paths_ok t a /\ paths_ok t b
  | RAll p rest => (exists l, get_path t p = Some l) /\ paths_ok t rest
  | RNil p a b => (exists l, get_path t p = Some l) /\ paths_ok t a /\ paths_ok t b
  | _ => True
  end.

Inductive clean : tree -> Prop :=
| clean_node : forall t e,
    find_entry (kind_of t) entries = Some e -> spec_of (e_kind e) = Some WNever -> paths_ok t (e_flag e) ->
    (forall f c, In c (field t f) -> clean c) -> clean t.

Definition ro_some (c : tree) : Prop := exists n, is_ro n c = Ro true.

Lemma forall_fuel : forall l, Forall ro_some l -> exists n, Forall (fun c => is_ro n c = Ro true) l.
Proof.
  induction l as [|c l IH]; intros H.
  - exists 0. constructor.
  - inversion H as [|? ? [n Hn] Hl]; subst. destruct (IH Hl) as [m Hm]. exists (n + m). constructor.
    + apply is_ro_mono. exact Hn.
    + rewrite Forall_forall in *. intros x Hx. rewrite Nat.add_comm. apply is_ro_mono. exact (Hm x Hx).
Qed.

Lemma all_ro_all_true : forall rec l k, Forall (fun c => rec c = Ro true) l -> all_ro rec l k = k.
Proof.
  intros rec l k H. induction H as [|c l Hc Hl IH]; cbn; [reflexivity|]. rewrite Hc. exact IH.
Qed.

(* the set of subtrees a flag can reach is finite: collect them *)
Definition sub (t : tree) (p : list string) : list tree := match get_path t p with Some l => l | None => [] end.

Fixpoint reach (t : tree) (r : rexp) : list tree :=
  match r with
  | ROne p => sub t p
  | RAll p rest => (sub t p ++ reach t rest)%list
  | RAnd a b | RNil _ a b => (reach t a ++ reach t b)%list
  | _ => []
  end.

Lemma eval_positive_reach : forall rec t r, positive r = true -> paths_ok t r ->
  Forall (fun c => rec c = Ro true) (reach t r) -> eval rec t r = Ro true.
Proof.
  intros rec t r. induction r as [| |p|a IHa x IHx|p rest IH|p a IHa x IHx|p| |]; intros Hp Hok Hrec;
    cbn [eval positive paths_ok reach] in *; try discriminate; try reflexivity.
  - destruct Hok as [c Hc]. unfold sub in Hrec. rewrite Hc in *. exact (Forall_inv Hrec).
  - apply andb_prop in Hp as [Pa Px]. destruct Hok as [Oa Ox]. apply Forall_app in Hrec as [Ra Rx].
    rewrite (IHa Pa Oa Ra). exact (IHx Px Ox Rx).
  - destruct Hok as [[l Hl] Or]. unfold sub in Hrec. rewrite Hl in *. apply Forall_app in Hrec as [Rl Rr].
    rewrite (all_ro_all_true _ _ _ Rl). exact (IH Hp Or Rr).
  - apply andb_prop in Hp as [Pa Px]. destruct Hok as [[l Hl] [Oa Ox]]. rewrite Hl.
    apply Forall_app in Hrec as [Ra Rx]. destruct l; [exact (IHa Pa Oa Ra) | exact (IHx Px Ox Rx)].
Qed.

Lemma reach_forall : forall (Q : tree -> Prop) t r,
  (forall p l, get_path t p = Some l -> Forall Q l) -> Forall Q (reach t r).
Proof.
  intros Q t r HQ.
  assert (Hs : forall p, Forall Q (sub t p)) by (intros p; unfold sub; destruct (get_path t p) eqn:E; eauto).
  induction r; cbn [reach]; try apply Forall_app; auto.
Qed.

Lemma clean_ro : forall t, clean t ->
  ro_some t /\ forall p l, get_path t p = Some l -> Forall ro_some l.
Proof.
  intros t Hc. induction Hc as [t e E Hs Hok Hch IH].
  assert (Hpaths : forall p l, get_path t p = Some l -> Forall ro_some l).
  { intros p l Hp. destruct p as [|f [|g p']]; [discriminate| |].
    - cbn in Hp. injection Hp as <-. rewrite Forall_forall. intros c Hin. exact (proj1 (IH f c Hin)).
    - rewrite get_path_cons in Hp. destruct (field t f) as [|c [|c' l']] eqn:Ef; try discriminate.
      assert (Hin : In c (field t f)) by (rewrite Ef; left; reflexivity).
      exact (proj2 (IH f c Hin) _ _ Hp). }
  split; [|exact Hpaths].
  destruct (forall_fuel _ (reach_forall ro_some t (e_flag e) Hpaths)) as [n Hn].
  exists (S n). unfold is_ro. cbn [is_ro_in]. rewrite E.
  apply eval_positive_reach; [| exact Hok | exact Hn].
  exact (flags_complete_forall e (proj1 (find_entry_some _ _ _ E)) Hs).
Qed.

(* "nothing else": plans built only from non-writing kinds are allowed *)
Theorem readonly_allows_every_read : forall t, clean t -> exists fuel, is_ro fuel t = Ro true.
Proof. intros t Hc. exact (proj1 (clean_ro t Hc)). Qed.

Lemma readonly_allows_every_read_engine :
  forall t, clean t -> exists fuel, is_ro fuel t = Ro true /\ engine_check true fuel t = Ro true.
Proof.
  intros t Hc. destruct (readonly_allows_every_read t Hc) as [n Hn]. exists n. split; [exact Hn|].
  unfold engine_check. rewrite Hn. reflexivity.
Qed.

Lemma readwrite_allows_all : forall fuel t, engine_check false fuel t = Ro true.
Proof. reflexivity. Qed.

Lemma call_always_rejected :
  exists t, kind_of t = "Call" /\ forall fuel, engine_check true (S (S fuel)) t = Ro false.
Proof.
  exists (Node "Call" false [("Procedure", [Node "Procedure" false [("ExternalProc", [])]])]).
  split; [reflexivity|]. intros fuel. vm_compute. reflexivity.
Qed.

Lemma clean_child : forall k e c,
  find_entry k entries = Some e -> spec_of (e_kind e) = Some WNever ->
  paths_ok (Node k false [("Child", [c])]) (e_flag e) -> clean c -> clean (Node k false [("Child", [c])]).
Proof.
  intros k e c E Hs Hok Hc. apply clean_node with (e := e); [exact E | exact Hs | exact Hok |]. intros f c' Hin.
  unfold field in Hin. cbn [fields_of assoc] in Hin.
  destruct (String.eqb f "Child"); [destruct Hin as [<-|[]]; exact Hc | destruct Hin].
Qed.

Lemma nonvacuous :
  (let t := Node "Project" false [("Child", [Node "Filter" false [("Child", [Node "ResolvedTable" false []])]])] in
   clean t /\ is_ro 3 t = Ro true)
  /\ (let w := Node "InsertInto" false [("Destination", [Node "ResolvedTable" false []]); ("Source", [Node "Values" false []])] in
      let t := Node "Block" false [("statements", [Node "Project" false [("Child", [Node "ResolvedTable" false []])]; w])] in
      exec_node t w /\ node_writes w = true /\ is_ro 5 t = Ro false).
Proof.
  split; cbv zeta.
  - split; [|vm_compute; reflexivity].
    repeat (eapply clean_child; [vm_compute; reflexivity | vm_compute; reflexivity | eexists; vm_compute; reflexivity |]).
    eapply clean_node; [vm_compute; reflexivity | vm_compute; reflexivity | exact I | intros f c []].
  - split; [|split; vm_compute; reflexivity].
    eapply ex_child with (f := "statements"); [vm_compute; reflexivity | vm_compute; left; reflexivity | | apply ex_self].
    vm_compute. right. left. reflexivity.
Qed.
