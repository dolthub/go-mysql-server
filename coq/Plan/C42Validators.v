(* C42 -- the two analyzer rules of sql/analyzer/validation_rules.go that implement the read-only TRANSACTION and the
   read-only DATABASE modes: validateReadOnlyTransaction (as repaired by bfb1c4482) and validateReadOnlyDatabase,
   mirrored line by line over the tree that transform.InspectWithOpaque walks, and what they guarantee.
   [ddl_kinds] (the case list of plan.IsDDLNode) is generated from the source by harness/cmd/translate_c42. *)
From Coq Require Import String List Bool NArith.
Import ListNotations.
From GMS Require Import Plan.C42Base gen.C42Flags Plan.ReadOnly.
Open Scope string_scope.

(* kind : Go type name of a *plan.T node ("val:T" for a non-pointer node, "ext:..." for a node type outside sql/plan);
   temp : ResolvedTable: rt.Table is a sql.TemporaryTable whose IsTemporary() is true; CreateTable: n.Temporary();
   ro   : ResolvedTable: class of rt.SqlDatabase, CreateTable: class of n.Database():
          0 = not a sql.ReadOnlyDatabase, 1 = a sql.ReadOnlyDatabase whose IsReadOnly() is false, 2 = ... is true;
   dest : InsertInto: [n.Destination];
   kids : the nodes InspectWithOpaque descends into (Child() of a UnaryNode, Left()/Right() of a BinaryNode,
          Children() otherwise), in order. *)
Inductive vt : Type := V (kind : string) (temp : bool) (ro : N) (dest : list vt) (kids : list vt).

Definition vkind (t : vt) : string := let '(V k _ _ _ _) := t in k.
Definition vtemp (t : vt) : bool := let '(V _ b _ _ _) := t in b.
Definition vro (t : vt) : N := let '(V _ _ r _ _) := t in r.
Definition vdest (t : vt) : list vt := let '(V _ _ _ d _) := t in d.
Definition vkids (t : vt) : list vt := let '(V _ _ _ _ k) := t in k.

(* transform.InspectWithOpaque with a callback f that updates the captured variable [valid]:
   step valid node = (valid after f(node), what f returned).  walk.go: if !f(node) return; then the children in order. *)
Section Walk.
  Variable step : bool -> vt -> bool * bool.
  Fixpoint walk (valid : bool) (t : vt) : bool :=
    match t with
    | V _ _ _ _ kids =>
        let '(v', cont) := step valid t in
        if cont
        then (fix go (v : bool) (l : list vt) : bool := match l with [] => v | c :: r => go (walk v c) r end) v' kids
        else v'
    end.
End Walk.

Definition is_rt (t : vt) : bool := String.eqb (vkind t) "ResolvedTable".
Definition is_ddl (k : string) : bool := mem k ddl_kinds.     (* plan.IsDDLNode *)

(* validateReadOnlyTransaction *)
(* temporaryTableSearch: if rt, ok := node is a ResolvedTable; ok { valid = isTempTable(rt.Table) }; return valid *)
Definition tsearch_step (valid : bool) (node : vt) : bool * bool :=
  let v' := if is_rt node then vtemp node else valid in (v', v').
Definition tsearch : bool -> vt -> bool := walk tsearch_step.

Inductive tclass : Type := TSearch | TInsert | TLock | TCreateTable | TOther.
Definition txn_class (k : string) : tclass :=
  if String.eqb k "DeleteFrom" then TSearch else if String.eqb k "Update" then TSearch
  else if String.eqb k "UnlockTables" then TSearch
  else if String.eqb k "InsertInto" then TInsert
  else if String.eqb k "LockTables" then TLock
  else if String.eqb k "CreateTable" then TCreateTable
  else TOther.

(* the callback of the outer walk: [switch n := n.(type)] tests the ROOT [root] whatever [node] is *)
Definition txn_step (root : vt) (valid : bool) (node : vt) : bool * bool :=
  match txn_class (vkind root) with
  | TSearch => (tsearch valid node, false)
  | TInsert => (fold_left tsearch (vdest root) valid, false)
  | TLock => (false, false)
  | TCreateTable => ((if vtemp root then false else valid), false)
  | TOther => if is_ddl (vkind root) then (true, false) else (valid, valid)
  end.

Definition ro_txn_valid (t : vt) : bool := walk (txn_step t) true t.

(* result codes shared with the driver: 0 accepted, 1 ErrReadOnlyTransaction, 2 ErrReadOnlyDatabase,
   3 ErrProcedureCallAsOfReadOnly *)
Definition txn_rule (has_txn txn_ro enforce : bool) (t : vt) : N :=
  if negb has_txn then 0%N
  else if negb txn_ro && negb enforce then 0%N
  else if ro_txn_valid t then 0%N else 1%N.

(* validateReadOnlyDatabase *)
Definition ro_hit (enforce : bool) (valid : bool) (cls : N) : bool :=
  if N.eqb cls 2 then false else if N.eqb cls 1 then (if enforce then false else valid) else valid.

Definition dsearch_step (enforce : bool) (valid : bool) (node : vt) : bool * bool :=
  let v' := if is_rt node then ro_hit enforce valid (vro node) else valid in (v', v').
Definition dsearch (enforce : bool) : bool -> vt -> bool := walk (dsearch_step enforce).

Inductive dclass : Type := DSearch | DInsert | DCreateTable | DOther.
Definition db_class (k : string) : dclass :=
  if String.eqb k "DeleteFrom" then DSearch else if String.eqb k "Update" then DSearch
  else if String.eqb k "LockTables" then DSearch else if String.eqb k "UnlockTables" then DSearch
  else if String.eqb k "InsertInto" then DInsert
  else if String.eqb k "CreateTable" then DCreateTable
  else DOther.

Definition db_step (enforce : bool) (root : vt) (valid : bool) (node : vt) : bool * bool :=
  match db_class (vkind root) with
  | DSearch => (dsearch enforce valid node, false)
  | DInsert => (fold_left (dsearch enforce) (vdest root) valid, false)
  | DCreateTable => (ro_hit enforce valid (vro root), false)
  | DOther => if is_ddl (vkind root) then (dsearch enforce valid root, false) else (valid, valid)
  end.

Definition ro_db_valid (enforce : bool) (t : vt) : bool := walk (db_step enforce t) true t.

Definition db_rule (enforce : bool) (t : vt) : N :=
  if ro_db_valid enforce t then 0%N else if enforce then 3%N else 2%N.

Fixpoint vt_ind' (P : vt -> Prop) (H : forall t, Forall P (vkids t) -> P t) (t : vt) : P t :=
  match t with
  | V k tp r d kids =>
      H (V k tp r d kids)
        ((fix f (l : list vt) : Forall P l :=
            match l with [] => Forall_nil P | x :: r => Forall_cons x (vt_ind' P H x) (f r) end) kids)
  end.

(* every node reachable through [kids] satisfies q *)
Fixpoint allk (q : vt -> bool) (t : vt) : bool :=
  match t with
  | V _ _ _ _ kids => q t && (fix go (l : list vt) : bool := match l with [] => true | c :: r => allk q c && go r end) kids
  end.

Lemma allk_eq : forall q t, allk q t = q t && forallb (allk q) (vkids t).
Proof.
  intros q [k tp r d kids]. reflexivity.
Qed.

Lemma walk_eq : forall step v t,
  walk step v t = let '(v', cont) := step v t in if cont then fold_left (walk step) (vkids t) v' else v'.
Proof.
  intros step v [k tp r d kids]. cbn [walk vkids]. destruct (step v (V k tp r d kids)) as [v' cont].
  destruct cont; [|reflexivity]. revert v'. induction kids as [|c l IH]; intro v'; [reflexivity|].
  cbn [fold_left]. apply IH.
Qed.

(* the children in order, when each child's walk is a conjunction / keeps true *)
Lemma fold_and_on : forall (f : bool -> vt -> bool) (h g : vt -> bool) l,
  Forall (fun c => forall v, h c = true -> f v c = v && g c) l -> forallb h l = true ->
  forall v, fold_left f l v = v && forallb g l.
Proof.
  intros f h g l F. induction F as [|c l Hc _ IH]; intros Hl v; cbn [fold_left forallb] in *; [now rewrite andb_true_r|].
  apply andb_true_iff in Hl as [H1 H2]. rewrite (Hc v H1), (IH H2). now rewrite andb_assoc.
Qed.

Lemma fold_keeps_true : forall (f : bool -> vt -> bool) (h : vt -> bool) l,
  Forall (fun c => h c = true -> f true c = true) l -> forallb h l = true -> fold_left f l true = true.
Proof.
  intros f h l F. induction F as [|c l Hc _ IH]; intros Hl; cbn [fold_left forallb] in *; [reflexivity|].
  apply andb_true_iff in Hl as [H1 H2]. rewrite (Hc H1). exact (IH H2).
Qed.

Lemma walk_stops : forall step v t v', step v t = (v', false) -> walk step v t = v'.
Proof. intros step v t v' H. rewrite walk_eq, H. reflexivity. Qed.

Definition mono_step (q : vt -> bool) (v : bool) (n : vt) : bool * bool := (v && q n, v && q n).

(* a callback that can only lower [valid], on the nodes of the tree: the walk computes a conjunction *)
Lemma walk_mono_on : forall step h q,
  (forall v n, h n = true -> step v n = mono_step q v n) ->
  forall t v, allk h t = true -> walk step v t = v && allk q t.
Proof.
  intros step h q Hs t. induction t as [t IHk] using vt_ind'. intros v Ha.
  rewrite walk_eq, allk_eq. rewrite allk_eq in Ha. apply andb_true_iff in Ha as [Hh Hk].
  rewrite (Hs v _ Hh). unfold mono_step. rewrite andb_assoc.
  destruct (v && q t); [|reflexivity]. apply fold_and_on with (h := allk h); assumption.
Qed.

Lemma allk_true : forall t, allk (fun _ => true) t = true.
Proof.
  induction t as [t IHk] using vt_ind'. rewrite allk_eq. apply forallb_forall, Forall_forall, IHk.
Qed.

Lemma allk_impl : forall (p q : vt -> bool), (forall n, p n = true -> q n = true) ->
  forall t, allk p t = true -> allk q t = true.
Proof.
  intros p q Hpq t. induction t as [t IHk] using vt_ind'. rewrite !allk_eq. intros [Hp Hk]%andb_true_iff.
  rewrite (Hpq _ Hp). apply forallb_forall. intros c Hc.
  exact (proj1 (Forall_forall _ _) IHk c Hc (proj1 (forallb_forall _ _) Hk c Hc)).
Qed.

Lemma walk_mono : forall step q, (forall v n, step v n = mono_step q v n) ->
  forall t v, walk step v t = v && allk q t.
Proof. intros step q Hs t v. apply (walk_mono_on step (fun _ => true) q); [intros; apply Hs | apply allk_true]. Qed.

Lemma walk_keeps_true : forall step h,
  (forall n, h n = true -> step true n = (true, true)) ->
  forall t, allk h t = true -> walk step true t = true.
Proof.
  intros step h Hs t. induction t as [t IHk] using vt_ind'. intro Ha.
  rewrite walk_eq. rewrite allk_eq in Ha. apply andb_true_iff in Ha as [Hh Hk]. rewrite (Hs _ Hh).
  apply fold_keeps_true with (h := allk h); assumption.
Qed.

Definition no_rt (t : vt) : bool := allk (fun n => negb (is_rt n)) t.                     (* no ResolvedTable is walked *)
Definition all_perm (t : vt) : bool := allk (fun n => negb (is_rt n) || negb (vtemp n)) t. (* ... every one is permanent *)
Definition all_temp (t : vt) : bool := allk (fun n => negb (is_rt n) || vtemp n) t.        (* ... every one is temporary *)

Lemma tsearch_perm : forall t v, all_perm t = true -> tsearch v t = v && no_rt t.
Proof.
  intros t v H. unfold tsearch, no_rt.
  apply (walk_mono_on tsearch_step (fun n => negb (is_rt n) || negb (vtemp n)) (fun n => negb (is_rt n))); [|exact H].
  intros v0 n Hn. unfold tsearch_step, mono_step. destruct (is_rt n); cbn in *.
  - rewrite negb_true_iff in Hn. rewrite Hn. now rewrite andb_false_r.
  - now rewrite andb_true_r.
Qed.

Lemma tsearch_temp : forall t, all_temp t = true -> tsearch true t = true.
Proof.
  intros t H. unfold tsearch. apply (walk_keeps_true tsearch_step (fun n => negb (is_rt n) || vtemp n)); [|exact H].
  intros n Hn. unfold tsearch_step. destruct (is_rt n); cbn in *; [now rewrite Hn | reflexivity].
Qed.

(* what the rule computes, by the kind of the ROOT alone *)
Definition txn_spec (t : vt) : bool :=
  match txn_class (vkind t) with
  | TSearch => tsearch true t
  | TInsert => fold_left tsearch (vdest t) true
  | TLock => false
  | TCreateTable => negb (vtemp t)
  | TOther => true
  end.

Lemma ro_txn_valid_char : forall t, ro_txn_valid t = txn_spec t.
Proof.
  intro t. unfold ro_txn_valid, txn_spec.
  destruct (txn_class (vkind t)) eqn:C; [| | | |destruct (is_ddl (vkind t)) eqn:D].
  1-5: apply walk_stops; unfold txn_step; rewrite C, ?D; reflexivity.
  apply (walk_keeps_true (txn_step t) (fun _ => true)); [|apply allk_true].
  intros n _. unfold txn_step. now rewrite C, D.
Qed.

Theorem ro_txn_valid_iff : forall t,
  ro_txn_valid t = true <->
  match txn_class (vkind t) with
  | TSearch => tsearch true t = true
  | TInsert => fold_left tsearch (vdest t) true = true
  | TLock => False
  | TCreateTable => vtemp t = false
  | TOther => True
  end.
Proof.
  intro t. rewrite ro_txn_valid_char. unfold txn_spec. destruct (txn_class (vkind t)); try tauto.
  - split; [discriminate | tauto].
  - now rewrite negb_true_iff.
Qed.

(* the node a DML root writes through: the whole tree for UPDATE / DELETE, the Destination for INSERT *)
Definition dml_root (k : string) : bool := mem k ["InsertInto"; "Update"; "DeleteFrom"].
Definition target (t : vt) : list vt := if String.eqb (vkind t) "InsertInto" then vdest t else [t].

Lemma fold_tsearch_perm : forall l v, forallb all_perm l = true -> fold_left tsearch l v = v && forallb no_rt l.
Proof.
  intros l v H. apply fold_and_on with (h := all_perm); [|exact H].
  apply Forall_forall. intros c _ v0 Hc. exact (tsearch_perm c v0 Hc).
Qed.

Lemma txn_valid_dml : forall t, dml_root (vkind t) = true -> ro_txn_valid t = fold_left tsearch (target t) true.
Proof.
  intros t Hk. rewrite ro_txn_valid_char. unfold txn_spec, target, txn_class.
  unfold dml_root, mem in Hk. cbn [existsb] in Hk.
  destruct (String.eqb (vkind t) "InsertInto") eqn:I.
  - apply String.eqb_eq in I. rewrite I. reflexivity.
  - destruct (String.eqb (vkind t) "DeleteFrom"); [reflexivity|].
    destruct (String.eqb (vkind t) "Update"); [reflexivity|discriminate Hk].
Qed.

Theorem txn_rejects_root_dml : forall t,
  dml_root (vkind t) = true -> forallb all_perm (target t) = true -> forallb no_rt (target t) = false ->
  ro_txn_valid t = false /\ (forall e, txn_rule true true e t = 1%N).
Proof.
  intros t Hk Hp Hr.
  assert (R : ro_txn_valid t = false) by (rewrite (txn_valid_dml t Hk), (fold_tsearch_perm _ _ Hp); exact Hr).
  split; [exact R|]. intro e. unfold txn_rule. cbn. now rewrite R.
Qed.

(* only temporary tables below a DML root: let through (the exemption MySQL makes) *)
Theorem txn_allows_temporary_dml : forall t,
  dml_root (vkind t) = true -> forallb all_temp (target t) = true -> ro_txn_valid t = true.
Proof.
  intros t Hk Hp. rewrite (txn_valid_dml t Hk). apply fold_keeps_true with (h := all_temp); [|exact Hp].
  apply Forall_forall. intros c _. apply tsearch_temp.
Qed.

(* every other root is let through whatever is below it *)
Theorem txn_other_root_valid : forall t, txn_class (vkind t) = TOther -> ro_txn_valid t = true.
Proof. intros t H. rewrite ro_txn_valid_char. unfold txn_spec. now rewrite H. Qed.

(* a node of the walked tree that is an INSERT/UPDATE/DELETE through a permanent table *)
Definition perm_rt : vt := V "ResolvedTable" false 0 [] [].
Definition temp_rt : vt := V "ResolvedTable" true 0 [] [].
Definition writes_permanent (n : vt) : bool :=
  dml_root (vkind n) && negb (forallb no_rt (target n)) && forallb all_perm (target n).
Definition has_write_below (t : vt) : bool := negb (allk (fun n => negb (writes_permanent n)) t).

Definition w_insert : vt := V "InsertInto" false 0 [perm_rt] [perm_rt].
Definition w_call : vt := V "Call" false 0 [] [].      (* as the engine builds it: Children() of Call is empty *)
Definition w_nested : vt := V "BeginEndBlock" false 0 [] [V "Project" false 0 [] [perm_rt]; w_insert].
Definition w_ddl_nested : vt := V "Block" false 0 [] [w_insert].

Lemma txn_write_not_at_root :
  (* CALL: neither of the six root cases nor a DDL node; the body of the procedure is not even in the walked tree *)
  (vkind w_call = "Call" /\ forall kids dest, ro_txn_valid (V "Call" false 0 dest kids) = true)
  /\ (has_write_below w_nested = true /\ ro_txn_valid w_nested = true)
  /\ (has_write_below w_ddl_nested = true /\ ro_txn_valid w_ddl_nested = true)
  /\ (ro_txn_valid w_insert = false).
Proof.
  split; [split; [reflexivity | intros; now apply txn_other_root_valid] |].
  vm_compute. repeat split; reflexivity.
Qed.

(* temporaryTableSearch assigns [valid] at every ResolvedTable: a later temporary table resets the verdict of an
   earlier permanent one (the walk still visits the siblings of a rejected leaf) *)
Definition w_reset : vt := V "Update" false 0 [] [V "JoinNode" false 0 [] [perm_rt; temp_rt]].
Lemma txn_later_temp_resets : writes_permanent (V "Update" false 0 [] [perm_rt]) = true
  /\ allk (fun n => negb (is_rt n) || negb (vtemp n)) w_reset = false /\ no_rt w_reset = false /\ ro_txn_valid w_reset = true.
Proof. vm_compute. repeat split; reflexivity. Qed.

Definition bad_class (enforce : bool) (c : N) : bool := N.eqb c 2 || (N.eqb c 1 && enforce).
Definition clean_node (enforce : bool) (n : vt) : bool := negb (is_rt n && bad_class enforce (vro n)).
(* no ResolvedTable of a read-only database is walked *)
Definition db_clean (enforce : bool) (t : vt) : bool := allk (clean_node enforce) t.

Lemma ro_hit_eq : forall e v c, ro_hit e v c = v && negb (bad_class e c).
Proof.
  intros e v c. unfold ro_hit, bad_class. destruct (N.eqb c 2); cbn; [now rewrite andb_false_r|].
  destruct (N.eqb c 1); cbn; [|now rewrite andb_true_r]. destruct e; cbn; [now rewrite andb_false_r | now rewrite andb_true_r].
Qed.

Lemma dsearch_eq : forall e t v, dsearch e v t = v && db_clean e t.
Proof.
  intros e t v. unfold dsearch, db_clean. apply walk_mono. intros v0 n. unfold dsearch_step, mono_step, clean_node.
  destruct (is_rt n); cbn; [now rewrite ro_hit_eq | now rewrite andb_true_r].
Qed.

Lemma fold_dsearch_eq : forall e l v, fold_left (dsearch e) l v = v && forallb (db_clean e) l.
Proof.
  induction l as [|c l IH]; intro v; cbn [fold_left forallb]; [now rewrite andb_true_r|].
  rewrite dsearch_eq, IH. now rewrite andb_assoc.
Qed.

Definition db_spec (e : bool) (t : vt) : bool :=
  match db_class (vkind t) with
  | DSearch => db_clean e t
  | DInsert => forallb (db_clean e) (vdest t)
  | DCreateTable => negb (bad_class e (vro t))
  | DOther => if is_ddl (vkind t) then db_clean e t else true
  end.

Theorem ro_db_valid_char : forall e t, ro_db_valid e t = db_spec e t.
Proof.
  intros e t. unfold ro_db_valid, db_spec.
  destruct (db_class (vkind t)) eqn:C; [| | |destruct (is_ddl (vkind t)) eqn:D].
  1-4: erewrite walk_stops by (unfold db_step; rewrite C, ?D; reflexivity).
  - apply dsearch_eq.
  - apply fold_dsearch_eq.
  - apply ro_hit_eq.
  - apply dsearch_eq.
  - apply (walk_keeps_true (db_step e t) (fun _ => true)); [|apply allk_true].
    intros n _. unfold db_step. now rewrite C, D.
Qed.

(* the statement kinds the rule covers: a root it searches with a read-only database's table below it (INSERT: in
   its Destination), or CREATE TABLE in a read-only database *)
Definition db_covered (k : string) : bool :=
  match db_class k with DSearch => true | DInsert => false | DCreateTable => false | DOther => is_ddl k end.

Theorem db_rejects_covered : forall e t,
  (db_covered (vkind t) = true /\ db_clean e t = false)
  \/ (vkind t = "InsertInto" /\ forallb (db_clean e) (vdest t) = false)
  \/ (vkind t = "CreateTable" /\ bad_class e (vro t) = true) ->
  ro_db_valid e t = false /\ db_rule e t = (if e then 3%N else 2%N).
Proof.
  intros e t H.
  assert (R : ro_db_valid e t = false).
  { rewrite ro_db_valid_char. unfold db_spec. destruct H as [[Hc Hd] | [[Hk Hd] | [Hk Hb]]].
    - unfold db_covered in Hc. destruct (db_class (vkind t)); try discriminate; [exact Hd | now rewrite Hc].
    - rewrite Hk. cbn. exact Hd.
    - rewrite Hk. cbn. now rewrite Hb. }
  split; [exact R|]. unfold db_rule. now rewrite R.
Qed.

Theorem db_other_root_valid : forall e t,
  db_class (vkind t) = DOther -> is_ddl (vkind t) = false -> ro_db_valid e t = true.
Proof. intros e t C D. rewrite ro_db_valid_char. unfold db_spec. now rewrite C, D. Qed.

Lemma no_rt_clean : forall e t, no_rt t = true -> db_clean e t = true.
Proof.
  intros e. apply allk_impl. intros n Hn. unfold clean_node. apply negb_true_iff in Hn. now rewrite Hn.
Qed.

Theorem db_no_table_valid : forall e t,
  db_covered (vkind t) = true -> no_rt t = true -> ro_db_valid e t = true.
Proof.
  intros e t Hc Hn. rewrite ro_db_valid_char. unfold db_spec, db_covered in *.
  pose proof (no_rt_clean e t Hn) as Cl.
  destruct (db_class (vkind t)); try discriminate; [exact Cl | now rewrite Hc].
Qed.

(* kinds of [writers] that change the schema objects of one database (tables, columns, indexes, constraints, views,
   triggers, routines, events); hand-written, checked to be a part of [writers] *)
Definition db_ddl_writers : list string := [
  "AddColumn"; "AlterAutoIncrement"; "AlterDefaultDrop"; "AlterDefaultSet"; "AlterEvent"; "AlterIndex"; "AlterPK";
  "AlterTableCollation"; "AlterTableComment"; "CreateCheck"; "CreateEvent"; "CreateForeignKey"; "CreateIndex";
  "CreateProcedure"; "CreateTable"; "CreateTrigger"; "CreateView"; "DropCheck"; "DropColumn"; "DropConstraint";
  "DropEvent"; "DropForeignKey"; "DropIndex"; "DropProcedure"; "DropTable"; "DropTrigger"; "DropView";
  "ModifyColumn"; "RenameColumn"; "RenameForeignKey"; "RenameTable"; "SingleDropView"; "Truncate"].

Definition missing_from_ddl_list : list string := filter (fun k => negb (is_ddl k)) db_ddl_writers.

(* DropConstraint is replaced by DropCheck / DropForeignKey (resolveDropConstraint) and SingleDropView only occurs
   below DropView, so neither is a root when the rule runs; RenameForeignKey is not produced by the planbuilder *)
Definition never_roots : list string := ["DropConstraint"; "SingleDropView"; "RenameForeignKey"].

Lemma ddl_list_facts :
  forallb (fun k => mem k writers) db_ddl_writers = true
  /\ forallb (fun k => mem k (map e_kind entries)) ddl_kinds = true
  /\ forallb (fun k => mem k writers || String.eqb k "Block") ddl_kinds = true
  /\ missing_from_ddl_list =
       ["AlterAutoIncrement"; "AlterDefaultDrop"; "AlterDefaultSet"; "AlterEvent"; "AlterTableCollation";
        "AlterTableComment"; "DropConstraint"; "RenameForeignKey"; "SingleDropView"]
  /\ forallb (fun k => negb (is_ddl k) && match db_class k with DOther => true | _ => false end) missing_from_ddl_list = true.
Proof. vm_compute. repeat split; reflexivity. Qed.

(* group ddl-root-not-in-IsDDLNode: the table of the read-only database is in the plan, the root is not searched *)
Definition ro_rt : vt := V "ResolvedTable" false 2 [] [].
Lemma db_missing_roots_accept :
  forallb (fun k => ro_db_valid false (V k false 0 [] [ro_rt]) && negb (db_clean false (V k false 0 [] [ro_rt])))
          missing_from_ddl_list = true.
Proof. vm_compute. reflexivity. Qed.

(* group ddl-plan-without-resolved-table: roots that ARE searched, whose analyzed plan names its table / view /
   trigger / routine / event by a string and a database, never by a ResolvedTable (plans as recorded from the engine) *)
Definition ddl_without_table : list string :=
  ["RenameTable"; "DropView"; "DropTrigger"; "CreateProcedure"; "DropProcedure"; "CreateForeignKey"; "DropForeignKey"; "DropEvent"].
Lemma db_tableless_ddl_accept :
  forallb (fun k => is_ddl k && mem k db_ddl_writers && db_covered k && ro_db_valid false (V k false 0 [] [])) ddl_without_table = true.
Proof. vm_compute. reflexivity. Qed.

Lemma db_nonvacuous :
  ro_db_valid false (V "Update" false 0 [] [V "Filter" false 0 [] [ro_rt]]) = false
  /\ ro_db_valid false (V "InsertInto" false 0 [perm_rt] [perm_rt; V "Project" false 0 [] [ro_rt]]) = true  (* read-only SOURCE *)
  /\ ro_db_valid false (V "InsertInto" false 0 [ro_rt] [ro_rt]) = false
  /\ ro_db_valid false (V "DropTable" false 0 [] [ro_rt]) = false
  /\ ro_db_valid false (V "CreateTable" false 2 [] []) = false
  /\ ro_db_valid false (V "CreateTable" false 0 [] [V "Project" false 0 [] [ro_rt]]) = true                   (* ... AS SELECT from it *)
  /\ ro_db_valid false (V "Project" false 0 [] [ro_rt]) = true
  /\ ro_db_valid true (V "Update" false 0 [] [V "ResolvedTable" false 1 [] []]) = false
  /\ db_rule true (V "Update" false 0 [] [V "ResolvedTable" false 1 [] []]) = 3%N.
Proof. vm_compute. repeat split; reflexivity. Qed.
