(* C01, layer (a): bag semantics of join trees over {cross, inner, semi, anti, left, full} and the model of
   sql/memo/join_order_builder.go  assoc / leftAsscom / rightAsscom / commute / checkProperty / getOpIdx.
   The three lookup tables, getOpIdx, commute and the bit tests of checkProperty are NOT written here: they
   are read from coq/gen/C01Tables.v, which the translator regenerates from /repo on every check. *)
From Coq Require Import List NArith Bool.
Import ListNotations.
From GMS Require Import gen.C01Tables.

(* Three input relations e1 e2 e3 over arbitrary element types (an element is a whole tuple of the
   sub-plan that produced it).  A tuple of a join tree has one slot per input; an empty slot means
   "all columns of that input are NULL" (outer-join padding) or "not produced" (semi / anti). *)

Inductive op : Set := Cross | Inner | Semi | Anti | LeftJ | Full.

Definition orelse {X} (a b : option X) : option X := match a with Some _ => a | None => b end.

Section Sem.
  Context {A1 A2 A3 : Type}.
  Definition T : Type := (option A1 * option A2 * option A3)%type.
  Definition c1 (t : T) := fst (fst t).
  Definition c2 (t : T) := snd (fst t).
  Definition c3 (t : T) := snd t.
  Definition merge (t u : T) : T :=
    (orelse (c1 t) (c1 u), orelse (c2 t) (c2 u), orelse (c3 t) (c3 u)).

  Definition lift1 (a : A1) : T := (Some a, None, None).
  Definition lift2 (a : A2) : T := (None, Some a, None).
  Definition lift3 (a : A3) : T := (None, None, Some a).

  (* right tuples joined to the left tuple t that satisfy the ON condition (condition is TRUE, not NULL) *)
  Definition matches (p : T -> bool) (t : T) (r : list T) : list T := filter p (map (merge t) r).

  (* rows produced for one left tuple *)
  Definition ext (o : op) (p : T -> bool) (r : list T) (t : T) : list T :=
    match o with
    | Cross => matches (fun _ => true) t r
    | Inner => matches p t r
    | Semi => if existsb p (map (merge t) r) then [t] else []
    | Anti => if existsb p (map (merge t) r) then [] else [t]
    | LeftJ | Full => match matches p t r with [] => [t] | m => m end
    end.

  Definition unmatched_right (p : T -> bool) (l r : list T) : list T :=
    filter (fun u => negb (existsb (fun t => p (merge t u)) l)) r.

  Definition join (o : op) (p : T -> bool) (l r : list T) : list T :=
    flat_map (ext o p r) l ++ match o with Full => unmatched_right p l r | _ => [] end.

  Definition on12 (q : option A1 -> option A2 -> bool) : T -> bool := fun t => q (c1 t) (c2 t).
  Definition on23 (q : option A2 -> option A3 -> bool) : T -> bool := fun t => q (c2 t) (c3 t).
  Definition on13 (q : option A1 -> option A3 -> bool) : T -> bool := fun t => q (c1 t) (c3 t).

  Section Trees.
    Variables (e1 : list A1) (e2 : list A2) (e3 : list A3).
    Let L1 := map lift1 e1.
    Let L2 := map lift2 e2.
    Let L3 := map lift3 e3.

    (* assoc:     (e1 A_12 e2) B_23 e3   =   e1 A_12 (e2 B_23 e3) *)
    Definition assoc_lhs A B q12 q23 := join B (on23 q23) (join A (on12 q12) L1 L2) L3.
    Definition assoc_rhs A B q12 q23 := join A (on12 q12) L1 (join B (on23 q23) L2 L3).
    (* l-asscom:  (e1 A_12 e2) B_13 e3   =   (e1 B_13 e3) A_12 e2 *)
    Definition lasscom_lhs A B q12 q13 := join B (on13 q13) (join A (on12 q12) L1 L2) L3.
    Definition lasscom_rhs A B q12 q13 := join A (on12 q12) (join B (on13 q13) L1 L3) L2.
    (* r-asscom:  e1 A_13 (e2 B_23 e3)   =   e2 B_23 (e1 A_13 e3)
       (rightAsscom is called as rightAsscom(parent, child): the table row is the parent operator) *)
    Definition rasscom_lhs A B q13 q23 := join A (on13 q13) L1 (join B (on23 q23) L2 L3).
    Definition rasscom_rhs A B q13 q23 := join B (on23 q23) L2 (join A (on13 q13) L1 L3).
    (* commute:   e1 A_12 e2  =  e2 A_12 e1 *)
    Definition commute_lhs A q12 := join A (on12 q12) L1 L2.
    Definition commute_rhs A q12 := join A (on12 q12) L2 L1.
  End Trees.

  (* "the filter rejects NULLs on input i": it is not TRUE when all columns of that input are NULL *)
  Definition rejects_l {X Y} (q : option X -> option Y -> bool) : Prop := forall y, q None y = false.
  Definition rejects_r {X Y} (q : option X -> option Y -> bool) : Prop := forall x, q x None = false.
End Sem.

(* The sound table: for each transformation and operator pair, the side condition under which both
   trees denote the same bag for all relations and all ON conditions (proved in C01ReorderProofs). *)

Inductive xform : Set := XAssoc | XLasscom | XRasscom.
(* an atom (edge, input): the ON condition of that edge rejects NULLs on input e_i *)
Inductive cond : Set := Never | Always | When (atoms : list (EdgeName * N)).

Definition sound_table (x : xform) (a b : op) : cond :=
  match x, a, b with
  | XAssoc, (Cross | Inner), (Cross | Inner | Semi | Anti | LeftJ) => Always
  | XAssoc, LeftJ, LeftJ => When [(edgeB, 2%N)]
  | XLasscom, (Cross | Inner | Semi | Anti | LeftJ), (Cross | Inner | Semi | Anti | LeftJ) => Always
  | XLasscom, LeftJ, Full => When [(edgeA, 1%N)]
  | XLasscom, Full, LeftJ => When [(edgeB, 1%N)]
  | XLasscom, Full, Full => When [(edgeA, 1%N); (edgeB, 1%N)]
  | XRasscom, (Cross | Inner), (Cross | Inner) => Always
  | _, _, _ => Never
  end.

(* Model of the Go decision procedure (vertex sets are bit sets in N, as sets.BitSet). *)

Definition vset := N.
Definition intersects (a b : vset) : bool := negb (N.eqb (N.land a b) 0).

Record edge := { e_jt : JoinType; e_left : vset; e_right : vset; e_ses : vset; e_nr : vset }.

Definition JoinType_eq_dec (a b : JoinType) : {a = b} + {a <> b}.
Proof. decide equality. Defined.

Fixpoint lookup_jt (j : JoinType) (l : list (JoinType * N)) : option N :=
  match l with
  | [] => None
  | (k, v) :: l' => if JoinType_eq_dec j k then Some v else lookup_jt j l'
  end.

(* getOpIdx; None models the panic of the default branch *)
Definition op_idx (e : edge) : option N := lookup_jt (e_jt e) getOpIdx.

Definition side_of (eA eB : edge) (p : EdgeName * SideName) : vset :=
  match p with
  | (edgeA, leftVertices) => e_left eA
  | (edgeA, rightVertices) => e_right eA
  | (edgeB, leftVertices) => e_left eB
  | (edgeB, rightVertices) => e_right eB
  end.

Fixpoint pick_candidate (entry : N) (eA eB : edge) (l : list (N * (EdgeName * SideName))) : vset :=
  match l with
  | [] => 0%N
  | (bit, p) :: l' => if negb (N.eqb (N.land entry bit) 0) then side_of eA eB p else pick_candidate entry eA eB l'
  end.

Definition nr_of (eA eB : edge) (w : EdgeName) : vset := match w with edgeA => e_nr eA | edgeB => e_nr eB end.

Definition table_entry (table : list (list N)) (i j : N) : N :=
  nth (N.to_nat j) (nth (N.to_nat i) table []) 0%N.

Definition check_property (table : list (list N)) (eA eB : edge) : option bool :=
  match op_idx eA, op_idx eB with
  | Some i, Some j =>
      let entry := table_entry table i j in
      if N.eqb entry never then Some false
      else if N.eqb entry always then Some true
      else
        let cand := pick_candidate entry eA eB candidatePicks in
        Some (forallb (fun t : N * EdgeName =>
                         if N.eqb (N.land entry (fst t)) 0 then true
                         else intersects (nr_of eA eB (snd t)) cand) filterTests)
  | _, _ => None
  end.

Definition go_assoc (eA eB : edge) : option bool :=
  if intersects (e_ses eB) (e_left eA) || intersects (e_ses eA) (e_right eB) then Some false
  else check_property assocTable eA eB.
Definition go_left_asscom (eA eB : edge) : option bool :=
  if intersects (e_ses eB) (e_right eA) || intersects (e_ses eA) (e_right eB) then Some false
  else check_property leftAsscomTable eA eB.
Definition go_right_asscom (eA eB : edge) : option bool :=
  if intersects (e_ses eB) (e_left eA) || intersects (e_ses eA) (e_left eB) then Some false
  else check_property rightAsscomTable eA eB.

Definition go_xform (x : xform) := match x with XAssoc => go_assoc | XLasscom => go_left_asscom | XRasscom => go_right_asscom end.

Definition go_commute (j : JoinType) : bool := if in_dec JoinType_eq_dec j commuteOps then true else false.

(* which semantic operator a logical join type denotes (anti-include-nulls is an anti join whose ON
   condition is "not FALSE" instead of "TRUE"; it shares table row/column 3 with anti) *)
Definition op_of_idx (i : N) : option op :=
  match i with
  | 0 => Some Cross | 1 => Some Inner | 2 => Some Semi | 3 => Some Anti | 4 => Some LeftJ | 5 => Some Full
  | _ => None
  end%N.

Definition op_of_jt (j : JoinType) : option op :=
  match j with
  | JoinTypeCross => Some Cross
  | JoinTypeInner => Some Inner
  | JoinTypeSemi => Some Semi
  | JoinTypeAnti | JoinTypeAntiIncludeNulls => Some Anti
  | JoinTypeLeftOuter => Some LeftJ
  | JoinTypeFullOuter => Some Full
  | _ => None
  end.

(* The edges the Go code compares, over three sub-plans with vertex sets {1},{2},{3} (bits 1,2,4).
   calcTES calls  assoc(child-in-left, parent), leftAsscom(child-in-left, parent),
   assoc(parent, child-in-right), rightAsscom(parent, child-in-right). *)

Inductive site : Set := AssocUp | AssocDown | LasscomUp | RasscomDown.
Definition site_xform (s : site) : xform :=
  match s with AssocUp | AssocDown => XAssoc | LasscomUp => XLasscom | RasscomDown => XRasscom end.

Definition site_edges (s : site) (jA jB : JoinType) (nrA nrB : vset) : edge * edge :=
  match s with
  | AssocUp     => (Build_edge jA 1 2 3 nrA, Build_edge jB 3 4 6 nrB)   (* (e1 A12 e2) B23 e3, A child *)
  | AssocDown   => (Build_edge jA 1 6 3 nrA, Build_edge jB 2 4 6 nrB)   (* e1 A12 (e2 B23 e3), B child *)
  | LasscomUp   => (Build_edge jA 1 2 3 nrA, Build_edge jB 3 4 5 nrB)   (* (e1 A12 e2) B13 e3, A child *)
  | RasscomDown => (Build_edge jA 1 6 5 nrA, Build_edge jB 2 4 6 nrB)   (* e1 A13 (e2 B23 e3), B child *)
  end%N.

(* vertex sets a nullRejectedRels field may hold: subsets of the SES; only the empty set while the Go
   code never assigns the field *)
Definition subsets3 (s : vset) : list vset :=
  filter (fun x => N.eqb (N.land x s) x) [0;1;2;3;4;5;6;7]%N.
Definition possible_nr (s : vset) : list vset := if nullRejectedRelsAssigned then subsets3 s else [0%N].

Definition atom_holds (nrA nrB : vset) (a : EdgeName * N) : bool :=
  let bit := match snd a with 1 => 1 | 2 => 2 | 3 => 4 | _ => 0 end%N in
  intersects (match fst a with edgeA => nrA | edgeB => nrB end) bit.

Definition cond_holds (c : cond) (nrA nrB : vset) : bool :=
  match c with Never => false | Always => true | When l => forallb (atom_holds nrA nrB) l end.

Definition logical_jts : list JoinType :=
  [JoinTypeCross; JoinTypeInner; JoinTypeSemi; JoinTypeAnti; JoinTypeAntiIncludeNulls; JoinTypeLeftOuter; JoinTypeFullOuter].

(* one entry of the comparison: whenever the Go code permits, the sound table's condition holds *)
Definition entry_le (s : site) (jA jB : JoinType) : bool :=
  match op_of_jt jA, op_of_jt jB with
  | Some a, Some b =>
      let sesA := e_ses (fst (site_edges s jA jB 0 0)) in
      let sesB := e_ses (snd (site_edges s jA jB 0 0)) in
      forallb (fun nrA => forallb (fun nrB =>
        let '(eA, eB) := site_edges s jA jB nrA nrB in
        match go_xform (site_xform s) eA eB with
        | Some true => cond_holds (sound_table (site_xform s) a b) nrA nrB
        | Some false => true
        | None => false
        end) (possible_nr sesB)) (possible_nr sesA)
  | _, _ => false
  end.

Definition all_sites := [AssocUp; AssocDown; LasscomUp; RasscomDown].

Definition translated_tables_le_sound : bool :=
  forallb (fun s => forallb (fun jA => forallb (fun jB => entry_le s jA jB) logical_jts) logical_jts) all_sites.

Definition op_eqb (a b : op) : bool :=
  match a, b with
  | Cross, Cross | Inner, Inner | Semi, Semi | Anti, Anti | LeftJ, LeftJ | Full, Full => true
  | _, _ => false
  end.

(* getOpIdx sends every logical join type to the row/column of its semantic operator *)
Definition op_idx_consistent : bool :=
  forallb (fun j => match lookup_jt j getOpIdx, op_of_jt j with
                    | Some i, Some o => match op_of_idx i with Some o' => op_eqb o o' | None => false end
                    | _, _ => false end) logical_jts.

Section Statement.
  Context {A1 A2 A3 : Type}.
  Variables (e1 : list A1) (e2 : list A2) (e3 : list A3).
  Variables (q12 : option A1 -> option A2 -> bool) (q13 : option A1 -> option A3 -> bool)
            (q23 : option A2 -> option A3 -> bool).

  Definition lhs (x : xform) (A B : op) : list (@T A1 A2 A3) :=
    match x with
    | XAssoc => assoc_lhs e1 e2 e3 A B q12 q23
    | XLasscom => lasscom_lhs e1 e2 e3 A B q12 q13
    | XRasscom => rasscom_lhs e1 e2 e3 A B q13 q23
    end.
  Definition rhs (x : xform) (A B : op) : list (@T A1 A2 A3) :=
    match x with
    | XAssoc => assoc_rhs e1 e2 e3 A B q12 q23
    | XLasscom => lasscom_rhs e1 e2 e3 A B q12 q13
    | XRasscom => rasscom_rhs e1 e2 e3 A B q13 q23
    end.

  (* edge A / edge B of each transformation carry these ON conditions:
       assoc: A = q12, B = q23;  l-asscom: A = q12, B = q13;  r-asscom: A = q13, B = q23.
     An edge cannot reject NULLs on an input it does not read (nullRejectedRels is a subset of the SES). *)
  Definition atom_sem (x : xform) (a : EdgeName * N) : Prop :=
    match x, a with
    | XAssoc, (edgeA, 1%N) => rejects_l q12   | XAssoc, (edgeA, 2%N) => rejects_r q12
    | XAssoc, (edgeB, 2%N) => rejects_l q23   | XAssoc, (edgeB, 3%N) => rejects_r q23
    | XLasscom, (edgeA, 1%N) => rejects_l q12 | XLasscom, (edgeA, 2%N) => rejects_r q12
    | XLasscom, (edgeB, 1%N) => rejects_l q13 | XLasscom, (edgeB, 3%N) => rejects_r q13
    | XRasscom, (edgeA, 1%N) => rejects_l q13 | XRasscom, (edgeA, 3%N) => rejects_r q13
    | XRasscom, (edgeB, 2%N) => rejects_l q23 | XRasscom, (edgeB, 3%N) => rejects_r q23
    | _, _ => False
    end.

  Definition cond_sem (x : xform) (c : cond) : Prop :=
    match c with Never => False | Always => True | When l => Forall (atom_sem x) l end.

  (* the nullRejectedRels fields are correct: a vertex listed for an edge is really null-rejected by its filter *)
  Definition nr_correct (x : xform) (nrA nrB : vset) : Prop :=
    forall w i, atom_holds nrA nrB (w, i) = true -> atom_sem x (w, i).
End Statement.
