(* Proofs for the C05 push-down / hoisting model. *)
From Coq Require Import List ZArith NArith Bool Lia Permutation.
Import ListNotations.
From GMS Require Import Base.ListFacts Expr.C05Expr Expr.C05ExprProofs Plan.C05Pushdown.

Lemma list_eqb_N_eq a : forall b, list_eqb N.eqb a b = true -> a = b.
Proof.
  induction a as [|x a IH]; intros [|y b] H; cbn in H; try discriminate; [reflexivity|].
  apply andb_prop in H. destruct H as [H1 H2]. apply N.eqb_eq in H1. apply IH in H2. congruence.
Qed.

Lemma val_eqb_eq a b : val_eqb a b = true -> a = b.
Proof.
  destruct a, b; cbn; intros H; try discriminate; try reflexivity.
  - apply Z.eqb_eq in H. congruence.
  - apply andb_prop in H. destruct H as [H1 H2]. apply Z.eqb_eq in H1. apply N.eqb_eq in H2. congruence.
  - apply list_eqb_N_eq in H. congruence.
Qed.

Lemma ty_eqb_eq a b : ty_eqb a b = true -> a = b.
Proof. now destruct a, b. Qed.
Lemma cmpop_eqb_eq a b : cmpop_eqb a b = true -> a = b.
Proof. now destruct a, b. Qed.
Lemma arop_eqb_eq a b : arop_eqb a b = true -> a = b.
Proof. now destruct a, b. Qed.

Lemma expr_eqb_eq a : forall b, expr_eqb a b = true -> a = b.
Proof.
  induction a using expr_ind'; intros [] Hb; try discriminate Hb; cbn in Hb;
    rewrite ?andb_true_iff, ?Nat.eqb_eq in Hb.
  all: try (decompose [and] Hb; f_equal;
            solve [auto using val_eqb_eq, ty_eqb_eq, cmpop_eqb_eq, arop_eqb_eq, Bool.eqb_prop]).
  (* In: the tuples, element by element *)
  destruct Hb as [Ha Hl]. f_equal; [auto|]. revert l0 Hl.
  induction H as [|x l Hx Hf IH]; intros [|y l'] Hl; try discriminate; [reflexivity|].
  apply andb_true_iff in Hl as [H1 H2]. f_equal; auto.
Qed.

Lemma expr_eqb_refl a : expr_eqb a a = true.
Proof.
  assert (Hv : forall v, val_eqb v v = true).
  { intros [|z|m s|b]; cbn; rewrite ?Z.eqb_refl, ?N.eqb_refl; try reflexivity.
    induction b as [|x b IH]; cbn; [reflexivity|]. rewrite N.eqb_refl. exact IH. }
  assert (Ht : forall t, ty_eqb t t = true) by (intros []; reflexivity).
  induction a using expr_ind'; cbn; repeat (apply andb_true_intro; split);
    auto using Nat.eqb_refl, Bool.eqb_reflx; try (destruct op; reflexivity).
  induction H as [|x l Hx Hf IH]; [reflexivity|]. rewrite Hx. exact IH.
Qed.

Lemma eval_agree r r' e : (forall i, List.In i (cols e) -> nth i r VNull = nth i r' VNull) -> eval r e = eval r' e.
Proof.
  induction e using expr_ind'; intros Hc; cbn [cols] in Hc; cbn [eval];
    rewrite ?IHe, ?IHe1, ?IHe2, ?IHe3 by (intros k Hk; apply Hc; rewrite ?in_app_iff; auto); try reflexivity.
  - apply Hc. left. reflexivity.
  - rewrite (map_ext_in (eval r) (eval r') l); [reflexivity|].
    intros x Hx. apply (proj1 (Forall_forall _ _) H x Hx).
    intros i Hi. apply Hc. rewrite in_app_iff, in_flat_map. eauto.
Qed.

Definition holds (r : row) (fs : list expr) : bool := forallb (fun f => is_true (eval r f)) fs.

Lemma holds_cons r f fs : holds r (f :: fs) = (is_true (eval r f) && holds r fs)%bool.
Proof. reflexivity. Qed.

Lemma holds_app r a b : holds r (a ++ b) = (holds r a && holds r b)%bool.
Proof. unfold holds. apply forallb_app. Qed.

Lemma holds_in r fs f : holds r fs = true -> List.In f fs -> is_true (eval r f) = true.
Proof. intros H. exact (proj1 (forallb_forall _ _) H f). Qed.

Lemma is_true_split r p : is_true (eval r p) = holds r (split_conj p).
Proof.
  induction p; try (cbn [split_conj]; rewrite holds_cons; symmetry; apply andb_true_r).
  cbn [split_conj]. rewrite holds_app, is_true_and, IHp1, IHp2. reflexivity.
Qed.

Lemma is_true_join_and r l : is_true (eval r (join_and l)) = holds r l.
Proof.
  destruct l as [|x l]; [reflexivity|]. cbn [join_and]. rewrite holds_cons.
  revert x. induction l as [|y l IH]; intros x; cbn [fold_left].
  - symmetry. apply andb_true_r.
  - rewrite IH, is_true_and, holds_cons. symmetry. apply andb_assoc.
Qed.

Lemma sigma_all_spec fs l : sigma_all fs l = filter (fun r => holds r fs) l.
Proof. reflexivity. Qed.

(* a conjunct is dropped only if it is (DeepEqual to) one of h *)
Lemma holds_subtract r cs h : holds r h = true -> holds r (subtract cs h) = holds r cs.
Proof.
  intros Hh. unfold subtract. induction cs as [|c cs IH]; [reflexivity|]. cbn [filter]. rewrite holds_cons, <- IH.
  destruct (existsb (expr_eqb c) h) eqn:E; [|reflexivity].
  apply existsb_exists in E as (x & Hx & Ex). apply expr_eqb_eq in Ex as <-. rewrite (holds_in r h c Hh Hx). reflexivity.
Qed.

Lemma flat_map_filter {X Y} (p : X -> bool) (g : X -> list Y) l :
  flat_map g (filter p l) = flat_map (fun x => if p x then g x else []) l.
Proof. induction l as [|x l IH]; [reflexivity|]. cbn. destruct (p x); cbn; rewrite IH; reflexivity. Qed.

Lemma sigma_all_app a b l : sigma_all (a ++ b) l = sigma_all b (sigma_all a l).
Proof. rewrite !sigma_all_spec, filter_filter. apply filter_ext. intros r. apply holds_app. Qed.

Lemma sigma_all_nil l : sigma_all [] l = l.
Proof. apply (filter_const _ true). reflexivity. Qed.

Lemma sigma_all_in fs l r : List.In r (sigma_all fs l) <-> List.In r l /\ holds r fs = true.
Proof. apply filter_In. Qed.

Lemma sigma_all_id h l : (forall r, List.In r l -> holds r h = true) -> sigma_all h l = l.
Proof. apply (filter_const _ true). Qed.

Lemma sigma_split p l : sigma p l = sigma_all (split_conj p) l.
Proof. apply filter_ext. intros r. apply is_true_split. Qed.

Lemma sigma_join_and fs l : sigma (join_and fs) l = sigma_all fs l.
Proof. apply filter_ext. intros r. apply is_true_join_and. Qed.

Lemma sigma_all_subtract cs h l : sigma_all (subtract cs h) (sigma_all h l) = sigma_all h (sigma_all cs l).
Proof.
  rewrite <- !sigma_all_app, !sigma_all_spec. apply filter_ext. intros r. rewrite !holds_app.
  destruct (holds r h) eqn:Hh; [|symmetry; apply andb_false_r].
  rewrite holds_subtract by exact Hh. symmetry. apply andb_true_r.
Qed.

Section Proofs.
  Variable own : list nat.
  Variable db : nat -> list row.

  Notation tabs := C05Pushdown.tabs.
  Notation over := (C05Pushdown.over own).
  Notation merge := (C05Pushdown.merge own).
  Notation matches := (C05Pushdown.matches own).
  Notation inner_join := (C05Pushdown.inner_join own).
  Notation left_join := (C05Pushdown.left_join own).
  Notation peval := (C05Pushdown.peval own db).
  Notation push := (C05Pushdown.push own).

  Lemma nth_merge tl a b i : (i < length own)%nat ->
    nth i (merge tl a b) VNull = if memb (nth i own 0%nat) tl then nth i a VNull else nth i b VNull.
  Proof.
    intros Hi. unfold C05Pushdown.merge.
    set (f := fun i => if memb (nth i own 0%nat) tl then nth i a VNull else nth i b VNull).
    rewrite (nth_indep (map f (seq 0 (length own))) VNull (f 0%nat)) by (rewrite map_length, seq_length; exact Hi).
    rewrite (map_nth f), seq_nth by exact Hi. reflexivity.
  Qed.

  Lemma memb_in t ts : memb t ts = true <-> List.In t ts.
  Proof.
    unfold memb. rewrite existsb_exists. split.
    - intros (x & Hx & E). apply Nat.eqb_eq in E. subst. exact Hx.
    - intros H. exists t. split; [exact H|apply Nat.eqb_refl].
  Qed.

  Lemma over_in ts e i : over ts e = true -> List.In i (cols e) -> (i < length own)%nat /\ List.In (nth i own 0%nat) ts.
  Proof.
    intros H Hi. apply (proj1 (forallb_forall _ _) H) in Hi. apply andb_prop in Hi as [H1 H2].
    apply Nat.ltb_lt in H1. apply memb_in in H2. auto.
  Qed.

  Lemma over_mono ts ts' e : incl ts ts' -> over ts e = true -> over ts' e = true.
  Proof.
    intros Hs H. apply forallb_forall. intros i Hi. destruct (over_in _ _ _ H Hi) as [H1 H2].
    apply andb_true_intro. split; [apply Nat.ltb_lt; exact H1|apply memb_in, Hs, H2].
  Qed.

  Lemma overs_mono ts ts' h : incl ts ts' -> forallb (over ts) h = true -> forallb (over ts') h = true.
  Proof. intros Hs. rewrite !forallb_forall. intros H f Hf. exact (over_mono ts ts' f Hs (H f Hf)). Qed.

  Lemma eval_merge_left tl a b e : over tl e = true -> eval (merge tl a b) e = eval a e.
  Proof.
    intros Ho. apply eval_agree. intros i Hi. destruct (over_in _ _ _ Ho Hi) as [H1 H2].
    rewrite nth_merge by exact H1. apply memb_in in H2. rewrite H2. reflexivity.
  Qed.

  Lemma eval_merge_right tl tr a b e :
    over tr e = true -> (forall t, List.In t tr -> ~ List.In t tl) -> eval (merge tl a b) e = eval b e.
  Proof.
    intros Ho Hd. apply eval_agree. intros i Hi. destruct (over_in _ _ _ Ho Hi) as [H1 H2].
    rewrite nth_merge by exact H1.
    destruct (memb (nth i own 0%nat) tl) eqn:E; [|reflexivity]. apply memb_in in E. destruct (Hd _ H2 E).
  Qed.

  Lemma holds_merge_left tl a b h : forallb (over tl) h = true -> holds (merge tl a b) h = holds a h.
  Proof.
    induction h as [|f h IH]; [reflexivity|]. cbn [forallb]. intros [H1 H2]%andb_prop.
    rewrite !holds_cons, eval_merge_left, IH by assumption. reflexivity.
  Qed.

  Lemma holds_merge_right tl tr a b h :
    forallb (over tr) h = true -> (forall t, List.In t tr -> ~ List.In t tl) -> holds (merge tl a b) h = holds b h.
  Proof.
    intros Ho Hd. induction h as [|f h IH]; [reflexivity|]. cbn [forallb] in Ho. apply andb_prop in Ho as [H1 H2].
    rewrite !holds_cons, (eval_merge_right tl tr), IH by assumption. reflexivity.
  Qed.

  Lemma matches_filtered tl tr cond cond' a B h1 h2 :
    forallb (over tl) h1 = true -> forallb (over tr) h2 = true -> (forall t, List.In t tr -> ~ List.In t tl) ->
    (forall r, holds r h1 = true -> holds r h2 = true -> is_true (eval r cond') = is_true (eval r cond)) ->
    (if holds a h1 then matches tl cond' a (sigma_all h2 B) else [])
    = sigma_all (h1 ++ h2) (matches tl cond a B).
  Proof.
    intros O1 O2 Hd Hc. unfold C05Pushdown.matches. rewrite !sigma_all_spec.
    rewrite <- (filter_ext _ _ (fun b => holds_merge_right tl tr a b h2 O2 Hd)), <- (filter_map_comm (fun r => holds r h2)).
    rewrite !filter_filter.
    assert (E : forall b, holds (merge tl a b) (h1 ++ h2) = (holds a h1 && holds (merge tl a b) h2)%bool).
    { intros b. rewrite holds_app, (holds_merge_left tl a b h1 O1). reflexivity. }
    destruct (holds a h1) eqn:Ea.
    - apply filter_ext_in. intros r (b & <- & _)%in_map_iff. rewrite E. cbn [andb].
      destruct (holds (merge tl a b) h2) eqn:E2; [|symmetry; apply andb_false_r].
      rewrite Hc, andb_true_r by (rewrite ?(holds_merge_left tl a b h1 O1); assumption). reflexivity.
    - symmetry. apply (filter_const _ false). intros r (b & <- & _)%in_map_iff. rewrite E. apply andb_false_r.
  Qed.

  Lemma inner_join_filtered tl tr cond cond' A B h1 h2 :
    forallb (over tl) h1 = true -> forallb (over tr) h2 = true -> (forall t, List.In t tr -> ~ List.In t tl) ->
    (forall r, holds r h1 = true -> holds r h2 = true -> is_true (eval r cond') = is_true (eval r cond)) ->
    inner_join tl cond' (sigma_all h1 A) (sigma_all h2 B)
    = sigma_all (h1 ++ h2) (inner_join tl cond A B).
  Proof.
    intros O1 O2 Hd Hc. unfold C05Pushdown.inner_join.
    rewrite (sigma_all_spec h1), flat_map_filter, (sigma_all_spec (h1 ++ h2)), filter_flat_map.
    apply flat_map_ext. intros a. apply (matches_filtered tl tr cond cond' a B h1 h2 O1 O2 Hd Hc).
  Qed.

  (* every row a left outer join makes of the left row a is a merged with something *)
  Lemma left_join_row tl cond a B r :
    List.In r (match matches tl cond a B with [] => [merge tl a (C05Pushdown.null_row own)] | m => m end) ->
    exists b, r = merge tl a b.
  Proof.
    destruct (matches tl cond a B) eqn:E; [intros [<-|[]]; eauto|].
    rewrite <- E. intros [(b & <- & _)%in_map_iff _]%filter_In. eauto.
  Qed.

  Lemma left_join_filtered tl cond A B h1 :
    forallb (over tl) h1 = true ->
    left_join tl cond (sigma_all h1 A) B = sigma_all h1 (left_join tl cond A B).
  Proof.
    intros O1. unfold C05Pushdown.left_join.
    rewrite (sigma_all_spec h1 A), flat_map_filter, sigma_all_spec, filter_flat_map. apply flat_map_ext. intros a.
    rewrite (filter_const _ (holds a h1)); [reflexivity|].
    intros r (b & ->)%left_join_row. apply holds_merge_left, O1.
  Qed.

  (* the invariant of pushdownFiltersAboveTables *)
  Definition enforced (pl : plan) (f : expr) : Prop := forall r, List.In r (peval pl) -> is_true (eval r f) = true.

  (* handled conjuncts of which none was available from above are all enforced already: they filter nothing *)
  Lemma sigma_all_enforced h pl : (forall f, List.In f h -> List.In f [] \/ enforced pl f) -> sigma_all h (peval pl) = peval pl.
  Proof.
    intros S. apply sigma_all_id. intros r Hr. apply forallb_forall. intros f Hf.
    destruct (S f Hf) as [[]|He]. exact (He r Hr).
  Qed.

  Lemma enforced_filter p c f : List.In f (split_conj p) \/ enforced c f -> enforced (PFilter p c) f.
  Proof.
    intros H r [Hr Hp]%sigma_In. destruct H as [Hf|He]; [|exact (He r Hr)].
    rewrite is_true_split in Hp. exact (holds_in _ _ _ Hp Hf).
  Qed.

  Lemma enforced_left_join p a b f : over (tabs a) f = true -> enforced a f -> enforced (PJoin true p a b) f.
  Proof.
    intros Ho He r Hr. cbn [C05Pushdown.peval] in Hr. apply in_flat_map in Hr as (x & Hx & Hr).
    apply left_join_row in Hr as (y & ->). rewrite eval_merge_left by exact Ho. exact (He x Hx).
  Qed.

  Lemma enforced_inner_join p a b f : (forall t, List.In t (tabs b) -> ~ List.In t (tabs a)) ->
    List.In f (split_conj p) \/ (over (tabs a) f = true /\ enforced a f) \/ (over (tabs b) f = true /\ enforced b f) ->
    enforced (PJoin false p a b) f.
  Proof.
    intros Hd H r Hr. cbn [C05Pushdown.peval] in Hr.
    apply in_flat_map in Hr as (x & Hx & [(y & <- & Hy)%in_map_iff Hp]%filter_In).
    destruct H as [Hf|[[Ho He]|[Ho He]]].
    - rewrite is_true_split in Hp. exact (holds_in _ _ _ Hp Hf).
    - rewrite eval_merge_left by exact Ho. exact (He x Hx).
    - rewrite (eval_merge_right (tabs a) (tabs b)) by assumption. exact (He y Hy).
  Qed.

  (* updateFilterNode: the conjuncts that are left, merged into a Filter directly below *)
  Lemma update_filter_spec cs c' :
    let n := match cs with
             | [] => c'
             | e :: l => match c' with
                         | PFilter x c'' => PFilter (join_and ((e :: l) ++ [x])) c''
                         | _ => PFilter (join_and (e :: l)) c'
                         end
             end in
    tabs n = tabs c' /\ peval n = sigma_all cs (peval c').
  Proof.
    destruct cs as [|x0 rest]; [split; [reflexivity|symmetry; apply sigma_all_nil]|].
    destruct c' as [t|x c''|lo p a b|n c'']; cbn [C05Pushdown.tabs C05Pushdown.peval]; rewrite sigma_join_and; auto.
    split; [reflexivity|]. rewrite sigma_all_app. unfold sigma. rewrite !sigma_all_spec, !filter_filter.
    apply filter_ext. intros r. rewrite andb_comm. f_equal. apply andb_true_r.
  Qed.

  Lemma nodup_app {X} (a b : list X) :
    NoDup (a ++ b) -> NoDup a /\ NoDup b /\ (forall t, List.In t b -> ~ List.In t a).
  Proof.
    induction a as [|x a IH]; cbn; intros H.
    - split; [constructor|]. split; [exact H|]. intros t _ [].
    - inversion H as [|? ? Hx Hn]; subst. destruct (IH Hn) as (Na & Nb & Hd). split; [|split; [exact Nb|]].
      + constructor; [|exact Na]. intros Hin. apply Hx. apply in_app_iff. left. exact Hin.
      + intros t Hb [->|Ha]; [apply Hx; apply in_app_iff; right; exact Hb|exact (Hd t Hb Ha)].
  Qed.

  (* [push avail pl] returns a plan over the same tables that is [pl] filtered by the handled conjuncts [h]; these
     are over the tables of [pl], and each one was available from above or is enforced by [pl] itself *)
  Theorem push_spec pl : NoDup (tabs pl) -> forall avail,
    let '(pl', h) := push avail pl in
    tabs pl' = tabs pl /\
    forallb (over (tabs pl)) h = true /\
    peval pl' = sigma_all h (peval pl) /\
    (forall f, List.In f h -> List.In f avail \/ enforced pl f).
  Proof.
    induction pl as [t|p c IH|lo p a IHa b IHb|n c IH]; intros ND avail; cbn [C05Pushdown.push].
    - (* table *)
      destruct (filter (C05Pushdown.only_table own t) avail) as [|m ms] eqn:E.
      + split; [reflexivity|]. split; [reflexivity|]. split; [symmetry; apply sigma_all_nil|intros f []].
      + rewrite <- E. repeat split.
        * apply forallb_forall. intros f [_ Hf]%filter_In.
          unfold C05Pushdown.only_table in Hf. destruct (cols f); [discriminate|exact Hf].
        * apply sigma_join_and.
        * intros f [Hf _]%filter_In. left. exact Hf.
    - (* filter *)
      specialize (IH ND (avail ++ split_conj p)). destruct (push (avail ++ split_conj p) c) as [c' h].
      destruct IH as (T & O & E & S).
      destruct (update_filter_spec (subtract (split_conj p) h) c') as [T' E'].
      rewrite T', E', E. cbn [C05Pushdown.tabs C05Pushdown.peval]. repeat split; try assumption.
      + rewrite sigma_split. apply sigma_all_subtract.
      + intros f Hf. destruct (S f Hf) as [[Hin|Hin]%in_app_iff|He]; [left; exact Hin| |]; right; apply enforced_filter; auto.
    - (* join *)
      cbn [C05Pushdown.tabs] in ND. destruct (nodup_app _ _ ND) as (NDa & NDb & Hd).
      destruct lo.
      + (* left outer join: nothing is handled on the null-supplying side *)
        specialize (IHa NDa avail). destruct (push avail a) as [a' h1]. destruct IHa as (Ta & Oa & Ea & Sa).
        specialize (IHb NDb []). destruct (push [] b) as [b' h2]. destruct IHb as (Tb & _ & Eb & Sb).
        cbn [C05Pushdown.tabs C05Pushdown.peval]. rewrite Ta, Tb, Ea, Eb, (sigma_all_enforced h2 b Sb). repeat split.
        * apply (overs_mono (tabs a)); [apply incl_appl, incl_refl|exact Oa].
        * apply left_join_filtered. exact Oa.
        * intros f Hf. destruct (Sa f Hf) as [Hin|He]; [left; exact Hin|right].
          apply enforced_left_join; [exact (proj1 (forallb_forall _ _) Oa f Hf)|exact He].
      + (* inner join *)
        specialize (IHa NDa (avail ++ split_conj p)). destruct (push (avail ++ split_conj p) a) as [a' h1].
        destruct IHa as (Ta & Oa & Ea & Sa).
        specialize (IHb NDb (subtract (avail ++ split_conj p) h1)).
        destruct (push (subtract (avail ++ split_conj p) h1) b) as [b' h2]. destruct IHb as (Tb & Ob & Eb & Sb).
        cbn [C05Pushdown.tabs C05Pushdown.peval]. rewrite Ta, Tb, Ea, Eb. repeat split.
        * rewrite forallb_app. apply andb_true_intro. split.
          -- apply (overs_mono (tabs a)); [apply incl_appl, incl_refl|exact Oa].
          -- apply (overs_mono (tabs b)); [apply incl_appr, incl_refl|exact Ob].
        * apply (inner_join_filtered (tabs a) (tabs b)); try assumption.
          intros r H1 H2. rewrite is_true_join_and, is_true_split. apply holds_subtract. rewrite holds_app, H1, H2. reflexivity.
        * (* a handled conjunct came from above, from the join condition, or is enforced by its side *)
          assert (Up : forall f, List.In f (avail ++ split_conj p) \/
                         (over (tabs a) f = true /\ enforced a f) \/ (over (tabs b) f = true /\ enforced b f) ->
                       List.In f avail \/ enforced (PJoin false p a b) f).
          { intros f [[Hin|Hin]%in_app_iff|H]; [left; exact Hin| |]; right; apply (enforced_inner_join p a b f Hd); auto. }
          intros f [Hf|Hf]%in_app_iff; apply Up.
          -- destruct (Sa f Hf) as [Hin|He]; [left; exact Hin|right; left].
             split; [exact (proj1 (forallb_forall _ _) Oa f Hf)|exact He].
          -- destruct (Sb f Hf) as [[Hin _]%filter_In|He]; [left; exact Hin|right; right].
             split; [exact (proj1 (forallb_forall _ _) Ob f Hf)|exact He].
    - (* limit: nothing moves through *)
      specialize (IH ND []). destruct (push [] c) as [c' h]. destruct IH as (T & _ & E & S).
      cbn [C05Pushdown.tabs C05Pushdown.peval]. rewrite E, (sigma_all_enforced h c S), sigma_all_nil.
      repeat split; [exact T|intros f []].
  Qed.

  (* pushFilters returns the same rows, in the same order *)
  Theorem pushdown_sound pl : NoDup (tabs pl) -> peval (C05Pushdown.push_filters own pl) = peval pl.
  Proof.
    intros ND. unfold C05Pushdown.push_filters. pose proof (push_spec pl ND []) as H.
    destruct (push [] pl) as [pl' h]. destruct H as (_ & _ & E & S). cbn [fst]. rewrite E.
    apply sigma_all_enforced, S.
  Qed.
End Proofs.

(* the guard is needed: the null-supplying side of a left outer join *)
Lemma pushdown_unsound_right_of_left_join :
  exists own db f p a b,
    C05Pushdown.over own (C05Pushdown.tabs b) f = true /\
    C05Pushdown.peval own db (PFilter f (PJoin true p a b)) <>
    C05Pushdown.peval own db (C05Pushdown.push_right_of_left_join f p a b).
Proof.
  exists [0%nat; 1%nat], (fun t => match t with O => [[VInt 1; VNull]] | _ => [[VNull; VInt 5]] end),
    (Cmp CEq (Col 1 TyInt) (Lit (VInt 7) TyInt)), lit_true, (PTable 0), (PTable 1).
  split; [reflexivity|]. vm_compute. discriminate.
Qed.

Lemma eval_outer n r s e : length r = n -> outer_only n e = true -> eval (r ++ s) e = eval r e.
Proof.
  intros Hl Ho. apply eval_agree. intros i Hi. apply (proj1 (forallb_forall _ _) Ho), Nat.ltb_lt in Hi.
  apply app_nth1. lia.
Qed.

Lemma is_true_IsTrue r e : is_true (eval r (IsTrue false e)) = is_true (eval r e).
Proof.
  cbn [eval]. unfold is_true at 2. destruct (eval r e); try reflexivity; cbn [xorb];
    unfold is_true, to_tri; destruct (truthy _); reflexivity.
Qed.

Lemma holds_filter_split r fs (p : expr -> bool) :
  holds r fs = (holds r (filter p fs) && holds r (filter (fun e => negb (p e)) fs))%bool.
Proof.
  induction fs as [|f fs IH]; [reflexivity|]. cbn [filter]. rewrite holds_cons, IH.
  destruct (p f); cbn [negb]; rewrite holds_cons; [apply andb_assoc|].
  rewrite !andb_assoc. f_equal. apply andb_comm.
Qed.

Theorem hoist_sound n r S q :
  length r = n ->
  let '(hoisted, kept) := hoist n q in
  exists_sub r S q = (holds r hoisted && exists_sub r S (join_and kept))%bool.
Proof.
  intros Hl. unfold hoist, exists_sub.
  set (cs := split_conj q). set (out := filter (outer_only n) cs). set (inn := filter (fun e => negb (outer_only n e)) cs).
  (* the hoisted conjuncts do not see the subquery's row *)
  assert (Hh : forall s, holds (r ++ s) out = holds r (map (IsTrue false) out)).
  { intros s. subst out. induction cs as [|c cs' IH]; [reflexivity|]. cbn [filter].
    destruct (outer_only n c) eqn:E; [|exact IH].
    cbn [map]. rewrite !holds_cons, IH, is_true_IsTrue, (eval_outer n r s c Hl E). reflexivity. }
  induction S as [|s S IH]; cbn [existsb].
  - symmetry. apply andb_false_r.
  - rewrite IH, is_true_split. fold cs. rewrite (holds_filter_split (r ++ s) cs (outer_only n)). fold out inn.
    rewrite is_true_join_and, Hh.
    destruct (holds r (map (IsTrue false) out)); reflexivity.
Qed.
