(* C27 — proofs about the string models of Codec/C27Strings.v *)
From Coq Require Import ZArith Bool List Lia.
Import ListNotations.
From GMS Require Import Codec.C25Arith Codec.C27Convert Codec.C27ConvertProofs Codec.C27Strings.
Open Scope Z_scope.

(* the oracle's only assumed property: a string has at most as many runes as bytes *)
Theorem conv_text_exact_or_error binary maxlen bs nchars :
  nchars <= Z.of_nat (length bs) ->
  (forall out, conv_text binary maxlen bs nchars = TOk out ->
     out = bs /\ (if binary then Z.of_nat (length bs) else nchars) <= maxlen) /\
  (conv_text binary maxlen bs nchars = TErr -> maxlen < (if binary then Z.of_nat (length bs) else nchars)).
Proof.
  intros Hn. unfold conv_text.
  destruct binary; [|destruct (Z.gtb_spec nchars maxlen)]; destruct (Z.gtb_spec (Z.of_nat (length bs)) maxlen);
    (split; [intros out [= <-]; (split; [reflexivity|lia]) | intros E; try discriminate E; lia]).
Qed.

(* what is stored is the text itself *)
Theorem conv_text_idempotent binary maxlen bs nchars out :
  conv_text binary maxlen bs nchars = TOk out -> conv_text binary maxlen out nchars = TOk out.
Proof.
  intros H. assert (out = bs) as ->; [|exact H].
  revert H. unfold conv_text. destruct binary; repeat destruct (_ >? _); intros [= <-]; reflexivity.
Qed.

(* in range without error means: the whole trimmed text was consumed, and the value is the parsed one *)
Theorem conv_int_str_in_range t bs out :
  t <> U64 -> conv_int_str t bs = COk out InRange ->
  exists z, str_to_i64 bs = SOk z false /\ out = mk t z /\ in_range t z.
Proof.
  intros Ht E. unfold conv_int_str in E. destruct (str_to_i64 bs) as [|z tr] eqn:S; [discriminate|].
  assert (N : t <> I64 -> (match narrow t z with COk v InRange => if tr then CErr else COk v InRange | o => o end)
                          = COk out InRange -> tr = false /\ out = mk t z /\ in_range t z).
  { intros _ H. destruct (narrow t z) as [|v f] eqn:Nw; [discriminate|].
    destruct f; try discriminate. destruct tr; [discriminate|]. injection H as <-.
    destruct (narrow_spec _ _ _ _ Nw) as [A _]. destruct (A eq_refl) as [-> R]. auto. }
  destruct t; try (destruct (N ltac:(discriminate) E) as (-> & -> & R); exists z; auto).
  - (* I64 *) destruct tr; [discriminate|]. injection E as <-. exists z. split; [reflexivity|]. split; [reflexivity|].
    unfold str_to_i64 in S. destruct (scan true (trim bs)) as [[p seen] rest].
    destruct (negb seen).
    + injection S as <- _. unfold in_range, ity_min, ity_max, min_i64, max_i64. lia.
    + destruct ((min_i64 <=? parse_signed p) && (parse_signed p <=? max_i64)) eqn:B; [|discriminate].
      injection S as <- _. apply andb_prop in B. destruct B as [B1 B2]. apply Z.leb_le in B1, B2.
      unfold in_range, ity_min, ity_max. lia.
Qed.

Theorem str_unreported_consumes_everything bs z :
  str_to_i64 bs = SOk z false -> snd (scan true (trim bs)) = [].
Proof.
  unfold str_to_i64. destruct (scan true (trim bs)) as [[p seen] rest]. cbn [snd].
  destruct rest; [reflexivity|]. cbn [is_nil negb]. destruct (negb seen); [discriminate|].
  destruct (_ && _); discriminate.
Qed.

(* REFUTED: "malformed text is rejected": a text without any digit -- empty, "-" or "+" -- converts to 0, in range,
   with no error *)
Lemma str_no_digit_silent :
  conv_int_str I32 [] = COk (SI 0) InRange /\ conv_int_str I8 [45] = COk (SI 0) InRange /\
  conv_int_str U16 [32; 43; 9] = COk (SU 0) InRange.
Proof. repeat split; vm_compute; reflexivity. Qed.

(* a clean literal: an optional '-', then digits only (at least one); [all_digits] is the "digits only" part *)
Definition all_digits (ds : list Z) : Prop := Forall (fun b => is_digit b = true) ds.

Lemma digit_not_cut b : is_digit b = true -> is_cut b = false.
Proof. unfold is_digit, is_cut. intros H. apply andb_prop in H. destruct H as [A B]. apply Z.leb_le in A, B.
  destruct (Z.eqb_spec b 32), (Z.eqb_spec b 9); try lia; reflexivity. Qed.
Lemma digit_not_sign b : is_digit b = true -> is_sign b = false.
Proof. unfold is_digit, is_sign. intros H. apply andb_prop in H. destruct H as [A B]. apply Z.leb_le in A, B.
  destruct (Z.eqb_spec b 45), (Z.eqb_spec b 43); try lia; reflexivity. Qed.

Lemma drop_cut_clean l : Forall (fun b => is_cut b = false) l -> drop_cut l = l.
Proof. destruct 1 as [|b l Hb _]; [reflexivity|]. cbn [drop_cut]. now rewrite Hb. Qed.
Lemma trim_clean l : Forall (fun b => is_cut b = false) l -> trim l = l.
Proof.
  intros H. unfold trim. rewrite (drop_cut_clean l H), (drop_cut_clean _ (Forall_rev H)). apply rev_involutive.
Qed.

Lemma scan_digits ds : all_digits ds -> ds <> [] -> forall first, scan first ds = (ds, true, []).
Proof.
  intros H. induction H as [|b ds Hb Hds IH]; intros Hne first; [contradiction|].
  cbn [scan]. rewrite Hb. destruct ds as [|c ds'].
  - reflexivity.
  - rewrite (IH ltac:(discriminate) false). reflexivity.
Qed.

Lemma parse_signed_digits ds : all_digits ds -> parse_signed ds = horner ds.
Proof.
  destruct 1 as [|b ds Hb _]; [reflexivity|]. unfold parse_signed.
  destruct (orb_false_elim _ _ (digit_not_sign b Hb)) as [-> ->]. reflexivity.
Qed.

Lemma horner_nonneg l : all_digits l -> forall acc, 0 <= acc -> 0 <= fold_left (fun a b => a * 10 + (b - 48)) l acc.
Proof.
  induction 1 as [|b l Hb _ IH]; intros acc Ha; [exact Ha|]. cbn [fold_left]. apply IH.
  unfold is_digit in Hb. apply andb_prop in Hb. destruct Hb as [A _]. apply Z.leb_le in A. lia.
Qed.

(* a clean unsigned or signed literal within BIGINT is parsed exactly and nothing is reported *)
Theorem str_clean_literal_exact ds :
  all_digits ds -> ds <> [] -> horner ds <= max_i64 ->
  str_to_i64 ds = SOk (horner ds) false /\ str_to_i64 (45 :: ds) = SOk (- horner ds) false.
Proof.
  intros H Hne Hr. pose proof (horner_nonneg ds H 0 ltac:(lia)) as Hpos. fold (horner ds) in Hpos.
  assert (C : Forall (fun b => is_cut b = false) ds) by (revert H; apply Forall_impl, digit_not_cut).
  unfold str_to_i64. rewrite (trim_clean ds C), (trim_clean (45 :: ds)) by (constructor; [reflexivity|exact C]).
  cbn [scan]. change (is_digit 45) with false. change (is_sign 45) with true. cbn [andb].
  rewrite !(scan_digits ds H Hne). cbn [negb is_nil]. rewrite (parse_signed_digits ds H).
  unfold parse_signed. change (45 =? 45) with true. cbv iota.
  unfold min_i64, max_i64 in *.
  rewrite !(proj2 (Z.leb_le _ _)) by lia. split; reflexivity.
Qed.

Lemma nonvacuous_strings :
  conv_int_str I8 [49; 50; 55] = COk (SI 127) InRange /\           (* "127" *)
  conv_int_str I8 [49; 50; 56] = COk (SI 127) Overflow /\          (* "128" *)
  conv_int_str I8 [49; 50; 97; 98] = CErr /\                       (* "12ab": truncated, reported *)
  conv_int_str I8 [51; 48; 48; 97] = COk (SI 127) Overflow /\      (* "300a" *)
  conv_int_str I64 [32; 45; 53; 9] = COk (SI (-5)) InRange /\      (* " -5\t" *)
  conv_int_str I64 [57;50;50;51;51;55;50;48;51;54;56;53;52;55;55;53;56;48;56] = CErr /\  (* 2^63 *)
  conv_text false 3 [230;151;165;230;156;172;232;170;158] 3 = TOk [230;151;165;230;156;172;232;170;158] /\
  conv_text false 3 [97;98;99;100] 4 = TErr /\ conv_text true 3 [195;169;49] 2 = TOk [195;169;49].
Proof. repeat split; vm_compute; reflexivity. Qed.
