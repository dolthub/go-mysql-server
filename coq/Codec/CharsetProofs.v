(* Proofs about the RangeMap model (Codec/Charset.v): mixed-radix bijection per entry, rune-level and
   string-level round trips for every table satisfying the boolean well-formedness predicates, absence of
   slice/index/division failures for Decode, Encode and EncodeReplaceUnknown. *)
From Coq Require Import List NArith Bool Arith Lia.
Import ListNotations.
From GMS Require Import Base.ListFacts Codec.Charset.
Open Scope N_scope.

Lemma ns_eqb_eq a b : ns_eqb a b = true -> a = b.
Proof.
  revert b. induction a as [|x a IH]; intros [|y b] H; cbn in H; try discriminate; [reflexivity|].
  apply andb_true_iff in H. destruct H as [->%N.eqb_eq ->%IH]. reflexivity.
Qed.

Lemma bounds_eqb_eq a b : bounds_eqb a b = true -> a = b.
Proof.
  revert b. induction a as [|[x1 x2] a IH]; intros [|[y1 y2] b] H; cbn in H; try discriminate; [reflexivity|].
  rewrite !andb_true_iff in H. destruct H as [[->%N.eqb_eq ->%N.eqb_eq] ->%IH]. reflexivity.
Qed.

Lemma entry_eqb_eq a b : entry_eqb a b = true -> a = b.
Proof.
  unfold entry_eqb. rewrite !andb_true_iff.
  intros [[[H1%bounds_eqb_eq H2%bounds_eqb_eq] H3%ns_eqb_eq] H4%ns_eqb_eq]. destruct a, b; cbn in *; congruence.
Qed.

Lemma sizes_cons lo hi b : sizes ((lo, hi) :: b) = (hi - lo + 1) :: sizes b.
Proof. reflexivity. Qed.

Lemma bounds_ok_cons lo hi b : bounds_ok ((lo, hi) :: b) = true <-> lo <= hi /\ hi < 256 /\ bounds_ok b = true.
Proof. unfold bounds_ok. cbn [forallb fst snd]. rewrite !andb_true_iff, N.leb_le, N.ltb_lt. tauto. Qed.

Lemma contains_cons lo hi b x d :
  contains ((lo, hi) :: b) (x :: d) = Some true <-> lo <= x <= hi /\ contains b d = Some true.
Proof.
  cbn [contains]. destruct ((x <? lo) || (hi <? x)) eqn:E.
  - apply orb_true_iff in E. rewrite !N.ltb_lt in E. split; [discriminate|lia].
  - apply orb_false_iff in E. rewrite !N.ltb_ge in E. tauto.
Qed.

Lemma prod_sizes_pos b : bounds_ok b = true -> 0 < prod (sizes b).
Proof.
  induction b as [|[lo hi] b IH]; [reflexivity|]. intros (H & _ & Hb)%bounds_ok_cons.
  rewrite sizes_cons. cbn [prod]. apply N.mul_pos_pos; [lia|exact (IH Hb)].
Qed.

Lemma byte_sub x lo : lo <= x -> x < 256 -> (x + 256 - lo) mod 256 = x - lo.
Proof.
  intros H1 H2. replace (x + 256 - lo) with ((x - lo) + 1 * 256) by lia.
  rewrite N.mod_add by lia. apply N.mod_small. lia.
Qed.

(* what emit passes down after taking the digit v / P *)
Lemma sub_div_mul v P : P <> 0 -> v - v / P * P = v mod P.
Proof. intros H. rewrite N.mod_eq, N.mul_comm by exact H. reflexivity. Qed.

Lemma increase_spec b : forall d, bounds_ok b = true -> contains b d = Some true ->
  exists v, increase b d (weights (sizes b)) = Some v /\ v < prod (sizes b).
Proof.
  induction b as [|[lo hi] b IH]; intros d Hb Hc; [exists 0; split; reflexivity|].
  destruct d as [|x d]; [discriminate|].
  apply bounds_ok_cons in Hb. destruct Hb as (Hlo & Hhi & Hb). apply contains_cons in Hc. destruct Hc as (Hx & Hc).
  destruct (IH d Hb Hc) as (v & Hv & Hlt).
  rewrite sizes_cons. cbn [weights prod increase]. rewrite Hv, byte_sub by lia.
  eexists. split; [reflexivity|]. nia.
Qed.

Lemma emit_total b : bounds_ok b = true -> forall v, exists o, emit b (weights (sizes b)) v = Some o.
Proof.
  induction b as [|[lo hi] b IH]; intros Hb v; [exists []; reflexivity|].
  apply bounds_ok_cons in Hb. destruct Hb as (_ & _ & Hb). pose proof (prod_sizes_pos b Hb) as Hp.
  rewrite sizes_cons. cbn [weights emit]. destruct (N.eqb_spec (prod (sizes b)) 0) as [E|_]; [lia|].
  destruct (IH Hb (v - v / prod (sizes b) * prod (sizes b))) as (o & ->). eexists. reflexivity.
Qed.

Lemma emit_length b : forall m v o, emit b m v = Some o -> length o = length b.
Proof.
  induction b as [|[lo hi] b IH]; intros m v o H; cbn in H.
  - injection H as <-. reflexivity.
  - destruct m as [|k m]; [discriminate|]. destruct (k =? 0); [discriminate|].
    destruct (emit b m (v - v / k * k)) as [o'|] eqn:E; [|discriminate].
    injection H as <-. cbn. f_equal. eapply IH. exact E.
Qed.

Lemma emit_spec b : forall v, bounds_ok b = true -> v < prod (sizes b) ->
  exists o, emit b (weights (sizes b)) v = Some o /\ contains b o = Some true /\
            increase b o (weights (sizes b)) = Some v.
Proof.
  induction b as [|[lo hi] b IH]; intros v Hb Hv.
  - exists []. cbn in *. repeat split. f_equal. lia.
  - apply bounds_ok_cons in Hb. destruct Hb as (Hlo & Hhi & Hb). pose proof (prod_sizes_pos b Hb) as Hp.
    rewrite sizes_cons in *. cbn [weights prod emit] in *. set (P := prod (sizes b)) in *.
    destruct (N.eqb_spec P 0) as [E|_]; [lia|]. rewrite sub_div_mul by lia.
    destruct (IH (v mod P) Hb) as (o & -> & Hc & Hi); [apply N.mod_lt; lia|].
    assert (Hq : v / P < hi - lo + 1) by (apply N.div_lt_upper_bound; lia).
    pose proof (N.div_mod v P ltac:(lia)) as Hv'. set (q := v / P) in *.
    eexists. split; [reflexivity|]. rewrite (N.mod_small (lo + q)) by lia. split.
    + apply contains_cons. split; [lia|exact Hc].
    + cbn [increase]. rewrite Hi, byte_sub by lia. f_equal.
      rewrite (N.add_comm lo), N.add_sub, N.mul_comm. symmetry. exact Hv'.
Qed.

Lemma emit_increase b : forall d v, bounds_ok b = true -> contains b d = Some true -> length d = length b ->
  increase b d (weights (sizes b)) = Some v -> emit b (weights (sizes b)) v = Some d.
Proof.
  induction b as [|[lo hi] b IH]; intros d v Hb Hc Hl Hi.
  - destruct d; [reflexivity|discriminate].
  - destruct d as [|x d]; [discriminate|]. injection Hl as Hl.
    apply bounds_ok_cons in Hb. destruct Hb as (Hlo & Hhi & Hb). apply contains_cons in Hc. destruct Hc as (Hx & Hc).
    destruct (increase_spec b d Hb Hc) as (r & Hr & Hrlt).
    rewrite sizes_cons in *. cbn [weights increase emit] in *. set (P := prod (sizes b)) in *.
    rewrite Hr, byte_sub in Hi by lia. injection Hi as <-.
    destruct (N.eqb_spec P 0) as [E|_]; [lia|].
    rewrite N.div_add_l, (N.div_small r P), N.add_0_r, N.add_comm, N.add_sub by lia.
    rewrite (IH d r Hb Hc Hl Hr). f_equal. f_equal. rewrite N.mod_small; lia.
Qed.

Lemma wf_entry_parts e : wf_entry e = true ->
  bounds_ok (inR e) = true /\ bounds_ok (outR e) = true /\
  inM e = weights (sizes (inR e)) /\ outM e = weights (sizes (outR e)).
Proof. unfold wf_entry. rewrite !andb_true_iff. intros [[[H1 H2] H3%ns_eqb_eq] H4%ns_eqb_eq]. auto. Qed.

Lemma entry_total e r : wf_entry e = true -> contains (inR e) r = Some true -> exists o, xlate_entry e r = Ok o.
Proof.
  intros Hw Hc. destruct (wf_entry_parts e Hw) as (B1 & B2 & M1 & M2).
  unfold xlate_entry. rewrite M1, M2.
  destruct (increase_spec _ _ B1 Hc) as (v & -> & _).
  destruct (emit_total _ B2 v) as (o & ->). eexists. reflexivity.
Qed.

Lemma entry_roundtrip e r : wf_entry e = true -> prod (sizes (inR e)) <= prod (sizes (outR e)) ->
  contains (inR e) r = Some true -> length r = length (inR e) ->
  exists o, xlate_entry e r = Ok o /\ contains (outR e) o = Some true /\ length o = length (outR e) /\
            xlate_entry (flip e) o = Ok r.
Proof.
  intros Hw Hcard Hc Hl. destruct (wf_entry_parts e Hw) as (B1 & B2 & M1 & M2).
  unfold xlate_entry. cbn [flip inR outR inM outM]. rewrite M1, M2.
  destruct (increase_spec _ _ B1 Hc) as (v & Hv & Hlt). rewrite Hv.
  destruct (emit_spec (outR e) v B2 ltac:(lia)) as (o & Ho & Hco & Hio). rewrite Ho.
  exists o. repeat split; [exact Hco|exact (emit_length _ _ _ _ Ho)|].
  rewrite Hio, (emit_increase _ _ _ B1 Hc Hl Hv). reflexivity.
Qed.

Lemma contains_some b : forall d, (length b <= length d)%nat -> exists t, contains b d = Some t.
Proof.
  induction b as [|[lo hi] b IH]; intros d H; cbn in *.
  - eexists. reflexivity.
  - destruct d as [|x d]; cbn in H; [lia|].
    destruct ((x <? lo) || (hi <? x)); [eexists; reflexivity|]. apply IH. lia.
Qed.

Lemma contains_length b : forall d, contains b d = Some true -> (length b <= length d)%nat.
Proof.
  induction b as [|[lo hi] b IH]; intros d H; cbn in *; [lia|].
  destruct d as [|x d]; [discriminate|]. destruct ((x <? lo) || (hi <? x)); [discriminate|].
  apply IH in H. cbn. lia.
Qed.

Lemma disjointb_sym a : forall b, disjointb a b = disjointb b a.
Proof.
  induction a as [|[l1 h1] a IH]; intros [|[l2 h2] b]; cbn; try reflexivity.
  rewrite IH. f_equal. apply orb_comm.
Qed.

(* a member of b1 cannot be equal to or a prefix of a member of b2 when the ranges are disjoint *)
Lemma disjoint_contains b1 : forall b2 d q, contains b1 d = Some true -> contains b2 (d ++ q) = Some true ->
  disjointb b1 b2 = false.
Proof.
  induction b1 as [|[l1 h1] b1 IH]; intros [|[l2 h2] b2] d q H1 H2; try reflexivity.
  destruct d as [|x d]; [discriminate|]. apply contains_cons in H1, H2. destruct H1 as (A1 & H1), H2 as (A2 & H2).
  cbn [disjointb]. rewrite (IH b2 d q H1 H2).
  destruct (N.ltb_spec h1 l2), (N.ltb_spec h2 l1); lia.
Qed.

Lemma pairwise_In {A} (f : A -> A -> bool) (Hsym : forall a b, f a b = f b a) l :
  pairwise f l = true -> forall x y, In x l -> In y l -> x = y \/ f x y = true.
Proof.
  induction l as [|a l IH]; cbn; intros H x y Hx Hy; [contradiction|].
  apply andb_true_iff in H. destruct H as [H1 H2]. rewrite forallb_forall in H1.
  destruct Hx as [<-|Hx], Hy as [<-|Hy].
  - left. reflexivity.
  - right. apply H1. exact Hy.
  - right. rewrite Hsym. apply H1. exact Hx.
  - apply IH; assumption.
Qed.

Lemma groups_ok_nth G : forall k i e, groups_ok k G = true -> In e (nth i G []) -> length (inR e) = (k + i)%nat.
Proof.
  induction G as [|g G IH]; intros k i e H Hin; cbn in *.
  - destruct i; contradiction.
  - apply andb_prop in H. destruct H as [H1 H2]. destruct i as [|i].
    + rewrite forallb_forall in H1. specialize (H1 _ Hin). apply Nat.eqb_eq in H1. lia.
    + rewrite (IH (S k) i e H2 Hin). lia.
Qed.

Lemma in_nth_concat {A} (G : list (list A)) : forall i e, In e (nth i G []) -> In e (concat G).
Proof.
  induction G as [|g G IH]; intros i e H; cbn in *.
  - destruct i; contradiction.
  - apply in_or_app. destruct i; [left; exact H|right; eapply IH; exact H].
Qed.

Lemma nth_nonempty_lt {A} (G : list (list A)) i e : In e (nth i G []) -> (i < length G)%nat.
Proof.
  intros H. destruct (Nat.lt_ge_cases i (length G)) as [Hlt|Hge]; [exact Hlt|].
  rewrite nth_overflow in H by exact Hge. contradiction.
Qed.

Record side_ok (G G' : list (list entry)) : Prop := {
  so_groups : groups_ok 1 G = true;
  so_wf : forall e, In e (concat G) -> wf_entry e = true;
  so_disj : forall x y, In x (concat G) -> In y (concat G) -> x = y \/ disjointb (inR x) (inR y) = true;
  so_mem : forall e, In e (concat G) ->
           (1 <= length (outR e))%nat /\ In (flip e) (nth (length (outR e) - 1) G' [])
}.

Lemma wf_struct_side_ok G G' : wf_struct G G' = true -> side_ok G G'.
Proof.
  unfold wf_struct. rewrite !andb_true_iff, !forallb_forall. intros [[[H1 H2] H3] H4].
  constructor; [exact H1|exact H2| |].
  - apply (pairwise_In (fun a b => disjointb (inR a) (inR b))); [intros a b; apply disjointb_sym|exact H3].
  - intros e He. specialize (H4 e He). apply andb_true_iff in H4. destruct H4 as [A%Nat.leb_le B].
    split; [exact A|]. apply existsb_exists in B. destruct B as (x & Hx & <-%entry_eqb_eq). exact Hx.
Qed.

Section Side.
  Variables G G' : list (list entry).
  Hypothesis HS : side_ok G G'.

  Lemma first_match_inv g r : (forall e, In e g -> wf_entry e = true /\ length (inR e) = length r) ->
    first_match g r = Fail \/
    exists e o, In e g /\ contains (inR e) r = Some true /\ first_match g r = Ok o /\ xlate_entry e r = Ok o.
  Proof.
    induction g as [|e g IH]; intros Hg; cbn; [left; reflexivity|].
    destruct (Hg e (or_introl eq_refl)) as [Hw Hl].
    destruct (contains_some (inR e) r ltac:(lia)) as (t & Ht). rewrite Ht. destruct t.
    - right. destruct (entry_total e r Hw Ht) as (o & Ho). exists e, o. rewrite Ho. auto with datatypes.
    - destruct IH as [IH|(e' & o & A & B & C & D)]; [intros; apply Hg; right; assumption|left; exact IH|].
      right. exists e', o. auto with datatypes.
  Qed.

  Lemma first_match_intro g r e : In e g -> contains (inR e) r = Some true ->
    (forall e0, In e0 g -> length (inR e0) = length r) ->
    (forall e0, In e0 g -> e0 = e \/ disjointb (inR e0) (inR e) = true) ->
    first_match g r = xlate_entry e r.
  Proof.
    induction g as [|e0 g IH]; intros Hin Hc Hlen Hd; [contradiction|]. cbn.
    destruct (Hd e0 (or_introl eq_refl)) as [->|Hdis]; [rewrite Hc; reflexivity|].
    destruct (contains_some (inR e0) r) as (t & Ht); [rewrite (Hlen e0 (or_introl eq_refl)); lia|].
    rewrite Ht. destruct t.
    - pose proof (disjoint_contains (inR e0) (inR e) r [] Ht) as X. rewrite app_nil_r in X.
      rewrite (X Hc) in Hdis. discriminate.
    - destruct Hin as [->|Hin]; [rewrite Hc in Ht; discriminate|].
      apply IH; [exact Hin|exact Hc| |]; intros; [apply Hlen|apply Hd]; right; assumption.
  Qed.

  Lemma group_facts i e : In e (nth i G []) ->
    In e (concat G) /\ wf_entry e = true /\ length (inR e) = S i /\ (i < length G)%nat.
  Proof.
    intros H. pose proof (in_nth_concat G i e H) as Hc. repeat split.
    - exact Hc.
    - apply (so_wf _ _ HS). exact Hc.
    - rewrite (groups_ok_nth G 1 i e (so_groups _ _ HS) H). reflexivity.
    - eapply nth_nonempty_lt. exact H.
  Qed.

  (* a non-empty code is looked up in the group its width selects: reported, or translated by an entry holding it *)
  Lemma lookup_cases c : c <> [] ->
    rune_lookup G c = Fail \/
    exists e r, In e (nth (length c - 1) G []) /\ contains (inR e) c = Some true /\
                rune_lookup G c = Ok r /\ xlate_entry e c = Ok r /\ (length c <= length G)%nat.
  Proof.
    destruct c as [|x c]; [congruence|intros _]. unfold rune_lookup. cbn [length]. rewrite Nat.sub_succ, Nat.sub_0_r.
    destruct (length G <? S (length c))%nat eqn:E; [left; reflexivity|]. apply Nat.ltb_ge in E.
    destruct (first_match_inv (nth (length c) G []) (x :: c)) as [F|(e & o & A & B & C & D)].
    - intros e He. destruct (group_facts _ _ He) as (_ & W & L & _). split; [exact W|exact L].
    - left. exact F.
    - right. exists e, o. auto.
  Qed.

  Lemma lookup_inv c r : rune_lookup G c = Ok r ->
    exists e, In e (nth (length c - 1) G []) /\ contains (inR e) c = Some true /\ xlate_entry e c = Ok r /\
              (1 <= length c <= length G)%nat /\ length (inR e) = length c.
  Proof.
    intros H. destruct c as [|x c]; [discriminate|].
    destruct (lookup_cases (x :: c)) as [F|(e & o & A & B & C & D & L)]; [discriminate|congruence|].
    rewrite C in H. injection H as ->. exists e. destruct (group_facts _ _ A) as (_ & _ & Le & _).
    cbn [length] in *. repeat split; try assumption; lia.
  Qed.

  Lemma lookup_nonempty c r : rune_lookup G c = Ok r -> r <> [].
  Proof.
    intros H. destruct (lookup_inv c r H) as (e & Hin & _ & Hx & _ & _).
    destruct (group_facts _ _ Hin) as (Hcc & _ & _ & _). destruct (so_mem _ _ HS e Hcc) as (Hpos & _).
    unfold xlate_entry in Hx. destruct (increase (inR e) c (inM e)); [|discriminate].
    destruct (emit (outR e) (outM e) n) as [o|] eqn:E; [|discriminate]. injection Hx as <-.
    apply emit_length in E. intros ->. cbn in E. lia.
  Qed.

  Lemma lookup_intro c e : In e (nth (length c - 1) G []) -> (1 <= length c)%nat ->
    contains (inR e) c = Some true -> rune_lookup G c = xlate_entry e c.
  Proof.
    intros Hin Hl Hc. destruct c as [|x c]; [cbn in Hl; lia|].
    replace (length (x :: c) - 1)%nat with (length c) in Hin by (cbn; lia).
    destruct (group_facts _ _ Hin) as (Hcc & _ & _ & Hlt).
    unfold rune_lookup. replace (length G <? length (x :: c))%nat with false.
    2:{ symmetry. apply Nat.ltb_ge. cbn. lia. }
    apply first_match_intro; [exact Hin|exact Hc| |].
    - intros e0 He0. destruct (group_facts _ _ He0) as (_ & _ & L & _). exact L.
    - intros e0 He0. destruct (group_facts _ _ He0) as (C0 & _ & _ & _).
      apply (so_disj _ _ HS); assumption.
  Qed.

  Lemma lookup_nopanic c : c <> [] -> rune_lookup G c <> Panic.
  Proof. intros [F|(e & o & _ & _ & C & _)]%lookup_cases; congruence. Qed.

  Lemma lookup_prefix_free c r L r' : rune_lookup G c = Ok r -> (1 <= L < length c)%nat ->
    rune_lookup G (firstn L c) = Ok r' -> False.
  Proof.
    intros H1 HL H2.
    destruct (lookup_inv _ _ H1) as (e1 & I1 & C1 & _ & _ & L1).
    destruct (lookup_inv _ _ H2) as (e2 & I2 & C2 & _ & _ & L2).
    destruct (group_facts _ _ I1) as (M1 & _ & _ & _). destruct (group_facts _ _ I2) as (M2 & _ & _ & _).
    rewrite firstn_length in L2.
    destruct (so_disj _ _ HS e2 e1 M2 M1) as [->|D].
    - lia.
    - pose proof (disjoint_contains (inR e2) (inR e1) (firstn L c) (skipn L c) C2) as X.
      rewrite firstn_skipn in X. rewrite (X C1) in D. discriminate.
  Qed.
End Side.

(* rune-level round trip: what DecodeRune produces, EncodeRune maps back (and the same with the roles swapped) *)
Lemma rune_roundtrip G G' c r : side_ok G G' -> side_ok G' G -> card_le G = true ->
  rune_lookup G c = Ok r -> rune_lookup G' r = Ok c.
Proof.
  intros HS HS' Hcard H.
  destruct (lookup_inv G G' HS c r H) as (e & Hin & Hc & Hx & Hlen & Hle).
  destruct (group_facts G G' HS _ _ Hin) as (Hcc & Hw & _ & _).
  unfold card_le in Hcard. rewrite forallb_forall in Hcard. specialize (Hcard e Hcc). apply N.leb_le in Hcard.
  destruct (entry_roundtrip e c Hw Hcard Hc (eq_sym Hle)) as (o & Ho & Hco & Hlo & Hback).
  rewrite Hx in Ho. injection Ho as <-.
  destruct (so_mem _ _ HS e Hcc) as (Hpos & Hmem).
  rewrite (lookup_intro G' G HS' r (flip e)); [exact Hback| |lia|exact Hco].
  rewrite Hlo. exact Hmem.
Qed.

Lemma loop_build step cs rs :
  Forall2 (fun c r => c <> [] /\ forall rest, step (c ++ rest) = Ok (length c, r)) cs rs ->
  forall fuel, (length (concat cs) <= fuel)%nat -> loop fuel step (concat cs) = Ok (concat rs).
Proof.
  induction 1 as [|c r cs rs [Hne Hstep] HF IH]; intros fuel Hfuel; cbn.
  - destruct fuel; reflexivity.
  - cbn in Hfuel. rewrite app_length in Hfuel.
    destruct c as [|x c]; [congruence|]. cbn [app]. destruct fuel as [|f]; [cbn in Hfuel; lia|].
    cbn [loop]. change (x :: c ++ concat cs) with ((x :: c) ++ concat cs).
    rewrite Hstep. rewrite skipn_app_length. rewrite IH by (cbn in Hfuel; lia). reflexivity.
Qed.

Lemma loop_inv step (P : list N -> list N -> Prop) :
  (forall str L r, step str = Ok (L, r) -> (1 <= L <= length str)%nat /\ P (firstn L str) r) ->
  forall fuel str out, loop fuel step str = Ok out ->
  exists cs rs, str = concat cs /\ out = concat rs /\ Forall2 P cs rs.
Proof.
  intros Hstep. induction fuel as [|f IH]; intros str out H.
  - destruct str; cbn in H; [|discriminate]. injection H as <-. exists [], []. auto.
  - destruct str as [|x t]; cbn [loop] in H.
    + injection H as <-. exists [], []. auto.
    + destruct (step (x :: t)) as [[L r]| |] eqn:E; try discriminate.
      destruct (loop f step (skipn L (x :: t))) as [rest| |] eqn:E2; try discriminate.
      injection H as <-. destruct (Hstep _ _ _ E) as [HL HP].
      destruct (IH _ _ E2) as (cs & rs & A & B & C).
      exists (firstn L (x :: t) :: cs), (r :: rs). cbn [concat]. rewrite <- A, <- B.
      rewrite firstn_skipn. auto.
Qed.

Lemma loop_nopanic step :
  (forall str, str <> [] -> step str <> Panic) ->
  (forall str L r, step str = Ok (L, r) -> (1 <= L)%nat) ->
  forall fuel str, (length str <= fuel)%nat -> loop fuel step str <> Panic.
Proof.
  intros Hnp Hpos. induction fuel as [|f IH]; intros str Hl.
  - destruct str; cbn in *; [discriminate|lia].
  - destruct str as [|x t]; cbn [loop]; [discriminate|].
    destruct (step (x :: t)) as [[L r]| |] eqn:E; [|discriminate|exfalso; eapply Hnp; [|exact E]; discriminate].
    pose proof (Hpos _ _ _ E) as HL.
    assert (Hs : (length (skipn L (x :: t)) <= f)%nat) by (rewrite skipn_length; cbn [length] in *; lia).
    specialize (IH _ Hs). destruct (loop f step (skipn L (x :: t))); [discriminate|discriminate|congruence].
Qed.

Lemma loop_total step :
  (forall str, str <> [] -> exists L r, step str = Ok (L, r) /\ (1 <= L)%nat) ->
  forall fuel str, (length str <= fuel)%nat -> exists out, loop fuel step str = Ok out.
Proof.
  intros Hst. induction fuel as [|f IH]; intros str Hl.
  - destruct str; cbn in *; [eexists; reflexivity|lia].
  - destruct str as [|x t]; cbn [loop]; [eexists; reflexivity|].
    destruct (Hst (x :: t) ltac:(discriminate)) as (L & r & E & HL). rewrite E.
    assert (Hs : (length (skipn L (x :: t)) <= f)%nat) by (rewrite skipn_length; cbn [length] in *; lia).
    destruct (IH _ Hs) as (o & Ho). rewrite Ho. eexists. reflexivity.
Qed.

Lemma firstn_nonempty {A} (l : list A) L : (1 <= L <= length l)%nat -> firstn L l <> [].
Proof. intros H E. apply (f_equal (@length A)) in E. rewrite firstn_length in E. cbn in E. lia. Qed.

Section Strings.
  Variables G G' : list (list entry).
  Hypothesis HS : side_ok G G'.

  Lemma dec_try_inv str : forall k L L' r, dec_try G str k L = Ok (L', r) ->
    (L <= L' <= length str)%nat /\ rune_lookup G (firstn L' str) = Ok r.
  Proof.
    induction k as [|k IH]; intros L L' r H; cbn [dec_try eru_try] in H; [discriminate|].
    destruct (length str <? L)%nat eqn:E; [discriminate|]. apply Nat.ltb_ge in E.
    destruct (rune_lookup G (firstn L str)) as [r0| |] eqn:E2; try discriminate.
    - injection H as <- <-. split; [lia|exact E2].
    - destruct (IH _ _ _ H) as [A B]. split; [lia|exact B].
  Qed.

  Lemma dec_try_nopanic str : forall k L, (1 <= L)%nat -> dec_try G str k L <> Panic.
  Proof.
    induction k as [|k IH]; intros L HL; cbn [dec_try eru_try]; [discriminate|].
    destruct (length str <? L)%nat eqn:E; [discriminate|]. apply Nat.ltb_ge in E.
    destruct (rune_lookup G (firstn L str)) eqn:E2; [discriminate|apply IH; lia|].
    exfalso. eapply (lookup_nopanic G G' HS); [|exact E2]. apply firstn_nonempty. lia.
  Qed.

  Lemma dec_try_hit c r rest : rune_lookup G c = Ok r ->
    forall k L, (1 <= L <= length c)%nat -> (length c < L + k)%nat ->
    dec_try G (c ++ rest) k L = Ok (length c, r).
  Proof.
    intros Hc. induction k as [|k IH]; intros L HL Hk; [lia|]. cbn [dec_try eru_try].
    replace (length (c ++ rest) <? L)%nat with false.
    2:{ symmetry. apply Nat.ltb_ge. rewrite app_length. lia. }
    rewrite firstn_prefix by lia.
    destruct (Nat.eq_dec L (length c)) as [->|Hne].
    - rewrite firstn_all. rewrite Hc. reflexivity.
    - destruct (rune_lookup G (firstn L c)) eqn:E.
      + exfalso. eapply (lookup_prefix_free G G' HS c r L); [exact Hc|lia|exact E].
      + apply IH; lia.
      + exfalso. eapply (lookup_nopanic G G' HS); [|exact E]. apply firstn_nonempty. lia.
  Qed.

  (* the scan of Decode/Encode, started at length 1 with one round per group, stops at a code that is present *)
  Lemma dec_try_scan c r k : rune_lookup G c = Ok r -> length G = k ->
    c <> [] /\ forall rest, dec_try G (c ++ rest) k 1 = Ok (length c, r).
  Proof.
    intros Hc <-. destruct (lookup_inv _ _ HS c r Hc) as (e & _ & _ & _ & Hl & _).
    split; [intros ->; cbn in Hl; lia|]. intros rest. apply dec_try_hit; [exact Hc| |]; lia.
  Qed.

  Lemma eru_try_spec str : forall k L, (1 <= L)%nat ->
    exists L' r, eru_try G str k L = Ok (L', r) /\ (L <= L')%nat.
  Proof.
    induction k as [|k IH]; intros L HL; cbn [dec_try eru_try]; [exists L, []; auto|].
    destruct (length str <? L)%nat eqn:E; [exists L, []; auto|]. apply Nat.ltb_ge in E.
    destruct (rune_lookup G (firstn L str)) as [r0| |] eqn:E2.
    - exists L, r0. auto.
    - destruct (IH (S L) ltac:(lia)) as (L' & r & A & B). exists L', r. split; [exact A|lia].
    - exfalso. eapply (lookup_nopanic G G' HS); [|exact E2]. apply firstn_nonempty. lia.
  Qed.
End Strings.

Lemma wf_map_parts rm : wf_map rm = true ->
  side_ok (in_groups rm) (out_groups rm) /\ side_ok (out_groups rm) (in_groups rm) /\
  length (in_groups rm) = length (out_groups rm) /\ card_le (in_groups rm) = true.
Proof.
  unfold wf_map. rewrite !andb_true_iff. intros [[[H1%wf_struct_side_ok H2%wf_struct_side_ok] H3%Nat.eqb_eq] H4].
  split; [exact H1|]. split; [exact H2|]. split; [|exact H4]. unfold in_groups, out_groups. rewrite map_length. exact H3.
Qed.

Lemma wf_exact_parts rm : wf_exact rm = true -> wf_map rm = true /\ card_le (out_groups rm) = true.
Proof. apply andb_true_iff. Qed.

Lemma Forall2_flip' {A B} (P : A -> B -> Prop) l1 l2 :
  Forall2 P l1 l2 -> Forall2 (fun b a => P a b) l2 l1.
Proof. induction 1; constructor; assumption. Qed.

Lemma Forall2_impl' {A B} (P Q : A -> B -> Prop) l1 l2 :
  (forall a b, P a b -> Q a b) -> Forall2 P l1 l2 -> Forall2 Q l1 l2.
Proof. intros H. induction 1; constructor; auto. Qed.

Lemma decode_step_inv rm str L r : decode_step rm str = Ok (L, r) ->
  (1 <= L <= length str)%nat /\ decode_rune rm (firstn L str) = Ok r.
Proof. apply dec_try_inv. Qed.

Lemma encode_step_inv rm hid str L r : encode_step rm hid str = Ok (L, r) ->
  (1 <= L <= length str)%nat /\ encode_rune rm (firstn L str) = Ok r.
Proof. apply dec_try_inv. Qed.

(* a string cut into codes cs with their characters rs: Decode and Encode map the two concatenations to each other *)
Lemma build_both rm cs rs hid : wf_map rm = true ->
  Forall2 (fun c r => decode_rune rm c = Ok r) cs rs ->
  decode rm (concat cs) = Ok (concat rs) /\ encode rm (concat rs) hid = Ok (concat cs).
Proof.
  intros Hw HF. destruct (wf_map_parts rm Hw) as (S1 & S2 & Hlen & Hcard). split.
  - apply loop_build; [|lia]. eapply Forall2_impl'; [|exact HF]. intros c r H.
    apply (dec_try_scan _ _ S1); [exact H|reflexivity].
  - apply loop_build; [|lia]. apply Forall2_flip'. eapply Forall2_impl'; [|exact HF]. intros c r H.
    apply (dec_try_scan _ _ S2); [|symmetry; exact Hlen]. apply (rune_roundtrip _ _ c r S1 S2 Hcard H).
Qed.

(* conversely, every successful Decode, and on an exact table every successful Encode, cuts its argument so *)
Lemma decode_chunks rm c s : decode rm c = Ok s ->
  exists cs rs, c = concat cs /\ s = concat rs /\ Forall2 (fun c r => decode_rune rm c = Ok r) cs rs.
Proof. apply (loop_inv (decode_step rm) (fun c r => decode_rune rm c = Ok r) (decode_step_inv rm)). Qed.

Lemma encode_chunks rm s hid c : wf_exact rm = true -> encode rm s hid = Ok c ->
  exists cs rs, c = concat cs /\ s = concat rs /\ Forall2 (fun c r => decode_rune rm c = Ok r) cs rs.
Proof.
  intros [Hw Hcard']%wf_exact_parts H. destruct (wf_map_parts rm Hw) as (S1 & S2 & _ & _).
  destruct (loop_inv (encode_step rm hid) (fun r c => encode_rune rm r = Ok c) (encode_step_inv rm hid) _ _ _ H)
    as (rs & cs & -> & -> & HF).
  exists cs, rs. repeat split. apply Forall2_flip'. eapply Forall2_impl'; [|exact HF]. intros r c Hrc.
  apply (rune_roundtrip _ _ r c S2 S1 Hcard' Hrc).
Qed.

Theorem encode_after_decode rm c s hid : wf_map rm = true -> decode rm c = Ok s -> encode rm s hid = Ok c.
Proof. intros Hw (cs & rs & -> & -> & HF)%decode_chunks. apply (build_both rm cs rs hid Hw HF). Qed.

Theorem decode_after_encode rm s hid c : wf_exact rm = true -> encode rm s hid = Ok c -> decode rm c = Ok s.
Proof.
  intros Hx H. destruct (encode_chunks rm s hid c Hx H) as (cs & rs & -> & -> & HF).
  apply (build_both rm cs rs hid (proj1 (wf_exact_parts rm Hx)) HF).
Qed.

(* a character (given by its UTF-8 bytes r) is representable when the character set has a code for it *)
Definition representable (rm : rangemap) (r : list N) : Prop := exists c, decode_rune rm c = Ok r.

Theorem roundtrip_representable rm rs hid : wf_map rm = true -> Forall (representable rm) rs ->
  exists c, encode rm (concat rs) hid = Ok c /\ decode rm c = Ok (concat rs).
Proof.
  intros Hw HF.
  assert (exists cs, Forall2 (fun c r => decode_rune rm c = Ok r) cs rs) as (cs & H2).
  { induction HF as [|r rs [c Hc] _ (cs & IH)]; [exists []; constructor|]. exists (c :: cs). constructor; assumption. }
  destruct (build_both rm cs rs hid Hw H2) as [A B]. exists (concat cs). auto.
Qed.

(* on an exact table Encode succeeds only on concatenations of representable characters: everything else is
   reported (Fail) *)
Theorem encode_ok_only_representable rm s hid c : wf_exact rm = true -> encode rm s hid = Ok c ->
  exists rs, s = concat rs /\ Forall (representable rm) rs.
Proof.
  intros Hx H. destruct (encode_chunks rm s hid c Hx H) as (cs & rs & _ & -> & HF).
  exists rs. split; [reflexivity|]. clear H.
  induction HF as [|c0 r cs rs Hcr _ IH]; constructor; [exists c0; exact Hcr|exact IH].
Qed.

Theorem decode_rune_encode_rune rm c r : wf_map rm = true -> decode_rune rm c = Ok r -> encode_rune rm r = Ok c.
Proof.
  intros Hw H. destruct (wf_map_parts rm Hw) as (S1 & S2 & _ & Hcard). apply (rune_roundtrip _ _ c r S1 S2 Hcard H).
Qed.

Theorem encode_rune_decode_rune rm r c : wf_exact rm = true -> encode_rune rm r = Ok c -> decode_rune rm c = Ok r.
Proof.
  intros [Hw Hcard']%wf_exact_parts H. destruct (wf_map_parts rm Hw) as (S1 & S2 & _ & _).
  apply (rune_roundtrip _ _ r c S2 S1 Hcard' H).
Qed.

Theorem decode_never_panics rm c : wf_map rm = true -> decode rm c <> Panic.
Proof.
  intros Hw. destruct (wf_map_parts rm Hw) as (S1 & _). apply loop_nopanic; [| |lia].
  - intros str _. apply (dec_try_nopanic _ _ S1). lia.
  - intros str L r H. apply decode_step_inv in H. lia.
Qed.

(* since 014a463e8: no byte sequence makes Encode crash *)
Theorem encode_never_panics rm s hid : wf_map rm = true -> encode rm s hid <> Panic.
Proof.
  intros Hw. destruct (wf_map_parts rm Hw) as (_ & S2 & _). apply loop_nopanic; [| |lia].
  - intros str _. apply (dec_try_nopanic _ _ S2). lia.
  - intros str L r H. apply encode_step_inv in H. lia.
Qed.

Theorem encode_replace_unknown_total rm s : wf_map rm = true -> exists o, encode_replace_unknown rm s = Ok o.
Proof.
  intros Hw. destruct (wf_map_parts rm Hw) as (S1 & S2 & Hlen & Hcard).
  unfold encode_replace_unknown. apply loop_total; [|lia].
  intros str Hne. unfold eru_step.
  destruct (eru_try_spec _ _ S2 str (length (inE rm)) 1 ltac:(lia)) as (L' & r & E & HL). rewrite E.
  assert (Hlen1 : (1 <= length str)%nat) by (destruct str; [congruence|cbn; lia]).
  destruct (length (inE rm) <? L')%nat.
  - eexists. eexists. split; [reflexivity|].
    destruct (utf8_width str) as [|w]; destruct (length str <=? _)%nat; lia.
  - eexists. eexists. split; [reflexivity|]. destruct (length str <=? L')%nat; lia.
Qed.

Lemma dec_try_eru_try G str : forall k L L' r, dec_try G str k L = Ok (L', r) -> eru_try G str k L = Ok (L', r).
Proof.
  induction k as [|k IH]; intros L L' r H; cbn [dec_try eru_try] in *; [discriminate|].
  destruct (length str <? L)%nat; [discriminate|].
  destruct (rune_lookup G (firstn L str)) as [r0| |]; try discriminate; [exact H|apply IH; exact H].
Qed.

Lemma loop_agree step1 step2 :
  (forall str L r, step1 str = Ok (L, r) -> step2 str = Ok (L, r)) ->
  forall fuel str o, loop fuel step1 str = Ok o -> loop fuel step2 str = Ok o.
Proof.
  intros Hs. induction fuel as [|f IH]; intros str o H; destruct str as [|x t]; cbn [loop] in *; try exact H.
  destruct (step1 (x :: t)) as [[L r]| |] eqn:E; try discriminate. rewrite (Hs _ _ _ E).
  destruct (loop f step1 (skipn L (x :: t))) as [rest| |] eqn:E2; try discriminate.
  rewrite (IH _ _ E2). exact H.
Qed.

Theorem replace_unknown_agrees_with_encode rm s hid c : wf_map rm = true ->
  encode rm s hid = Ok c -> encode_replace_unknown rm s = Ok c.
Proof.
  intros Hw. destruct (wf_map_parts rm Hw) as (S1 & S2 & Hlen & Hcard).
  apply loop_agree. intros str L0 r0 Hstep. unfold eru_step.
  rewrite (dec_try_eru_try _ str _ _ _ _ Hstep). apply encode_step_inv in Hstep. destruct Hstep as (HL & Hr).
  pose proof (lookup_nonempty _ _ S2 _ _ Hr) as Hne.
  destruct (lookup_inv _ _ S2 _ _ Hr) as (e & _ & _ & _ & Hb & _). rewrite firstn_length in Hb.
  replace (length (inE rm) <? L0)%nat with false by (symmetry; apply Nat.ltb_ge; unfold in_groups in Hlen; lia).
  destruct r0 as [|y r0]; [congruence|]. destruct (Nat.leb_spec (length str) L0); [|reflexivity].
  replace (length str) with L0 by lia. reflexivity.
Qed.
