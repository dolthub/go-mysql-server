(* C28 -- proofs about the binary-protocol model, part 2: DATETIME(n)/TIMESTAMP(n) (7- and 11-byte structs) and TIME
   (12-byte struct): text -> vitess encoder -> client reader gives the stored instant. *)
From Coq Require Import List NArith ZArith Bool Lia Arith.
Import ListNotations.
From GMS Require Import Codec.C28Date Codec.C28Wire Codec.C28WireProofs Codec.C28WireProofs2
  Codec.C28Bin Codec.C28BinProofs.
Open Scope Z_scope.

Lemma pad6_short k : forall s, (length s <= k)%nat -> pad6 k s = s ++ repeat 48%N (k - length s).
Proof.
  induction k as [|k IH]; intros s Hl.
  - destruct s; [reflexivity|cbn in Hl; lia].
  - destruct s as [|c r]; cbn [pad6 length].
    + rewrite (IH [] ltac:(cbn; lia)). cbn [length app]. rewrite Nat.sub_0_r. reflexivity.
    + rewrite (IH r ltac:(cbn in Hl; lia)). reflexivity.
Qed.

Lemma parse_pad6_padn n v : (1 <= n <= 6)%nat -> 0 <= v < 10 ^ Z.of_nat n ->
  parse_uint (pad6 6 (padn n v)) = Some (v * 10 ^ (6 - Z.of_nat n)).
Proof.
  intros Hn Hv. rewrite pad6_short, padn_length by (rewrite padn_length; lia).
  rewrite parse_uint_ne.
  - rewrite parse_digits_app, parse_padn, parse_digits_zeros by exact Hv. do 3 f_equal. lia.
  - intros C. apply (f_equal (@length _)) in C. rewrite app_length, padn_length in C. cbn [length] in C. lia.
Qed.

Theorem datetime_binary_roundtrip n x : datetime_storable n x ->
  exists t b, datetime_sql_text n x = Some t /\ datetime_bin t = Some b /\ datetime_bin_decode b = Some x /\
              length b = (match n with O => 8 | _ => 12 end)%nat.
Proof.
  intros Hs. destruct (datetime_shape n x Hs) as (y & m & d & h & mi & se & us &
    Hy & Hm & Hd & _ & Hh & Hmi & Hse & Hus & Husm & Hx & Et).
  pose proof (proj1 Hs) as Hn. pose proof (frac_text_shape n us Hn Hus Husm) as Hf. unfold us_per_sec in Hus.
  destruct n as [|n']; [subst us|destruct Hf as (v & Hv & Eus & Ef)]; eexists.
  - (* 19 bytes: the 7-byte struct *)
    exists (7%N :: le_bytes 2 y ++ [Z.to_N m; Z.to_N d; Z.to_N h; Z.to_N mi; Z.to_N se]).
    split; [exact Et|]. split; [|split; [|reflexivity]].
    + unfold datetime_bin, date_fields, clock_fields, pad2. cbn [frac_text app length Nat.ltb Nat.leb].
      now rewrite d4_year, !d2_pad2, parse_uint_pad2, byte_ok_true by lia.
    + cbn [le_bytes app]. unfold datetime_bin_decode.
      change (le_decode [_; _]) with (le_decode (le_bytes 2 y)).
      rewrite bin_decode_base, N.eqb_refl, !Z2N.id by lia. f_equal. lia.
  - (* 20 + n bytes: the 11-byte struct *)
    exists (11%N :: le_bytes 2 y ++ [Z.to_N m; Z.to_N d; Z.to_N h; Z.to_N mi; Z.to_N se] ++ le_bytes 4 us).
    split; [exact Et|]. split; [|split; [|reflexivity]].
    + rewrite Ef. unfold datetime_bin, date_fields, clock_fields, pad2. cbn [app length Nat.ltb Nat.leb].
      now rewrite d4_year, !d2_pad2, parse_pad6_padn, <- Eus by (assumption || lia).
    + cbn [le_bytes app]. unfold datetime_bin_decode.
      change (le_decode [_; _]) with (le_decode (le_bytes 2 y)).
      change (le_decode [_; _; _; _]) with (le_decode (le_bytes 4 us)).
      rewrite bin_decode_base, N.eqb_refl, !Z2N.id, le_decode_small by (cbn; lia). f_equal. lia.
Qed.

Lemma all_digits_pad2 z : 0 <= z <= 99 -> all_digits (pad2 z).
Proof.
  intros H. rewrite <- (Z.mod_small z 100) by lia. change (all_digits (padn 0 (z / 100) ++ pad2 (z mod 100))).
  rewrite <- padn_pad2. apply all_digits_padn.
Qed.

Lemma hours_digits h : 0 <= h ->
  let H := (if h <? 10 then [48%N] else []) ++ format_int h in
  all_digits H /\ H <> [] /\ parse_uint H = Some h.
Proof.
  intros Hh. cbv zeta. rewrite format_int_nonneg by exact Hh.
  destruct (format_uint_spec h Hh) as (P1 & P2 & P3).
  assert (N : (if h <? 10 then [48%N] else []) ++ format_uint h <> []) by (intros C; now apply app_eq_nil in C).
  split; [|split; [exact N|]].
  - apply Forall_app. split; [|exact P3]. destruct (h <? 10); [apply (all_digits_repeat0 1)|constructor].
  - rewrite parse_uint_ne by exact N. destruct (h <? 10); [|exact P1]. now rewrite (parse_digits_lead0 1).
Qed.

(* the encoder on a TIME text given by its sign, hour digits and fixed-width fields *)
Lemma time_bin_fields (neg : bool) hd h mi se us :
  all_digits hd -> hd <> [] -> parse_uint hd = Some h -> h < 2 ^ 32 -> 0 <= mi <= 99 -> 0 <= se <= 99 -> 0 <= us < 10 ^ 6 ->
  time_bin ((if neg then [45%N] else []) ++ hd ++ 58%N :: pad2 mi ++ 58%N :: pad2 se ++ 46%N :: padn 6 us) =
  Some (12%N :: (if neg then 1%N else 0%N) :: le_bytes 4 (h / 24) ++ [Z.to_N (h mod 24); Z.to_N mi; Z.to_N se] ++ le_bytes 4 us).
Proof.
  intros HA HN HP Hh Hmi Hse Hus.
  set (sg := if neg then [45%N] else []). set (p2 := pad2 se ++ 46%N :: padn 6 us).
  assert (F0 : Forall (fun c => (c =? 58)%N = false) (sg ++ hd)).
  { apply Forall_app. split; [unfold sg; destruct neg; repeat constructor|apply all_digits_ne; [exact HA|lia]]. }
  assert (F2 : Forall (fun c => (c =? 58)%N = false) p2).
  { apply Forall_app. split; [apply all_digits_ne; [apply all_digits_pad2|]; lia|]. constructor; [reflexivity|apply all_digits_ne; [apply all_digits_padn|lia]]. }
  unfold time_bin. rewrite app_assoc.
  (* the text is longer than "00:00:00" *)
  destruct (beqb _ _) eqn:E0.
  { apply beqb_eq, (f_equal (@length _)) in E0. unfold p2, pad2 in E0. rewrite !app_length in E0. cbn [app length] in E0.
    rewrite padn_length in E0. lia. }
  rewrite (split_at_found 58 (sg ++ hd) F0), (split_at_found 58 (pad2 mi)), (split_at_none 58 p2 F2)
    by (apply all_digits_ne; [apply all_digits_pad2|]; lia).
  (* the sign is taken off, and the hour digits do not begin with one *)
  unfold bytes in *.
  replace (match sg ++ hd with c :: r => if (c =? 45)%N then (1%N, r) else (0%N, sg ++ hd) | [] => (0%N, sg ++ hd) end)
    with ((if neg then 1%N else 0%N), hd).
  2:{ unfold sg. destruct neg; cbn [app]; [reflexivity|].
      destruct hd as [|c0 r0]; [contradiction|]. now rewrite (all_digits_head c0 r0 45) by (assumption || lia). }
  rewrite HP. unfold pad2 at 1. rewrite parse_uint_pad2, byte_ok_true, (proj2 (Z.ltb_lt h _)) by lia.
  unfold p2. rewrite (split_at_found 46 (pad2 se)), (split_at_none 46 (padn 6 us))
    by (apply all_digits_ne; [apply all_digits_pad2 || apply all_digits_padn|]; lia).
  unfold pad2. rewrite parse_uint_pad2, byte_ok_true, parse_pad6_padn by (cbn; lia).
  change (10 ^ (6 - Z.of_nat 6)) with 1. now rewrite Z.mul_1_r.
Qed.

Theorem time_binary_roundtrip x : - time_max_us <= x <= time_max_us ->
  exists b, time_bin (time_sql_text x) = Some b /\ time_bin_decode b = Some x /\ length b = 13%nat.
Proof.
  intros Hx. destruct (time_shape x Hx) as (h & mi & se & us & Hh & Hmi & Hse & Hus & Ha & ->).
  unfold us_per_sec in *.
  destruct (hours_digits h ltac:(lia)) as (HA & HN & HP). cbv zeta in HA, HN, HP.
  rewrite (time_bin_fields (x <? 0) _ h) by (assumption || lia).
  eexists. split; [reflexivity|]. split; [|reflexivity].
  cbn [le_bytes app]. unfold time_bin_decode.
  change (le_decode [_; _; _; _]) with (le_decode (le_bytes 4 (h / 24))) at 1.
  change (le_decode [_; _; _; _]) with (le_decode (le_bytes 4 us)).
  rewrite N.eqb_refl, !le_decode_small, !Z2N.id by (cbn; Z.div_mod_to_equations; lia).
  f_equal. unfold us_per_sec. destruct (x <? 0) eqn:Es; [apply Z.ltb_lt in Es|apply Z.ltb_ge in Es]; cbn [N.eqb];
    Z.div_mod_to_equations; lia.
Qed.
