(* Completeness of the LIKE backtracking machine (Codec/CollationLike.v): on a string without malformed runes the machine,
   given enough fuel to finish, returns exactly the declarative meaning of the pattern.  The proof carries the
   depth-first-search history: below every '%' entry of the stack all shorter consumptions have been refuted. *)
From Coq Require Import List NArith ZArith Bool Arith Lia.
Import ListNotations.
From GMS Require Import Codec.Charset Codec.Collation Codec.CollationProofs Codec.CollationLike.
Open Scope Z_scope.

Definition sfx (u v : list item) : Prop := exists p, v = p ++ u.
Definition psfx (u v : list item) : Prop := exists x p, v = (x :: p) ++ u.

Lemma sfx_refl u : sfx u u.
Proof. exists []. reflexivity. Qed.
Lemma sfx_cons x u v : sfx u v -> sfx u (x :: v).
Proof. intros [p ->]. exists (x :: p). reflexivity. Qed.
Lemma sfx_trans a b c : sfx a b -> sfx b c -> sfx a c.
Proof. intros [p ->] [q ->]. exists (q ++ p). now rewrite app_assoc. Qed.
Lemma sfx_nil_inv u : sfx u [] -> u = [].
Proof. intros [p H]. symmetry in H. apply app_eq_nil in H. tauto. Qed.
Lemma sfx_cons_inv u x v : sfx u (x :: v) -> u = x :: v \/ sfx u v.
Proof.
  intros [p H]. destruct p as [|y p]; cbn in H; [left; now subst|]. injection H as -> ->. right. exists p. reflexivity.
Qed.

Lemma sfx_compare a b : forall v, sfx a v -> sfx b v -> sfx a b \/ psfx b a.
Proof.
  induction v as [|x v IH]; intros Ha Hb.
  - apply sfx_nil_inv in Ha. apply sfx_nil_inv in Hb. subst. left. apply sfx_refl.
  - apply sfx_cons_inv in Ha. apply sfx_cons_inv in Hb. destruct Ha as [->|Ha], Hb as [->|Hb].
    + left. apply sfx_refl.
    + right. destruct Hb as [p ->]. exists x, p. reflexivity.
    + left. apply sfx_cons. exact Ha.
    + apply IH; assumption.
Qed.

Lemma sfx_psfx_absurd (t u : list item) : sfx t u -> psfx u t -> False.
Proof.
  intros [p Hp] (y & q & Hq).
  pose proof (f_equal (@length item) Hp) as L1. pose proof (f_equal (@length item) Hq) as L2.
  rewrite app_length in L1, L2. cbn [length] in L2. lia.
Qed.

(* '%' followed by ns matches s iff ns matches some suffix of s *)
Lemma dlike_any_false ns : forall s, (forall u, sfx u s -> dlike ns u = false) -> dlike (NAny :: ns) s = false.
Proof.
  induction s as [|x s IH]; intros H; rewrite dlike_any.
  - rewrite (H [] (sfx_refl _)). reflexivity.
  - rewrite (H (x :: s) (sfx_refl _)). cbn [orb]. apply IH. intros u Hu. apply H. apply sfx_cons. exact Hu.
Qed.

Lemma dlike_any_suffix ns : forall s u, sfx u s -> dlike ns u = true -> dlike (NAny :: ns) s = true.
Proof.
  induction s as [|x s IH]; intros u Hu Hd; rewrite dlike_any.
  - apply sfx_nil_inv in Hu. subst. now rewrite Hd.
  - apply sfx_cons_inv in Hu. destruct Hu as [->|Hu]; [now rewrite Hd|]. rewrite (IH u Hu Hd). apply orb_true_r.
Qed.

Definition prev (s0 : list item) (done : list (node * list item)) : list item :=
  match done with [] => s0 | (_, ps) :: _ => ps end.

(* the stack is consistent with the string and records the refuted shorter consumptions of every '%' *)
Fixpoint Inv (s0 : list item) (done : list (node * list item)) (todo : list node) : Prop :=
  match done with
  | [] => True
  | (n, suf) :: done' =>
      Inv s0 done' (n :: todo) /\
      match n with
      | NRune _ => exists w, prev s0 done' = Good w :: suf
      | NAny => sfx suf (prev s0 done') /\
                forall t, sfx t (prev s0 done') -> psfx suf t -> dlike todo t = false
      end
  end.

Lemma Inv_prev_sfx s0 : forall done todo, Inv s0 done todo -> sfx (prev s0 done) s0.
Proof.
  induction done as [|[n suf] done IH]; intros todo HI; [apply sfx_refl|].
  cbn [Inv] in HI. destruct HI as [HI Hn]. cbn [prev]. eapply sfx_trans; [|exact (IH _ HI)].
  destruct n; [destruct Hn as (w & ->); exists [Good w]; reflexivity|destruct Hn as [A _]; exact A].
Qed.

Lemma no_alternative s0 : forall done todo, Inv s0 done todo ->
  (forall u, sfx u (prev s0 done) -> dlike todo u = false) -> alts done todo = false.
Proof.
  induction done as [|[n suf] done IH]; intros todo HI F; [reflexivity|].
  cbn [Inv] in HI. destruct HI as [HI Hn]. cbn [prev] in F. cbn [alts].
  assert (P1 : (is_any n && match suf with [] => false | _ :: suf' => dlike (NAny :: todo) suf' end) = false).
  { destruct suf as [|x suf']; [apply andb_false_r|]. rewrite dlike_any_false; [apply andb_false_r|].
    intros u Hu. apply F. apply sfx_cons. exact Hu. }
  rewrite P1. cbn [orb]. apply IH; [exact HI|]. intros u Hu.
  destruct n as [so|].
  - destruct Hn as (w & Hp). rewrite Hp in Hu.
    destruct u as [|x u']; [reflexivity|]. cbn [dlike]. destruct x as [w'|]; [|reflexivity].
    assert (Hu' : sfx u' suf).
    { apply sfx_cons_inv in Hu. destruct Hu as [E|Hu]; [injection E as _ ->; apply sfx_refl|].
      eapply sfx_trans; [|exact Hu]. apply sfx_cons, sfx_refl. }
    rewrite (F u' Hu'). apply andb_false_r.
  - destruct Hn as (Hs & Hh). apply dlike_any_false. intros u2 Hu2.
    assert (Hu2' : sfx u2 (prev s0 done)) by (eapply sfx_trans; eassumption).
    destruct (sfx_compare u2 suf _ Hu2' Hs) as [A|B]; [apply F; exact A|apply Hh; assumption].
Qed.

Definition all_good (s : list item) : Prop := Forall (fun x => x <> Bad) s.
Lemma good_head s0 x u : all_good s0 -> sfx (x :: u) s0 -> exists w, x = Good w.
Proof.
  intros Hg [p ->]. apply Forall_app in Hg. destruct Hg as [_ Hg]. inversion Hg as [|? ? Hx _].
  destruct x; [eauto|congruence].
Qed.

(* backtracking keeps the invariant, given that the current continuation has just failed *)
Lemma backtrack_inv s0 : all_good s0 -> forall done todo,
  Inv s0 done todo -> prev s0 done <> [] -> dlike todo (prev s0 done) = false ->
  match backtrack done todo with
  | Some (d, t, r) => Inv s0 d t /\ r = prev s0 d
  | None => alts done todo = false
  end.
Proof.
  intros Hg. induction done as [|[n suf] done IH]; intros todo HI Hne F; [reflexivity|].
  pose proof (Inv_prev_sfx _ _ _ HI) as Hsf.
  cbn [Inv] in HI. destruct HI as [HI Hn]. cbn [prev] in *. cbn [backtrack].
  destruct suf as [|x suf']; [congruence|]. destruct (good_head _ _ _ Hg Hsf) as [w ->].
  destruct n as [so|]; cbn [is_any].
  - destruct Hn as (w0 & Hp).
    assert (F' : dlike (NRune so :: todo) (prev s0 done) = false)
      by (rewrite Hp; cbn [dlike]; rewrite F; apply andb_false_r).
    assert (Hne' : prev s0 done <> []) by (rewrite Hp; discriminate).
    specialize (IH (NRune so :: todo) HI Hne' F').
    destruct (backtrack done (NRune so :: todo)) as [[[d t] r]|]; exact IH.
  - destruct Hn as (Hs & Hh). split; [|reflexivity].
    cbn [Inv]. split; [exact HI|]. split.
    + eapply sfx_trans; [|exact Hs]. apply sfx_cons, sfx_refl.
    + intros t Ht Hpt. destruct (sfx_compare t (Good w :: suf') _ Ht Hs) as [A|B]; [|apply Hh; assumption].
      (* t is a suffix of the recorded suffix and strictly longer than its tail: t is the recorded suffix itself *)
      apply sfx_cons_inv in A. destruct A as [->|A]; [exact F|]. destruct (sfx_psfx_absurd _ _ A Hpt).
Qed.

Theorem run_correct s0 : all_good s0 -> forall fuel done todo rest r,
  Inv s0 done todo -> rest = prev s0 done -> run fuel done todo rest = Some r ->
  r = dlike todo rest || alts done todo.
Proof.
  intros Hg. induction fuel as [|f IH]; intros done todo rest r HI Hrest H; [discriminate|].
  pose proof (Inv_prev_sfx s0 done todo HI) as Hsf. rewrite <- Hrest in Hsf.
  assert (Hback : forall td, Inv s0 done td -> rest <> [] -> dlike td rest = false ->
            match backtrack done td with
            | None => Some false
            | Some (d, t, r0) => run f d t r0
            end = Some r -> r = alts done td).
  { intros td HItd Hne F Hr. subst rest.
    pose proof (backtrack_inv s0 Hg done td HItd Hne F) as B.
    destruct (backtrack done td) as [[[d t] r0]|] eqn:E.
    - destruct B as (B1 & B2). rewrite (backtrack_eq _ _ _ _ _ E). apply (IH d t r0 r B1 B2 Hr).
    - injection Hr as <-. symmetry. exact B. }
  cbn [run] in H. destruct todo as [|n todo']; destruct rest as [|x rest'].
  - injection H as <-. reflexivity.
  - cbn [dlike orb]. apply (Hback [] HI); [discriminate|reflexivity|exact H].
  - injection H as <-. clear Hback. change (is_any n && forallb is_any todo') with (forallb is_any (n :: todo')).
    rewrite dlike_nil_all_any.
    destruct (forallb is_any (n :: todo')) eqn:A; [reflexivity|]. symmetry. cbn [orb].
    apply (no_alternative s0 done (n :: todo') HI). intros u Hu. rewrite <- Hrest in Hu. apply sfx_nil_inv in Hu. subst u.
    rewrite dlike_nil_all_any. exact A.
  - destruct (good_head _ _ _ Hg Hsf) as [w ->]. destruct n as [so|].
    + cbn [dlike]. destruct ((so <? 0) || (w =? so)) eqn:C.
      * assert (HI' : Inv s0 ((NRune so, rest') :: done) todo').
        { cbn [Inv]. split; [exact HI|]. exists w. symmetry. exact Hrest. }
        rewrite (IH _ _ _ _ HI' eq_refl H). reflexivity.
      * cbn [andb orb]. apply (Hback _ HI); [discriminate|cbn [dlike]; now rewrite C|exact H].
    + assert (HI' : Inv s0 ((NAny, Good w :: rest') :: done) todo').
      { cbn [Inv]. split; [exact HI|]. rewrite <- Hrest. split; [apply sfx_refl|].
        intros t Ht Hpt. exfalso. eapply sfx_psfx_absurd; eassumption. }
      rewrite (IH _ _ _ _ HI' eq_refl H). cbn [alts is_any andb]. rewrite (dlike_any todo' (Good w :: rest')).
      now rewrite orb_assoc.
Qed.

(* LIKE with wildcards: whenever the machine finishes within its fuel on a string without malformed runes, its answer
   is the declarative meaning of the pattern ('%' any sequence, '_' one rune, literals by equal weight) *)
Theorem like_match_correct fuel nodes ws r :
  like_match fuel nodes (map Good ws) = Some r -> r = dlike nodes (map Good ws).
Proof.
  unfold like_match. destruct nodes as [|n nodes].
  - intros H. injection H as <-. destruct ws; reflexivity.
  - intros H.
    assert (Hg : all_good (map Good ws)) by (unfold all_good; rewrite Forall_map; apply Forall_forall; intros; discriminate).
    rewrite (run_correct _ Hg fuel [] (n :: nodes) (map Good ws) r I eq_refl H). cbn [alts]. apply orb_false_r.
Qed.
