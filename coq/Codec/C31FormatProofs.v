(* C31 -- proofs about the DATE_FORMAT renderer: a printed number is a non-empty string of digits that reads back as
   the number and is as long as the number needs; the canonical complete format reads back field by field; %y is not
   fixed-width. *)
From Coq Require Import List NArith ZArith Bool Lia.
Import ListNotations.
From GMS Require Import Codec.C31Format.
Open Scope Z_scope.

(* [num_of] continued from an accumulator *)
Definition nv (x : Z) (s : list N) : Z := fold_left (fun a c => a * 10 + dval c) s x.

Definition digit_string (s : list N) : Prop := Forall (fun c => 0 <= dval c < 10) s.

Record rendered (s : list N) (v : Z) : Prop := {
  r_digits : digit_string s;
  r_nonempty : s <> [];
  r_value : num_of s = v }.

Lemma dval_digit d : 0 <= d -> dval (digit d) = d.
Proof. intros H. unfold dval, digit. rewrite Z2N.id; lia. Qed.

(* The digits of n are produced last first; with L of them, 10^(L-1) <= n < 10^L (L = 1 for n = 0). *)
Lemma dec_fuel_spec fuel : forall n acc, 0 <= n < 10 ^ Z.of_nat fuel -> (0 < fuel)%nat ->
  exists ds, dec_fuel fuel n acc = ds ++ acc /\ digit_string ds /\ ds <> [] /\
             (forall x, nv x ds = x * 10 ^ Z.of_nat (length ds) + n) /\
             n < 10 ^ Z.of_nat (length ds) <= 10 * Z.max 1 n.
Proof.
  induction fuel as [|k IH]; intros n acc Hn Hf; [lia|]. cbn [dec_fuel].
  pose proof (Z.div_mod n 10 ltac:(lia)) as Hdm. pose proof (Z.mod_pos_bound n 10 ltac:(lia)) as Hm.
  assert (Hd : digit_string [digit (n mod 10)]) by (repeat constructor; rewrite dval_digit; lia).
  destruct (Z.eqb_spec (n / 10) 0) as [E|E].
  - exists [digit (n mod 10)]. repeat split; [exact Hd|discriminate|..]; cbn [length nv fold_left];
      rewrite ?dval_digit by lia; change (10 ^ Z.of_nat 1) with 10; lia.
  - rewrite Nat2Z.inj_succ, Z.pow_succ_r in Hn by lia.
    destruct k as [|k']; [change (10 ^ Z.of_nat 0) with 1 in Hn; lia|].
    destruct (IH (n / 10) (digit (n mod 10) :: acc) ltac:(lia) ltac:(lia)) as (ds & E1 & F1 & N1 & V1 & B1).
    exists (ds ++ [digit (n mod 10)]). rewrite app_length, Nat.add_1_r, Nat2Z.inj_succ, Z.pow_succ_r by lia.
    repeat split.
    + rewrite E1, <- app_assoc. reflexivity.
    + apply Forall_app. split; assumption.
    + destruct ds; discriminate.
    + intros x. unfold nv in *. rewrite fold_left_app, V1. cbn [fold_left]. rewrite dval_digit; lia.
    + lia.
    + lia.
Qed.

Lemma dec_spec v : 0 <= v < 10 ^ 20 ->
  rendered (dec v) v /\ v < 10 ^ Z.of_nat (length (dec v)) <= 10 * Z.max 1 v.
Proof.
  intros H. destruct (dec_fuel_spec 20 v [] H ltac:(lia)) as (ds & E & F & Ne & V & B).
  unfold dec. rewrite E, app_nil_r. split; [|exact B]. split; [exact F|exact Ne|]. apply (V 0).
Qed.

Lemma dec_rendered v : 0 <= v < 10 ^ 20 -> rendered (dec v) v.
Proof. intros H. apply dec_spec, H. Qed.

(* the number of digits is fixed by the decade the number lies in *)
Lemma dec_length_le v k : 0 <= v < 10 ^ 20 -> 10 * Z.max 1 v < 10 ^ Z.of_nat (S k) -> (length (dec v) <= k)%nat.
Proof.
  intros Hv Hk. destruct (dec_spec v Hv) as [_ B].
  assert (Z.of_nat (length (dec v)) < Z.of_nat (S k)) by (apply (Z.pow_lt_mono_r_iff 10); lia). lia.
Qed.

Lemma dec_length v k : 0 <= v < 10 ^ 20 -> 10 ^ Z.of_nat k <= 10 * Z.max 1 v < 10 ^ Z.of_nat (S k) ->
  length (dec v) = k.
Proof.
  intros Hv Hk. apply Nat.le_antisymm; [apply dec_length_le; [exact Hv|apply Hk]|].
  destruct (dec_spec v Hv) as [[_ Ne _] B].
  assert (0 < length (dec v))%nat by (destruct (dec v); [congruence|cbn; lia]). set (L := length (dec v)) in *.
  assert (1 < 10 ^ Z.of_nat L) by (apply Z.pow_gt_1; lia).
  assert (Z.of_nat k < Z.of_nat (S L)); [|lia].
  apply (Z.pow_lt_mono_r_iff 10); [lia|lia|]. rewrite (Nat2Z.inj_succ L), Z.pow_succ_r; lia.
Qed.

Lemma num_of_zeros k s : num_of (zeros k ++ s) = num_of s.
Proof. induction k as [|k IH]; [reflexivity|exact IH]. Qed.

Lemma zeros_length k : length (zeros k) = k.
Proof. induction k; cbn; congruence. Qed.

Lemma zeros_digits k : digit_string (zeros k).
Proof. induction k; constructor; [cbv; split; congruence|assumption]. Qed.

Lemma padw_rendered w v : 0 <= v < 10 ^ 20 -> rendered (padw w v) v.
Proof.
  intros H. destruct (dec_rendered v H) as [F Ne V]. unfold padw. split.
  - apply Forall_app. split; [apply zeros_digits|exact F].
  - destruct (dec v); [congruence|]. destruct (zeros _); discriminate.
  - rewrite num_of_zeros. exact V.
Qed.

Lemma padw_fits w v : (0 < w <= 20)%nat -> 0 <= v < 10 ^ Z.of_nat w -> rendered (padw w v) v /\ length (padw w v) = w.
Proof.
  intros Hw Hv.
  assert (10 ^ Z.of_nat w <= 10 ^ 20) by (apply Z.pow_le_mono_r; lia).
  assert (1 < 10 ^ Z.of_nat w) by (apply Z.pow_gt_1; lia).
  split; [apply padw_rendered; lia|].
  assert (length (dec v) <= w)%nat by (apply dec_length_le; rewrite ?Nat2Z.inj_succ, ?Z.pow_succ_r; lia).
  unfold padw. rewrite app_length, zeros_length. lia.
Qed.

(* DATE_FORMAT(t, '%Y-%m-%d %H:%i:%s') is 19 characters and its fixed-width fields are exactly t's fields *)
Theorem canonical_format_reads_back t :
  in_range t ->
  exists s, render canonical_fmt t = Some s /\ length s = 19%nat /\
            read_canonical s = {| yr := yr t; mo := mo t; dy := dy t; hh := hh t; mi := mi t; ss := ss t; us := 0 |}.
Proof.
  intros (Hy & Hm & Hd & Hh & Hi & Hs).
  assert (P2 : forall v, 0 <= v < 100 -> exists a b, padw 2 v = [a; b] /\ num_of [a; b] = v).
  { intros v Hv. destruct (padw_fits 2 v ltac:(lia) Hv) as [[_ _ V] L].
    destruct (padw 2 v) as [|a [|b [|? ?]]]; try discriminate L. eauto. }
  destruct (padw_fits 4 (yr t) ltac:(lia) Hy) as [[_ _ Vy] Ly].
  destruct (P2 _ Hm) as (m1 & m2 & Em & Vm), (P2 _ Hd) as (d1 & d2 & Ed & Vd), (P2 _ Hh) as (h1 & h2 & Eh & Vh),
    (P2 _ Hi) as (i1 & i2 & Ei & Vi), (P2 _ Hs) as (s1 & s2 & Es & Vs).
  cbn [render canonical_fmt render_spec]. rewrite Em, Ed, Eh, Ei, Es.
  destruct (padw 4 (yr t)) as [|y1 [|y2 [|y3 [|y4 [|? ?]]]]]; try discriminate Ly.
  eexists. split; [reflexivity|]. split; [reflexivity|].
  unfold read_canonical, field. cbn [skipn firstn app].
  rewrite Vy, Vm, Vd, Vh, Vi, Vs. reflexivity.
Qed.

(* %y is two digits only from year-of-century 10 on ... *)
Theorem y_width y : length (dec (y mod 100)) = (if y mod 100 <? 10 then 1%nat else 2%nat).
Proof.
  pose proof (Z.mod_pos_bound y 100 ltac:(lia)) as Hb.
  destruct (Z.ltb_spec (y mod 100) 10); apply dec_length; cbn [Z.of_nat Pos.of_succ_nat Pos.succ]; lia.
Qed.
(* ... so DATE_FORMAT('2002-08-30', '%y%m') is '208', which reads back as year 20, month 8 *)
Lemma y_unpadded :
  render [37; 121; 37; 109]%N {| yr := 2002; mo := 8; dy := 30; hh := 0; mi := 0; ss := 0; us := 0 |} = Some [50; 48; 56]%N.
Proof. vm_compute. reflexivity. Qed.
