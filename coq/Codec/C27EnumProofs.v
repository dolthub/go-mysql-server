(* C27 — proofs about ENUM / SET / BIT Convert (Codec/C27Enum.v) *)
From Coq Require Import ZArith Bool List Lia.
Import ListNotations.
From GMS Require Import Codec.C25Arith Codec.C27Convert Codec.C27Enum.
Open Scope Z_scope.

(* a non-negative integer source is stored exactly or rejected; what is stored lies in the type's domain *)
Theorem enum_exact_or_rejected n z out :
  conv_enum n (SI z) = EOk out -> out = z /\ 0 <= z <= n.
Proof.
  unfold conv_enum. destruct (Z.leb_spec 0 z), (Z.leb_spec z n); cbn [andb]; intros HE; try discriminate.
  injection HE as <-. lia.
Qed.

Theorem set_bit_exact_or_rejected_nonneg n z :
  0 <= z <= max_u64 ->
  (forall out, conv_set n (SU z) = EOk out -> out = z /\ z <= 2 ^ n - 1) /\
  (forall out, conv_bit n (SU z) = EOk out -> out = z /\ z <= 2 ^ n - 1).
Proof.
  intros _. split; intros out; unfold conv_set, conv_bit, as_u64.
  - destruct (Z.leb_spec z (2 ^ n - 1)); intros HE; try discriminate. injection HE as <-. lia.
  - destruct (Z.gtb_spec z (2 ^ n - 1)); intros HE; try discriminate. injection HE as <-. lia.
Qed.

Lemma conv_set_bound n v out : conv_set n v = EOk out -> out <= 2 ^ n - 1.
Proof.
  unfold conv_set. destruct v; cbv zeta;
    match goal with |- context [if ?c <=? ?d then _ else _] => destruct (Z.leb_spec c d) end; intros [= <-]; assumption.
Qed.

Lemma conv_bit_bound n v out : conv_bit n v = EOk out -> out <= 2 ^ n - 1.
Proof.
  unfold conv_bit, as_u64. destruct v; cbv zeta; try (destruct (_ || _); [discriminate|]);
    match goal with |- context [if ?c >? ?d then _ else _] => destruct (Z.gtb_spec c d) end; intros [= <-]; lia.
Qed.

Theorem esb_idempotent n v out :
  (conv_enum n v = EOk out -> conv_enum n (SI out) = EOk out) /\
  (conv_set n v = EOk out -> 0 <= n <= 64 -> conv_set n (SU out) = EOk out) /\
  (conv_bit n v = EOk out -> 0 <= n <= 64 -> conv_bit n (SU out) = EOk out).
Proof.
  repeat split.
  - unfold conv_enum at 1. match goal with |- context [if ?c then _ else _] => destruct c eqn:C end; [|discriminate].
    intros [= <-]. unfold conv_enum. rewrite C. reflexivity.
  - intros B%conv_set_bound _. unfold conv_set, as_u64. destruct (Z.leb_spec out (2 ^ n - 1)); [reflexivity|lia].
  - intros B%conv_bit_bound _. unfold conv_bit, as_u64. destruct (Z.gtb_spec out (2 ^ n - 1)); [lia|reflexivity].
Qed.

(* REFUTED: a negative value is rejected -- BIT and SET take the magnitude of a negative decimal, BIT(64) takes the
   two's complement of a negative integer *)
Lemma negative_values_accepted :
  conv_bit 8 (SD (-50) 1) = EOk 5 /\ conv_bit 64 (SI (-1)) = EOk 18446744073709551615 /\
  conv_bit 64 (SD (-10) 1) = EOk 1 /\ conv_set 3 (SD (-30) 1) = EOk 3.
Proof. repeat split; vm_compute; reflexivity. Qed.

Lemma nonvacuous_esb :
  conv_enum 3 (SI 2) = EOk 2 /\ conv_enum 3 (SI 4) = EErr /\ conv_enum 3 (SI 0) = EOk 0 /\ conv_enum 3 (SD 25 1) = EOk 3 /\
  conv_set 3 (SI 7) = EOk 7 /\ conv_set 3 (SI 8) = EErr /\ conv_set 3 (SI (-1)) = EErr /\
  conv_bit 8 (SI 255) = EOk 255 /\ conv_bit 8 (SI 256) = EErr /\ conv_bit 8 (SI (-5)) = EErr.
Proof. repeat split; vm_compute; reflexivity. Qed.
