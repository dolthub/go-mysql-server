(* Proofs about the collation comparison model (Codec/Collation.v), for every weight function w. *)
From Coq Require Import List NArith ZArith Bool Arith Lia.
Import ListNotations.
From GMS Require Import Codec.Charset Codec.Collation.
Open Scope Z_scope.

Lemma lexcmp_cons x a y b : lexcmp (x :: a) (y :: b) = match x ?= y with Eq => lexcmp a b | c => c end.
Proof. cbn [lexcmp]. unfold Z.ltb. rewrite (Z.compare_antisym x y). destruct (x ?= y); reflexivity. Qed.

Lemma lexcmp_refl a : lexcmp a a = Eq.
Proof. induction a as [|x a IH]; [reflexivity|]. rewrite lexcmp_cons, Z.compare_refl. exact IH. Qed.

Lemma lexcmp_opp a : forall b, lexcmp b a = CompOpp (lexcmp a b).
Proof.
  induction a as [|x a IH]; intros [|y b]; try reflexivity.
  rewrite !lexcmp_cons, (Z.compare_antisym x y). destruct (x ?= y); cbn [CompOpp]; auto.
Qed.

Lemma lexcmp_eq_iff a : forall b, lexcmp a b = Eq <-> a = b.
Proof.
  induction a as [|x a IH]; intros [|y b]; try (split; (reflexivity || discriminate)).
  rewrite lexcmp_cons. destruct (Z.compare_spec x y) as [->|H|H].
  - rewrite IH. split; [intros ->; reflexivity|intros [= ->]; reflexivity].
  - split; [discriminate|intros [= -> _]; lia].
  - split; [discriminate|intros [= -> _]; lia].
Qed.

Lemma lexcmp_trans a : forall b c, lexcmp a b <> Gt -> lexcmp b c <> Gt -> lexcmp a c <> Gt.
Proof.
  induction a as [|x a IH]; intros [|y b] [|z c]; try (cbn; congruence).
  rewrite !lexcmp_cons.
  destruct (Z.compare_spec x y), (Z.compare_spec y z), (Z.compare_spec x z); try lia; try congruence. apply IH.
Qed.

(* only the pairwise comparisons of the weights matter *)
Lemma lexcmp_map {A} (f g : A -> Z) : (forall x y, (f x ?= f y) = (g x ?= g y)) ->
  forall a b, lexcmp (map f a) (map f b) = lexcmp (map g a) (map g b).
Proof.
  intros H. induction a as [|x a IH]; intros [|y b]; try reflexivity.
  cbn [map]. rewrite !lexcmp_cons, H, IH. reflexivity.
Qed.

Definition int32 (z : Z) : Prop := -2147483648 <= z < 2147483648.

(* reading the bytes back as a little-endian number recovers the weight modulo 2^32 *)
Definition of_le (l : list N) : Z := fold_right (fun b v => Z.of_N b + 256 * v) 0 l.

Lemma of_le_le32 z : of_le (le32 z) = z mod 4294967296.
Proof.
  unfold le32. set (u := z mod 4294967296).
  assert (Hu : 0 <= u < 4294967296) by (apply Z.mod_pos_bound; lia).
  cbn [of_le fold_right]. rewrite !Z2N.id by (apply Z.mod_pos_bound; lia).
  change 65536 with (256 * 256). change 16777216 with (256 * 256 * 256). rewrite <- !Z.div_div by lia.
  pose proof (Z.div_mod u 256). pose proof (Z.div_mod (u / 256) 256). pose proof (Z.div_mod (u / 256 / 256) 256).
  rewrite (Z.mod_small (u / 256 / 256 / 256)).
  2:{ split; [repeat apply Z.div_pos; lia|]. repeat (apply Z.div_lt_upper_bound; [lia|]). lia. }
  lia.
Qed.

Lemma le32_inj x y : int32 x -> int32 y -> le32 x = le32 y -> x = y.
Proof.
  unfold int32. intros Hx Hy H. apply (f_equal of_le) in H. rewrite !of_le_le32 in H.
  pose proof (Z.div_mod x 4294967296). pose proof (Z.div_mod y 4294967296). lia.
Qed.

Lemma flat_le32_inj (f : N -> Z) : (forall r, int32 (f r)) ->
  forall a b, flat_map (fun r => le32 (f r)) a = flat_map (fun r => le32 (f r)) b -> map f a = map f b.
Proof.
  intros Hr. induction a as [|x a IH]; intros [|y b] H; cbn in *; try reflexivity; try discriminate.
  injection H as H0 H1 H2 H3 H.
  assert (E : le32 (f x) = le32 (f y)) by (unfold le32; congruence).
  apply le32_inj in E; [|apply Hr|apply Hr]. rewrite E. f_equal. apply IH. exact H.
Qed.

Section Facts.
  Variable w : N -> Z.

  Theorem compare_refl bin a : compare w bin a a = Eq.
  Proof. apply lexcmp_refl. Qed.

  Theorem compare_opp bin a b : compare w bin b a = CompOpp (compare w bin a b).
  Proof. apply lexcmp_opp. Qed.

  Theorem compare_trans bin a b c :
    compare w bin a b <> Gt -> compare w bin b c <> Gt -> compare w bin a c <> Gt.
  Proof. apply lexcmp_trans. Qed.

  Theorem compare_eq_iff_weights bin a b : compare w bin a b = Eq <-> weights w bin a = weights w bin b.
  Proof. apply lexcmp_eq_iff. Qed.

  (* non-binary collations: equal exactly when the weight strings (what is hashed) are equal *)
  Theorem compare_eq_iff_weight_string a b : (forall r, int32 (w r)) ->
    (compare w false a b = Eq <-> weight_string w false a = weight_string w false b).
  Proof.
    intros Hr. rewrite compare_eq_iff_weights. unfold weights, weight_string. split.
    - intros H. rewrite !flat_map_concat_map. rewrite <- (map_map w le32), <- (map_map w le32 (runes false b)).
      rewrite H. reflexivity.
    - apply flat_le32_inj. exact Hr.
  Qed.

  (* the binary collation: the weight string is the byte string itself *)
  Theorem compare_eq_iff_weight_string_binary a b : (forall x y, w x = w y -> x = y) ->
    (compare w true a b = Eq <-> weight_string w true a = weight_string w true b).
  Proof.
    intros Hinj. rewrite compare_eq_iff_weights. unfold weights, weight_string, runes. split.
    - revert b. induction a as [|x a IH]; intros [|y b] H; cbn in *; try reflexivity; try discriminate.
      injection H as H1 H2. f_equal; [apply Hinj; exact H1|apply IH; exact H2].
    - intros ->. reflexivity.
  Qed.

  Theorem equal_strings_hash_equal {H : Type} (hash : list N -> H) bin a b :
    weight_string w bin a = weight_string w bin b -> hash (weight_string w bin a) = hash (weight_string w bin b).
  Proof. intros ->. reflexivity. Qed.

  (* _bin collations: strictly monotone weights order strings by code point *)
  Theorem monotone_orders_by_code_point bin a b : (forall r1 r2, (r1 < r2)%N -> w r1 < w r2) ->
    compare w bin a b = lexcmp (map Z.of_N (runes bin a)) (map Z.of_N (runes bin b)).
  Proof.
    intros Hm. apply lexcmp_map. intros x y. rewrite N2Z.inj_compare.
    destruct (N.compare_spec x y) as [->|L|L].
    - apply Z.compare_refl.
    - apply Z.compare_lt_iff, Hm, L.
    - apply Z.compare_gt_iff, Hm, L.
  Qed.

  (* _ci collations: if the weight ignores a case mapping of runes, strings that differ only by that mapping are equal *)
  Theorem case_mapping_equated (lower : N -> N) rs : (forall r, w (lower r) = w r) ->
    lexcmp (map w (map lower rs)) (map w rs) = Eq.
  Proof.
    intros Hl. apply lexcmp_eq_iff. rewrite map_map. apply map_ext. exact Hl.
  Qed.
End Facts.

(* decoding facts used for non-vacuity *)
Local Open Scope N_scope.
Lemma runes_examples :
  runes false [97; 195; 169; 230; 151; 165; 240; 159; 152; 128; 255; 65] = [97; 233; 26085; 128512; 65533; 65] /\
  runes true [97; 195; 169] = [97; 195; 169] /\
  le32 (-2)%Z = [254; 255; 255; 255] /\ le32 513%Z = [1; 2; 0; 0].
Proof. repeat split; vm_compute; reflexivity. Qed.

Definition ascii_ci_weight (r : N) : Z := if (97 <=? r) && (r <=? 122) then (Z.of_N r - 32)%Z else Z.of_N r.

Lemma ci_example :
  compare ascii_ci_weight false [97; 66; 99] [65; 98; 67] = Eq /\ compare ascii_ci_weight false [97] [97; 97] = Lt /\
  compare ascii_ci_weight false [98] [65; 65] = Gt /\
  weight_string ascii_ci_weight false [97; 66] = [65; 0; 0; 0; 66; 0; 0; 0].
Proof. repeat split; vm_compute; reflexivity. Qed.
