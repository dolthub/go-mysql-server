(* Proofs about the Quote/Unquote model (Codec/JsonQuote.v). *)
From Coq Require Import List NArith Bool Arith Lia.
Import ListNotations.
From GMS Require Import Codec.Charset Codec.JsonQuote.
Open Scope N_scope.

Lemma rcons_nil r : rcons [] r = r.
Proof. destruct r; reflexivity. Qed.

Lemma rcons_rcons a b r : rcons a (rcons b r) = rcons (a ++ b) r.
Proof. destruct r; cbn; try reflexivity. now rewrite app_assoc. Qed.

Lemma unq_plain x t : x <> 92 -> unq (x :: t) = rcons [x] (unq t).
Proof. intros H. cbn [unq]. apply N.eqb_neq in H. rewrite H. reflexivity. Qed.

Lemma unqb_plain x t : x <> 92 -> unqb (x :: t) = rcons [x] (unqb t).
Proof. intros H. cbn [unqb]. apply N.eqb_neq in H. rewrite H. reflexivity. Qed.

Lemma below32 b : b < 32 -> In b (map N.of_nat (seq 0 32)).
Proof.
  intros H. rewrite <- (N2Nat.id b). apply in_map. apply in_seq. lia.
Qed.

Lemma decode4_control_b :
  forallb (fun b => match decode4 48 48 (hexdigit (b / 16)) (hexdigit (b mod 16)) with
                    | ROk [x] => x =? b | _ => false end) (map N.of_nat (seq 0 32)) = true.
Proof. vm_compute. reflexivity. Qed.

Lemma decode4_control b : b < 32 -> decode4 48 48 (hexdigit (b / 16)) (hexdigit (b mod 16)) = ROk [b].
Proof.
  intros H. pose proof decode4_control_b as A. rewrite forallb_forall in A. specialize (A b (below32 b H)).
  destruct (decode4 48 48 (hexdigit (b / 16)) (hexdigit (b mod 16))) as [[|x [|y l]]| |]; try discriminate.
  apply N.eqb_eq in A. subst x. reflexivity.
Qed.

(* the escape table of Quote: a byte stands for itself, or is one of the seven two-byte escapes (which unesc undoes), or is
   a control byte written as backslash-u 00XX *)
Lemma esc_cases b :
  (esc b = [b] /\ b <> 34 /\ b <> 92) \/
  (exists c, esc b = [92; c] /\ c <> 117 /\ unesc c = b) \/
  (b < 32 /\ esc b = [92; 117; 48; 48; hexdigit (b / 16); hexdigit (b mod 16)]).
Proof.
  unfold esc.
  repeat match goal with |- context [if b =? ?k then _ else _] =>
    destruct (N.eqb_spec b k) as [->|?]; [right; left; eexists; split; [reflexivity|split; [discriminate|reflexivity]]|]
  end.
  destruct (N.ltb_spec b 32); [right; right; split; [assumption|reflexivity]|left; split; [reflexivity|split; assumption]].
Qed.

(* every escape that Quote emits is undone by one step of Unquote / UnquoteBytes *)
Lemma unq_esc b t : unq (esc b ++ t) = rcons [b] (unq t).
Proof.
  destruct (esc_cases b) as [(-> & _ & H)|[(c & -> & Hc & <-)|(Hb & ->)]]; [apply unq_plain, H| |];
    cbn [app unq N.eqb Pos.eqb]; [apply N.eqb_neq in Hc; now rewrite Hc|now rewrite (decode4_control b Hb)].
Qed.

Lemma unqb_esc b t : unqb (esc b ++ t) = rcons [b] (unqb t).
Proof.
  destruct (esc_cases b) as [(-> & _ & H)|[(c & -> & Hc & <-)|(Hb & ->)]]; [apply unqb_plain, H| |];
    cbn [app unqb N.eqb Pos.eqb]; [apply N.eqb_neq in Hc; now rewrite Hc|now rewrite (decode4_control b Hb)].
Qed.

Lemma unq_fffd t : unq (fffd_escape ++ t) = rcons fffd_bytes (unq t).
Proof. reflexivity. Qed.

(* closes the branches of [utf8_width] in which every remaining leaf is the size 1 of a decoding error *)
Ltac fin := cbn; let H := fresh "H" in intros H;
  repeat match type of H with context[if ?c then _ else _] => destruct c end; discriminate H.

(* a lead byte whose decoded size is n >= 2 is followed by n-1 bytes >= 0x80 *)
Lemma width_conts b t w : 128 <= b -> utf8_width (b :: t) = S (S w) ->
  forallb (fun c => 128 <=? c) (firstn (S w) t) = true.
Proof.
  intros Hb. unfold utf8_width.
  destruct (b <? 128) eqn:E0; [apply N.ltb_lt in E0; lia|].
  destruct ((b <? 194) || (244 <? b)); [discriminate|]. cbv zeta.
  set (lo := if b =? 224 then 160 else if b =? 240 then 144 else 128).
  set (hi := if b =? 237 then 159 else if b =? 244 then 143 else 191).
  assert (Hlo : 128 <= lo) by (unfold lo; destruct (b =? 224); [lia|destruct (b =? 240); lia]).
  destruct t as [|b1 t1].
  { destruct (b <? 224); [|destruct (b <? 240)]; fin. }
  destruct ((b1 <? lo) || (hi <? b1)) eqn:E1.
  { destruct (b <? 224); [|destruct (b <? 240)]; fin. }
  assert (H1 : (128 <=? b1) = true).
  { apply orb_false_elim in E1. destruct E1 as [E1 _]. apply N.ltb_ge in E1. apply N.leb_le. lia. }
  destruct (b <? 224) eqn:E2.
  { cbn. intros H. injection H as <-. cbn. rewrite H1. reflexivity. }
  destruct t1 as [|b2 t2].
  { destruct (b <? 240); fin. }
  destruct (negb (cont b2)) eqn:E3.
  { destruct (b <? 240); fin. }
  assert (H2 : (128 <=? b2) = true).
  { apply negb_false_iff in E3. unfold cont in E3. apply andb_prop in E3. apply E3. }
  destruct (b <? 240) eqn:E4.
  { cbn. intros H. injection H as <-. cbn. rewrite H1, H2. reflexivity. }
  destruct t2 as [|b3 t3]; [fin|].
  destruct (negb (cont b3)) eqn:E5; [fin|].
  assert (H3 : (128 <=? b3) = true).
  { apply negb_false_iff in E5. unfold cont in E5. apply andb_prop in E5. apply E5. }
  cbn. intros H. injection H as <-. cbn. rewrite H1, H2, H3. reflexivity.
Qed.

Definition conts_ok (k : nat) (s : list N) : Prop := forallb (fun c => 128 <=? c) (firstn k s) = true.

Lemma conts_ok_cons k b t : conts_ok (S k) (b :: t) -> b <> 92 /\ conts_ok k t.
Proof.
  unfold conts_ok. cbn. intros H. apply andb_prop in H. destruct H as [H1 H2]. apply N.leb_le in H1.
  split; [lia|exact H2].
Qed.

Lemma sanitize_valid : forall s k, utf8_ok k s = true -> sanitize k s = s.
Proof.
  induction s as [|b t IH]; intros k H; [destruct k; reflexivity|].
  destruct k as [|k]; cbn [sanitize utf8_ok] in *.
  - destruct (b <? 128); [now rewrite IH|].
    destruct (utf8_width (b :: t)) as [|[|w]]; try discriminate. now rewrite IH.
  - now rewrite IH.
Qed.

Lemma strip_quoted x : strip (34 :: x ++ [34]) = x.
Proof. unfold strip. rewrite rev_app_distr. cbn. apply rev_involutive. Qed.

(* The loops of Unquote and UnquoteBytes undo the body of Quote.  Unquote also decodes the U+FFFD escape that Quote writes
   for an invalid byte; UnquoteBytes would truncate it, and is lenient = false: for it the input is valid. *)
Section Loop.
  Variables (u : list N -> rres) (lenient : bool).
  Hypothesis u_plain : forall x t, x <> 92 -> u (x :: t) = rcons [x] (u t).
  Hypothesis u_esc : forall b t, u (esc b ++ t) = rcons [b] (u t).
  Hypothesis u_fffd : lenient = true -> forall t, u (fffd_escape ++ t) = rcons fffd_bytes (u t).

  Lemma loop_qbody : forall s k tl, conts_ok k s -> lenient || utf8_ok k s = true ->
    u (qbody k s ++ tl) = rcons (sanitize k s) (u tl).
  Proof.
    induction s as [|b t IH]; intros k tl Hk Hv.
    - destruct k; cbn; now rewrite rcons_nil.
    - destruct k as [|k]; cbn [qbody sanitize utf8_ok] in *.
      + destruct (b <? 128) eqn:E.
        * now rewrite <- app_assoc, u_esc, (IH 0%nat tl eq_refl Hv), rcons_rcons.
        * apply N.ltb_ge in E. destruct (utf8_width (b :: t)) as [|[|w]] eqn:W.
          1,2: rewrite orb_false_r in Hv;
            rewrite <- app_assoc, (u_fffd Hv), (IH 0%nat tl eq_refl), rcons_rcons; [reflexivity|now rewrite Hv].
          cbn [app]. now rewrite u_plain, (IH (S w) tl (width_conts b t w E W) Hv), rcons_rcons by lia.
      + apply conts_ok_cons in Hk. destruct Hk as [Hb Hk]. cbn [app].
        now rewrite (u_plain _ _ Hb), (IH k tl Hk Hv), rcons_rcons.
  Qed.

  (* hence the whole of Quote's output, whose two quote characters [strip] removes *)
  Lemma loop_quote : u [] = ROk [] -> forall s, lenient || utf8_ok 0 s = true ->
    finish (u (quote s)) = ROk (sanitize 0 s).
  Proof.
    intros Hnil s Hv. unfold quote.
    rewrite u_plain, (loop_qbody s 0%nat [34] eq_refl Hv), u_plain, Hnil by lia. cbn [rcons finish app].
    now rewrite strip_quoted.
  Qed.
End Loop.

Theorem unquote_quote s : unquote (quote s) = ROk (sanitize 0 s).
Proof. exact (loop_quote unq true unq_plain unq_esc (fun _ => unq_fffd) eq_refl s eq_refl). Qed.

Theorem unquote_quote_valid s : utf8_ok 0 s = true -> unquote (quote s) = ROk s.
Proof. intros H. rewrite unquote_quote. now rewrite sanitize_valid. Qed.

Theorem unquote_bytes_quote_valid s : utf8_ok 0 s = true -> unquote_bytes (quote s) = ROk s.
Proof.
  intros H. rewrite <- (sanitize_valid s 0 H) at 2.
  exact (loop_quote unqb false unqb_plain unqb_esc ltac:(discriminate) eq_refl s H).
Qed.

Lemma ascii_utf8_ok s : forallb (fun b => b <? 128) s = true -> utf8_ok 0 s = true.
Proof.
  induction s as [|b t IH]; cbn; [reflexivity|]. intros H. apply andb_prop in H. destruct H as [H1 H2].
  rewrite H1. apply IH. exact H2.
Qed.

(* no crash (since d9436d51b) *)
Lemma rcons_nopanic p r : r <> RPanic -> rcons p r <> RPanic.
Proof. destruct r; cbn; congruence. Qed.

Lemma decode4_nopanic a b c d : decode4 a b c d <> RPanic.
Proof.
  unfold decode4. destruct (hexval a), (hexval b); try discriminate.
  destruct (hexval c), (hexval d); try discriminate.
  destruct ((55296 <=? _) && (_ <=? 57343)); discriminate.
Qed.

Lemma unq_nopanic_len : forall n s, (length s <= n)%nat -> unq s <> RPanic /\ unqb s <> RPanic.
Proof.
  induction n as [|n IH]; intros s Hl.
  - destruct s; cbn in *; [split; discriminate|lia].
  - destruct s as [|x t]; [split; discriminate|]. cbn [length] in Hl.
    assert (Ht : unq t <> RPanic /\ unqb t <> RPanic) by (apply IH; lia).
    cbn [unq unqb]. destruct (x =? 92).
    2:{ split; apply rcons_nopanic; apply Ht. }
    destruct t as [|c t']; [split; discriminate|]. cbn [length] in Hl.
    assert (Ht' : unq t' <> RPanic /\ unqb t' <> RPanic) by (apply IH; lia).
    destruct (c =? 117).
    2:{ split; apply rcons_nopanic; apply Ht'. }
    destruct t' as [|a [|b [|c2 [|d rest]]]]; try (split; discriminate).
    cbn [length] in Hl.
    assert (Hr : unq rest <> RPanic /\ unqb rest <> RPanic) by (apply IH; lia).
    pose proof (decode4_nopanic a b c2 d) as Hd.
    destruct (decode4 a b c2 d); try congruence; [|split; discriminate].
    split; apply rcons_nopanic; apply Hr.
Qed.

Theorem unquote_never_panics s : unquote s <> RPanic.
Proof.
  unfold unquote. pose proof (proj1 (unq_nopanic_len (length s) s (le_n _))) as H.
  destruct (unq s); cbn; congruence.
Qed.

Theorem unquote_bytes_never_panics s : unquote_bytes s <> RPanic.
Proof.
  unfold unquote_bytes. pose proof (proj2 (unq_nopanic_len (length s) s (le_n _))) as H.
  destruct (unqb s); cbn; congruence.
Qed.

(* the inputs that crashed before that commit are refused with an error *)
Theorem unquote_truncated_u t : (length t < 4)%nat ->
  unquote (92 :: 117 :: t) = RErr 1 /\ unquote_bytes (92 :: 117 :: t) = RErr 1.
Proof.
  intros H. destruct t as [|a [|b [|c [|d rest]]]]; cbn in H; try lia; split; reflexivity.
Qed.

Theorem unquote_surrogate_u a b c d rest : decode4 a b c d = RErr 1 ->
  unquote (92 :: 117 :: a :: b :: c :: d :: rest) = RErr 1 /\
  unquote_bytes (92 :: 117 :: a :: b :: c :: d :: rest) = RErr 1.
Proof.
  intros H. unfold unquote, unquote_bytes. cbn [unq unqb N.eqb Pos.eqb]. rewrite H. split; reflexivity.
Qed.

Lemma former_crash_inputs :
  unquote [92; 117; 49; 50; 51] = RErr 1 /\ decode4 100 56 48 48 = RErr 1 /\
  unquote [92; 117; 100; 56; 48; 48] = RErr 1 /\
  unquote [34; 92; 117; 100; 56; 51; 100; 92; 117; 100; 101; 48; 48; 34] = RErr 1 /\
  unquote_bytes [97; 92] = ROk [97; 92] /\ unquote [97; 92] = ROk [97; 92].
Proof. repeat split; vm_compute; reflexivity. Qed.

Lemma unquote_bytes_truncates :
  unquote_bytes [92; 117; 48; 48; 101; 57] = ROk [195] /\ unquote [92; 117; 48; 48; 101; 57] = ROk [195; 169].
Proof. split; vm_compute; reflexivity. Qed.
Lemma quote_examples :
  quote [97; 0; 31; 34; 92; 10; 127; 195; 169; 255] =
    [34; 97; 92;117;48;48;48;48; 92;117;48;48;49;102; 92;34; 92;92; 92;110; 127; 195;169; 92;117;102;102;102;100; 34] /\
  utf8_ok 0 [97; 0; 31; 34; 92; 10; 127; 195; 169; 240; 159; 152; 128] = true /\
  unquote [34; 97; 92; 34; 34] = ROk [97; 34] /\ unquote [92; 117; 49; 50] = RErr 1 /\
  unquote [92; 117; 48; 48; 122; 122] = RErr 2.
Proof. repeat split; vm_compute; reflexivity. Qed.
