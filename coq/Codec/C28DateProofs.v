(* C28 -- the civil calendar round trip over all of Z.  Codec/C28Date.v repeats the calendar of Codec/C31Date.v
   word for word, so the two are convertible and the theorems of Codec/C31DateProofs.v apply as they stand. *)
From Coq Require Import List NArith ZArith Bool Lia.
Import ListNotations.
From GMS Require Import Codec.C28Date.
From GMS Require Codec.C31Date Codec.C31DateProofs.
Open Scope Z_scope.

Fixpoint upto (n : nat) (start : Z) : list Z :=
  match n with O => [] | S k => start :: upto k (start + 1) end.
Definition range (n : Z) : list Z := upto (Z.to_nat n) 0.
Lemma in_upto n : forall s z, s <= z < s + Z.of_nat n -> In z (upto n s).
Proof.
  induction n as [|n IH]; intros s z H; [lia|]. cbn [upto].
  destruct (Z.eq_dec s z) as [->|Hn]; [now left|]. right. apply IH. lia.
Qed.
Lemma in_range z n : 0 <= z < n -> In z (range n).
Proof. intros H. unfold range. apply in_upto. rewrite Z2Nat.id by lia. lia. Qed.

Lemma same_calendar :
  days_from_civil = C31Date.days_from_civil /\ civil_from_days = C31Date.civil_from_days /\
  valid_date = C31Date.valid_date.
Proof. repeat split. Qed.

Theorem days_civil_days z : days_from_civil (civil_from_days z) = z /\ valid_date (civil_from_days z) = true.
Proof. destruct same_calendar as (-> & -> & ->). exact (C31DateProofs.days_civil_days z). Qed.

Theorem civil_days_civil dt : valid_date dt = true -> civil_from_days (days_from_civil dt) = dt.
Proof. destruct same_calendar as (-> & -> & ->). exact (C31DateProofs.civil_days_civil dt). Qed.
