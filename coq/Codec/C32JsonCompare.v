(* Proofs about CompareJSON's model (Codec/C32Json.v cmp_json / compare_json): a total order whose equivalence is
   equality of the forms with bytewise-sorted keys. *)
From Coq Require Import List NArith ZArith Bool Arith Lia.
Import ListNotations.
From GMS Require Import Codec.Charset Codec.JsonQuote Codec.C32Json Codec.C32JsonProofs.
Open Scope N_scope.

Section JsonInd.
  Variable P : json -> Prop.
  Hypothesis HN : P JNull.
  Hypothesis HB : forall b, P (JBool b).
  Hypothesis HI : forall z, P (JInt z).
  Hypothesis HS : forall s, P (JStr s).
  Hypothesis HA : forall l, Forall P l -> P (JArr l).
  Hypothesis HO : forall m, Forall (fun kv => P (snd kv)) m -> P (JObj m).
  Fixpoint json_ind2 (j : json) : P j :=
    match j with
    | JNull => HN | JBool b => HB b | JInt z => HI z | JStr s => HS s
    | JArr l => HA l ((fix go (l : list json) : Forall P l :=
                         match l with [] => Forall_nil _ | x :: l' => Forall_cons x (json_ind2 x) (go l') end) l)
    | JObj m => HO m ((fix go (m : list (list N * json)) : Forall (fun kv => P (snd kv)) m :=
                         match m with [] => Forall_nil _ | kv :: m' => Forall_cons kv (json_ind2 (snd kv)) (go m') end) m)
    end.
End JsonInd.

(* arrays and objects as lexicographic comparisons *)
Definition ci_obj (p q : list N * json) : comparison :=
  match bytes_cmp (fst p) (fst q) with
  | Lt => Gt | Gt => Lt
  | Eq => cmp_json (snd p) (snd q)
  end.

Lemma cmp_arr_lex x : forall y, cmp_json (JArr x) (JArr y) = lex cmp_json x y.
Proof.
  induction x as [|u x IH]; intros [|v y]; try reflexivity. cbn [lex]. rewrite <- IH. reflexivity.
Qed.

Lemma cmp_obj_lex x : forall y, cmp_json (JObj x) (JObj y) = lex ci_obj x y.
Proof.
  induction x as [|[k1 u] x IH]; intros [|[k2 v] y]; try reflexivity.
  cbn [lex]. unfold ci_obj at 1. cbn [fst snd]. rewrite <- IH. cbn.
  destruct (bytes_cmp k1 k2); reflexivity.
Qed.

Theorem cmp_json_refl : forall a, cmp_json a a = Eq.
Proof.
  induction a using json_ind2.
  - reflexivity.
  - destruct b; reflexivity.
  - cbn. apply Z.compare_refl.
  - cbn. apply bytes_cmp_refl.
  - rewrite cmp_arr_lex. apply lex_refl. exact H.
  - rewrite cmp_obj_lex. apply lex_refl. eapply Forall_impl; [|exact H].
    intros [k v] Hv. unfold ci_obj. cbn [fst snd] in *. now rewrite bytes_cmp_refl.
Qed.

Theorem cmp_json_opp : forall a b, cmp_json b a = CompOpp (cmp_json a b).
Proof.
  induction a using json_ind2; intros b'; destruct b' as [|b'|z'|s'|l'|m']; try reflexivity.
  - destruct b, b'; reflexivity.
  - cbn. apply Z.compare_antisym.
  - cbn. apply bytes_cmp_opp.
  - rewrite !cmp_arr_lex. apply lex_opp. exact H.
  - rewrite !cmp_obj_lex. apply lex_opp. eapply Forall_impl; [|exact H].
    intros [k v] Hv [k2 v2]. unfold ci_obj. cbn [fst snd] in *. rewrite (bytes_cmp_opp k k2).
    destruct (bytes_cmp k k2); cbn; try reflexivity. apply Hv.
Qed.

Theorem cmp_json_eq : forall a b, cmp_json a b = Eq -> a = b.
Proof.
  induction a using json_ind2; intros b' E; destruct b' as [|b'|z'|s'|l'|m']; try discriminate E; try reflexivity.
  - destruct b, b'; try discriminate E; reflexivity.
  - cbn in E. apply Z.compare_eq in E. now subst.
  - cbn in E. apply bytes_cmp_eq in E. now subst.
  - rewrite cmp_arr_lex in E. f_equal. eapply lex_eq; [|exact E]. exact H.
  - rewrite cmp_obj_lex in E. f_equal. eapply lex_eq; [|exact E]. eapply Forall_impl; [|exact H].
    intros [k v] Hv [k2 v2] C. unfold ci_obj in C. cbn [fst snd] in *.
    destruct (bytes_cmp k k2) eqn:B; try discriminate. apply bytes_cmp_eq in B. apply Hv in C. now subst.
Qed.

Lemma ci_obj_eq p q : ci_obj p q = Eq -> p = q.
Proof.
  destruct p as [k v], q as [k2 v2]. unfold ci_obj. cbn [fst snd].
  destruct (bytes_cmp k k2) eqn:B; try discriminate. intros C. apply bytes_cmp_eq in B. apply cmp_json_eq in C. now subst.
Qed.

Theorem cmp_json_trans_lt : forall a b c, cmp_json a b = Lt -> cmp_json b c = Lt -> cmp_json a c = Lt.
Proof.
  induction a using json_ind2; intros b' c' E1 E2;
    destruct b' as [|b'|z'|s'|l'|m']; try discriminate E1;
    destruct c' as [|c'|z2|s2|l2|m2]; try discriminate E2; try reflexivity.
  - destruct b, b', c'; try discriminate; reflexivity.
  - cbn in *. rewrite Z.compare_lt_iff in *. lia.
  - cbn in *. eapply bytes_cmp_trans_lt; eassumption.
  - rewrite cmp_arr_lex in *. eapply (lex_trans_lt cmp_json cmp_json_eq); [|exact E1|exact E2].
    eapply Forall_impl; [|exact H]. intros x Hx y z. apply Hx.
  - rewrite cmp_obj_lex in *. eapply (lex_trans_lt ci_obj ci_obj_eq); [|exact E1|exact E2].
    eapply Forall_impl; [|exact H]. intros [k v] Hv [k2 v2] [k3 v3]. unfold ci_obj. cbn [fst snd] in *.
    destruct (bytes_cmp k k2) eqn:B1; try discriminate; destruct (bytes_cmp k2 k3) eqn:B2; try discriminate; intros C1 C2.
    + apply bytes_cmp_eq in B1. apply bytes_cmp_eq in B2. subst. rewrite bytes_cmp_refl. eapply Hv; eassumption.
    + apply bytes_cmp_eq in B1. subst. now rewrite B2.
    + apply bytes_cmp_eq in B2. subst. now rewrite B1.
    + (* k > k2 > k3 bytewise *)
      assert (bytes_cmp k3 k = Lt) as B3.
      { eapply bytes_cmp_trans_lt; [rewrite bytes_cmp_opp, B2; reflexivity|rewrite bytes_cmp_opp, B1; reflexivity]. }
      rewrite bytes_cmp_opp, B3. reflexivity.
Qed.

Theorem compare_json_refl a : compare_json a a = Eq.
Proof. apply cmp_json_refl. Qed.

Theorem compare_json_total a b : compare_json b a = CompOpp (compare_json a b).
Proof. apply cmp_json_opp. Qed.

Theorem compare_json_eq_iff a b : compare_json a b = Eq <-> sort_bytewise a = sort_bytewise b.
Proof. split; [apply cmp_json_eq|intros H; unfold compare_json; rewrite H; apply cmp_json_refl]. Qed.

Theorem compare_json_trans a b c : compare_json a b <> Gt -> compare_json b c <> Gt -> compare_json a c <> Gt.
Proof.
  unfold compare_json. generalize (sort_bytewise a) (sort_bytewise b) (sort_bytewise c). intros x y z H1 H2.
  destruct (cmp_json x y) eqn:C1; [| |congruence]; destruct (cmp_json y z) eqn:C2; try congruence.
  - apply cmp_json_eq in C1. apply cmp_json_eq in C2. subst. rewrite cmp_json_refl. discriminate.
  - apply cmp_json_eq in C1. subst. rewrite C2. discriminate.
  - apply cmp_json_eq in C2. subst. rewrite C1. discriminate.
  - rewrite (cmp_json_trans_lt x y z C1 C2). discriminate.
Qed.
