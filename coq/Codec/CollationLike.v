(* Model of expression/like.go LikeMatcher.Match / backtrack (the collation-aware LIKE matcher).
   Pattern nodes: NRune so (likeMatcherRune: matches one rune whose weight equals so; a NEGATIVE so matches any
   rune - this is how '_' is represented, sortOrder -1) and NAny (likeMatcherAny, '%', reluctant).
   The subject string is given as its runes: Good w (a rune with collation weight w) or Bad (NextRune returned
   RuneError with advance <= 1).  The Go code keeps indexes (stringIndex, nodeIndex, nodeNextIndex[]); the model
   keeps the same information as a zipper: [done] pairs every matched node (most recent first) with the rest of
   the string after its match (= nodeNextIndex), [todo] are the nodes from nodeIndex on, [rest] is s[stringIndex:]. *)
From Coq Require Import List NArith ZArith Bool Arith Lia.
Import ListNotations.
From GMS Require Import Codec.Charset Codec.Collation Codec.CollationProofs.
Open Scope Z_scope.

Inductive node : Type := NRune (so : Z) | NAny.
Inductive item : Type := Good (w : Z) | Bad.

Definition is_any (n : node) : bool := match n with NAny => true | _ => false end.

(* backtrack: unwind until a node can take one more rune (only NAny can); None = no node can *)
Fixpoint backtrack (done : list (node * list item)) (todo : list node)
  : option (list (node * list item) * list node * list item) :=
  match done with
  | [] => None
  | (n, suf) :: done' =>
      match suf with
      | [] => None                        (* NextRune on the empty rest: (RuneError, 0) *)
      | Bad :: _ => None
      | Good _ :: suf' =>
          if is_any n then Some ((n, suf') :: done', todo, suf')
          else backtrack done' (n :: todo)
      end
  end.

Fixpoint run (fuel : nat) (done : list (node * list item)) (todo : list node) (rest : list item) : option bool :=
  match fuel with
  | O => None
  | S f =>
      match todo, rest with
      | [], [] => Some true
      | [], _ :: _ =>
          match backtrack done todo with
          | None => Some false
          | Some (d, t, r) => run f d t r
          end
      | _ :: _, [] => Some (forallb is_any todo)
      | n :: todo', x :: rest' =>
          match x with
          | Bad => Some false
          | Good w =>
              match n with
              | NAny => run f ((n, rest) :: done) todo' rest          (* matched, not consumed *)
              | NRune so =>
                  if (so <? 0) || (w =? so) then run f ((n, rest') :: done) todo' rest'
                  else match backtrack done todo with
                       | None => Some false
                       | Some (d, t, r) => run f d t r
                       end
              end
          end
      end
  end.

Definition like_match (fuel : nat) (nodes : list node) (s : list item) : option bool :=
  match nodes with
  | [] => Some (match s with [] => true | _ => false end)
  | _ => run fuel [] nodes s
  end.

Definition literal (n : node) : Prop := match n with NRune so => 0 <= so | NAny => False end.

Lemma backtrack_literal done : forall todo, Forall (fun p => literal (fst p)) done -> backtrack done todo = None.
Proof.
  induction done as [|[n suf] done IH]; intros todo H; cbn; [reflexivity|].
  inversion H as [|? ? Hn Hd]; subst. cbn in Hn.
  destruct suf as [|[w|] suf']; try reflexivity.
  destruct n as [so|]; [|contradiction]. cbn. apply IH. exact Hd.
Qed.

Fixpoint zeqb (a b : list Z) : bool :=
  match a, b with
  | [], [] => true
  | x :: a', y :: b' => (x =? y) && zeqb a' b'
  | _, _ => false
  end.

Lemma zeqb_eq a : forall b, zeqb a b = true <-> a = b.
Proof.
  induction a as [|x a IH]; intros [|y b]; cbn; split; intros H; try reflexivity; try discriminate.
  - apply andb_prop in H. destruct H as [H1 H2]. apply Z.eqb_eq in H1. apply IH in H2. congruence.
  - injection H as -> ->. rewrite Z.eqb_refl. apply IH. reflexivity.
Qed.

Definition so_of (n : node) : Z := match n with NRune so => so | NAny => 0 end.

Lemma run_literal : forall todo fuel done rest,
  Forall literal todo -> Forall (fun p => literal (fst p)) done -> (length todo < fuel)%nat ->
  run fuel done todo (map Good rest) = Some (zeqb rest (map so_of todo)).
Proof.
  induction todo as [|n todo IH]; intros fuel done rest Ht Hd Hf.
  - destruct fuel as [|f]; [cbn in Hf; lia|]. destruct rest as [|x rest]; cbn.
    + reflexivity.
    + rewrite backtrack_literal by exact Hd. reflexivity.
  - destruct fuel as [|f]; [cbn in Hf; lia|]. inversion Ht as [|? ? Hn Ht']; subst.
    destruct n as [so|]; [|contradiction]. cbn in Hn.
    destruct rest as [|x rest]; cbn [run map zeqb so_of]; [reflexivity|].
    replace (so <? 0) with false by (symmetry; apply Z.ltb_ge; lia). cbn [orb].
    destruct (x =? so) eqn:E.
    + rewrite (IH f ((NRune so, map Good rest) :: done) rest Ht'); [reflexivity| |cbn in Hf; lia].
      constructor; [exact Hn|exact Hd].
    + rewrite backtrack_literal by exact Hd. reflexivity.
Qed.

(* a pattern without wildcards matches exactly the strings whose runes have the pattern's weights, i.e. the
   strings that Compare equates with the pattern text *)
Theorem like_literal_is_weight_equality (sos ws : list Z) fuel :
  Forall (fun so => 0 <= so) sos -> sos <> [] -> (length sos < fuel)%nat ->
  (like_match fuel (map NRune sos) (map Good ws) = Some true <-> ws = sos) /\
  like_match fuel (map NRune sos) (map Good ws) <> None.
Proof.
  intros Hp Hne Hf. unfold like_match. destruct sos as [|so sos]; [congruence|]. cbn [map].
  change (NRune so :: map NRune sos) with (map NRune (so :: sos)).
  rewrite run_literal.
  - rewrite map_map. cbn [so_of]. rewrite map_id. split; [|discriminate].
    split; intros H; [injection H as H; apply zeqb_eq; exact H|f_equal; apply zeqb_eq; exact H].
  - apply Forall_forall. intros n Hin. apply in_map_iff in Hin. destruct Hin as (x & <- & Hx). cbn.
    rewrite Forall_forall in Hp. apply Hp. exact Hx.
  - constructor.
  - rewrite map_length. exact Hf.
Qed.

(* ... stated with the Compare model: under any weight function w with non-negative weights on the pattern,
   a wildcard-free, non-empty pattern p matches a exactly when Compare(a, p) = 0 *)
Theorem like_literal_iff_compare_eq (w : N -> Z) (a p : list N) fuel :
  Forall (fun so => 0 <= so) (weights w false p) -> weights w false p <> [] ->
  (length (weights w false p) < fuel)%nat ->
  (like_match fuel (map NRune (weights w false p)) (map Good (weights w false a)) = Some true <->
   compare w false a p = Eq).
Proof.
  intros H1 H2 H3. rewrite compare_eq_iff_weights.
  apply (like_literal_is_weight_equality (weights w false p) (weights w false a) fuel H1 H2 H3).
Qed.

Lemma like_examples :
  like_match 100 [NRune 72; NRune (-1); NRune 76; NAny; NRune 79] (map Good [72; 69; 76; 76; 79]) = Some true /\
  like_match 100 [NAny; NRune 66; NAny; NRune 67; NAny] (map Good [65; 88; 66; 88; 67]) = Some true /\
  like_match 100 [NAny; NRune 66] (map Good [66; 65]) = Some false /\
  like_match 100 [NAny] [Good 1; Bad] = Some false /\ like_match 100 [] [] = Some true.
Proof. repeat split; vm_compute; reflexivity. Qed.

(* declarative LIKE on rune items: '%' (NAny) any sequence, '_' (NRune with negative order) one rune, a literal one
   rune of equal weight *)
Fixpoint dlike (nodes : list node) (s : list item) {struct nodes} : bool :=
  match nodes with
  | [] => match s with [] => true | _ => false end
  | NRune so :: ns =>
      match s with
      | Good w :: s' => ((so <? 0) || (w =? so)) && dlike ns s'
      | _ => false
      end
  | NAny :: ns =>
      (fix any (s : list item) : bool := dlike ns s || match s with [] => false | _ :: s' => any s' end) s
  end.

Lemma dlike_any ns s :
  dlike (NAny :: ns) s = dlike ns s || match s with [] => false | _ :: s' => dlike (NAny :: ns) s' end.
Proof. destruct s; reflexivity. Qed.

Lemma dlike_nil_all_any todo : dlike todo [] = forallb is_any todo.
Proof.
  induction todo as [|n todo IH]; [reflexivity|]. destruct n; [reflexivity|]. rewrite dlike_any, IH. cbn. now rewrite orb_false_r.
Qed.

(* what backtracking can still reach: an earlier '%' taking at least one more rune, everything after it matched afresh *)
Fixpoint alts (done : list (node * list item)) (todo : list node) : bool :=
  match done with
  | [] => false
  | (n, suf) :: done' =>
      (is_any n && match suf with [] => false | _ :: suf' => dlike (NAny :: todo) suf' end) || alts done' (n :: todo)
  end.

(* backtracking resumes at the most recent '%': what it can still reach is unchanged *)
Lemma backtrack_eq : forall done todo d t r, backtrack done todo = Some (d, t, r) ->
  alts done todo = dlike t r || alts d t.
Proof.
  induction done as [|[n suf] done IH]; intros todo d t r H; [discriminate|].
  cbn [backtrack] in H. destruct suf as [|[w|] suf']; try discriminate. cbn [alts].
  destruct (is_any n) eqn:A.
  - injection H as <- <- <-. destruct n; [discriminate|]. cbn [alts is_any andb].
    rewrite (dlike_any todo suf'). now rewrite orb_assoc.
  - cbn [andb orb]. apply IH. exact H.
Qed.

Lemma run_sound : forall fuel done todo rest, run fuel done todo rest = Some true ->
  dlike todo rest || alts done todo = true.
Proof.
  induction fuel as [|f IH]; intros done todo rest H; [discriminate|]. cbn [run] in H.
  assert (Hback : forall td, match backtrack done td with
                             | None => Some false
                             | Some (d, t, r) => run f d t r
                             end = Some true -> alts done td = true).
  { intros td Hb. destruct (backtrack done td) as [[[d t] r]|] eqn:B; [|discriminate].
    rewrite (backtrack_eq _ _ _ _ _ B). apply IH, Hb. }
  destruct todo as [|n todo']; destruct rest as [|x rest'].
  - reflexivity.
  - rewrite (Hback _ H). apply orb_true_r.
  - injection H as H. rewrite dlike_nil_all_any. cbn [forallb]. rewrite H. reflexivity.
  - destruct x as [w|]; [|discriminate]. destruct n as [so|].
    + cbn [dlike]. destruct ((so <? 0) || (w =? so)).
      * apply IH in H. exact H.
      * rewrite (Hback _ H). apply orb_true_r.
    + apply IH in H. cbn [alts is_any andb] in H. rewrite dlike_any, <- orb_assoc. exact H.
Qed.

(* the machine never accepts a string that the pattern does not denote, for every weight assignment *)
Theorem like_match_sound fuel nodes s : like_match fuel nodes s = Some true -> dlike nodes s = true.
Proof.
  unfold like_match. destruct nodes as [|n nodes].
  - destruct s; [reflexivity|discriminate].
  - intros H. apply run_sound in H. cbn [alts] in H. rewrite orb_false_r in H. exact H.
Qed.
