(* C50 - what fmt's %v prints for the non-string, non-int64 values INTO OUTFILE meets: *apd.Decimal (plain notation
   with the stored scale), time.Time in UTC (Go's default layout, not SQL's), []byte (Go slice syntax). *)
From Coq Require Import List NArith ZArith Bool Lia.
Import ListNotations.
From GMS Require Import Codec.Outfile.
Open Scope N_scope.

Definition pad2 (n : N) : bytes := [48 + n / 10; 48 + n mod 10].
Definition pad4 (n : N) : bytes := [48 + n / 1000; 48 + (n / 100) mod 10; 48 + (n / 10) mod 10; 48 + n mod 10].
Definition go_utc : bytes := [32; 43; 48; 48; 48; 48; 32; 85; 84; 67].        (* " +0000 UTC" *)

Definition fmt_clock (hh mi ss : N) : bytes := pad2 hh ++ [58] ++ pad2 mi ++ [58] ++ pad2 ss.
Definition fmt_datetime (y mo d hh mi ss : N) : bytes :=
  pad4 y ++ [45] ++ pad2 mo ++ [45] ++ pad2 d ++ [32] ++ fmt_clock hh mi ss ++ go_utc.
Definition fmt_date (y mo d : N) : bytes := fmt_datetime y mo d 0 0 0.

Fixpoint join_sp (l : list bytes) : bytes :=
  match l with
  | [] => []
  | [x] => x
  | x :: l' => x ++ [32] ++ join_sp l'
  end.
Definition fmt_blob (b : bytes) : bytes := [91] ++ join_sp (map render_N b) ++ [93].

(* unscaled integer u and scale s: u * 10^-s in plain notation, s fractional digits *)
Definition fmt_dec (u : Z) (s : nat) : bytes :=
  let ds := render_N (Z.abs_N u) in
  let ds' := repeat 48 (S s - length ds) ++ ds in
  let k := (length ds' - s)%nat in
  (if (u <? 0)%Z then [45] else []) ++ firstn k ds' ++ (match s with O => [] | _ => [46] ++ skipn k ds' end).

(* values as the driver observes them *)
Inductive xval :=
| XNull | XInt (z : Z) | XStr (s : bytes)
| XDec (u : Z) (scale : nat) | XDate (y mo d : N) | XDateTime (y mo d hh mi ss : N) | XBlob (b : bytes).

Definition to_val_x (x : xval) : val :=
  match x with
  | XNull => VNull
  | XInt z => VInt z
  | XStr s => VStr s
  | XDec u s => VRaw (fmt_dec u s)
  | XDate y mo d => VRaw (fmt_date y mo d)
  | XDateTime y mo d hh mi ss => VRaw (fmt_datetime y mo d hh mi ss)
  | XBlob b => VRaw (fmt_blob b)
  end.

(* the SQL text of a DATE, to set beside what is exported *)
Definition sql_date (y mo d : N) : bytes := pad4 y ++ [45] ++ pad2 mo ++ [45] ++ pad2 d.

Definition dflt_o : opts := mkOpts [9] [] false [92] [] [10].

(* a DATE is exported in Go's time layout: read back as text it is not the date's SQL text *)
Lemma date_export_layout :
  load dflt_o [TText] (dump dflt_o [TOther false] [[to_val_x (XDate 2024 2 29)]])
    = Loaded [[VStr [50;48;50;52;45;48;50;45;50;57;32;48;48;58;48;48;58;48;48;32;43;48;48;48;48;32;85;84;67]]]
  /\ sql_date 2024 2 29 = [50;48;50;52;45;48;50;45;50;57].
Proof. split; vm_compute; reflexivity. Qed.

(* a BLOB 'ab' is exported as the Go slice [97 98] *)
Lemma blob_export_refuted :
  load dflt_o [TText] (dump dflt_o [TOther true] [[to_val_x (XBlob [97; 98])]]) = Loaded [[VStr [91;57;55;32;57;56;93]]].
Proof. vm_compute. reflexivity. Qed.

Lemma fmt_examples :
  fmt_dec (-1)%Z 2 = [45;48;46;48;49] /\ fmt_dec 1250%Z 2 = [49;50;46;53;48] /\ fmt_dec 0%Z 2 = [48;46;48;48] /\
  fmt_dec 12345678901234567890%Z 0 = [49;50;51;52;53;54;55;56;57;48;49;50;51;52;53;54;55;56;57;48] /\
  fmt_blob [] = [91;93].
Proof. vm_compute. repeat split. Qed.
