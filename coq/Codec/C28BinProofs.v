(* C28 -- proofs about the binary-protocol model: little-endian integers, length-encoded strings, and the
   composition text -> vitess encoder -> client reader for integers and DATE. *)
From Coq Require Import List NArith ZArith Bool Lia Arith.
Import ListNotations.
From GMS Require Import Codec.C28Date Codec.C28Wire Codec.C28WireProofs Codec.C28Bin.
Open Scope Z_scope.

Lemma le_bytes_length k : forall v, length (le_bytes k v) = k.
Proof. induction k as [|k IH]; intros v; cbn [le_bytes length]; [reflexivity|]. now rewrite IH. Qed.

Lemma le_decode_bytes k : forall v, 0 <= v -> le_decode (le_bytes k v) = v mod 256 ^ Z.of_nat k.
Proof.
  induction k as [|k IH]; intros v Hv.
  - cbn. now rewrite Z.mod_1_r.
  - cbn [le_bytes le_decode]. rewrite IH by (apply Z.div_pos; lia).
    pose proof (Z.mod_pos_bound v 256 ltac:(lia)). rewrite Z2N.id by lia.
    rewrite pow_nat_S. assert (P : 0 < 256 ^ Z.of_nat k) by (apply Z.pow_pos_nonneg; lia).
    rewrite Z.rem_mul_r by lia. lia.
Qed.

Lemma le_decode_small k v : 0 <= v < 256 ^ Z.of_nat k -> le_decode (le_bytes k v) = v.
Proof. intros H. rewrite le_decode_bytes by lia. now apply Z.mod_small. Qed.

Lemma lenenc_body k l (s : bytes) : 0 <= l < 256 ^ Z.of_nat k ->
  le_decode (firstn k (le_bytes k l ++ s)) = l /\ skipn k (le_bytes k l ++ s) = s.
Proof.
  intros H. pose proof (le_bytes_length k l) as L.
  rewrite firstn_app, skipn_app, L, Nat.sub_diag, firstn_all2, skipn_all2 by lia.
  cbn [firstn skipn app]. rewrite app_nil_r. split; [now apply le_decode_small|reflexivity].
Qed.

Theorem lenenc_roundtrip s : Z.of_nat (length s) < 2 ^ 64 -> lenenc_decode (lenenc_str s) = Some s.
Proof.
  intros Hl. unfold lenenc_str, lenenc_int. set (l := Z.of_nat (length s)) in *. assert (0 <= l) by (unfold l; lia).
  destruct (l <? 251) eqn:E1; [|destruct (l <? 2 ^ 16) eqn:E2; [|destruct (l <? 2 ^ 24) eqn:E3]];
    cbn [app lenenc_decode]; [|cbn [N.ltb N.compare Pos.compare Pos.compare_cont N.eqb Pos.eqb]..].
  - apply Z.ltb_lt in E1. rewrite (proj2 (N.ltb_lt _ 251)), Z2N.id by lia. fold l. now rewrite Z.eqb_refl.
  - apply Z.ltb_lt in E2. destruct (lenenc_body 2 l s) as [-> ->]; [cbn; lia|]. fold l. now rewrite Z.eqb_refl.
  - apply Z.ltb_lt in E3. destruct (lenenc_body 3 l s) as [-> ->]; [cbn; lia|]. fold l. now rewrite Z.eqb_refl.
  - destruct (lenenc_body 8 l s) as [-> ->]; [cbn; lia|]. fold l. now rewrite Z.eqb_refl.
Qed.

(* the storage width holds the type's range (MEDIUMINT travels in four bytes) *)
Lemma ity_width_range t : let bits := 8 * Z.of_nat (ity_width t) in
  2 ^ bits = 256 ^ Z.of_nat (ity_width t) /\
  if ity_signed t then - 2 ^ (bits - 1) <= ity_min t /\ ity_max t <= 2 ^ (bits - 1) - 1
  else 0 <= ity_min t /\ ity_max t <= 2 ^ bits - 1.
Proof. destruct t; vm_compute; easy. Qed.

Theorem int_binary_roundtrip t v : ity_storable t v ->
  exists b, int_bin t (int_sql_text t v) = Some b /\ int_bin_decode t b = v /\ length b = ity_width t.
Proof.
  intros Hs. rewrite (int_sql_text_storable t v Hs). destruct Hs as [H1 H2].
  pose proof (ity_width_range t) as [HP Hf]. cbv zeta in HP, Hf.
  unfold int_bin, int_bin_decode. rewrite parse_format_int. cbv zeta.
  set (bits := 8 * Z.of_nat (ity_width t)) in *.
  assert (Hbits : 1 <= bits) by (unfold bits; destruct t; cbn; lia).
  assert (HB : 2 ^ bits = 2 * 2 ^ (bits - 1)) by (rewrite <- Z.pow_succ_r by lia; f_equal; lia).
  assert (H0 : 0 < 2 ^ (bits - 1)) by (apply Z.pow_pos_nonneg; lia).
  exists (le_bytes (ity_width t) (v mod 2 ^ bits)).
  split; [|split; [|apply le_bytes_length]].
  - destruct (ity_signed t); now rewrite (proj2 (Z.leb_le _ v)), (proj2 (Z.leb_le v _)) by lia.
  - rewrite le_decode_bytes, <- HP, Z.mod_mod by (try apply Z.mod_pos_bound; lia).
    destruct (ity_signed t); cbn [andb]; [destruct (Z_lt_le_dec v 0) as [Hn|Hn]|].
    + (* two's complement of a negative value *)
      rewrite <- (Z.mod_unique v (2 ^ bits) (-1) (v + 2 ^ bits)) by lia.
      rewrite (proj2 (Z.leb_le _ (v + 2 ^ bits))) by lia. lia.
    + rewrite Z.mod_small, (proj2 (Z.leb_gt _ v)) by lia. reflexivity.
    + now rewrite Z.mod_small by lia.
Qed.

Lemma byte_ok_true v : 0 <= v < 256 -> ob (Some v) = Some v.
Proof. intros H. unfold ob, byte_ok. now rewrite (proj2 (Z.leb_le 0 v)), (proj2 (Z.ltb_lt v 256)) by lia. Qed.

(* what the client makes of the year, month and day bytes of the three structs *)
Lemma bin_decode_base y m d : 0 <= y < 65536 -> 1 <= m < 256 -> 0 <= d < 256 ->
  (if (le_decode (le_bytes 2 y) =? 0) && (Z.to_N m =? 0)%N && (Z.to_N d =? 0)%N then zero_time_us
   else days_from_civil (le_decode (le_bytes 2 y), Z.of_N (Z.to_N m), Z.of_N (Z.to_N d)) * us_per_day) =
  days_from_civil (y, m, d) * us_per_day.
Proof.
  intros Hy Hm Hd. rewrite le_decode_small, !Z2N.id, (proj2 (N.eqb_neq (Z.to_N m) 0)), andb_false_r by (cbn; lia).
  reflexivity.
Qed.

Theorem date_binary_roundtrip x : date_storable x ->
  exists t b, date_sql_text x = Some t /\ datetime_bin t = Some b /\ datetime_bin_decode b = Some x /\ length b = 5%nat.
Proof.
  intros H. destruct (date_shape x H) as (y & m & d & Hy & Hm & Hd & _ & _ & Ex & Et).
  exists (date_fields y m d), (4%N :: le_bytes 2 y ++ [Z.to_N m; Z.to_N d]).
  split; [exact Et|]. split; [|split; [|reflexivity]].
  - unfold datetime_bin, date_fields, pad2. cbn [app length Nat.ltb Nat.leb].
    now rewrite d4_year, d2_pad2, parse_uint_pad2, byte_ok_true by lia.
  - cbn [le_bytes app]. unfold datetime_bin_decode.
    change (le_decode [_; _]) with (le_decode (le_bytes 2 y)). now rewrite bin_decode_base, Ex by lia.
Qed.
