(* C25 — proofs about nested arithmetic (Codec/C25Nested.v) *)
From Coq Require Import ZArith Bool List Lia.
Import ListNotations.
From GMS Require Import Codec.C25Arith Codec.C25ArithProofs Codec.C25Nested.
Open Scope Z_scope.

(* trees of + - * over SIGNED integer leaves (any width), and their exact value *)
Fixpoint signed_tree (e : expr) : Prop :=
  match e with
  | ELeaf _ _ (OInt t z) => unsigned t = false /\ in_range t z
  | EBin Plus l r | EBin Minus l r | EBin Mult l r => signed_tree l /\ signed_tree r
  | _ => False
  end.

Fixpoint zval (e : expr) : Z :=
  match e with
  | ELeaf _ _ (OInt _ z) => z
  | EBin o l r => zop o (zval l) (zval r)
  | _ => 0
  end.

(* every subexpression's exact value fits BIGINT *)
Fixpoint fits (e : expr) : Prop :=
  match e with
  | EBin _ l r => fits l /\ fits r /\ min_i64 <= zval e <= max_i64
  | _ => True
  end.

Lemma signed_tree_sty e : signed_tree e -> sty_int (sty_of e) = true /\ sty_unsigned (sty_of e) = false.
Proof.
  induction e as [lit decl o|o l IHl r IHr|e IH]; cbn [signed_tree].
  - destruct o as [|t z|m s]; cbn [signed_tree sty_of sty_int sty_unsigned]; tauto.
  - destruct o; try tauto; intros [Hl Hr]; destruct (IHl Hl) as [A B], (IHr Hr) as [C D];
      cbn [sty_of]; destruct (sty_of l), (sty_of r); cbn [sty_int sty_unsigned] in *; try discriminate;
      rewrite B; cbn [andb sty_int sty_unsigned unsigned]; auto.
  - tauto.
Qed.

(* a signed leaf is within BIGINT by its type, an inner node by [fits] *)
Lemma signed_fits_bound e : signed_tree e -> fits e -> min_i64 <= zval e <= max_i64.
Proof.
  destruct e as [lit decl [|t z|]| |]; cbn [signed_tree fits zval]; try tauto.
  intros [U R] _. exact (in_range_signed t z U R).
Qed.

(* the exactness theorem for nested integer arithmetic: if every subexpression fits, the engine's value is the
   exact one *)
Theorem signed_tree_exact e :
  signed_tree e -> fits e -> exists t, ev e = RInt t (zval e) /\ unsigned t = false.
Proof.
  induction e as [lit decl o|o l IHl r IHr|e IH]; cbn [signed_tree].
  - destruct o as [|t z|m s]; try tauto. intros [U R] _. exists (go_carrier t). cbn [ev zval]. split; [reflexivity|].
    destruct t; cbn in U |- *; try discriminate; reflexivity.
  - intros S F.
    assert (A : is_arith o /\ signed_tree l /\ signed_tree r).
    { unfold is_arith. destruct o; cbn [signed_tree] in S; try tauto. }
    destruct A as (Ho & Sl & Sr). cbn [fits] in F. destruct F as (Fl & Fr & Bz).
    pose proof (signed_fits_bound l Sl Fl) as Bl. pose proof (signed_fits_bound r Sr Fr) as Br.
    destruct (IHl Sl Fl) as (tl & El & _). destruct (IHr Sr Fr) as (tr & Er & _).
    destruct (signed_tree_sty l Sl) as [Il Nl]. destruct (signed_tree_sty r Sr) as [Ir _].
    exists I64. split; [|reflexivity].
    cbn [ev]. rewrite El, Er. cbn [is_err is_null_r orb as_operand].
    assert (E : arith_st o (sty_of l) (sty_of r) (OInt tl (zval l)) (OInt tr (zval r)) = RInt I64 (zval (EBin o l r))).
    { unfold arith_st. rewrite Il, Ir, Nl. cbn [andb].
      rewrite !conv_i64_id by lia. cbn [zval]. rewrite wrap_i64_id by exact Bz. reflexivity. }
    destruct Ho as [->|[->| ->]]; exact E.
  - tauto.
Qed.

(* integer results are never touched by the outermost rounding *)
Lemma neval_int e t z : ev e = RInt t z -> neval e = RInt t z.
Proof. intros H. unfold neval, apply_round. rewrite H. destruct e as [| o ? ?|]; try reflexivity. destruct o; reflexivity. Qed.

Corollary nested_signed_exact e :
  signed_tree e -> fits e -> min_i64 <= zval e <= max_i64 -> exists t, neval e = RInt t (zval e).
Proof. intros S F _. destruct (signed_tree_exact e S F) as (t & E & _). exists t. apply neval_int. exact E. Qed.

(* without the "every subexpression fits" guard the statement is false even when the final value fits *)
Lemma nested_intermediate_overflow :
  let e := EBin Minus (EBin Mult (EBin Plus (ELeaf false 0 (OInt I64 9223372036854775807)) (ELeaf true 0 (OInt I8 1)))
                                 (ELeaf true 0 (OInt I8 2))) (ELeaf true 0 (OInt I8 5)) in
  neval e = RInt I64 (-5) /\ zval e = 18446744073709551611.
Proof. split; vm_compute; reflexivity. Qed.

(* NULL and errors are absorbing: an error in either child wins, otherwise a NULL child makes the node NULL *)
Theorem nested_error_and_null_absorbing o l r :
  (ev l = RErr -> ev (EBin o l r) = RErr) /\
  (ev l <> RErr -> ev r = RErr -> ev (EBin o l r) = RErr) /\
  (ev l <> RErr -> ev r <> RErr -> (ev l = RNull \/ ev r = RNull) -> ev (EBin o l r) = RNull).
Proof.
  cbn [ev]. repeat split.
  - intros ->. reflexivity.
  - intros Hl ->. destruct (ev l); try reflexivity; try contradiction.
  - intros Hl Hr [H|H]; rewrite H in *; destruct (ev l), (ev r); try reflexivity; try contradiction.
Qed.

(* chained division: the scale grows by 4 per division from the leftmost dividend's scale (a/b/c on integers has
   scale 8), and a zero divisor anywhere makes the whole chain NULL *)
Lemma nested_division_examples :
  neval (EBin Div (EBin Div (ELeaf true 0 (OInt I8 10)) (ELeaf true 0 (OInt I8 4))) (ELeaf true 0 (OInt I8 2)))
    = RDec 125000000 8 /\
  neval (EBin Plus (EBin Div (ELeaf true 0 (OInt I8 1)) (ELeaf true 0 (OInt I8 3)))
                   (EBin Div (EBin Div (ELeaf true 0 (OInt I8 7)) (ELeaf true 0 (OInt I8 2))) (ELeaf true 0 (OInt I8 3))))
    = RDec 150000000 8 /\
  neval (EBin Div (ELeaf true 0 (OInt I8 1)) (EBin IntDiv (ELeaf true 0 (OInt I8 7)) (ELeaf true 0 (OInt I8 0)))) = RNull /\
  neval (ENeg (EBin Div (ELeaf true 0 (OInt I8 2)) (ELeaf true 0 (OInt I8 3)))) = RDec (-6667) 4.
Proof. repeat split; vm_compute; reflexivity. Qed.
