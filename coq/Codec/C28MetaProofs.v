(* C28 -- proofs, part 3: the NULL bitmap of binary rows, facts about the announced column metadata, and the
   binary-protocol round trips of YEAR and of the kinds that travel as length-encoded strings. *)
From Coq Require Import List NArith ZArith Bool Lia Arith.
Import ListNotations.
From GMS Require Import Codec.C28Date Codec.C28DateProofs Codec.C28Wire Codec.C28WireProofs Codec.C28WireProofs2
  Codec.C28Str Codec.C28Bin Codec.C28BinProofs Codec.C28Meta.
Open Scope Z_scope.

Lemma bits_num_nonneg nulls : 0 <= bits_num nulls.
Proof. induction nulls as [|b r IH]; cbn [bits_num]; [lia|]. destruct b; cbn [Z.b2z]; lia. Qed.

Lemma testbit_bits_num nulls : forall i, Z.testbit (bits_num nulls) (Z.of_nat i) = nth i nulls false.
Proof.
  induction nulls as [|b r IH]; intros i.
  - cbn [bits_num]. rewrite Z.testbit_0_l. destruct i; reflexivity.
  - cbn [bits_num]. rewrite Z.add_comm. destruct i as [|i].
    + cbn [Z.of_nat nth]. apply Z.testbit_0_r.
    + rewrite Nat2Z.inj_succ, Z.testbit_succ_r by lia. cbn [nth]. apply IH.
Qed.

Lemma nth_le_bytes n : forall B k, 0 <= B -> (k < n)%nat ->
  Z.of_N (nth k (le_bytes n B) 0%N) = (B / 256 ^ Z.of_nat k) mod 256.
Proof.
  induction n as [|n IH]; intros B k HB Hk; [lia|]. cbn [le_bytes]. destruct k as [|k]; cbn [nth].
  - pose proof (Z.mod_pos_bound B 256 ltac:(lia)). rewrite Z2N.id by lia. cbn [Z.of_nat]. now rewrite Z.pow_0_r, Z.div_1_r.
  - rewrite IH by (try apply Z.div_pos; lia). rewrite pow_nat_S, Z.div_div by (try apply Z.pow_pos_nonneg; lia). reflexivity.
Qed.

Theorem null_bitmap_marks_exactly nulls i : (i < length nulls)%nat ->
  bitmap_is_null (null_bitmap nulls) i = nth i nulls false /\ length (null_bitmap nulls) = bitmap_len (length nulls).
Proof.
  intros Hi. split; [|apply le_bytes_length].
  unfold bitmap_is_null, null_bitmap. set (n := length nulls) in *.
  set (q := ((i + 2) / 8)%nat). set (j := ((i + 2) mod 8)%nat).
  assert (Hqj : (8 * q + j = i + 2 /\ j < 8)%nat) by (unfold q, j; pose proof (Nat.div_mod (i + 2) 8 ltac:(lia)); pose proof (Nat.mod_upper_bound (i + 2) 8 ltac:(lia)); lia).
  assert (Hq : (q < bitmap_len n)%nat).
  { unfold bitmap_len. apply Nat.div_lt_upper_bound; [lia|]. pose proof (Nat.div_mod (n + 7 + 2) 8 ltac:(lia)). pose proof (Nat.mod_upper_bound (n + 7 + 2) 8 ltac:(lia)). lia. }
  pose proof (bits_num_nonneg nulls) as HB.
  rewrite <- Z.testbit_of_N, (nth_le_bytes _ _ q) by (lia || exact Hq).
  change 256 with (2 ^ 8). rewrite <- Z.pow_mul_r by lia.
  rewrite nat_N_Z. rewrite Z.mod_pow2_bits_low by lia. rewrite Z.div_pow2_bits by lia.
  replace (Z.of_nat j + 8 * Z.of_nat q) with (Z.of_nat i + 2) by lia.
  replace (4 * bits_num nulls) with (bits_num nulls * 2 ^ 2) by (change (2 ^ 2) with 4; ring).
  rewrite Z.mul_pow2_bits by lia. replace (Z.of_nat i + 2 - 2) with (Z.of_nat i) by lia. apply testbit_bits_num.
Qed.

Theorem meta_decimals_announce_fraction c :
  (forall n, c <> TTimestamp n) -> c <> TTime -> meta_decimals c = fraction_digits c.
Proof. intros H1 H2. destruct c; try reflexivity; [exfalso; eapply H1; reflexivity|contradiction]. Qed.

Lemma meta_decimals_refuted : exists c, fraction_digits c = 6 /\ meta_decimals c = 0.
Proof. exists (TTimestamp 6). split; reflexivity. Qed.
Lemma meta_decimals_time_refuted : fraction_digits TTime = 6 /\ meta_decimals TTime = 0.
Proof. split; reflexivity. Qed.

Theorem meta_unsigned_flag t nn pk ai : Z.testbit (meta_flags (TInt t) nn pk ai) 5 = negb (ity_signed t).
Proof. destruct t, nn, pk, ai; reflexivity. Qed.

Theorem meta_not_null_flag c nn pk ai : Z.testbit (meta_flags c nn pk ai) 0 = nn.
Proof.
  destruct c as [t|p s| |n| |n|n| |names|names|t]; try destruct t; destruct nn, pk, ai; reflexivity.
Qed.

(* the type-derived flags (BINARY, ENUM, SET) are announced only for columns whose engine flags are all clear *)
Lemma meta_enum_flag_lost names : meta_flags (TEnum names) true false false = FL_NOT_NULL /\ meta_flags (TEnum names) false false false = FL_ENUM.
Proof. split; reflexivity. Qed.

(* YEAR travels as a SMALLINT does *)
Theorem year_binary_roundtrip y : 1901 <= y <= 2155 ->
  exists b, year_bin (year_sql_text y) = Some b /\ int_bin_decode I16 b = y /\ length b = 2%nat.
Proof.
  intros H. assert (Hs : ity_storable I16 y) by (split; [transitivity 0; [discriminate|]|transitivity 2155; [|discriminate]]; lia).
  unfold year_sql_text. rewrite <- (int_sql_text_storable I16 y Hs). exact (int_binary_roundtrip I16 y Hs).
Qed.

(* DECIMAL, BIT, ENUM, SET values travel as length-encoded strings of their text: reading the string back and
   converting it gives the value *)
Theorem lenenc_kinds_binary_roundtrip :
  (forall col p s d, 0 <= s -> dec_storable p s d -> Z.of_nat (length (dec_sql_text col s d)) < 2 ^ 64 ->
     exists t d', lenenc_decode (lenenc_str (dec_sql_text col s d)) = Some t /\ dec_convert_text col p s t = Some d' /\
                  dec_eqv d' d = true) /\
  (forall n v, 1 <= n <= 64 -> 0 <= v < 2 ^ n ->
     exists t, lenenc_decode (lenenc_str (bit_sql_text n v)) = Some t /\ bit_convert_text n t = Some v) /\
  (forall names i, NoDup names -> 1 <= i <= Z.of_nat (length names) -> Z.of_nat (length (enum_sql_text names i)) < 2 ^ 64 ->
     exists t, lenenc_decode (lenenc_str (enum_sql_text names i)) = Some t /\ enum_convert_text names t = Some i) /\
  (forall names b, NoDup names -> Forall (fun n => n <> [] /\ no_comma n) names -> 0 <= b < 2 ^ Z.of_nat (length names) ->
     Z.of_nat (length (set_sql_text names b)) < 2 ^ 64 ->
     exists t, lenenc_decode (lenenc_str (set_sql_text names b)) = Some t /\ set_convert_text names t = Some b).
Proof.
  split; [|split; [|split]].
  - intros col p s d Hs Hst Hl. destruct (dec_text_roundtrip col p s d Hs Hst) as (d' & E & _ & Q).
    exists (dec_sql_text col s d), d'. split; [now apply lenenc_roundtrip|]. auto.
  - intros n v Hn Hv. destruct (bit_text_roundtrip n v Hn Hv) as [E L].
    exists (bit_sql_text n v). split; [apply lenenc_roundtrip; lia|exact E].
  - intros names i Hd Hi Hl. exists (enum_sql_text names i). split; [now apply lenenc_roundtrip|now apply enum_text_roundtrip].
  - intros names b Hd Hf Hb Hl. exists (set_sql_text names b). split; [now apply lenenc_roundtrip|now apply set_text_roundtrip].
Qed.
