(* C31 -- STR_TO_DATE (DATE_FORMAT d fmt) fmt = d for complete, separated formats (part 2: tokens and the theorem). *)
From Coq Require Import List NArith ZArith Bool Lia Arith.
Import ListNotations.
From GMS Require Import Codec.C31Date Codec.C31DateProofs Codec.C31Format Codec.C31FormatProofs Codec.C31Parse
  Codec.C31ParseProofs.
Open Scope Z_scope.

(* specifiers without the %y / AM-PM quirks *)
Definition allowed (c : N) : bool := existsb (N.eqb c) [89; 109; 99; 100; 101; 72; 107; 105; 115; 83; 102; 84; 37]%N.
(* consumers that take all following digits *)
Definition greedy (c : N) : bool := existsb (N.eqb c) [99; 101; 72; 107; 105; 115; 83; 102]%N.
(* literal bytes: ASCII, not a digit, not '%', no whitespace other than the space *)
Definition lit_char_ok (c : N) : bool :=
  (c <? 128)%N && negb (is_digit c) && negb (c =? 37)%N && (negb (is_ws c) || (c =? 32)%N).

Fixpoint separated (toks : list tok) : bool :=
  match toks with
  | [] => true
  | TLit c :: r => lit_char_ok c && separated r
  | TSpec c :: r =>
      allowed c &&
      (if greedy c then match r with [] => true | TLit _ :: _ => true | TSpec _ :: _ => false end else true) &&
      separated r
  end.

Definition ends_ok (toks : list tok) : bool :=
  match last toks (TLit 0) with TLit c => negb (c =? 32)%N | TSpec _ => true end.

Definition complete (toks : list tok) : bool :=
  has_spec 89 toks && (has_spec 109 toks || has_spec 99 toks) && (has_spec 100 toks || has_spec 101 toks) &&
  (has_spec 72 toks || has_spec 107 toks || has_spec 84 toks) && (has_spec 105 toks || has_spec 84 toks) &&
  (has_spec 115 toks || has_spec 83 toks || has_spec 84 toks).

Definition valid_moment (t : moment) : Prop :=
  0 <= yr t <= 9999 /\ valid_date (yr t, mo t, dy t) = true /\ 0 <= hh t < 24 /\ 0 <= mi t < 60 /\ 0 <= ss t < 60 /\
  0 <= us t < 1000000.

Definition render_tok (t : tok) (m : moment) : option (list N) :=
  match t with TLit c => Some [c] | TSpec c => render_spec c m end.
Fixpoint render_toks (toks : list tok) (m : moment) : option (list N) :=
  match toks with
  | [] => Some []
  | t :: r => match render_tok t m, render_toks r m with Some a, Some b => Some (a ++ b) | _, _ => None end
  end.

(* the two fixpoints on a byte that does not open a specifier *)
Lemma tokens_lit c r : c <> 37%N -> tokens (c :: r) = match tokens r with FOk t => FOk (TLit c :: t) | o => o end.
Proof. intros H. destruct c as [|p]; [reflexivity|]. cbn [tokens]. repeat (destruct p as [p|p|]; try reflexivity). congruence. Qed.
Lemma render_lit c r m : c <> 37%N -> render (c :: r) m = match render r m with Some b => Some (c :: b) | None => None end.
Proof. intros H. destruct c as [|p]; [reflexivity|]. cbn [render]. repeat (destruct p as [p|p|]; try reflexivity). congruence. Qed.

(* a specifier takes two bytes of the format, hence the induction on a bound of the length *)
Lemma render_tokens_len n : forall fmt toks m, (length fmt <= n)%nat -> tokens fmt = FOk toks -> render fmt m = render_toks toks m.
Proof.
  induction n as [|n IH]; intros fmt toks m Hl Ht.
  - destruct fmt; [|cbn in Hl; lia]. cbn in Ht. injection Ht as <-. reflexivity.
  - destruct fmt as [|c r]; [cbn in Ht; injection Ht as <-; reflexivity|].
    destruct (N.eq_dec c 37) as [->|Hc].
    + destruct r as [|c2 r2]; [cbn in Ht; discriminate|].
      cbn [tokens other_valid] in Ht. destruct (modelled c2); [|discriminate].
      destruct (tokens r2) as [t2| |] eqn:E2; try discriminate. injection Ht as <-.
      cbn [render render_toks render_tok]. rewrite (IH r2 t2 m ltac:(cbn in Hl; lia) E2). reflexivity.
    + rewrite tokens_lit in Ht by exact Hc. destruct (tokens r) as [t2| |] eqn:E2; try discriminate. injection Ht as <-.
      rewrite render_lit by exact Hc. cbn [render_toks render_tok]. rewrite (IH r t2 m ltac:(cbn in Hl; lia) E2).
      destruct (render_toks t2 m); reflexivity.
Qed.
Lemma render_tokens fmt toks m : tokens fmt = FOk toks -> render fmt m = render_toks toks m.
Proof. apply (render_tokens_len (length fmt)). lia. Qed.

(* what each token contributes to the parse state *)
Definition apply_tok (t : tok) (m : moment) (st : pst) : pst :=
  match t with
  | TLit _ => st
  | TSpec c =>
      match c with
      | 89%N => set_y (yr m) st
      | 109%N | 99%N => set_mo (mo m) st
      | 100%N | 101%N => set_d (dy m) st
      | 72%N | 107%N => set_h (hh m) st
      | 105%N => set_mi (mi m) st
      | 115%N | 83%N => set_s (ss m) st
      | 102%N => set_us (us m) st
      | 84%N => set_s (ss m) (set_mi (mi m) (set_h (hh m) st))
      | _ => st
      end
  end.
Fixpoint apply_toks (toks : list tok) (m : moment) (st : pst) : pst :=
  match toks with [] => st | t :: r => apply_toks r m (apply_tok t m st) end.

(* the fixed-width specifiers, %T, %%, and then the greedy ones *)
Lemma allowed_cases c : allowed c = true ->
  c = 89%N \/ c = 109%N \/ c = 100%N \/ c = 84%N \/ c = 37%N \/
  c = 99%N \/ c = 101%N \/ c = 72%N \/ c = 107%N \/ c = 105%N \/ c = 115%N \/ c = 83%N \/ c = 102%N.
Proof.
  unfold allowed. cbn [existsb]. intros H.
  repeat (apply orb_prop in H; destruct H as [H|H]; [apply N.eqb_eq in H; subst; tauto|]). discriminate.
Qed.

Lemma separated_head t r : separated (t :: r) = true -> separated [t] = true /\ separated r = true.
Proof.
  destruct t as [c|c]; cbn [separated]; intros H.
  - apply andb_prop in H. destruct H as [H1 H2]. rewrite H1. auto.
  - apply andb_prop in H. destruct H as [H H3]. apply andb_prop in H. destruct H as [H1 H2]. rewrite H1.
    split; [|exact H3]. destruct (greedy c); reflexivity.
Qed.

Lemma valid_bounds m : valid_moment m -> 1 <= mo m <= 12 /\ 1 <= dy m <= 31.
Proof. intros (_ & Hv%valid_date_iff & _). pose proof (days_in_month_le_31 (yr m) (mo m)). lia. Qed.

Definition nonws (s : list N) : Prop := Forall (fun x => is_ws x = false) s.

Lemma rendered_nonws s v : rendered s v -> nonws s /\ s <> [].
Proof.
  intros [Hd Hn _]. split; [|exact Hn]. unfold nonws. eapply Forall_impl; [|exact Hd]. intros a. apply digit_char.
Qed.

Lemma ws_sp c : is_ws c = false -> is_sp c = false.
Proof. unfold is_ws. intros H. apply orb_false_iff in H. apply H. Qed.

Lemma lit_char_ok_spec c : lit_char_ok c = true -> is_digit c = false /\ (c <> 32%N -> is_ws c = false).
Proof.
  unfold lit_char_ok. intros H. apply andb_prop in H as [H W]. apply andb_prop in H as [H _]. apply andb_prop in H as [_ D].
  split; [now apply negb_true_iff in D|]. intros Hc.
  apply orb_prop in W as [W|W]; [now apply negb_true_iff in W|apply N.eqb_eq in W; contradiction].
Qed.

Lemma nonws_ltrim a R : nonws a -> a <> [] -> ltrim (a ++ R) = a ++ R.
Proof. intros H Hn. destruct H as [|x a Hx _]; [congruence|]. apply ltrim_nonspace, ws_sp, Hx. Qed.

Definition in_opt (lo : option Z) (v : Z) (hi : option Z) : Prop :=
  match lo with Some l => l <= v | None => True end /\ match hi with Some h => v <= h | None => True end.
Arguments in_opt !lo v !hi /.

Lemma num_field_ok tn lo hi f st v rest : tn = Some (v, rest) -> in_opt lo v hi -> num_field tn lo hi f st = Some (f v st, rest).
Proof.
  intros -> [Hl Hh]. unfold num_field.
  replace (match lo with Some l => v <? l | None => false end) with false by (destruct lo; [symmetry; apply Z.ltb_ge, Hl|reflexivity]).
  replace (match hi with Some h => h <? v | None => false end) with false by (destruct hi; [symmetry; apply Z.ltb_ge, Hh|reflexivity]).
  reflexivity.
Qed.

(* a number printed at width k is taken back by a consumer of at most k digits, whatever follows; one printed at any
   width by a consumer of all digits, if no digit follows.  Both are stated in the shape of [tok_ok]'s conclusion, whose
   premise on what follows reduces to [True] for a specifier that is not greedy. *)
Lemma fixed_field k s v lo hi f : rendered s v /\ length s = k -> 0 <= v < 2 ^ 32 -> in_opt lo v hi ->
  nonws s /\ s <> [] /\
  forall st R, True -> num_field (take_number_at_most k (s ++ R)) lo hi f st = Some (f v st, R).
Proof.
  intros [Hr Hk] Hv Hb. destruct (rendered_nonws s v Hr). repeat split; [assumption..|].
  intros st R _. apply num_field_ok; [apply take_at_most_ok|]; assumption.
Qed.

Lemma greedy_field s v f : rendered s v -> 0 <= v < 2 ^ 32 ->
  nonws s /\ s <> [] /\
  forall st R, no_digit_head R -> num_field (take_number (s ++ R)) None None f st = Some (f v st, R).
Proof.
  intros Hr Hv. destruct (rendered_nonws s v Hr). repeat split; [assumption..|].
  intros st R HR. apply num_field_ok; [apply take_number_ok; assumption|split; exact I].
Qed.

(* a token other than the space literal: its text has no white space, and the consumer takes exactly that text off
   the front and records the moment's value *)
Lemma tok_ok t m :
  valid_moment m -> separated [t] = true -> t <> TLit 32%N ->
  exists a, render_tok t m = Some a /\ nonws a /\ a <> [] /\
    forall st R, (match t with TSpec c => if greedy c then no_digit_head R else True | TLit _ => True end) ->
                 step t st (a ++ R) = Some (apply_tok t m st, R).
Proof.
  intros Hm Hs Hne. pose proof (valid_bounds m Hm) as (Hmo & Hdy).
  destruct Hm as (Hy & _ & Hh & Hi & Hse & Hu).
  destruct t as [c|c]; cbn [separated] in Hs; rewrite andb_true_r in Hs.
  - exists [c]. assert (Hc : c <> 32%N) by congruence. destruct (lit_char_ok_spec c Hs) as [_ W].
    repeat split; [repeat constructor; exact (W Hc)|discriminate|]. intros st R _. cbn [step app apply_tok].
    rewrite (lit_ok c R (proj2 (N.eqb_neq c 32) Hc)). reflexivity.
  - apply andb_prop in Hs. destruct Hs as [Ha _].
    destruct (allowed_cases c Ha) as [->|[->|[->|[->|[->|[->|[->|[->|[->|[->|[->|[->| ->]]]]]]]]]]]];
      cbn [render_tok render_spec step parse_spec apply_tok greedy existsb N.eqb Pos.eqb orb];
      eexists; (split; [reflexivity|]);
      (* the eight greedy specifiers print a number, padded or not, and take all digits *)
      try (apply greedy_field; [first [apply dec_rendered|apply padw_rendered]|]; lia).
    + (* %Y: the consumer first wants four characters *)
      pose proof (padw_fits 4 (yr m) ltac:(lia) ltac:(cbn; lia)) as F.
      destruct (fixed_field 4 _ (yr m) None None set_y F ltac:(lia) (conj I I)) as (A & B & C).
      repeat split; [exact A|exact B|]. intros st R _.
      replace (length (padw 4 (yr m) ++ R) <? 4)%nat with false by (symmetry; apply Nat.ltb_ge; rewrite app_length, (proj2 F); lia).
      apply C, I.
    + apply (fixed_field 2); [apply padw_fits| |]; cbn; lia.
    + apply (fixed_field 2); [apply padw_fits| |]; cbn; lia.
    + (* %T *)
      assert (P : forall v, 0 <= v < 60 -> rendered (padw 2 v) v /\ length (padw 2 v) = 2%nat)
        by (intros; apply padw_fits; cbn; lia).
      destruct (P (hh m) ltac:(lia)) as [Rh Lh], (P _ Hi) as [Ri Li], (P _ Hse) as [Rs Ls].
      destruct (rendered_nonws _ _ Rh) as [Nh Eh], (rendered_nonws _ _ Ri) as [Ni _], (rendered_nonws _ _ Rs) as [Ns _].
      repeat split.
      * apply Forall_app. split; [exact Nh|]. constructor; [reflexivity|].
        apply Forall_app. split; [exact Ni|]. constructor; [reflexivity|exact Ns].
      * destruct (padw 2 (hh m)); [congruence|discriminate].
      * intros st R _. unfold hms. rewrite <- app_assoc. cbn [app]. rewrite <- app_assoc. cbn [app].
        rewrite (take_at_most_ok 2 _ _ _ Rh Lh), (lit_ok 58 _ eq_refl) by lia.
        rewrite (take_at_most_ok 2 _ _ _ Ri Li), (lit_ok 58 _ eq_refl) by lia.
        rewrite (take_at_most_ok 2 _ _ _ Rs Ls) by lia. reflexivity.
    + (* %% *)
      split; [repeat constructor|]. split; [discriminate|]. intros st R _. cbn [app]. rewrite (lit_ok 37 R eq_refl). reflexivity.
Qed.

Lemma tok_eq_dec_space (t : tok) : {t = TLit 32%N} + {t <> TLit 32%N}.
Proof.
  destruct t as [c|c]; [|right; discriminate]. destruct (N.eq_dec c 32) as [->|H]; [left; reflexivity|right; congruence].
Qed.

(* after a greedy specifier comes the end or a literal, and literals are not digits *)
Lemma greedy_followed c r m R : separated (TSpec c :: r) = true -> greedy c = true -> render_toks r m = Some R ->
  no_digit_head R.
Proof.
  cbn [separated]. intros Hs Hg HR. rewrite Hg in Hs. destruct r as [|[c2|c2] r2].
  - injection HR as <-. exact I.
  - cbn [render_toks render_tok] in HR. destruct (render_toks r2 m); [|discriminate]. injection HR as <-.
    cbn [separated no_digit_head app] in *. apply andb_prop in Hs as [_ Hs]. apply andb_prop in Hs as [Hs _].
    apply lit_char_ok_spec, Hs.
  - rewrite andb_false_r in Hs. discriminate.
Qed.

Lemma run_ok m : valid_moment m -> forall toks st target R,
  separated toks = true -> render_toks toks m = Some R -> ltrim target = ltrim R ->
  run toks st target = Some (apply_toks toks m st).
Proof.
  intros Hm toks. induction toks as [|t r IH]; intros st target R Hs HR Ht; [reflexivity|].
  destruct (separated_head t r Hs) as [Hs1 Hs2].
  cbn [render_toks] in HR. destruct (render_tok t m) as [a|] eqn:Ea; [|discriminate].
  destruct (render_toks r m) as [R'|] eqn:ER; [|discriminate]. injection HR as <-.
  cbn [run apply_toks]. rewrite Ht.
  destruct (tok_eq_dec_space t) as [->|Hne].
  - (* the space literal accepts anything and strips spaces *)
    cbn [render_tok] in Ea. injection Ea as <-. cbn [app]. rewrite ltrim_space. cbn [step]. rewrite lit_space.
    cbn [apply_tok]. rewrite ltrim_idem. apply (IH st (ltrim R') R' Hs2 eq_refl). apply ltrim_idem.
  - destruct (tok_ok t m Hm Hs1 Hne) as (a' & E1 & Na & Nea & E2). rewrite Ea in E1. injection E1 as <-.
    rewrite (nonws_ltrim a R' Na Nea), E2; [apply (IH _ R' R' Hs2 eq_refl eq_refl)|].
    destruct t as [c|c]; [exact I|]. destruct (greedy c) eqn:Eg; [|exact I]. exact (greedy_followed c r m R' Hs Eg ER).
Qed.

Lemma apply_fields m toks : separated toks = true -> forall st,
  py (apply_toks toks m st) = (if has_spec 89 toks then Some (yr m) else py st) /\
  pmo (apply_toks toks m st) = (if has_spec 109 toks || has_spec 99 toks then Some (mo m) else pmo st) /\
  pd (apply_toks toks m st) = (if has_spec 100 toks || has_spec 101 toks then Some (dy m) else pd st) /\
  ph (apply_toks toks m st) = (if has_spec 72 toks || has_spec 107 toks || has_spec 84 toks then Some (hh m) else ph st) /\
  pmi (apply_toks toks m st) = (if has_spec 105 toks || has_spec 84 toks then Some (mi m) else pmi st) /\
  psec (apply_toks toks m st) = (if has_spec 115 toks || has_spec 83 toks || has_spec 84 toks then Some (ss m) else psec st) /\
  pus (apply_toks toks m st) = (if has_spec 102 toks then Some (us m) else pus st) /\
  pam (apply_toks toks m st) = pam st /\ has_spec 112 toks = false /\ pdoy (apply_toks toks m st) = pdoy st.
Proof.
  induction toks as [|t r IH]; intros Hs st; [cbn; repeat split; reflexivity|].
  destruct (separated_head t r Hs) as [Hs1 Hs2]. specialize (IH Hs2).
  destruct t as [c|c].
  - cbn [apply_toks apply_tok]. destruct (IH st) as (I1 & I2 & I3 & I4 & I5 & I6 & I7 & I8 & I9 & I10).
    unfold has_spec in *. cbn [existsb orb]. repeat split; assumption.
  - cbn [separated] in Hs1. rewrite andb_true_r in Hs1. apply andb_prop in Hs1. destruct Hs1 as [Ha _].
    cbn [apply_toks].
    destruct (IH (apply_tok (TSpec c) m st)) as (I1 & I2 & I3 & I4 & I5 & I6 & I7 & I8 & I9 & I10).
    rewrite I1, I2, I3, I4, I5, I6, I7, I8, I10. unfold has_spec in *. cbn [existsb].
    destruct (allowed_cases c Ha) as [->|[->|[->|[->|[->|[->|[->|[->|[->|[->|[->|[->| ->]]]]]]]]]]]];
      cbn [apply_tok N.eqb Pos.eqb orb py pmo pd ph pmi psec pus pam pdoy set_y set_mo set_d set_h set_mi set_s set_us];
      repeat split; try assumption;
      repeat match goal with |- context [existsb ?f r] => destruct (existsb f r) end; reflexivity.
Qed.

Definition txt_ok (s : list N) : Prop := Forall (fun x => is_ws x = false \/ x = 32%N) s.
Definition ends_nonws (s : list N) : Prop := exists p z, s = p ++ [z] /\ is_ws z = false.

Lemma nonws_txt a : nonws a -> txt_ok a.
Proof. unfold nonws, txt_ok. intros H. eapply Forall_impl; [|exact H]. intros x Hx. now left. Qed.
Lemma nonws_ends a : nonws a -> a <> [] -> ends_nonws a.
Proof.
  intros H Hn. destruct (exists_last Hn) as (p & z & ->). exists p, z. split; [reflexivity|].
  unfold nonws in H. apply Forall_app in H. destruct H as [_ H]. inversion H; assumption.
Qed.
Lemma ends_app a b : ends_nonws b -> ends_nonws (a ++ b).
Proof. intros (p & z & -> & Hz). exists (a ++ p), z. split; [now rewrite app_assoc|exact Hz]. Qed.

Lemma render_text m : valid_moment m -> forall toks, separated toks = true ->
  exists R, render_toks toks m = Some R /\ txt_ok R /\ (toks <> [] -> ends_ok toks = true -> ends_nonws R).
Proof.
  intros Hm toks. induction toks as [|t r IH]; intros Hs.
  - exists []. split; [reflexivity|]. split; [constructor|]. congruence.
  - destruct (separated_head t r Hs) as [Hs1 Hs2]. destruct (IH Hs2) as (R' & ER & TR & EndR).
    assert (Ht : exists a, render_tok t m = Some a /\ txt_ok a /\ (t <> TLit 32%N -> nonws a /\ a <> [])).
    { destruct (tok_eq_dec_space t) as [->|Hne].
      - exists [32%N]. repeat split; [repeat constructor; now right|congruence..].
      - destruct (tok_ok t m Hm Hs1 Hne) as (a & E & Na & Ne & _). exists a. auto using nonws_txt. }
    destruct Ht as (a & Ea & Ta & Nwa).
    exists (a ++ R'). cbn [render_toks]. rewrite Ea, ER. split; [reflexivity|]. split.
    + unfold txt_ok in *. apply Forall_app. split; assumption.
    + intros _ He. destruct r as [|t2 r2].
      * cbn in ER. injection ER as <-. rewrite app_nil_r. apply nonws_ends; apply Nwa; intros ->; discriminate He.
      * apply ends_app. apply EndR; [discriminate|]. exact He.
Qed.

Lemma ltrim_ws_txt R : txt_ok R -> ltrim_ws R = ltrim R.
Proof.
  induction 1 as [|c r Hc _ IH]; [reflexivity|]. cbn [ltrim_ws ltrim]. destruct Hc as [Hc| ->]; [|exact IH].
  rewrite Hc, (ws_sp c Hc). reflexivity.
Qed.

Lemma ltrim_keeps_end p z : is_ws z = false -> exists p', ltrim (p ++ [z]) = p' ++ [z].
Proof.
  intros Hz. induction p as [|c p IH].
  - exists []. cbn [app ltrim]. rewrite (ws_sp z Hz). reflexivity.
  - cbn [app ltrim]. destruct (is_sp c); [exact IH|]. exists (c :: p). reflexivity.
Qed.

Lemma trim_ws_text R : txt_ok R -> ends_nonws R -> trim_ws R = ltrim R.
Proof.
  intros HT (p & z & -> & Hz). unfold trim_ws. rewrite (ltrim_ws_txt _ HT).
  destruct (ltrim_keeps_end p z Hz) as (p' & E). rewrite E. rewrite rev_app_distr. cbn [rev app ltrim_ws].
  rewrite Hz. change (z :: rev p') with ([z] ++ rev p'). rewrite rev_app_distr, rev_involutive. reflexivity.
Qed.

Theorem format_parse_inverse fmt toks m :
  tokens fmt = FOk toks -> separated toks = true -> ends_ok toks = true -> complete toks = true ->
  valid_moment m -> (has_spec 102 toks = true \/ us m = 0) ->
  exists s, render fmt m = Some s /\
            str_to_date s fmt = SVal (yr m, mo m, dy m) (((hh m * 60 + mi m) * 60 + ss m) * 1000000 + us m).
Proof.
  intros Ht Hs He Hc Hm Hf.
  destruct (render_text m Hm toks Hs) as (R & ER & TR & EndR).
  assert (Hne : toks <> []). { intros ->. cbn in Hc. discriminate. }
  specialize (EndR Hne He).
  exists R. split; [rewrite (render_tokens fmt toks m Ht); exact ER|].
  unfold str_to_date. rewrite Ht.
  destruct (apply_fields m toks Hs pst0) as (F1 & F2 & F3 & F4 & F5 & F6 & F7 & F8 & F9 & F10).
  assert (Hconf : ampm_conflict toks = false).
  { unfold ampm_conflict. destruct (first_time_spec toks); [|reflexivity]. rewrite F9. apply andb_false_r. }
  rewrite Hconf.
  rewrite (run_ok m Hm toks pst0 (trim_ws R) R Hs ER) by (rewrite (trim_ws_text R TR EndR); apply ltrim_idem).
  unfold complete in Hc.
  apply andb_prop in Hc. destruct Hc as [Hc C6]. apply andb_prop in Hc. destruct Hc as [Hc C5].
  apply andb_prop in Hc. destruct Hc as [Hc C4]. apply andb_prop in Hc. destruct Hc as [Hc C3].
  apply andb_prop in Hc. destruct Hc as [C1 C2].
  rewrite C1 in F1. rewrite C2 in F2. rewrite C3 in F3. rewrite C4 in F4. rewrite C5 in F5. rewrite C6 in F6.
  set (st := apply_toks toks m pst0) in *.
  assert (Hemp : is_empty st = false) by (unfold is_empty; rewrite F1; reflexivity).
  rewrite Hemp. unfold eval. rewrite F10. cbn [pdoy pst0]. rewrite F1, F2, F3, F4, F5, F6, F7. cbn [dflt].
  assert (Hus : dflt (if has_spec 102 toks then Some (us m) else pus pst0) = us m).
  { destruct Hf as [Hf|Hf]; [rewrite Hf; reflexivity|]. destruct (has_spec 102 toks); cbn; lia. }
  rewrite Hus. destruct Hm as (Hy & Hv & Hh & Hi & Hse & Hu).
  rewrite (go_date_valid_id _ _ _ Hv).
  set (tod := ((hh m * 60 + mi m) * 60 + ss m) * 1000000 + us m).
  assert (Htod : 0 <= tod < usday) by (unfold tod, usday; lia).
  unfold add_us. replace (days_from_civil (yr m, mo m, dy m) * usday + 0 + tod) with (tod + days_from_civil (yr m, mo m, dy m) * usday) by lia.
  assert (Hu0 : usday <> 0) by (unfold usday; lia).
  rewrite Z.div_add, Z.mod_add by exact Hu0. rewrite Z.div_small, Z.mod_small by exact Htod.
  rewrite Z.add_0_l, (civil_days_civil _ Hv). reflexivity.
Qed.

(* non-vacuity and the necessity of the guards *)
Example canonical_is_guarded :
  exists toks, tokens canonical_fmt = FOk toks /\ separated toks = true /\ ends_ok toks = true /\ complete toks = true.
Proof. eexists. split; [vm_compute; reflexivity|]. repeat split; vm_compute; reflexivity. Qed.

(* adjacent greedy fields: '%Y%m%d%H%i%s' renders 20320228235849, which STR_TO_DATE cannot read back *)
Lemma greedy_adjacent_fails :
  let fmt := [37;89;37;109;37;100;37;72;37;105;37;115]%N in
  let m := {| yr := 2032; mo := 2; dy := 28; hh := 23; mi := 58; ss := 49; us := 0 |} in
  exists s, render fmt m = Some s /\ str_to_date s fmt = SNull.
Proof. eexists. split; [vm_compute; reflexivity|]. vm_compute. reflexivity. Qed.

(* the AM/PM flag is parsed and ignored: '%Y-%m-%d %r' of 15:04:05 reads back as 03:04:05 *)
Lemma ampm_ignored :
  let fmt := [37;89;45;37;109;45;37;100;32;37;114]%N in
  let m := {| yr := 2024; mo := 1; dy := 2; hh := 15; mi := 4; ss := 5; us := 0 |} in
  exists s, render fmt m = Some s /\ str_to_date s fmt = SVal (2024, 1, 2) (((3 * 60 + 4) * 60 + 5) * 1000000).
Proof. eexists. split; [vm_compute; reflexivity|]. vm_compute. reflexivity. Qed.
