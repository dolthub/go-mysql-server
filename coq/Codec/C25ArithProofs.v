(* C25 — proofs about the arithmetic model of Codec/C25Arith.v *)
From Coq Require Import ZArith Bool List Lia.
Import ListNotations.
From GMS Require Import Codec.C25Arith.
Open Scope Z_scope.

Lemma wrapS_id h z : 0 < h -> - h <= z < h -> wrapS h z = z.
Proof. intros Hh Hz. unfold wrapS. rewrite Z.mod_small by lia. lia. Qed.

Lemma wrapS_over h z : 0 < h -> h <= z < 3 * h -> wrapS h z = z - 2 * h.
Proof. intros Hh Hz. unfold wrapS. rewrite <- (Z.mod_add _ (-1)), Z.mod_small by lia. lia. Qed.

Lemma wrapU_id n z : 0 <= z < n -> wrapU n z = z.
Proof. intros Hz. unfold wrapU. apply Z.mod_small. exact Hz. Qed.

Lemma wrap_i64_id z : min_i64 <= z <= max_i64 -> wrap_i64 z = z.
Proof. intros H. unfold wrap_i64. apply wrapS_id; unfold two63, min_i64, max_i64 in *; lia. Qed.

Lemma wrap_u64_id z : 0 <= z <= max_u64 -> wrap_u64 z = z.
Proof. intros H. unfold wrap_u64. apply wrapU_id; unfold two64, max_u64 in *; lia. Qed.

(* the wrapped value is always the exact one modulo the size of the type (what Go's operators guarantee) *)
Lemma wrapS_congr h z : 0 < h -> (wrapS h z - z) mod (2 * h) = 0.
Proof.
  intros Hh. unfold wrapS. rewrite (Z.mod_eq (z + h)) by lia.
  replace (z + h - 2 * h * ((z + h) / (2 * h)) - h - z) with (- ((z + h) / (2 * h)) * (2 * h)) by ring.
  apply Z.mod_mul. lia.
Qed.

Lemma wrap_i64_congr z : (wrap_i64 z - z) mod two64 = 0.
Proof. exact (wrapS_congr two63 z eq_refl). Qed.

Definition operand_ok (o : operand) : Prop :=
  match o with
  | ONull => True
  | OInt t z => in_range t z
  | ODec _ s => 0 <= s
  end.

Definition is_int (o : operand) : bool := match o with OInt _ _ => true | _ => false end.
Definition is_null (o : operand) : bool := match o with ONull => true | _ => false end.

(* the rational value of a non-NULL operand as numerator / 10^scale *)
Definition num (o : operand) : Z := fst (to_dec o).
Definition scl (o : operand) : Z := snd (to_dec o).

Lemma in_range_bounds t z : in_range t z -> min_i64 <= z <= max_u64.
Proof. unfold in_range, ity_min, ity_max, min_i64, max_i64, max_u64. destruct t; lia. Qed.

Lemma in_range_signed t z : unsigned t = false -> in_range t z -> min_i64 <= z <= max_i64.
Proof. unfold in_range, ity_min, ity_max, min_i64, max_i64, max_u64. destruct t; cbn; intros; try discriminate; lia. Qed.

Lemma in_range_unsigned t z : unsigned t = true -> in_range t z -> 0 <= z <= max_u64.
Proof. unfold in_range, ity_min, ity_max, min_i64, max_i64, max_u64. destruct t; cbn; intros; try discriminate; lia. Qed.

Lemma conv_u64_id t z : 0 <= z -> conv_u64 (OInt t z) = z.
Proof. intros H. unfold conv_u64. destruct (z <? 0) eqn:E; [apply Z.ltb_lt in E; lia | reflexivity]. Qed.

Lemma conv_i64_id t z : z <= max_i64 -> conv_i64 (OInt t z) = z.
Proof.
  intros H. destruct t; unfold conv_i64; try reflexivity.
  destruct (z >? max_i64) eqn:E; [|reflexivity]. apply Z.gtb_lt in E. lia.
Qed.

Lemma scl_nonneg o : operand_ok o -> 0 <= scl o.
Proof. destruct o; cbn; lia. Qed.

Definition is_arith (o : op) : Prop := o = Plus \/ o = Minus \/ o = Mult.

Lemma eval_arith o lit ldecl l r : is_arith o -> eval o lit ldecl l r = arith o l r.
Proof. intros [->|[->| ->]]; reflexivity. Qed.

Theorem arith_unsigned_exact_when_fits o tl a tr b :
  unsigned tl = true -> unsigned tr = true -> in_range tl a -> in_range tr b ->
  0 <= zop o a b <= max_u64 ->
  arith o (OInt tl a) (OInt tr b) = RInt U64 (zop o a b).
Proof.
  intros Hl Hr Ha Hb Hfit. unfold arith. rewrite Hl, Hr. cbn [andb].
  apply in_range_unsigned in Ha; [|exact Hl]. apply in_range_unsigned in Hb; [|exact Hr].
  rewrite !conv_u64_id by lia. rewrite wrap_u64_id by exact Hfit. reflexivity.
Qed.

Theorem arith_signed_exact_when_fits o tl a tr b :
  unsigned tl && unsigned tr = false ->
  a <= max_i64 -> b <= max_i64 ->
  min_i64 <= zop o a b <= max_i64 ->
  arith o (OInt tl a) (OInt tr b) = RInt I64 (zop o a b).
Proof.
  intros Hs Hal Hbl Hfit. unfold arith. rewrite Hs.
  rewrite !conv_i64_id by assumption. rewrite wrap_i64_id by exact Hfit. reflexivity.
Qed.

(* whatever happens, an integer + - * result is the exact value of the converted operands modulo 2^64 *)
Theorem arith_signed_congruent o tl a tr b :
  unsigned tl && unsigned tr = false ->
  exists v, arith o (OInt tl a) (OInt tr b) = RInt I64 v /\
            (v - zop o (conv_i64 (OInt tl a)) (conv_i64 (OInt tr b))) mod two64 = 0.
Proof.
  intros Hs. unfold arith. rewrite Hs. eexists. split; [reflexivity|]. apply wrap_i64_congr.
Qed.

(* refutations of the unguarded statement: the faithful model wraps silently *)
Definition silently_wrong (o : op) (l r : operand) (exact : Z) : Prop :=
  operand_ok l /\ operand_ok r /\ exists t v, eval o false 0 l r = RInt t v /\ v <> exact.

Ltac refute := unfold silently_wrong, operand_ok, in_range, ity_min, ity_max, min_i64, max_i64, max_u64;
  repeat split; try lia; do 2 eexists; split; [vm_compute; reflexivity | vm_compute; discriminate].

Lemma plus_int64_wraps : silently_wrong Plus (OInt I64 9223372036854775807) (OInt I8 1) (9223372036854775807 + 1).
Proof. refute. Qed.
Lemma minus_int64_wraps : silently_wrong Minus (OInt I64 (-9223372036854775808)) (OInt I8 1) (-9223372036854775808 - 1).
Proof. refute. Qed.
Lemma mult_int64_wraps : silently_wrong Mult (OInt I64 4611686018427387904) (OInt I8 4) (4611686018427387904 * 4).
Proof. refute. Qed.
Lemma plus_uint64_wraps : silently_wrong Plus (OInt U64 18446744073709551615) (OInt U64 1) (18446744073709551615 + 1).
Proof. refute. Qed.
Lemma minus_uint64_wraps : silently_wrong Minus (OInt U8 0) (OInt U16 1) (0 - 1).
Proof. refute. Qed.
Lemma mult_uint64_wraps : silently_wrong Mult (OInt U64 4294967296) (OInt U64 4294967296) (4294967296 * 4294967296).
Proof. refute. Qed.
(* mixed signedness: the unsigned operand is clamped to MaxInt64 although the exact result fits BIGINT *)
Lemma plus_mixed_clamps : silently_wrong Plus (OInt U64 18446744073709551615) (OInt I64 (-9223372036854775808))
                                         (18446744073709551615 + -9223372036854775808).
Proof. refute. Qed.
Lemma plus_mixed_clamps_zero : silently_wrong Plus (OInt U64 18446744073709551615) (OInt I8 0) 18446744073709551615.
Proof. refute. Qed.
Lemma intdiv_minint_wraps : silently_wrong IntDiv (OInt I64 (-9223372036854775808)) (OInt I8 (-1))
                                           (Z.quot (-9223372036854775808) (-1)).
Proof. refute. Qed.

Theorem neg_signed_exact lit t z :
  unsigned t = false -> in_range t z -> z <> min_i64 -> neg lit (OInt t z) = RInt I64 (- z).
Proof.
  intros Hs Hr Hz. destruct t; cbn [unsigned] in Hs; try discriminate; unfold neg; try reflexivity.
  destruct (z =? min_i64) eqn:E; [apply Z.eqb_eq in E; contradiction | reflexivity].
Qed.

(* the most negative BIGINT: an out-of-range error, or (for a literal) the exact decimal 2^63 *)
Theorem neg_minint lit :
  neg lit (OInt I64 min_i64) = if lit then RDec (- min_i64) 0 else RErr.
Proof. destruct lit; reflexivity. Qed.

Theorem neg_decimal_exact lit m s : neg lit (ODec m s) = RDec (- m) s.
Proof. reflexivity. Qed.

(* an unsigned operand is negated exactly as long as -z fits the (narrow) signed carrier UnaryMinus picks *)
Definition neg_carrier_half (t : ity) : Z :=
  match t with U8 => 128 | U16 => 32768 | U24 | U32 => 2147483648 | _ => two63 end.
Definition neg_carrier (t : ity) : ity :=
  match t with U8 => I8 | U16 => I16 | U24 | U32 => I32 | _ => I64 end.

Theorem neg_unsigned_exact_when_fits lit t z :
  unsigned t = true -> 0 <= z < neg_carrier_half t -> neg lit (OInt t z) = RInt (neg_carrier t) (- z).
Proof.
  intros Hu Hz. destruct t; cbn [unsigned] in Hu; try discriminate; unfold neg_carrier_half in Hz; unfold neg, neg_carrier;
    unfold wrap_i8, wrap_i16, wrap_i32, wrap_i64; unfold two63 in *;
    rewrite (wrapS_id _ z) by lia; rewrite wrapS_id by lia; reflexivity.
Qed.

(* ... and above it the result is the negation shifted by the size of the carrier: never the exact one *)
Theorem neg_unsigned_wraps lit t z :
  unsigned t = true -> neg_carrier_half t < z < 2 * neg_carrier_half t ->
  neg lit (OInt t z) = RInt (neg_carrier t) (2 * neg_carrier_half t - z).
Proof.
  intros Hu Hz. destruct t; cbn [unsigned] in Hu; try discriminate; unfold neg_carrier_half in *; unfold neg, neg_carrier;
    unfold wrap_i8, wrap_i16, wrap_i32, wrap_i64; unfold two63 in *;
    rewrite (wrapS_over _ z) by lia; rewrite wrapS_id by lia; f_equal; lia.
Qed.

Lemma neg_unsigned_silently_wrong t z :
  unsigned t = true -> in_range t z -> neg_carrier_half t < z -> silently_wrong Neg (OInt t z) ONull (- z).
Proof.
  intros Hu R Hz. split; [exact R|]. split; [exact I|]. exists (neg_carrier t), (2 * neg_carrier_half t - z).
  assert (z < 2 * neg_carrier_half t).
  { unfold in_range in R. destruct t; try discriminate Hu; unfold ity_max, max_u64, neg_carrier_half, two63 in *; lia. }
  split; [apply (neg_unsigned_wraps false); [exact Hu|lia]|unfold neg_carrier_half, two63 in *; destruct t; lia].
Qed.

(* -(200) = 56 as a TINYINT, and so on *)
Lemma neg_unsigned_refuted :
  silently_wrong Neg (OInt U8 200) ONull (- 200) /\
  silently_wrong Neg (OInt U32 4294967295) ONull (- 4294967295) /\
  silently_wrong Neg (OInt U64 18446744073709551615) ONull (- 18446744073709551615).
Proof.
  split; [|split]; (apply neg_unsigned_silently_wrong;
    [reflexivity|unfold in_range, ity_min, ity_max, max_u64; lia|unfold neg_carrier_half, two63; lia]).
Qed.

Lemma pow10_pos k : 0 <= k -> 0 < 10 ^ k.
Proof. intros H. apply Z.pow_pos_nonneg; lia. Qed.

(* value of (m, s) is m / 10^s; equalities between decimal values are stated cross-multiplied.
   Both operands are brought to the larger scale s: 10^(s - s1) * 10^(s1 + s2) = 10^s2 * 10^s. *)
Theorem dec_addsub_exact o m1 s1 m2 s2 :
  o = Plus \/ o = Minus -> 0 <= s1 -> 0 <= s2 ->
  exists m s, dec_arith o (m1, s1) (m2, s2) = RDec m s /\ 0 <= s /\
              m * 10 ^ (s1 + s2) = zop o (m1 * 10 ^ s2) (m2 * 10 ^ s1) * 10 ^ s.
Proof.
  intros Ho H1 H2. exists (zop o (m1 * 10 ^ (Z.max s1 s2 - s1)) (m2 * 10 ^ (Z.max s1 s2 - s2))), (Z.max s1 s2).
  split; [destruct Ho as [->| ->]; reflexivity|]. split; [lia|].
  set (s := Z.max s1 s2).
  assert (E1 : 10 ^ (s - s1) * 10 ^ (s1 + s2) = 10 ^ s2 * 10 ^ s)
    by (rewrite <- !Z.pow_add_r by lia; f_equal; lia).
  assert (E2 : 10 ^ (s - s2) * 10 ^ (s1 + s2) = 10 ^ s1 * 10 ^ s)
    by (rewrite <- !Z.pow_add_r by lia; f_equal; lia).
  destruct Ho as [->| ->]; cbn [zop];
    rewrite ?Z.mul_add_distr_r, ?Z.mul_sub_distr_r, <- !Z.mul_assoc, E1, E2; ring.
Qed.

Theorem dec_mult_exact m1 s1 m2 s2 :
  dec_arith Mult (m1, s1) (m2, s2) = RDec (m1 * m2) (s1 + s2).
Proof. reflexivity. Qed.

(* + - * with at least one decimal operand goes through the exact decimal operations on the exact
   decimal images of both operands (an integer z becomes (z, 0)) *)
Theorem arith_decimal_path o l r :
  is_null l = false -> is_null r = false -> is_int l && is_int r = false ->
  arith o l r = dec_arith o (to_dec l) (to_dec r).
Proof.
  intros Hl Hr Hi. destruct l, r; cbn [is_null is_int andb] in *; try discriminate; reflexivity.
Qed.

Definition is_zero (o : operand) : Prop := match o with OInt _ z => z = 0 | ODec m _ => m = 0 | ONull => False end.

Theorem div_by_zero_null o lit ldecl l r :
  o = IntDiv \/ o = Mod \/ o = Div -> is_zero r -> eval o lit ldecl l r = RNull.
Proof.
  intros Ho Hz. destruct Ho as [->|[->| ->]]; cbn [eval];
    destruct l as [|tl a|m1 s1], r as [|tr b|m2 s2]; cbn [is_zero] in Hz; subst; try contradiction; try reflexivity;
    try (unfold divide; cbn [to_dec]; destruct (lpad _ _); reflexivity).
  (* what is left is DIV of two integers: both conversions of the divisor are 0 *)
  unfold intdiv. rewrite (conv_u64_id tr 0), (conv_i64_id tr 0) by (unfold max_i64; lia).
  destruct (unsigned tl && unsigned tr), (negb (unsigned tl) && negb (unsigned tr)); reflexivity.
Qed.

Theorem quot_rem_truncation n d :
  d <> 0 ->
  n = d * Z.quot n d + Z.rem n d /\ Z.abs (Z.rem n d) < Z.abs d /\
  (Z.rem n d = 0 \/ Z.sgn (Z.rem n d) = Z.sgn n).
Proof.
  intros Hd. split; [apply Z.quot_rem'|]. split; [apply Z.rem_bound_abs; exact Hd|].
  destruct (Z.eq_dec (Z.rem n d) 0) as [E|E]; [left; exact E|right; apply Z.rem_sign_nz; assumption].
Qed.

Lemma quot_abs_le n d : d <> 0 -> Z.abs (Z.quot n d) <= Z.abs n.
Proof.
  intros Hd. rewrite <- Z.quot_abs by exact Hd.
  destruct (Z.eq_dec (Z.abs n) 0) as [E|E]; [rewrite E; rewrite Z.quot_0_l by lia; lia|].
  destruct (Z.eq_dec (Z.abs d) 1) as [E1|E1]; [rewrite E1, Z.quot_1_r; lia|].
  apply Z.lt_le_incl. apply Z.quot_lt; lia.
Qed.

Definition minint_by_minus_one (l r : operand) : Prop :=
  exists tl tr, l = OInt tl min_i64 /\ r = OInt tr (-1) /\ unsigned tl = false /\ unsigned tr = false.

(* the decimal path, which every pair of operands other than two integers of the same signedness takes on its
   decimal images (an integer z is (z, 0)) *)
Lemma intdiv_dec m1 s1 m2 s2 t q :
  intdiv (ODec m1 s1) (ODec m2 s2) = RInt t q -> q = Z.quot (m1 * 10 ^ s2) (m2 * 10 ^ s1).
Proof.
  unfold intdiv, to_dec. destruct (m2 =? 0); [discriminate|]. cbv zeta.
  destruct (_ && _); [|discriminate]. intros [= _ <-]. reflexivity.
Qed.

Theorem intdiv_truncates l r t q :
  operand_ok l -> operand_ok r -> intdiv l r = RInt t q -> ~ minint_by_minus_one l r ->
  q = Z.quot (num l * 10 ^ scl r) (num r * 10 ^ scl l).
Proof.
  intros Hl Hr E Hx.
  destruct l as [|tl a|m1 s1], r as [|tr b|m2 s2]; try discriminate E; try exact (intdiv_dec _ _ _ _ _ _ E).
  cbn [operand_ok] in Hl, Hr. unfold intdiv in E.
  destruct (unsigned tl) eqn:Ul, (unsigned tr) eqn:Ur; cbn [andb negb] in E; try exact (intdiv_dec a 0 b 0 _ _ E);
    unfold num, scl, to_dec, fst, snd; rewrite Z.pow_0_r, !Z.mul_1_r.
  - pose proof (in_range_unsigned _ _ Ul Hl) as Ba. pose proof (in_range_unsigned _ _ Ur Hr) as Bb.
    rewrite !conv_u64_id in E by lia. destruct (b =? 0) eqn:Eb; [discriminate|]. apply Z.eqb_neq in Eb.
    injection E as _ <-. apply wrap_u64_id.
    pose proof (quot_abs_le a b Eb) as Q. pose proof (Z.quot_pos a b ltac:(lia) ltac:(lia)). lia.
  - pose proof (in_range_signed _ _ Ul Hl) as Ba. pose proof (in_range_signed _ _ Ur Hr) as Bb.
    rewrite !conv_i64_id in E by lia. destruct (b =? 0) eqn:Eb; [discriminate|]. apply Z.eqb_neq in Eb.
    injection E as _ <-. apply wrap_i64_id.
    pose proof (quot_abs_le a b Eb) as Q.
    (* |a / b| <= |a| <= 2^63, and 2^63 itself is reached only by min_i64 / -1 *)
    destruct (Z.eq_dec (Z.quot a b) (max_i64 + 1)) as [Bad|Ok]; [|unfold min_i64, max_i64 in *; lia].
    exfalso. apply Hx. exists tl, tr.
    assert (a = min_i64) by (unfold min_i64, max_i64 in *; lia). subst a.
    assert (b = -1).
    { pose proof (Z.quot_rem' min_i64 b) as QR. pose proof (Z.rem_bound_abs min_i64 b Eb) as RB.
      rewrite Bad in QR. unfold min_i64, max_i64 in *. nia. }
    subst b. repeat split; assumption.
Qed.

Lemma modulo_dec m1 s1 m2 s2 m s :
  0 <= s1 -> 0 <= s2 -> modulo (ODec m1 s1) (ODec m2 s2) = RDec m s ->
  s = Z.max s1 s2 /\ m = Z.rem (m1 * 10 ^ (s - s1)) (m2 * 10 ^ (s - s2)).
Proof.
  intros H1 H2. unfold modulo, to_dec. destruct (m2 =? 0) eqn:Em; [discriminate|]. apply Z.eqb_neq in Em.
  cbv zeta. destruct (digits _ >? _); [discriminate|]. intros [= <- <-]. split; [reflexivity|].
  set (s0 := Z.max s1 s2).
  pose proof (pow10_pos (s0 - s1) ltac:(lia)) as P1. pose proof (pow10_pos (s0 - s2) ltac:(lia)) as P2.
  rewrite Z.rem_mod by nia.
  rewrite !Z.abs_mul, (Z.abs_eq (10 ^ _)) by lia. rewrite (Z.abs_eq (10 ^ (s0 - s2))) by lia.
  rewrite Z.sgn_mul, (Z.sgn_pos (10 ^ _)) by lia. rewrite Z.mul_1_r. reflexivity.
Qed.

Theorem modulo_is_rem l r m s :
  operand_ok l -> operand_ok r -> modulo l r = RDec m s ->
  s = Z.max (scl l) (scl r) /\
  m = Z.rem (num l * 10 ^ (s - scl l)) (num r * 10 ^ (s - scl r)).
Proof.
  intros Hl Hr E. apply scl_nonneg in Hl, Hr.
  destruct l, r; try discriminate E; apply modulo_dec; assumption.
Qed.

Lemma rha_opp m p : p <> 0 -> rha (- m) p = - rha m p.
Proof.
  intros Hp. unfold rha. rewrite Z.quot_opp_l by exact Hp. rewrite Z.rem_opp_l', Z.abs_opp, Z.sgn_opp.
  destruct (2 * Z.abs (Z.rem m p) >=? p); lia.
Qed.

Lemma rha_nonneg q p : 0 <= q -> 0 < p ->
  rha q p = if 2 * (q mod p) >=? p then q / p + 1 else q / p.
Proof.
  intros Hq Hp. unfold rha. rewrite Z.quot_div_nonneg, Z.rem_mod_nonneg by lia.
  pose proof (Z.mod_pos_bound q p Hp) as B. rewrite (Z.abs_eq (q mod p)) by lia.
  destruct (2 * (q mod p) >=? p) eqn:E; [|reflexivity].
  destruct (Z.eq_dec q 0) as [->|Hn]; [rewrite Z.mod_0_l in E by lia; apply Z.geb_le in E; lia|].
  rewrite Z.sgn_pos by lia. reflexivity.
Qed.

(* how far the quotient P / m, truncated and then rounded half away from zero by the factor p, is from P / (m p);
   scaled by m p *)
Definition qerr (p P m : Z) : Z := rha (Z.quot P m) p * p * m - P.

Lemma nearest_nonneg P m p' :
  0 <= P -> 0 < m -> 0 < p' -> 2 * Z.abs (qerr (2 * p') P m) <= 2 * p' * m.
Proof.
  intros HP Hm Hp. unfold qerr. rewrite Z.quot_div_nonneg by lia.
  set (q := P / m). assert (Hq : 0 <= q) by (apply Z.div_pos; lia).
  pose proof (Z.div_mod P m ltac:(lia)) as DM. pose proof (Z.mod_pos_bound P m Hm) as MB. fold q in DM.
  rewrite rha_nonneg by lia.
  pose proof (Z.div_mod q (2 * p') ltac:(lia)) as DQ. pose proof (Z.mod_pos_bound q (2 * p') ltac:(lia)) as QB.
  set (a := q / (2 * p')) in *. set (b := q mod (2 * p')) in *.
  destruct (2 * b >=? 2 * p') eqn:E.
  - apply Z.geb_le in E. nia.
  - rewrite Z.geb_leb in E. apply Z.leb_gt in E. nia.
Qed.

(* the error changes sign with P and not at all with the sign of m *)
Lemma qerr_abs p P m : p <> 0 -> m <> 0 -> Z.abs (qerr p P m) = Z.abs (qerr p (Z.abs P) (Z.abs m)).
Proof.
  intros Hp Hm. unfold qerr.
  destruct (Z.abs_spec P) as [[_ ->]|[_ ->]], (Z.abs_spec m) as [[_ ->]|[_ ->]];
    rewrite ?Z.quot_opp_opp, ?Z.quot_opp_l, ?Z.quot_opp_r, ?rha_opp by lia.
  - reflexivity.
  - f_equal. ring.
  - rewrite <- Z.abs_opp. f_equal. ring.
  - rewrite <- Z.abs_opp. f_equal. ring.
Qed.

Lemma nearest_any P m p' : m <> 0 -> 0 < p' -> 2 * Z.abs (qerr (2 * p') P m) <= 2 * p' * Z.abs m.
Proof. intros Hm Hp. rewrite qerr_abs by lia. apply nearest_nonneg; lia. Qed.

Lemma rha_nearest_even m p' : 0 < p' -> 2 * Z.abs (rha m (2 * p') * (2 * p') - m) <= 2 * p'.
Proof.
  intros Hp. pose proof (nearest_any m 1 p' ltac:(lia) Hp) as H. unfold qerr in H.
  rewrite Z.quot_1_r, !Z.mul_1_r in H. exact H.
Qed.

Lemma pow10_even k : 1 <= k -> 10 ^ k = 2 * (5 * 10 ^ (k - 1)).
Proof. intros H. replace k with (1 + (k - 1)) at 1 by lia. rewrite Z.pow_add_r by lia. change (10 ^ 1) with 10. ring. Qed.

Lemma lpad_value ldecl m s : 0 <= s ->
  let '(m', s') := lpad ldecl (m, s) in 0 <= s' /\ m' * 10 ^ s = m * 10 ^ s'.
Proof.
  intros Hs. unfold lpad. destruct (ldecl >? s) eqn:E; [|split; [lia|reflexivity]].
  apply Z.gtb_lt in E. split; [lia|]. rewrite <- Z.mul_assoc, <- Z.pow_add_r by lia. do 2 f_equal. lia.
Qed.

(* The quotient (m1/10^s1) / (m2/10^s2), scaled by 10^f, is N/D with N = m1 * 10^(s2+f), D = m2 * 10^s1.
   The working quotient is N * 10^k / D truncated, k = W - f >= 1; rounding it half away from zero by k digits gives an
   integer nearest to N/D. *)
Lemma divide_nearest m1 s1 m2 s2 W f :
  0 <= s1 -> 0 <= s2 -> 0 <= f -> s1 <= W + s2 -> f < W -> m2 <> 0 ->
  2 * Z.abs (round_half_away (Z.quot (m1 * 10 ^ (W + s2 - s1)) m2) (W - f) * (m2 * 10 ^ s1) - m1 * 10 ^ (s2 + f))
  <= Z.abs (m2 * 10 ^ s1).
Proof.
  intros S1 S2 Hf HW Hk Em. unfold round_half_away. rewrite (pow10_even (W - f)) by lia.
  set (p' := 5 * 10 ^ (W - f - 1)). assert (Hp : 0 < p') by (pose proof (pow10_pos (W - f - 1)); lia).
  pose proof (nearest_any (m1 * 10 ^ (W + s2 - s1)) m2 p' Em Hp) as NA. unfold qerr in NA. set (R := rha _ _) in *.
  pose proof (pow10_pos s1 S1) as P1.
  assert (EP : m1 * 10 ^ (W + s2 - s1) * 10 ^ s1 = m1 * 10 ^ (s2 + f) * (2 * p')).
  { unfold p'. rewrite <- pow10_even, <- !Z.mul_assoc, <- !Z.pow_add_r by lia. do 2 f_equal. lia. }
  (* NA times 10^s1, then cancel 2 p' = 10^k *)
  rewrite Z.abs_mul, (Z.abs_eq (10 ^ s1)) by lia.
  assert (NA' : 2 * (Z.abs (R * (m2 * 10 ^ s1) - m1 * 10 ^ (s2 + f)) * (2 * p')) <= 2 * p' * (Z.abs m2 * 10 ^ s1)).
  { rewrite <- (Z.abs_eq (2 * p')) at 1 by lia. rewrite <- Z.abs_mul.
    replace ((R * (m2 * 10 ^ s1) - m1 * 10 ^ (s2 + f)) * (2 * p'))
      with ((R * (2 * p') * m2 - m1 * 10 ^ (W + s2 - s1)) * 10 ^ s1) by (rewrite Z.mul_sub_distr_r, EP; ring).
    rewrite Z.abs_mul, (Z.abs_eq (10 ^ s1)) by lia. nia. }
  nia.
Qed.

Lemma div_work_scale_ge s1 s2 : s1 + s2 + 4 <= div_work_scale s1 s2.
Proof.
  unfold div_work_scale, ceil_div.
  pose proof (Z.div_mod (s1 + s2 + 4 + 9 - 1) 9 ltac:(lia)). pose proof (Z.mod_pos_bound (s1 + s2 + 4 + 9 - 1) 9 ltac:(lia)).
  destruct (negb (s1 =? 0) && negb (s2 =? 0)); lia.
Qed.

Lemma divide_dec ldecl m0 s0 m2 s2 res f :
  0 <= s0 -> 0 <= s2 -> divide ldecl (ODec m0 s0) (ODec m2 s2) = RDec res f ->
  let '(m1, s1) := lpad ldecl (m0, s0) in
  f = div_final_scale s1 /\
  (f < div_work_scale s1 s2 ->
   2 * Z.abs (res * (m2 * 10 ^ s1) - m1 * 10 ^ (s2 + f)) <= Z.abs (m2 * 10 ^ s1)).
Proof.
  intros S0 S2. unfold divide. cbn [to_dec]. pose proof (lpad_value ldecl m0 s0 S0) as L.
  destruct (lpad ldecl (m0, s0)) as [m1 s1]. destruct L as [S1 _].
  destruct (m2 =? 0) eqn:Em; [discriminate|]. apply Z.eqb_neq in Em. cbv zeta. intros [= <- <-].
  split; [reflexivity|]. intros Hk. pose proof (div_work_scale_ge s1 s2).
  apply divide_nearest; try assumption; unfold div_final_scale in *; lia.
Qed.

Theorem divide_correctly_rounded ldecl l r res f :
  operand_ok l -> operand_ok r -> 0 <= ldecl -> divide ldecl l r = RDec res f ->
  let '(m1, s1) := lpad ldecl (to_dec l) in
  let '(m2, s2) := to_dec r in
  f = div_final_scale s1 /\
  (f < div_work_scale s1 s2 ->
   2 * Z.abs (res * (m2 * 10 ^ s1) - m1 * 10 ^ (s2 + f)) <= Z.abs (m2 * 10 ^ s1)).
Proof.
  intros Hl Hr _ E. apply scl_nonneg in Hl, Hr.
  destruct l, r; try discriminate E; exact (divide_dec _ _ _ _ _ _ _ Hl Hr E).
Qed.

(* when the final scale equals the working scale nothing is rounded: the truncated quotient is returned,
   which need not be a nearest value: 123.45600 / 7 = 17.636571428(571...) *)
Lemma divide_truncates_witness :
  divide 5 (ODec 12345600 5) (OInt I8 7) = RDec 17636571428 9 /\
  div_final_scale 5 = div_work_scale 5 0 /\
  ~ (2 * Z.abs (17636571428 * (7 * 10 ^ 5) - 12345600 * 10 ^ (0 + 9)) <= Z.abs (7 * 10 ^ 5)).
Proof. split; [vm_compute; reflexivity|]. split; [vm_compute; reflexivity|]. vm_compute. intros H. apply H. reflexivity. Qed.

(* the same statements through [eval], for Props/C25.v *)
Lemma eval_unsigned_exact_when_fits o tl a tr b :
  is_arith o -> unsigned tl = true -> unsigned tr = true -> in_range tl a -> in_range tr b ->
  0 <= zop o a b <= max_u64 -> eval o false 0 (OInt tl a) (OInt tr b) = RInt U64 (zop o a b).
Proof. intros H. rewrite (eval_arith o) by exact H. apply arith_unsigned_exact_when_fits. Qed.

Lemma eval_signed_exact_when_fits o tl a tr b :
  is_arith o -> unsigned tl && unsigned tr = false -> in_range tl a -> in_range tr b ->
  a <= max_i64 -> b <= max_i64 -> min_i64 <= zop o a b <= max_i64 ->
  eval o false 0 (OInt tl a) (OInt tr b) = RInt I64 (zop o a b).
Proof. intros H Hs _ _. rewrite (eval_arith o) by exact H. apply arith_signed_exact_when_fits, Hs. Qed.

Lemma eval_decimal_path o l r :
  is_arith o -> is_null l = false -> is_null r = false -> is_int l && is_int r = false ->
  eval o false 0 l r = dec_arith o (to_dec l) (to_dec r).
Proof. intros H. rewrite (eval_arith o) by exact H. apply arith_decimal_path. Qed.

Lemma nonvacuous_evals :
  eval Plus false 0 (OInt I64 9223372036854775806) (OInt I8 1) = RInt I64 9223372036854775807 /\
  eval Mult false 0 (OInt U32 4294967295) (OInt U32 4294967295) = RInt U64 18446744065119617025 /\
  eval Minus false 0 (OInt U64 5) (OInt I8 6) = RInt I64 (-1) /\
  eval IntDiv false 0 (OInt I8 (-7)) (OInt I8 2) = RInt I64 (-3) /\
  eval IntDiv false 0 (ODec 15 1) (ODec 4 1) = RInt I64 3 /\
  eval Mod false 0 (OInt I8 (-7)) (OInt I8 3) = RDec (-1) 0 /\
  eval Mod false 0 (ODec (-15) 1) (ODec 4 1) = RDec (-3) 1 /\
  eval Div false 0 (OInt I8 2) (OInt I8 3) = RDec 6667 4 /\
  eval Div false 0 (OInt I8 (-2)) (OInt I8 3) = RDec (-6667) 4 /\
  eval Neg false 0 (OInt U8 127) ONull = RInt I8 (-127) /\
  eval Plus false 0 (ODec 15 1) (ODec 225 2) = RDec 375 2.
Proof. repeat split; vm_compute; reflexivity. Qed.

Definition carrier_half (t : ity) : Z :=
  match go_carrier t with I8 => 128 | I16 => 32768 | I32 => 2147483648 | _ => two63 end.

Theorem abs_exact t z :
  in_range t z ->
  (unsigned t = true -> absf (OInt t z) = RInt (go_carrier t) z) /\
  (unsigned t = false -> z <> - carrier_half t -> absf (OInt t z) = RInt (go_carrier t) (Z.abs z)).
Proof.
  intros R. split; intros U.
  - unfold absf. rewrite U. reflexivity.
  - intros Hz. unfold absf. rewrite U. f_equal.
    unfold in_range, ity_min, ity_max, min_i64, max_i64 in R. unfold carrier_half, two63 in Hz.
    destruct (Z.ltb_spec z 0); [|rewrite Z.abs_eq by lia; reflexivity].
    rewrite Z.abs_neq by lia.
    destruct t; cbn [unsigned] in U; try discriminate; unfold wrap_carrier, go_carrier in *;
      unfold wrap_i8, wrap_i16, wrap_i32, wrap_i64, two63; apply wrapS_id; lia.
Qed.

Lemma abs_minimum_wraps :
  absf (OInt I8 (-128)) = RInt I8 (-128) /\ absf (OInt I64 min_i64) = RInt I64 min_i64.
Proof. split; vm_compute; reflexivity. Qed.

Theorem abs_decimal_exact m s : absf (ODec m s) = RDec (Z.abs m) s.
Proof. reflexivity. Qed.

Theorem sign_integer_exact t z : signf (OInt t z) = RInt I8 (Z.sgn z).
Proof. reflexivity. Qed.

Lemma sign_decimal_rounds : signf (ODec 4 1) = RInt I8 0 /\ signf (ODec (-4) 1) = RInt I8 0 /\ signf (ODec 5 1) = RInt I8 1.
Proof. repeat split; vm_compute; reflexivity. Qed.
