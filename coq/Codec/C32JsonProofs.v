(* Proofs about the JSON document model (Codec/C32Json.v): the bytewise order of keys, and the path laws. *)
From Coq Require Import List NArith ZArith Bool Arith Lia.
Import ListNotations.
From GMS Require Import Codec.Charset Codec.JsonQuote Codec.C32Json.
Open Scope N_scope.

(* The laws of [lex] take their hypotheses element by element, so that they apply under the nested induction on
   documents. *)
Fixpoint lex {A} (ci : A -> A -> comparison) (x y : list A) : comparison :=
  match x, y with
  | [], [] => Eq
  | [], _ :: _ => Lt
  | _ :: _, [] => Gt
  | u :: x', v :: y' => match ci u v with Eq => lex ci x' y' | c => c end
  end.

Lemma lex_refl {A} (ci : A -> A -> comparison) l : Forall (fun x => ci x x = Eq) l -> lex ci l l = Eq.
Proof. induction 1 as [|x l H _ IH]; cbn; [reflexivity|]. now rewrite H. Qed.

Lemma lex_opp {A} (ci : A -> A -> comparison) l1 :
  Forall (fun x => forall y, ci y x = CompOpp (ci x y)) l1 -> forall l2, lex ci l2 l1 = CompOpp (lex ci l1 l2).
Proof.
  induction 1 as [|x l1 H _ IH]; intros [|y l2]; cbn; try reflexivity.
  rewrite H. destruct (ci x y); cbn; try reflexivity. apply IH.
Qed.

Lemma lex_eq {A} (ci : A -> A -> comparison) l1 :
  Forall (fun x => forall y, ci x y = Eq -> x = y) l1 -> forall l2, lex ci l1 l2 = Eq -> l1 = l2.
Proof.
  induction 1 as [|x l1 H _ IH]; intros [|y l2] E; cbn in E; try discriminate; [reflexivity|].
  destruct (ci x y) eqn:C; try discriminate. apply H in C. subst. f_equal. apply IH. exact E.
Qed.

Lemma lex_trans_lt {A} (ci : A -> A -> comparison) :
  (forall x y, ci x y = Eq -> x = y) ->
  forall l1, Forall (fun x => forall y z, ci x y = Lt -> ci y z = Lt -> ci x z = Lt) l1 ->
  forall l2 l3, lex ci l1 l2 = Lt -> lex ci l2 l3 = Lt -> lex ci l1 l3 = Lt.
Proof.
  intros Heq. induction 1 as [|x l1 H _ IH]; intros [|y l2] [|z l3] E1 E2; cbn in *; try discriminate; try reflexivity.
  destruct (ci x y) eqn:C1; try discriminate; destruct (ci y z) eqn:C2; try discriminate.
  - pose proof (Heq _ _ C1) as Hxy. pose proof (Heq _ _ C2) as Hyz. subst y. subst z. rewrite C1.
    eapply IH; eassumption.
  - pose proof (Heq _ _ C1) as Hxy. subst y. now rewrite C2.
  - pose proof (Heq _ _ C2) as Hyz. subst z. now rewrite C1.
  - now rewrite (H y z C1 C2).
Qed.

Lemma bytes_cmp_lex a : forall b, bytes_cmp a b = lex N.compare a b.
Proof. induction a as [|x a IH]; intros [|y b]; cbn; try reflexivity. now rewrite IH. Qed.

Lemma bytes_cmp_refl a : bytes_cmp a a = Eq.
Proof. rewrite bytes_cmp_lex. apply lex_refl, Forall_forall. intros x _. apply N.compare_refl. Qed.

Lemma bytes_cmp_eq a b : bytes_cmp a b = Eq -> a = b.
Proof. rewrite bytes_cmp_lex. apply lex_eq, Forall_forall. intros x _ y. apply N.compare_eq. Qed.

Lemma bytes_cmp_opp a b : bytes_cmp b a = CompOpp (bytes_cmp a b).
Proof. rewrite !bytes_cmp_lex. apply lex_opp, Forall_forall. intros x _ y. apply N.compare_antisym. Qed.

Lemma bytes_cmp_trans_lt a b c : bytes_cmp a b = Lt -> bytes_cmp b c = Lt -> bytes_cmp a c = Lt.
Proof.
  rewrite !bytes_cmp_lex. apply (lex_trans_lt N.compare N.compare_eq), Forall_forall.
  intros x _ y z. rewrite !N.compare_lt_iff. apply N.lt_trans.
Qed.

Lemma key_eqb_refl k : key_eqb k k = true.
Proof. unfold key_eqb. now rewrite bytes_cmp_refl. Qed.

Lemma key_eqb_true k k' : key_eqb k k' = true -> k = k'.
Proof. unfold key_eqb. destruct (bytes_cmp k k') eqn:E; try discriminate. intros _. apply bytes_cmp_eq. exact E. Qed.

Lemma key_eqb_neq k k' : k <> k' -> key_eqb k k' = false.
Proof. intros H. destruct (key_eqb k k') eqn:E; [|reflexivity]. apply key_eqb_true in E. contradiction. Qed.

Lemma get_set_same k v m : obj_get k (obj_set k v m) = Some v.
Proof.
  induction m as [|[k' v'] m IH]; cbn; [now rewrite key_eqb_refl|].
  destruct (key_eqb k k') eqn:E; cbn; rewrite E; [reflexivity|exact IH].
Qed.

Lemma get_set_other k k2 v m : k <> k2 -> obj_get k2 (obj_set k v m) = obj_get k2 m.
Proof.
  intros Hne. induction m as [|[k' v'] m IH]; cbn.
  - rewrite key_eqb_neq by congruence. reflexivity.
  - destruct (key_eqb k k') eqn:E; cbn.
    + apply key_eqb_true in E. subst k'. rewrite key_eqb_neq by congruence. reflexivity.
    + destruct (key_eqb k2 k'); [reflexivity|exact IH].
Qed.

Lemma get_remove_same k m : obj_get k (obj_remove k m) = None.
Proof.
  induction m as [|[k' v'] m IH]; cbn; [reflexivity|].
  destruct (key_eqb k k') eqn:E; cbn; [exact IH|]. rewrite E. exact IH.
Qed.

Lemma nth_replace_same n v : forall l c, nth_error l n = Some c -> nth_error (replace_nth n v l) n = Some v.
Proof.
  induction n as [|n IH]; intros [|x l] c H; cbn in *; try discriminate; [reflexivity|]. eapply IH. exact H.
Qed.

Lemma nth_replace_other n v : forall l m, n <> m -> nth_error (replace_nth n v l) m = nth_error l m.
Proof.
  induction n as [|n IH]; intros [|x l] [|m] H; cbn; try reflexivity; try congruence. apply IH. congruence.
Qed.

Lemma replace_nth_length n v : forall l, length (replace_nth n v l) = length l.
Proof. induction n as [|n IH]; intros [|x l]; cbn; auto. Qed.

(* d with the value at p, a path that exists in d, replaced by x *)
Fixpoint plug (p : list leg) (d x : json) : json :=
  match p, d with
  | [], _ => x
  | LKey k :: p', JObj m => match obj_get k m with Some c => JObj (obj_set k (plug p' c x) m) | None => d end
  | LIdx n :: p', JArr l => match nth_error l n with Some c => JArr (replace_nth n (plug p' c x) l) | None => d end
  | _, _ => d
  end.

Lemma lookup_app : forall p q d, lookup (p ++ q) d = match lookup p d with Some c => lookup q c | None => None end.
Proof.
  induction p as [|[k|n] p IH]; intros q d; [reflexivity| |]; cbn [app lookup].
  - destruct d as [| | | | |m]; try reflexivity. destruct (obj_get k m); [apply IH|reflexivity].
  - destruct d as [| | | |l|]; try reflexivity. destruct (nth_error l n); [apply IH|reflexivity].
Qed.

Lemma lookup_plug : forall p q d c x, lookup p d = Some c -> lookup (p ++ q) (plug p d x) = lookup q x.
Proof.
  induction p as [|[k|n] p IH]; intros q d c x H; [reflexivity| |]; cbn [lookup] in H.
  - destruct d as [| | | | |m]; try discriminate. destruct (obj_get k m) as [c0|] eqn:G; [|discriminate].
    cbn [plug app lookup]. rewrite G. cbn [lookup]. rewrite get_set_same. eapply IH, H.
  - destruct d as [| | | |l|]; try discriminate. destruct (nth_error l n) as [c0|] eqn:G; [|discriminate].
    cbn [plug app lookup]. rewrite G. cbn [lookup]. rewrite (nth_replace_same n _ l c0 G). eapply IH, H.
Qed.

Lemma upd_unchanged md v p d : snd (upd md p d v) = false -> fst (upd md p d v) = d.
Proof.
  destruct p as [|[k|n] p].
  - destruct md; cbn; congruence.
  - destruct d as [| | | | |m]; try reflexivity. cbn [upd]. destruct p as [|lg p].
    + destruct md, (obj_get k m); cbn; congruence.
    + destruct (upd md (lg :: p) _ v) as [c' [|]]; cbn; congruence.
  - destruct d as [| | | |l|]; try (destruct n, md; cbn; congruence). cbn [upd].
    destruct (nth_error l n) as [c|]; [|destruct md; cbn; congruence]. destruct p as [|lg p].
    + destruct md; cbn; congruence.
    + destruct md; (destruct (upd _ (lg :: p) c v) as [c' [|]]; cbn; congruence).
Qed.

(* What [upd] does along p ++ q when p exists in d: what it does along q to the value at p.  The modes differ only at
   the last leg of a path, and there only REMOVE differs from the update of a whole document. *)
Theorem upd_app md v : forall p q d c, lookup p d = Some c -> q <> [] \/ md <> REMOVE ->
  upd md (p ++ q) d v = (if snd (upd md q c v) then plug p d (fst (upd md q c v)) else d, snd (upd md q c v)).
Proof.
  induction p as [|[k|n] p IH]; intros q d c H Hq; cbn [lookup] in H.
  - injection H as ->. cbn [app plug]. rewrite (surjective_pairing (upd md q c v)) at 1.
    destruct (snd _) eqn:S; [reflexivity|]. now rewrite (upd_unchanged _ _ _ _ S).
  - destruct d as [| | | | |m]; try discriminate. destruct (obj_get k m) as [c0|] eqn:G; [|discriminate].
    cbn [app upd plug]. rewrite G. destruct (p ++ q) as [|lg pq] eqn:E.
    + apply app_eq_nil in E. destruct E as [-> ->]. injection H as ->.
      destruct Hq as [Hq|Hq]; [congruence|]. destruct md; rewrite ?G; try reflexivity. congruence.
    + rewrite <- E, (IH q c0 c H Hq). now destruct (upd md q c v) as [c' [|]].
  - destruct d as [| | | |l|]; try discriminate. destruct (nth_error l n) as [c0|] eqn:G; [|discriminate].
    cbn [app upd plug]. rewrite G. destruct (p ++ q) as [|lg pq] eqn:E.
    + apply app_eq_nil in E. destruct E as [-> ->]. injection H as ->.
      destruct Hq as [Hq|Hq]; [congruence|]. destruct md; try reflexivity. congruence.
    + cbv iota. rewrite <- E, (IH q c0 c H Hq). now destruct (upd md q c v) as [c' [|]].
Qed.

Corollary upd_existing md v p d t : md <> REMOVE -> lookup p d = Some t ->
  upd md p d v = (if snd (upd md [] t v) then plug p d (fst (upd md [] t v)) else d, snd (upd md [] t v)).
Proof. intros Hmd H. rewrite <- (app_nil_r p) at 1. apply upd_app; auto. Qed.

(* JSON_EXTRACT(JSON_SET(d, p, v), p) = v when the target exists *)
Theorem set_then_lookup v : forall p d old, lookup p d = Some old ->
  lookup p (fst (upd SET p d v)) = Some v /\ snd (upd SET p d v) = true.
Proof.
  intros p d old H. rewrite (upd_existing SET v p d old) by (discriminate || exact H). cbn [upd fst snd].
  split; [|reflexivity]. rewrite <- (app_nil_r p) at 1. apply (lookup_plug p [] d old v H).
Qed.

(* ... and when the parent is an object, whether or not it already has the member *)
Theorem set_member_then_lookup v k : forall p d m, lookup p d = Some (JObj m) ->
  lookup (p ++ [LKey k]) (fst (upd SET (p ++ [LKey k]) d v)) = Some v /\ snd (upd SET (p ++ [LKey k]) d v) = true.
Proof.
  intros p d m H. rewrite (upd_app SET v p [LKey k] d _ H) by (left; discriminate). cbn [upd fst snd].
  split; [|reflexivity]. rewrite (lookup_plug p _ d _ _ H). cbn. now rewrite get_set_same.
Qed.

(* JSON_REMOVE of an existing member makes JSON_CONTAINS_PATH false *)
Theorem remove_then_not_contains v k : forall p d old, lookup (p ++ [LKey k]) d = Some old ->
  contains_path (p ++ [LKey k]) (fst (upd REMOVE (p ++ [LKey k]) d v)) = false /\
  snd (upd REMOVE (p ++ [LKey k]) d v) = true.
Proof.
  intros p d old H. rewrite lookup_app in H. destruct (lookup p d) as [c|] eqn:Hp; [|discriminate].
  cbn [lookup] in H. destruct c as [| | | | |m]; try discriminate. destruct (obj_get k m) eqn:G; [|discriminate].
  rewrite (upd_app REMOVE v p [LKey k] d _ Hp) by (left; discriminate). cbn [upd]. rewrite G. cbn [fst snd].
  split; [|reflexivity]. unfold contains_path. rewrite (lookup_plug p _ d _ _ Hp). cbn. now rewrite get_remove_same.
Qed.

(* JSON_ARRAY_APPEND adds exactly one element at the target *)
Theorem append_then_lookup v : forall p d t, lookup p d = Some t ->
  lookup p (fst (upd APPEND p d v)) = Some (append_to t v) /\ snd (upd APPEND p d v) = true.
Proof.
  intros p d t H. rewrite (upd_existing APPEND v p d t) by (discriminate || exact H). cbn [upd fst snd].
  split; [|reflexivity]. rewrite <- (app_nil_r p) at 1. apply (lookup_plug p [] d t _ H).
Qed.

Corollary append_adds_one v p d l : lookup p d = Some (JArr l) ->
  exists l', lookup p (fst (upd APPEND p d v)) = Some (JArr l') /\ l' = l ++ [v] /\ length l' = S (length l).
Proof.
  intros H. destruct (append_then_lookup v p d _ H) as [A _]. exists (l ++ [v]).
  split; [exact A|split; [reflexivity|]]. rewrite app_length. cbn. lia.
Qed.

(* frame: paths that diverge from the target are unchanged *)
Inductive diverge : list leg -> list leg -> Prop :=
| div_here l1 l2 p q : l1 <> l2 -> diverge (l1 :: p) (l2 :: q)
| div_next l p q : diverge p q -> diverge (l :: p) (l :: q).

Lemma plug_frame x : forall p q d t, lookup p d = Some t -> diverge p q -> lookup q (plug p d x) = lookup q d.
Proof.
  induction p as [|[k|n] p IH]; intros q d t H Hd; [inversion Hd| |]; cbn [lookup] in H.
  - destruct d as [| | | | |m]; try discriminate. destruct (obj_get k m) as [c|] eqn:G; [|discriminate].
    cbn [plug]. rewrite G. inversion Hd as [l1 l2 p0 q0 Hne|l p0 q0 Hdq]; subst.
    + destruct l2 as [k2|n2]; [|reflexivity]. cbn. rewrite get_set_other by congruence. reflexivity.
    + cbn. rewrite get_set_same, G. apply (IH _ _ _ H Hdq).
  - destruct d as [| | | |l|]; try discriminate. destruct (nth_error l n) as [c|] eqn:G; [|discriminate].
    cbn [plug]. rewrite G. inversion Hd as [l1 l2 p0 q0 Hne|lg0 p0 q0 Hdq]; subst.
    + destruct l2 as [k2|n2]; [reflexivity|]. cbn. rewrite nth_replace_other by congruence. reflexivity.
    + cbn. rewrite (nth_replace_same n _ l c G), G. apply (IH _ _ _ H Hdq).
Qed.

Theorem frame md v : md <> REMOVE -> forall p q d t, lookup p d = Some t -> diverge p q ->
  lookup q (fst (upd md p d v)) = lookup q d.
Proof.
  intros Hmd p q d t H Hd. rewrite (upd_existing md v p d t Hmd H). cbn [fst].
  destruct (snd _); [apply (plug_frame _ p q d t H Hd)|reflexivity].
Qed.
