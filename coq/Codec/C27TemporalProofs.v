(* C27 — proofs about the temporal model (Codec/C27Temporal.v) *)
From Coq Require Import ZArith Bool List Lia.
Import ListNotations.
From GMS Require Import Codec.C25Arith Codec.C27Convert Codec.C27Strings Codec.C26Compare Codec.C27Temporal.
Open Scope Z_scope.

Definition unit_us (p : Z) : Z := 10 ^ (6 - p).

Lemma unit_pos p : 0 <= p <= 6 -> 0 < unit_us p.
Proof. intros H. unfold unit_us. apply Z.pow_pos_nonneg; lia. Qed.

(* rounding to the precision: a multiple of the unit, nearest (half up), idempotent *)
Theorem round_us_nearest p us :
  0 <= p <= 6 ->
  (round_us p us) mod unit_us p = 0 /\ 2 * Z.abs (round_us p us - us) <= unit_us p.
Proof.
  intros Hp. pose proof (unit_pos p Hp) as U. unfold round_us. fold (unit_us p). set (u := unit_us p) in *.
  split; [apply Z.mod_mul; lia|].
  pose proof (Z.div_mod (us + u / 2) u ltac:(lia)) as D. pose proof (Z.mod_pos_bound (us + u / 2) u U) as B.
  pose proof (Z.div_mod u 2 ltac:(lia)) as D2. pose proof (Z.mod_pos_bound u 2 ltac:(lia)) as B2.
  nia.
Qed.

Theorem round_us_idempotent p us : 0 <= p <= 6 -> round_us p (round_us p us) = round_us p us.
Proof.
  intros Hp. pose proof (unit_pos p Hp) as U. unfold round_us. fold (unit_us p). set (u := unit_us p) in *.
  set (q := (us + u / 2) / u).
  assert (H2 : 0 <= u / 2 < u).
  { pose proof (Z.div_mod u 2 ltac:(lia)). pose proof (Z.mod_pos_bound u 2 ltac:(lia)). lia. }
  replace (q * u + u / 2) with (u / 2 + q * u) by ring.
  rewrite Z.div_add by lia. rewrite (Z.div_small (u / 2) u) by exact H2. reflexivity.
Qed.

Theorem trunc_day_idempotent us : trunc_day (trunc_day us) = trunc_day us.
Proof. unfold trunc_day. rewrite Z.div_mul by (unfold day_us; lia). reflexivity. Qed.

Theorem trunc_day_floor us : trunc_day us <= us < trunc_day us + day_us.
Proof.
  unfold trunc_day. pose proof (Z.div_mod us day_us ltac:(unfold day_us; lia)).
  pose proof (Z.mod_pos_bound us day_us ltac:(unfold day_us; lia)). lia.
Qed.

(* exact or rejected: an accepted text is well-formed in the strict grammar, its fields are valid, and the stored
   instant is the text's instant at the type's precision *)
Theorem conv_dt_exact_or_rejected k p bs us :
  conv_dt k p bs = DOk us ->
  exists c, parse_strict bs = Some c /\ valid_civil c = true /\
            us = match k with KDate => trunc_day (us_of_civil c) | _ => round_us p (us_of_civil c) end.
Proof.
  unfold conv_dt. destruct (parse_strict bs) as [c|] eqn:P; [|discriminate].
  intros H. exists c. split; [reflexivity|]. split.
  - unfold parse_strict in P. destruct (parse_date bs) as [[[[y m] d] rest]|]; [|discriminate].
    destruct rest; [|destruct (parse_tod _) as [[[[h mi] s] u]|]; [|discriminate]];
      match type of P with (if valid_civil ?x then _ else _) = _ => destruct (valid_civil x) eqn:V; [|discriminate] end;
      injection P as <-; exact V.
  - destruct k; injection H as <-; reflexivity.
Qed.

Theorem conv_dt_malformed_rejected k p bs : parse_strict bs = None -> conv_dt k p bs = DErr.
Proof. intros H. unfold conv_dt. rewrite H. reflexivity. Qed.

(* the stored instant is within half a unit of the text's instant, and storing it again does not change it *)
Theorem conv_dt_precision k p bs us c :
  0 <= p <= 6 -> k <> KDate -> conv_dt k p bs = DOk us -> parse_strict bs = Some c ->
  2 * Z.abs (us - us_of_civil c) <= unit_us p /\ round_us p us = us.
Proof.
  intros Hp Hk E P. unfold conv_dt in E. rewrite P in E.
  destruct k; try contradiction; injection E as <-;
    (split; [apply round_us_nearest; exact Hp|apply round_us_idempotent; exact Hp]).
Qed.

Lemma between_spec a z b : BoolSpec (a <= z <= b) (~ a <= z <= b) ((a <=? z) && (z <=? b)).
Proof. destruct (Z.leb_spec a z), (Z.leb_spec z b); constructor; lia. Qed.

Theorem conv_year_int_range z y : conv_year_int z = YOk y -> y = 0 \/ 1901 <= y <= 2155.
Proof.
  unfold conv_year_int. destruct (Z.eqb_spec z 0); [intros [= <-]; auto|].
  destruct (between_spec 1 z 69); [intros [= <-]; lia|].
  destruct (between_spec 70 z 99); [intros [= <-]; lia|].
  destruct (between_spec 1901 z 2155); [intros [= <-]; lia|discriminate].
Qed.

Theorem conv_year_four_digit_exact z : 1901 <= z <= 2155 -> conv_year_int z = YOk z.
Proof.
  intros R. unfold conv_year_int. destruct (Z.eqb_spec z 0); [lia|].
  destruct (between_spec 1 z 69); [lia|]. destruct (between_spec 70 z 99); [lia|].
  destruct (between_spec 1901 z 2155); [reflexivity|lia].
Qed.

Theorem conv_year_idempotent z y : conv_year_int z = YOk y -> conv_year_int y = YOk y.
Proof.
  intros H. destruct (conv_year_int_range z y H) as [->|R]; [reflexivity|apply conv_year_four_digit_exact, R].
Qed.

Theorem time_core_exact neg h m s micro :
  0 <= h <= 838 -> 0 <= m < 60 -> 0 <= s < 60 -> 0 <= micro < 1000000 ->
  ~ (h = 838 /\ m = 59 /\ s = 59) ->
  time_core neg h m s micro =
    TmOk ((if neg then -1 else 1) * (h * 3600000000 + m * 60000000 + s * 1000000 + micro)).
Proof.
  intros Hh Hm Hs Hu Hx. unfold time_core.
  destruct (Z.leb_spec 60 m); [lia|]. destruct (Z.leb_spec 60 s); [lia|]. cbn [orb].
  destruct (Z.eqb_spec micro 1000000); [lia|]. destruct (Z.eqb_spec s 60); [lia|].
  destruct (Z.eqb_spec m 60); [lia|]. destruct (Z.gtb_spec h 838); [lia|].
  destruct ((h =? 838) && (m =? 59) && (s =? 59)) eqn:X.
  - apply andb_prop in X. destruct X as [X X3]. apply andb_prop in X. destruct X as [X1 X2].
    apply Z.eqb_eq in X1, X2, X3. tauto.
  - destruct neg; f_equal; lia.
Qed.

(* REFUTED: malformed TIME text is rejected / out-of-range TIME is reported *)
Lemma time_junk_after_fraction_accepted :
  (* "11:59:30.451048abc" *)
  string_to_timespan [49;49;58;53;57;58;51;48;46;52;53;49;48;52;56;97;98;99] = TmOk 43170451049 /\
  (* "00:00:00.499999 foo" *)
  string_to_timespan [48;48;58;48;48;58;48;48;46;52;57;57;57;57;57;32;102;111;111] = TmOk 500000.
Proof. split; vm_compute; reflexivity. Qed.

Lemma time_beyond_range_clamped_silently :
  (* "999:59:59" *) string_to_timespan [57;57;57;58;53;57;58;53;57] = TmOk 3020399000000 /\
  (* "839:00:00" *) string_to_timespan [56;51;57;58;48;48;58;48;48] = TmOk 3020399000000.
Proof. split; vm_compute; reflexivity. Qed.

Lemma nonvacuous_temporal_convert :
  (* "2023-01-15 10:30:45.5" into DATETIME(0) rounds up *)
  conv_dt KDatetime 0 [50;48;50;51;45;48;49;45;49;53;32;49;48;58;51;48;58;52;53;46;53] = DOk 1673778646000000 /\
  (* "2023-02-30 10:00:00" *)
  conv_dt KDatetime 6 [50;48;50;51;45;48;50;45;51;48;32;49;48;58;48;48;58;48;48] = DErr /\
  (* "2023-01-15 10:30:45abc" *)
  conv_dt KDatetime 6 [50;48;50;51;45;48;49;45;49;53;32;49;48;58;51;48;58;52;53;97;98;99] = DErr /\
  (* "1500-06-15" into DATE *)
  conv_dt KDate 0 [49;53;48;48;45;48;54;45;49;53] = DOk (-14817513600000000) /\
  string_to_timespan [49;48;58;51;48;58;52;53] = TmOk 37845000000 /\
  string_to_timespan [49;48;58;54;49;58;52;53] = TmErr /\
  conv_year_str [50;48;50;51] = YOk 2023 /\ conv_year_str [49;57;48;48] = YErr /\ conv_year_str [48] = YOk 2000.
Proof. repeat split; vm_compute; reflexivity. Qed.
