(* C28 -- proofs about the wire text model: digit generation / parsing inverse for all of Z, width bounds, and the
   round trips of the integer, DECIMAL, YEAR, BIT, ENUM and DATE text forms.  strconv's output is a [padn] of the
   right width; a temporal text is first rewritten into fixed-width fields ([date_shape], and [datetime_shape],
   [time_shape] in part 2), and the text reader here and the binary-protocol encoder (C28BinProofs) are both
   followed over that one form. *)
From Coq Require Import List NArith ZArith Bool Lia Arith.
Import ListNotations.
From GMS Require Import Codec.C28Date Codec.C28DateProofs Codec.C28Wire Codec.C28Bin.
Open Scope Z_scope.

Lemma pow_nat_S b n : b ^ Z.of_nat (S n) = b * b ^ Z.of_nat n.
Proof. rewrite Nat2Z.inj_succ. apply Z.pow_succ_r. lia. Qed.

Lemma digit_val_char d : 0 <= d <= 9 -> digit_val (digit_char d) = Some d.
Proof.
  intros H. unfold digit_val, digit_char.
  rewrite (proj2 (N.leb_le 48 _)), (proj2 (N.leb_le _ 57)) by lia. cbn [andb]. f_equal. lia.
Qed.

Lemma digit_char_neq d k : 0 <= d <= 9 -> (k < 48 \/ 57 < k)%N -> (digit_char d =? k)%N = false.
Proof. intros Hd Hk. unfold digit_char. apply N.eqb_neq. lia. Qed.

Lemma parse_digits_app acc a b :
  parse_digits acc (a ++ b) = match parse_digits acc a with Some x => parse_digits x b | None => None end.
Proof.
  revert acc. induction a as [|c a IH]; intros acc; cbn [app parse_digits]; [reflexivity|].
  destruct (digit_val c); [apply IH|reflexivity].
Qed.

Lemma parse_uint_ne s : s <> [] -> parse_uint s = parse_digits 0 s.
Proof. destruct s; [contradiction|reflexivity]. Qed.

Definition all_digits (s : bytes) : Prop := Forall (fun c => exists d, 0 <= d <= 9 /\ c = digit_char d) s.

Lemma all_digits_ne k s : all_digits s -> (k < 48 \/ 57 < k)%N -> Forall (fun x => (x =? k)%N = false) s.
Proof. intros H Hk. eapply Forall_impl; [|exact H]. cbn. intros x (d & Hd & ->). now apply digit_char_neq. Qed.

Lemma all_digits_head c s k : all_digits (c :: s) -> (k < 48 \/ 57 < k)%N -> (c =? k)%N = false.
Proof. intros H Hk. exact (Forall_inv (all_digits_ne k _ H Hk)). Qed.

Lemma all_digits_parse s : all_digits s -> forall acc, 0 <= acc -> exists v, parse_digits acc s = Some v /\ 0 <= v.
Proof.
  induction 1 as [|c s (d & Hd & ->) _ IH]; intros acc Ha; cbn [parse_digits]; [eauto|].
  rewrite digit_val_char by lia. apply IH. lia.
Qed.

Lemma all_digits_firstn n : forall s, all_digits s -> all_digits (firstn n s).
Proof. intros s H. rewrite <- (firstn_skipn n s) in H. exact (proj1 (proj1 (Forall_app _ _ _) H)). Qed.

Lemma padn_length n : forall v, length (padn n v) = n.
Proof. induction n as [|n IH]; intros v; cbn [padn]; [reflexivity|]. rewrite app_length, IH. cbn. lia. Qed.

Lemma all_digits_padn n : forall v, all_digits (padn n v).
Proof.
  induction n as [|n IH]; intros v; cbn [padn]; [constructor|].
  apply Forall_app. split; [apply IH|]. constructor; [|constructor].
  exists (v mod 10). split; [pose proof (Z.mod_pos_bound v 10 ltac:(lia)); lia|reflexivity].
Qed.

Lemma parse_padn n : forall v acc, 0 <= v < 10 ^ Z.of_nat n ->
  parse_digits acc (padn n v) = Some (acc * 10 ^ Z.of_nat n + v).
Proof.
  induction n as [|n IH]; intros v acc Hv.
  - cbn in *. f_equal. lia.
  - cbn [padn]. rewrite pow_nat_S in *. rewrite parse_digits_app, IH by (Z.div_mod_to_equations; lia).
    cbn [parse_digits]. rewrite digit_val_char by (Z.div_mod_to_equations; lia). f_equal. Z.div_mod_to_equations; lia.
Qed.

Lemma padn_pad2 n z : padn (S (S n)) z = padn n (z / 100) ++ pad2 (z mod 100).
Proof.
  cbn [padn]. rewrite <- app_assoc. unfold pad2. cbn [app].
  assert (z / 10 / 10 = z / 100 /\ z / 10 mod 10 = z mod 100 / 10 /\ z mod 10 = z mod 100 mod 10) as (-> & -> & ->)
    by (Z.div_mod_to_equations; lia).
  reflexivity.
Qed.

Lemma d2_pad2 z : 0 <= z <= 99 -> d2 (digit_char (z / 10)) (digit_char (z mod 10)) = Some z.
Proof. intros H. unfold d2. rewrite !digit_val_char by (Z.div_mod_to_equations; lia). f_equal. Z.div_mod_to_equations; lia. Qed.

(* [parse_uint] of the two characters and [d2] of them unfold to the same term *)
Lemma parse_uint_pad2 z : 0 <= z <= 99 -> parse_uint [digit_char (z / 10); digit_char (z mod 10)] = Some z.
Proof. exact (d2_pad2 z). Qed.

(* strconv.AppendUint writes exactly the significant digits *)
Lemma udigits_S f z :
  udigits (S f) z = if z <? 10 then [digit_char z] else udigits f (z / 10) ++ [digit_char (z mod 10)].
Proof. reflexivity. Qed.

(* S k is the least width at which z fits *)
Lemma udigits_padn f : forall z, 0 <= z < 2 ^ Z.of_nat (S f) ->
  exists k, udigits (S f) z = padn (S k) z /\ z < 10 ^ Z.of_nat (S k) /\
            forall j, z < 10 ^ Z.of_nat (S j) -> (k <= j)%nat.
Proof.
  induction f as [|f IH]; intros z Hz; rewrite udigits_S; destruct (z <? 10) eqn:E.
  1,3: apply Z.ltb_lt in E; exists O; cbn [padn app]; rewrite Z.mod_small by lia;
       split; [reflexivity|]; split; [exact E|intros; lia].
  - apply Z.ltb_ge in E. change (2 ^ Z.of_nat 1) with 2 in Hz. lia.
  - apply Z.ltb_ge in E. rewrite pow_nat_S in Hz.
    destruct (IH (z / 10)) as (k & -> & Hk & Hmin); [Z.div_mod_to_equations; lia|].
    exists (S k). split; [reflexivity|]. split.
    + rewrite pow_nat_S. Z.div_mod_to_equations; lia.
    + intros [|j] Hj; [change (10 ^ Z.of_nat 1) with 10 in Hj; lia|]. rewrite pow_nat_S in Hj.
      apply le_n_S, Hmin. Z.div_mod_to_equations; lia.
Qed.

Lemma fuel_enough z : 0 <= z -> 0 <= z < 2 ^ Z.of_nat (S (Z.to_nat (Z.log2 z))).
Proof.
  intros H. split; [exact H|]. rewrite Nat2Z.inj_succ, Z2Nat.id by apply Z.log2_nonneg.
  destruct (Z.eq_dec z 0) as [->|Hn]; [cbn; lia|]. apply Z.log2_spec. lia.
Qed.

Lemma format_uint_padn z : 0 <= z ->
  exists k, format_uint z = padn (S k) z /\ z < 10 ^ Z.of_nat (S k) /\ forall j, z < 10 ^ Z.of_nat (S j) -> (k <= j)%nat.
Proof. intros H. apply udigits_padn, fuel_enough, H. Qed.

Lemma format_uint_spec z : 0 <= z ->
  parse_digits 0 (format_uint z) = Some z /\ format_uint z <> [] /\ all_digits (format_uint z).
Proof.
  intros H. destruct (format_uint_padn z H) as (k & -> & Hk & _).
  split; [exact (parse_padn _ z 0 (conj H Hk))|]. split; [|apply all_digits_padn].
  intros E. apply (f_equal (@length _)) in E. rewrite padn_length in E. discriminate.
Qed.

Lemma parse_uint_format z : 0 <= z -> parse_uint (format_uint z) = Some z.
Proof. intros H. destruct (format_uint_spec z H) as (P1 & P2 & _). now rewrite parse_uint_ne. Qed.

Lemma format_uint_length z k : 0 <= z -> (1 <= k)%nat -> z < 10 ^ Z.of_nat k -> (length (format_uint z) <= k)%nat.
Proof.
  intros H Hk Hlt. destruct k as [|j]; [lia|]. destruct (format_uint_padn z H) as (k & -> & _ & Hmin).
  rewrite padn_length. apply le_n_S, Hmin, Hlt.
Qed.

(* a number of exactly S k digits (or a single 0) *)
Lemma format_uint_width k z : 0 <= z < 10 ^ Z.of_nat (S k) -> k = O \/ 10 ^ Z.of_nat k <= z ->
  format_uint z = padn (S k) z.
Proof.
  intros [H0 Hu] Hl. destruct (format_uint_padn z H0) as (k0 & -> & Hk0 & Hmin). specialize (Hmin k Hu).
  replace k0 with k; [reflexivity|]. destruct Hl as [->|Hl]; [lia|].
  destruct (Nat.eq_dec k k0) as [|Hne]; [assumption|].
  assert (10 ^ Z.of_nat (S k0) <= 10 ^ Z.of_nat k) by (apply Z.pow_le_mono_r; lia). lia.
Qed.

Lemma format_int_nonneg z : 0 <= z -> format_int z = format_uint z.
Proof. intros H. unfold format_int. now rewrite (proj2 (Z.ltb_ge z 0)). Qed.

Theorem parse_format_int z : parse_int (format_int z) = Some z.
Proof.
  unfold format_int. destruct (z <? 0) eqn:E.
  - apply Z.ltb_lt in E. cbn [parse_int]. rewrite N.eqb_refl. rewrite parse_uint_format by lia. cbn. f_equal. lia.
  - apply Z.ltb_ge in E. destruct (format_uint_spec z E) as (_ & P2 & P3).
    pose proof (parse_uint_format z E) as PU.
    destruct (format_uint z) as [|c r]; [contradiction|].
    cbn [parse_int]. now rewrite !(all_digits_head c r) by (assumption || lia).
Qed.

Lemma format_int_length z k : (1 <= k)%nat -> - 10 ^ Z.of_nat k < z < 10 ^ Z.of_nat k ->
  (length (format_int z) <= (if (z <? 0)%Z then S k else k))%nat.
Proof.
  intros Hk H. unfold format_int. destruct (z <? 0) eqn:E.
  - apply Z.ltb_lt in E. cbn [length]. apply le_n_S. apply format_uint_length; lia.
  - apply Z.ltb_ge in E. apply format_uint_length; lia.
Qed.

Definition ity_storable (t : ity) (v : Z) : Prop := ity_min t <= v <= ity_max t.

Lemma ity_bounds t : ity_min t <= 0 <= ity_max t /\ ity_max t <= ity_sql_hi t.
Proof. destruct t; vm_compute; repeat split; discriminate. Qed.

(* the clamps of SQLxxx leave a value of the type's range alone *)
Lemma int_sql_text_storable t v : ity_storable t v -> int_sql_text t v = format_int v.
Proof.
  intros [H1 H2]. pose proof (ity_bounds t) as [_ Hhi]. unfold int_sql_text, clamp.
  now rewrite (proj2 (Z.ltb_ge _ v)), (proj2 (Z.ltb_ge v _)) by lia.
Qed.

Theorem int_text_roundtrip t v : ity_storable t v -> int_convert_text t (int_sql_text t v) = Some v.
Proof.
  intros H. rewrite int_sql_text_storable by exact H. destruct H as [H1 H2].
  unfold int_convert_text. rewrite parse_format_int.
  now rewrite (proj2 (Z.ltb_ge _ v)), (proj2 (Z.ltb_ge v _)) by lia.
Qed.

(* the number of digits each width allows for, against the announced length (one more for a sign) *)
Lemma ity_digits t : exists k, (1 <= k)%nat /\ - 10 ^ Z.of_nat k < ity_min t /\ ity_max t < 10 ^ Z.of_nat k /\
  Z.of_nat k <= ity_announced t /\ (ity_min t < 0 -> Z.of_nat (S k) <= ity_announced t).
Proof.
  destruct t;
    [exists 3%nat|exists 3%nat|exists 5%nat|exists 5%nat|exists 7%nat|exists 8%nat|exists 10%nat|exists 10%nat
    |exists 19%nat|exists 20%nat];
    (split; [lia|]); vm_compute; easy.
Qed.

Theorem int_text_len t v : ity_storable t v -> Z.of_nat (length (int_sql_text t v)) <= ity_announced t.
Proof.
  intros H. rewrite int_sql_text_storable by exact H. destruct H as [H1 H2].
  destruct (ity_digits t) as (k & Hk & Hlo & Hhi & A0 & A1).
  pose proof (format_int_length v k Hk ltac:(lia)) as L.
  destruct (v <? 0) eqn:E; [apply Z.ltb_lt in E|]; lia.
Qed.

Lemma digit_char_0 : digit_char 0 = 48%N. Proof. reflexivity. Qed.

Lemma all_digits_repeat0 k : all_digits (repeat 48%N k).
Proof. induction k; cbn [repeat]; constructor; auto. exists 0. split; [lia|reflexivity]. Qed.

Lemma parse_digits_zeros k : forall acc, parse_digits acc (repeat 48%N k) = Some (acc * 10 ^ Z.of_nat k).
Proof.
  induction k as [|k IH]; intros acc.
  - cbn. f_equal. lia.
  - cbn [repeat parse_digits]. change (digit_val 48%N) with (Some 0). cbv iota. rewrite IH. f_equal. rewrite pow_nat_S. ring.
Qed.

Lemma parse_digits_lead0 k l : parse_digits 0 (repeat 48%N k ++ l) = parse_digits 0 l.
Proof. rewrite parse_digits_app, parse_digits_zeros. reflexivity. Qed.

Lemma split_at_found c a : Forall (fun x => (x =? c)%N = false) a -> forall r, split_at c (a ++ c :: r) = (a, Some r).
Proof.
  induction 1 as [|x a Hx _ IH]; intros r; cbn [app split_at]; [now rewrite N.eqb_refl|]. now rewrite Hx, IH.
Qed.
Lemma split_at_none c a : Forall (fun x => (x =? c)%N = false) a -> split_at c a = (a, None).
Proof. induction 1 as [|x a Hx _ IH]; cbn [split_at]; [reflexivity|]. now rewrite Hx, IH. Qed.

Lemma split_dot_at s : split_dot s = split_at 46 s.
Proof. induction s as [|c r IH]; cbn [split_dot split_at]; [reflexivity|]. now rewrite IH. Qed.

(* apd setString on a sign, integer digits and an optional fraction part *)
Lemma parse_dec_parts (neg : bool) ip fo : all_digits ip -> ip <> [] ->
  let fp := match fo with Some f => f | None => [] end in
  parse_dec ((if neg then [45%N] else []) ++ ip ++ match fo with Some f => 46%N :: f | None => [] end) =
  option_map (fun c => mkdec neg c (- Z.of_nat (length fp))) (parse_uint (ip ++ fp)).
Proof.
  intros Hd Hn.
  assert (S : split_dot (ip ++ match fo with Some f => 46%N :: f | None => [] end) = (ip, fo)).
  { rewrite split_dot_at. destruct fo; [apply split_at_found|rewrite app_nil_r; apply split_at_none];
      apply all_digits_ne; (assumption || lia). }
  destruct ip as [|c r]; [contradiction|]. unfold parse_dec. destruct neg; cbn [app] in *.
  - rewrite N.eqb_refl, S. reflexivity.
  - rewrite !(all_digits_head c r) by (assumption || lia). rewrite S. reflexivity.
Qed.

Lemma pow10_pos k : 0 < 10 ^ k \/ k < 0.
Proof. destruct (Z_lt_le_dec k 0); [now right|left]. apply Z.pow_pos_nonneg; lia. Qed.

Lemma parse_fmt_f d : 0 <= dcoef d ->
  parse_dec (fmt_f d) = Some (if dexp d <? 0 then d else mkdec (dneg d) (dcoef d * 10 ^ dexp d) 0).
Proof.
  intros Hc. destruct d as [neg c e]. cbn [dneg dcoef dexp] in *. unfold fmt_f. cbn [dneg dcoef dexp].
  destruct (format_uint_spec c Hc) as (P1 & P2 & P3).
  set (digs := format_uint c) in *.
  destruct (e <? 0) eqn:Ee; [apply Z.ltb_lt in Ee; destruct (0 <=? - e - Z.of_nat (length digs)) eqn:El|apply Z.ltb_ge in Ee].
  - (* 0.00ddd *)
    apply Z.leb_le in El. set (k := Z.to_nat (- e - Z.of_nat (length digs))).
    change ([48%N; 46%N] ++ ?x) with ([48%N] ++ 46%N :: x).
    rewrite (parse_dec_parts neg [48%N] (Some (repeat 48%N k ++ digs)) (all_digits_repeat0 1)) by discriminate.
    change ([48%N] ++ repeat 48%N k ++ digs) with (repeat 48%N (S k) ++ digs).
    rewrite parse_uint_ne, parse_digits_lead0, P1 by discriminate. cbn [option_map].
    rewrite app_length, repeat_length. do 2 f_equal. lia.
  - (* dd.ddd *)
    apply Z.leb_gt in El. set (o := Z.to_nat (- (- e - Z.of_nat (length digs)))).
    assert (Ho : (1 <= o <= length digs)%nat) by lia.
    change ([46%N] ++ ?x) with (46%N :: x).
    rewrite (parse_dec_parts neg (firstn o digs) (Some (skipn o digs))).
    + rewrite firstn_skipn, parse_uint_ne, P1 by exact P2. cbn [option_map]. rewrite skipn_length. do 2 f_equal. lia.
    + now apply all_digits_firstn.
    + intros C. apply (f_equal (@length _)) in C. rewrite firstn_length in C. cbn [length] in C. lia.
  - (* ddd000 *)
    rewrite <- (app_nil_r (digs ++ _)).
    rewrite (parse_dec_parts neg (digs ++ repeat 48%N (Z.to_nat e)) None).
    + rewrite app_nil_r, parse_uint_ne, parse_digits_app, P1, parse_digits_zeros, Z2Nat.id; [reflexivity|lia|].
      intros C. now apply app_eq_nil in C.
    + apply Forall_app. split; [exact P3|apply all_digits_repeat0].
    + intros C. now apply app_eq_nil in C.
Qed.

(* b denotes the same number as a, with a non-negative coefficient and at most s fraction digits *)
Definition same (s : Z) (a b : dec) : Prop := 0 <= dcoef b /\ - s <= dexp b /\ scaled s b = scaled s a.

Lemma same_refl s a : 0 <= dcoef a -> - s <= dexp a -> same s a a.
Proof. unfold same. auto. Qed.
Lemma same_trans s a b c : same s a b -> same s b c -> same s a c.
Proof. unfold same. intros (? & ? & ?) (? & ? & ?). repeat split; auto; congruence. Qed.

(* re-scaling at the column scale and reading a printed decimal back both keep the number *)
Lemma rescale_same col s a d : same s a d -> same s a (dec_rescale col s d).
Proof.
  intros (Hc & He & Hv). unfold dec_rescale. destruct (col && negb (s =? dexp d)); [|now repeat split].
  unfold quantize. rewrite (proj2 (Z.leb_le (- s) _)) by exact He.
  unfold same. rewrite <- Hv. unfold scaled. cbn [dneg dcoef dexp]. split; [|split; [lia|]].
  - apply Z.mul_nonneg_nonneg; [lia|]. apply Z.pow_nonneg; lia.
  - replace (- s + s) with 0 by lia. rewrite Z.pow_0_r. ring.
Qed.

Lemma parsed_same s a d : 0 <= s -> same s a d ->
  same s a (if dexp d <? 0 then d else mkdec (dneg d) (dcoef d * 10 ^ dexp d) 0).
Proof.
  intros Hs (Hc & He & Hv). destruct (dexp d <? 0) eqn:E; [now repeat split|]. apply Z.ltb_ge in E.
  unfold same. rewrite <- Hv. unfold scaled. cbn [dneg dcoef dexp]. split; [|split; [lia|]].
  - apply Z.mul_nonneg_nonneg; [lia|]. apply Z.pow_nonneg; lia.
  - rewrite Z.add_0_l, Z.pow_add_r by lia. ring.
Qed.

Definition dec_storable (p s : Z) (d : dec) : Prop :=
  0 <= dcoef d /\ - s <= dexp d /\ Z.abs (scaled s d) < 10 ^ p.

Lemma same_eqv s a b : same s a b -> - s <= dexp a -> dec_eqv b a = true.
Proof.
  intros (Hc & He & Hs) Ha. unfold dec_eqv. set (m := Z.min (dexp b) (dexp a)). apply Z.eqb_eq.
  assert (Hm : - s <= m) by (unfold m; lia).
  assert (F : forall x, m <= dexp x -> scaled s x = scaled (- m) x * 10 ^ (m + s)).
  { intros x Hx. unfold scaled. replace (dexp x + s) with ((dexp x + - m) + (m + s)) by lia.
    rewrite Z.pow_add_r by lia. ring. }
  rewrite (F a), (F b) in Hs by (unfold m; lia).
  apply Z.mul_reg_r in Hs; [exact Hs|]. assert (0 < 10 ^ (m + s)) by (apply Z.pow_pos_nonneg; lia). lia.
Qed.

Theorem dec_text_roundtrip col p s d : 0 <= s -> dec_storable p s d ->
  exists d', dec_convert_text col p s (dec_sql_text col s d) = Some d' /\ same s d d' /\ dec_eqv d' d = true.
Proof.
  intros Hs (Hc & He & Hb). unfold dec_sql_text, dec_convert_text.
  pose proof (rescale_same col s d d (same_refl s d Hc He)) as S1. set (d1 := dec_rescale col s d) in *.
  rewrite parse_fmt_f by apply S1.
  pose proof (rescale_same col s d _ (parsed_same s d d1 Hs S1)) as S3. set (d3 := dec_rescale col s (if dexp d1 <? 0 then d1 else _)) in *.
  cbv zeta. rewrite (proj2 (Z.ltb_ge s _)) by (destruct S3 as (_ & E3 & _); lia).
  rewrite (proj2 (proj2 S3)), (proj2 (Z.ltb_lt _ _)) by exact Hb.
  exists d3. split; [reflexivity|]. split; [exact S3|]. now apply (same_eqv s).
Qed.

Lemma dec_rescale_at_scale col s d : dexp d = - s -> dec_rescale col s d = d.
Proof.
  intros He. unfold dec_rescale, quantize. destruct (col && negb (s =? dexp d)); [|reflexivity].
  rewrite (proj2 (Z.leb_le (- s) _)) by lia. replace (dexp d + s) with 0 by lia.
  rewrite Z.pow_0_r, Z.mul_1_r, <- He. now destruct d.
Qed.

Theorem dec_text_len col p s d :
  0 <= s <= p -> 1 <= p -> (s < p \/ dneg d = false) -> dexp d = - s -> 0 <= dcoef d < 10 ^ p ->
  Z.of_nat (length (dec_sql_text col s d)) <= dec_announced p s.
Proof.
  intros Hs Hp Hg He Hc. unfold dec_sql_text. rewrite dec_rescale_at_scale by exact He.
  unfold fmt_f. rewrite He.
  pose proof (format_uint_length (dcoef d) (Z.to_nat p) ltac:(lia) ltac:(lia) ltac:(rewrite Z2Nat.id by lia; lia)) as HL.
  set (digs := format_uint (dcoef d)) in *. unfold dec_announced.
  rewrite app_length.
  assert (Hsign : (length (if dneg d then [45%N] else []) <= 1)%nat) by (destruct (dneg d); cbn; lia).
  destruct (- s <? 0) eqn:E1.
  - apply Z.ltb_lt in E1. rewrite (proj2 (Z.eqb_neq s 0)) by lia.
    destruct (0 <=? - - s - Z.of_nat (length digs)) eqn:E2.
    + apply Z.leb_le in E2. rewrite !app_length, repeat_length. cbn [length].
      destruct Hg as [Hg|Hg]; [lia|]. rewrite Hg in *. cbn [length]. lia.
    + apply Z.leb_gt in E2. rewrite !app_length, firstn_length, skipn_length. cbn [length]. lia.
  - apply Z.ltb_ge in E1. assert (s = 0) by lia. subst s. cbn [Z.opp Z.to_nat repeat]. rewrite app_nil_r.
    cbn [Z.eqb]. lia.
Qed.

Lemma dec_text_len_refuted :
  exists d, dexp d = -2 /\ 0 <= dcoef d < 10 ^ 2 /\ dec_announced 2 2 < Z.of_nat (length (dec_sql_text true 2 d)).
Proof. exists (mkdec true 99 (-2)). vm_compute. repeat split; discriminate. Qed.

Theorem year_text_roundtrip y : 1901 <= y <= 2155 ->
  year_convert_text (year_sql_text y) = Some y /\ length (year_sql_text y) = 4%nat.
Proof.
  intros H. assert (L : length (year_sql_text y) = 4%nat).
  { unfold year_sql_text. rewrite format_int_nonneg, (format_uint_width 3) by (cbn; lia). apply padn_length. }
  split; [|exact L]. unfold year_convert_text. rewrite L. cbn [Nat.eqb orb]. unfold year_sql_text.
  rewrite parse_format_int. unfold year_of_int.
  rewrite (proj2 (Z.eqb_neq y 0)), (proj2 (Z.leb_gt y 69)), (proj2 (Z.leb_gt y 99)),
    (proj2 (Z.leb_le 1901 y)), (proj2 (Z.leb_le y 2155)) by lia.
  now rewrite !andb_false_r.
Qed.
Lemma year_zero_refuted : year_convert_text (year_sql_text 0) = Some 2000.
Proof. vm_compute. reflexivity. Qed.

Lemma be_decode_app a b : be_decode (a ++ [b]) = be_decode a * 256 + Z.of_N b.
Proof. unfold be_decode. rewrite fold_left_app. reflexivity. Qed.
Lemma be_bytes_spec k : forall v, 0 <= v -> be_decode (be_bytes k v) = v mod 256 ^ Z.of_nat k /\ length (be_bytes k v) = k.
Proof.
  induction k as [|k IH]; intros v Hv.
  - cbn. split; [now rewrite Z.mod_1_r|reflexivity].
  - cbn [be_bytes]. rewrite be_decode_app, app_length. destruct (IH (v / 256) ltac:(apply Z.div_pos; lia)) as [I1 I2].
    rewrite I1, I2. split; [|cbn; lia].
    pose proof (Z.mod_pos_bound v 256 ltac:(lia)). rewrite Z2N.id, pow_nat_S by lia.
    assert (P : 0 < 256 ^ Z.of_nat k) by (apply Z.pow_pos_nonneg; lia).
    rewrite Z.rem_mul_r by lia. lia.
Qed.
Theorem bit_text_roundtrip n v : 1 <= n <= 64 -> 0 <= v < 2 ^ n ->
  bit_convert_text n (bit_sql_text n v) = Some v /\ Z.of_nat (length (bit_sql_text n v)) <= n.
Proof.
  intros Hn Hv. unfold bit_convert_text, bit_sql_text.
  destruct (be_bytes_spec (bit_nbytes n) v ltac:(lia)) as [B1 B2]. rewrite B1, B2.
  assert (Hk : Z.of_nat (bit_nbytes n) = (n + 7) / 8) by (unfold bit_nbytes; rewrite Z2Nat.id; [reflexivity|apply Z.div_pos; lia]).
  assert (Hk8 : n <= 8 * ((n + 7) / 8) <= 8 * 8 /\ (n + 7) / 8 <= n) by (Z.div_mod_to_equations; lia).
  rewrite (proj2 (Nat.ltb_ge 8 _)) by lia.
  assert (Hpow : 2 ^ n <= 256 ^ Z.of_nat (bit_nbytes n)).
  { rewrite Hk. change 256 with (2 ^ 8). rewrite <- Z.pow_mul_r by lia. apply Z.pow_le_mono_r; lia. }
  rewrite Z.mod_small, (proj2 (Z.ltb_ge _ v)) by lia.
  split; [reflexivity|lia].
Qed.

Lemma beqb_eq a : forall b, beqb a b = true <-> a = b.
Proof.
  induction a as [|x a IH]; intros [|y b]; cbn [beqb]; split; intros H; try reflexivity; try discriminate.
  - apply andb_prop in H. destruct H as [H1 H2]. apply N.eqb_eq in H1. apply IH in H2. congruence.
  - injection H as -> ->. rewrite N.eqb_refl. apply IH. reflexivity.
Qed.

Lemma index_of_app n pre r : ~ In n pre -> forall i, index_of n (pre ++ n :: r) i = Some (i + Z.of_nat (length pre)).
Proof.
  induction pre as [|p pre IH]; intros Hn i; cbn [app index_of length].
  - rewrite (proj2 (beqb_eq n n)) by reflexivity. f_equal. lia.
  - destruct (beqb n p) eqn:E; [apply beqb_eq in E; exfalso; apply Hn; now left|].
    rewrite IH by (intros C; apply Hn; now right). f_equal. lia.
Qed.

Theorem enum_text_roundtrip names i : NoDup names -> 1 <= i <= Z.of_nat (length names) ->
  enum_convert_text names (enum_sql_text names i) = Some i.
Proof.
  intros Hd Hi. unfold enum_convert_text, enum_sql_text. rewrite (proj2 (Z.eqb_neq i 0)) by lia.
  destruct (nth_split names [] (n := Z.to_nat (i - 1)) ltac:(lia)) as (pre & r & E & L).
  set (x := nth _ names []) in *. rewrite E in Hd |- *. apply NoDup_remove_2 in Hd.
  rewrite index_of_app by (intros C; apply Hd, in_or_app; now left). f_equal. lia.
Qed.
Lemma enum_zero_refuted : exists names, NoDup names /\ enum_convert_text names (enum_sql_text names 0) = None.
Proof. exists [[97%N]]. split; [repeat constructor; intros []|reflexivity]. Qed.

(* a date whose year has four digits, as written by appendDateFormat; the readers are followed over this form *)
Definition date_fields (y m d : Z) : bytes := pad2 (y / 100) ++ pad2 (y mod 100) ++ 45%N :: pad2 m ++ 45%N :: pad2 d.

Lemma civil_text_fields y m d : y = 0 \/ 1000 <= y <= 9999 -> civil_text (y, m, d) = date_fields y m d.
Proof.
  intros Hy. unfold civil_text, date_fields. rewrite (app_assoc (pad2 (y / 100))). f_equal.
  unfold year_text. destruct Hy as [->|Hy]; [reflexivity|]. rewrite (proj2 (Z.eqb_neq y 0)) by lia.
  rewrite format_int_nonneg, (format_uint_width 3), !padn_pad2 by (cbn; lia).
  cbn [padn app]. now rewrite (Z.mod_small (y / 100)) by (Z.div_mod_to_equations; lia).
Qed.

Lemma d4_year y : 0 <= y <= 9999 ->
  d4 (digit_char (y / 100 / 10)) (digit_char (y / 100 mod 10)) (digit_char (y mod 100 / 10)) (digit_char (y mod 100 mod 10)) = Some y.
Proof. intros H. unfold d4. rewrite !d2_pad2 by (Z.div_mod_to_equations; lia). f_equal. Z.div_mod_to_equations; lia. Qed.

Lemma is_zero_text_false a b c e h1 m1 m2 h2 d1 d2 rest :
  (m1 =? 48)%N && (m2 =? 48)%N = false -> is_zero_text (a :: b :: c :: e :: h1 :: m1 :: m2 :: h2 :: d1 :: d2 :: rest) = false.
Proof.
  intros H. unfold is_zero_text. cbn [firstn beqb zero_date_text].
  destruct (m1 =? 48)%N; [destruct (m2 =? 48)%N; [discriminate|]|]; cbn [andb]; now rewrite !andb_false_r.
Qed.

Lemma month_not_00 m : 1 <= m <= 12 -> (digit_char (m / 10) =? 48)%N && (digit_char (m mod 10) =? 48)%N = false.
Proof.
  intros H. apply andb_false_iff. rewrite !N.eqb_neq. unfold digit_char. Z.div_mod_to_equations; lia.
Qed.

(* time.Parse on a date of that form, whatever follows it *)
Lemma parse_date_fields y m d rest : 0 <= y <= 9999 -> 1 <= m <= 12 -> 0 <= d <= 99 -> valid_date (y, m, d) = true ->
  parse_datetime_text (date_fields y m d ++ rest) =
  let base := days_from_civil (y, m, d) * us_per_day in
  match rest with [] => Some base | _ => option_map (Z.add base) (parse_clock rest) end.
Proof.
  intros Hy Hm Hd Hv. unfold parse_datetime_text, date_fields, pad2. cbn [app].
  rewrite is_zero_text_false by (apply month_not_00; lia).
  rewrite !N.eqb_refl, d4_year, !d2_pad2, Hv by lia. reflexivity.
Qed.

Lemma civil_fields z : exists y m d,
  civil_from_days z = (y, m, d) /\ days_from_civil (y, m, d) = z /\ valid_date (y, m, d) = true /\
  1 <= m <= 12 /\ 1 <= d <= 31.
Proof.
  destruct (days_civil_days z) as [R1 R2]. destruct (civil_from_days z) as [[y m] d]. exists y, m, d.
  do 3 (split; [auto|]). unfold valid_date in R2.
  repeat (apply andb_prop in R2; destruct R2 as [R2 ?]).
  repeat match goal with H : (_ <=? _) = true |- _ => apply Z.leb_le in H end.
  assert (days_in_month y m <= 31)
    by (unfold days_in_month; destruct (m =? 2); [destruct (is_leap y)|destruct (_ || _)]; lia).
  lia.
Qed.

Definition date_storable (x : Z) : Prop :=
  x mod us_per_day = 0 /\ x <> zero_time_us /\
  (let y := year_of_us x in y = 0 \/ 1000 <= y <= 9999).

Lemma date_shape x : date_storable x ->
  exists y m d, (y = 0 \/ 1000 <= y <= 9999) /\ 1 <= m <= 12 /\ 1 <= d <= 31 /\ valid_date (y, m, d) = true /\
    year_of_us x = y /\ x = days_from_civil (y, m, d) * us_per_day /\ date_sql_text x = Some (date_fields y m d).
Proof.
  intros (Hm & Hz & Hy).
  destruct (civil_fields (x / us_per_day)) as (y & m & d & Ec & R1 & R2 & Hmo & Hd).
  assert (Ey : year_of_us x = y) by (unfold year_of_us; now rewrite Ec).
  cbv zeta in Hy. rewrite Ey in Hy.
  assert (Hx : x / us_per_day * us_per_day = x) by (unfold us_per_day in *; Z.div_mod_to_equations; lia).
  exists y, m, d. do 5 (split; [assumption|]). split; [now rewrite R1|].
  unfold date_sql_text. cbv zeta. rewrite Hx, Ec, (proj2 (Z.eqb_neq x _)) by exact Hz.
  rewrite (proj2 (Z.ltb_ge y 0)), (proj2 (Z.ltb_ge 9999 y)) by lia. cbn [orb]. now rewrite civil_text_fields.
Qed.

Theorem date_text_roundtrip x : date_storable x ->
  exists t, date_sql_text x = Some t /\ date_convert_text t = Some x /\ length t = 10%nat.
Proof.
  intros H. destruct (date_shape x H) as (y & m & d & Hy & Hm & Hd & Hv & Ey & Ex & ->). destruct H as (_ & Hz & _).
  eexists. split; [reflexivity|]. split; [|reflexivity].
  unfold date_convert_text. rewrite <- (app_nil_r (date_fields y m d)). rewrite parse_date_fields by (assumption || lia).
  cbv zeta. rewrite <- Ex. rewrite (proj2 (Z.eqb_neq x _)) by exact Hz.
  replace (x / us_per_day * us_per_day) with x by now rewrite Ex, Z.div_mul.
  now rewrite Ey, (proj2 (Z.ltb_ge y 0)), (proj2 (Z.ltb_ge 9999 y)) by lia.
Qed.

Lemma date_zero_roundtrip :
  date_sql_text zero_time_us = Some zero_date_text /\ date_convert_text zero_date_text = Some zero_time_us.
Proof. split; vm_compute; reflexivity. Qed.

(* years 1..999 are written without leading zeros and are not read back *)
Lemma date_year_below_1000_refuted :
  exists x t, x mod us_per_day = 0 /\ year_of_us x = 999 /\ date_sql_text x = Some t /\ date_convert_text t = None.
Proof.
  exists (days_from_civil (999, 12, 31) * us_per_day). exists [57; 57; 57; 45; 49; 50; 45; 51; 49]%N.
  split; [vm_compute; reflexivity|]. split; [vm_compute; reflexivity|]. split; vm_compute; reflexivity.
Qed.
