(* A recursive-descent parser for the language printed by Codec/C32Json.v print_raw, and the round trip
   parse (print j) = Some (canon j); canon is idempotent and yields key-sorted objects. *)
From Coq Require Import List NArith ZArith Bool Arith Lia DecimalZ DecimalPos Decimal.
Import ListNotations.
From GMS Require Import Codec.Charset Codec.JsonQuote Codec.JsonQuoteProofs Codec.C32Json Codec.C32JsonProofs Codec.C32JsonCompare.
Open Scope N_scope.

Definition consb (pre : list N) (r : option (list N * list N)) : option (list N * list N) :=
  match r with Some (c, rest) => Some (pre ++ c, rest) | None => None end.

(* after the opening quote: content up to the closing quote, and what follows it *)
Fixpoint parse_sbody (s : list N) : option (list N * list N) :=
  match s with
  | [] => None
  | x :: t =>
      if x =? 34 then Some ([], t)
      else if x =? 92 then
        match t with
        | [] => None
        | c :: t' =>
            if c =? 117 then
              match t' with
              | a :: b :: c2 :: d :: rest =>
                  match decode4 a b c2 d with
                  | ROk bytes => consb bytes (parse_sbody rest)
                  | _ => None
                  end
              | _ => None
              end
            else consb [unesc c] (parse_sbody t')
        end
      else consb [x] (parse_sbody t)
  end.

Lemma consb_consb a b r : consb a (consb b r) = consb (a ++ b) r.
Proof. destruct r as [[c rest]|]; cbn; [now rewrite app_assoc|reflexivity]. Qed.

Lemma sbody_plain x t : x <> 34 -> x <> 92 -> parse_sbody (x :: t) = consb [x] (parse_sbody t).
Proof.
  intros H1 H2. cbn [parse_sbody]. apply N.eqb_neq in H1. apply N.eqb_neq in H2. now rewrite H1, H2.
Qed.

Lemma sbody_esc b t : parse_sbody (esc b ++ t) = consb [b] (parse_sbody t).
Proof.
  destruct (esc_cases b) as [(-> & H1 & H2)|[(c & -> & Hc & <-)|(Hb & ->)]]; [apply sbody_plain; assumption| |];
    cbn [Datatypes.app parse_sbody N.eqb Pos.eqb]; [apply N.eqb_neq in Hc; now rewrite Hc|now rewrite (decode4_control b Hb)].
Qed.

Lemma sbody_print s rest : parse_sbody (flat_map esc s ++ 34 :: rest) = Some (s, rest).
Proof.
  induction s as [|b s IH]; [reflexivity|]. cbn [flat_map]. rewrite <- app_assoc, sbody_esc, IH. reflexivity.
Qed.

Definition is_digit (c : N) : bool := (48 <=? c) && (c <=? 57).

Fixpoint take_digits (s : list N) : list N * list N :=
  match s with
  | c :: t => if is_digit c then let '(ds, r) := take_digits t in (c :: ds, r) else ([], s)
  | [] => ([], [])
  end.

Fixpoint uint_of_digits (ds : list N) : uint :=
  match ds with
  | [] => Nil
  | c :: t =>
      let u := uint_of_digits t in
      if c =? 48 then D0 u else if c =? 49 then D1 u else if c =? 50 then D2 u else if c =? 51 then D3 u
      else if c =? 52 then D4 u else if c =? 53 then D5 u else if c =? 54 then D6 u else if c =? 55 then D7 u
      else if c =? 56 then D8 u else D9 u
  end.

Definition parse_int (s : list N) : option (json * list N) :=
  match s with
  | 45 :: t => let '(ds, r) := take_digits t in Some (JInt (Z.of_int (Neg (uint_of_digits ds))), r)
  | _ => let '(ds, r) := take_digits s in Some (JInt (Z.of_int (Pos (uint_of_digits ds))), r)
  end.

Definition no_digit_head (rest : list N) : Prop := match rest with [] => True | c :: _ => is_digit c = false end.

Lemma take_digits_uint u rest : no_digit_head rest -> take_digits (uint_digits u ++ rest) = (uint_digits u, rest).
Proof.
  intros H. induction u; try (simpl; simpl in IHu; rewrite IHu; reflexivity).
  destruct rest as [|c t]; [reflexivity|]. cbn in *. now rewrite H.
Qed.

Lemma uint_of_digits_uint u : uint_of_digits (uint_digits u) = u.
Proof. induction u; cbn; try rewrite IHu; reflexivity. Qed.

Lemma uint_digits_head u : u <> Nil -> exists c t, uint_digits u = c :: t /\ is_digit c = true.
Proof. destruct u; intros H; try congruence; cbn; eexists; eexists; split; reflexivity. Qed.

Lemma pint_head z : exists c t, pint z = c :: t /\ (is_digit c = true \/ c = 45).
Proof.
  unfold pint. destruct z as [|p|p]; cbn [Z.to_int].
  - exists 48, []. split; [reflexivity|left; reflexivity].
  - destruct (uint_digits_head (Pos.to_uint p) (Unsigned.to_uint_nonnil p)) as (c & t & E & D).
    exists c, t. split; [exact E|left; exact D].
  - exists 45, (uint_digits (Pos.to_uint p)). split; [reflexivity|right; reflexivity].
Qed.

Lemma parse_int_unsigned c t : c <> 45 ->
  parse_int (c :: t) = let '(ds, r) := take_digits (c :: t) in Some (JInt (Z.of_int (Pos (uint_of_digits ds))), r).
Proof.
  intros Hc. unfold parse_int. destruct c as [|p]; [reflexivity|]. do 6 (destruct p as [p|p|]; try reflexivity). congruence.
Qed.

Lemma parse_int_digits u rest : u <> Nil -> no_digit_head rest ->
  parse_int (uint_digits u ++ rest) = Some (JInt (Z.of_int (Pos u)), rest).
Proof.
  intros Hu H. destruct (uint_digits_head u Hu) as (c & t & Ec & Dc). rewrite Ec. cbn [Datatypes.app].
  rewrite parse_int_unsigned by (intros ->; discriminate Dc). change (c :: t ++ rest) with ((c :: t) ++ rest).
  now rewrite <- Ec, take_digits_uint, uint_of_digits_uint.
Qed.

Lemma parse_int_print z rest : no_digit_head rest -> parse_int (pint z ++ rest) = Some (JInt z, rest).
Proof.
  intros H. rewrite <- (of_to z) at 2. unfold pint. destruct z as [|p|p]; cbn [Z.to_int].
  - apply (parse_int_digits (D0 Nil)); [discriminate|exact H].
  - apply parse_int_digits; [apply Unsigned.to_uint_nonnil|exact H].
  - cbn [Datatypes.app]. unfold parse_int. now rewrite take_digits_uint, uint_of_digits_uint.
Qed.

Fixpoint strip_prefix (p s : list N) : option (list N) :=
  match p, s with
  | [], _ => Some s
  | x :: p', y :: s' => if x =? y then strip_prefix p' s' else None
  | _ :: _, [] => None
  end.

Lemma strip_prefix_app p r : strip_prefix p (p ++ r) = Some r.
Proof. induction p as [|x p IH]; cbn; [reflexivity|]. now rewrite N.eqb_refl. Qed.

Fixpoint parse_val (fuel : nat) (s : list N) : option (json * list N) :=
  match fuel with
  | O => None
  | S f =>
      match s with
      | [] => None
      | c :: r =>
          if c =? 110 then match strip_prefix [117; 108; 108] r with Some r' => Some (JNull, r') | None => None end
          else if c =? 116 then match strip_prefix [114; 117; 101] r with Some r' => Some (JBool true, r') | None => None end
          else if c =? 102 then match strip_prefix [97; 108; 115; 101] r with Some r' => Some (JBool false, r') | None => None end
          else if c =? 34 then match parse_sbody r with Some (x, r') => Some (JStr x, r') | None => None end
          else if c =? 91 then
            match r with
            | 93 :: r' => Some (JArr [], r')
            | _ => match parse_elems f r with Some (l, r') => Some (JArr l, r') | None => None end
            end
          else if c =? 123 then
            match r with
            | 125 :: r' => Some (JObj [], r')
            | _ => match parse_members f r with Some (m, r') => Some (JObj m, r') | None => None end
            end
          else parse_int s
      end
  end
with parse_elems (fuel : nat) (s : list N) : option (list json * list N) :=
  match fuel with
  | O => None
  | S f =>
      match parse_val f s with
      | Some (v, 44 :: 32 :: r) => match parse_elems f r with Some (l, r') => Some (v :: l, r') | None => None end
      | Some (v, 93 :: r) => Some ([v], r)
      | _ => None
      end
  end
with parse_members (fuel : nat) (s : list N) : option (list (list N * json) * list N) :=
  match fuel with
  | O => None
  | S f =>
      match s with
      | 34 :: r =>
          match parse_sbody r with
          | Some (k, 58 :: 32 :: r1) =>
              match parse_val f r1 with
              | Some (v, 44 :: 32 :: r2) =>
                  match parse_members f r2 with Some (m, r') => Some ((k, v) :: m, r') | None => None end
              | Some (v, 125 :: r2) => Some ([(k, v)], r2)
              | _ => None
              end
          | _ => None
          end
      | _ => None
      end
  end.

Definition parse_raw (s : list N) : option json :=
  match parse_val (S (length s)) s with Some (j, []) => Some j | _ => None end.
Definition parse (s : list N) : option json := option_map canon (parse_raw s).

Lemma pstr_unfold s : pstr s = 34 :: (flat_map esc s ++ [34]).
Proof. reflexivity. Qed.

Lemma join_cons2 sep (x y : list N) l : join sep (x :: y :: l) = x ++ sep ++ join sep (y :: l).
Proof. reflexivity. Qed.

Lemma join_head sep (x : list N) l s c t : x = c :: t -> exists t', join sep (x :: l) ++ s = c :: t'.
Proof. intros ->. destruct l; cbn; eexists; reflexivity. Qed.

Lemma digit_neq c k : is_digit c = true -> is_digit k = false -> (c =? k) = false.
Proof. intros Hc Hk. destruct (c =? k) eqn:E; [|reflexivity]. apply N.eqb_eq in E. congruence. Qed.

Lemma parse_val_int f c t : is_digit c = true \/ c = 45 -> parse_val (S f) (c :: t) = parse_int (c :: t).
Proof.
  intros [Hd| ->]; [|reflexivity]. cbn [parse_val]. now rewrite !(digit_neq c) by (assumption || reflexivity).
Qed.

Lemma parse_val_arr f c t : c <> 93 ->
  parse_val (S f) (91 :: c :: t) = match parse_elems f (c :: t) with Some (l, r') => Some (JArr l, r') | None => None end.
Proof.
  intros Hc. cbn [parse_val N.eqb Pos.eqb]. destruct c as [|p]; [reflexivity|].
  do 7 (destruct p as [p|p|]; try reflexivity). congruence.
Qed.

Lemma parse_val_obj f t :
  parse_val (S f) (123 :: 34 :: t) = match parse_members f (34 :: t) with Some (m, r') => Some (JObj m, r') | None => None end.
Proof. reflexivity. Qed.

Lemma parse_elems_S f s : parse_elems (S f) s =
  match parse_val f s with
  | Some (v, 44 :: 32 :: r) => match parse_elems f r with Some (l, r') => Some (v :: l, r') | None => None end
  | Some (v, 93 :: r) => Some ([v], r)
  | _ => None
  end.
Proof. reflexivity. Qed.

Lemma parse_members_S f r : parse_members (S f) (34 :: r) =
  match parse_sbody r with
  | Some (k, 58 :: 32 :: r1) =>
      match parse_val f r1 with
      | Some (v, 44 :: 32 :: r2) =>
          match parse_members f r2 with Some (m, r') => Some ((k, v) :: m, r') | None => None end
      | Some (v, 125 :: r2) => Some ([(k, v)], r2)
      | _ => None
      end
  | _ => None
  end.
Proof. reflexivity. Qed.

Lemma print_raw_head j : exists c t, print_raw j = c :: t /\ c <> 93.
Proof.
  destruct j as [|[|]|z|s|l|m]; cbn [print_raw]; try (eexists; eexists; split; [reflexivity|discriminate]).
  destruct (pint_head z) as (c & t & Ec & Hc). exists c, t. split; [exact Ec|].
  destruct Hc as [Hd| ->]; [intros ->; discriminate Hd|discriminate].
Qed.

(* the length of the printed text is fuel enough *)
Definition reads_back (j : json) : Prop := forall rest fuel, no_digit_head rest -> (length (print_raw j) <= fuel)%nat ->
  parse_val (S fuel) (print_raw j ++ rest) = Some (j, rest).

Definition member_text (kv : list N * json) : list N := pstr (fst kv) ++ [58; 32] ++ print_raw (snd kv).

Lemma elems_print rest : forall l x f, Forall reads_back (x :: l) ->
  (length (join [44; 32]%N (map print_raw (x :: l))) + 2 <= f)%nat ->
  parse_elems f (join [44; 32] (map print_raw (x :: l)) ++ 93 :: rest) = Some (x :: l, rest).
Proof.
  induction l as [|y l IH]; intros x f HF Hf; inversion HF as [|? ? Hx HF']; subst; cbn [map] in *.
  - cbn [join] in *. destruct f as [|[|f]]; try lia. rewrite parse_elems_S, Hx; [reflexivity|reflexivity|lia].
  - rewrite join_cons2, !app_length in Hf. rewrite join_cons2, <- !app_assoc. cbn [Datatypes.app]. destruct f as [|[|f]]; try lia.
    rewrite parse_elems_S, Hx; [|reflexivity|lia]. cbv beta iota.
    rewrite (IH y (S f) HF'); [reflexivity|]. cbn [length] in Hf. lia.
Qed.

Lemma members_print rest : forall m k x f, Forall (fun kv => reads_back (snd kv)) ((k, x) :: m) ->
  (length (join [44; 32]%N (map member_text ((k, x) :: m))) + 2 <= f)%nat ->
  parse_members f (join [44; 32] (map member_text ((k, x) :: m)) ++ 125 :: rest) = Some ((k, x) :: m, rest).
Proof.
  induction m as [|[k' y] m IH]; intros k x f HF Hf; inversion HF as [|? ? Hx HF']; subst;
    cbn [map snd] in *; unfold member_text at 1 in Hf; unfold member_text at 1; cbn [fst snd] in *; rewrite pstr_unfold.
  - cbn [join] in *. rewrite !app_length in Hf. destruct f as [|[|f]]; try lia.
    cbn [Datatypes.app]. rewrite <- !app_assoc. cbn [Datatypes.app]. rewrite parse_members_S, sbody_print. cbv beta iota.
    rewrite Hx; [reflexivity|reflexivity|cbn [length] in Hf; lia].
  - rewrite join_cons2, !app_length in Hf. rewrite join_cons2. destruct f as [|[|f]]; try lia.
    cbn [Datatypes.app]. rewrite <- !app_assoc. cbn [Datatypes.app]. rewrite parse_members_S, sbody_print. cbv beta iota.
    rewrite Hx; [|reflexivity|cbn [length] in Hf; lia]. cbv beta iota.
    rewrite (IH k' y (S f) HF'); [reflexivity|]. cbn [length] in Hf. lia.
Qed.

Theorem parse_val_print : forall j, reads_back j.
Proof.
  induction j using json_ind2; intros rest fuel Hrest Hfuel.
  - reflexivity.
  - destruct b; reflexivity.
  - destruct (pint_head z) as (c & t & Ec & Hc). rewrite <- (parse_int_print z rest Hrest). cbn [print_raw].
    rewrite Ec. apply parse_val_int, Hc.
  - cbn [print_raw]. rewrite pstr_unfold. cbn [Datatypes.app parse_val N.eqb Pos.eqb].
    rewrite <- app_assoc. cbn [Datatypes.app]. now rewrite sbody_print.
  - destruct l as [|x l]; [reflexivity|]. cbn [print_raw Datatypes.app length] in *. rewrite app_length in Hfuel.
    rewrite <- app_assoc. cbn [Datatypes.app].
    pose proof (elems_print rest l x fuel H ltac:(cbn [length] in Hfuel; lia)) as E.
    destruct (print_raw_head x) as (c & t & Ec & Hc).
    destruct (join_head [44; 32] _ (map print_raw l) (93 :: rest) c t Ec) as (t' & Ej).
    cbn [map] in *. rewrite Ej in *. now rewrite (parse_val_arr fuel c t' Hc), E.
  - destruct m as [|[k x] m]; [reflexivity|].
    change (print_raw (JObj ((k, x) :: m))) with (123 :: join [44; 32] (map member_text ((k, x) :: m)) ++ [125]) in *.
    cbn [Datatypes.app length] in *. rewrite app_length in Hfuel. rewrite <- app_assoc. cbn [Datatypes.app].
    pose proof (members_print rest m k x fuel H ltac:(cbn [length] in Hfuel; lia)) as E.
    destruct (join_head [44; 32] (member_text (k, x)) (map member_text m) (125 :: rest) 34 _ eq_refl) as (t' & Ej).
    cbn [map] in *. rewrite Ej in *. now rewrite parse_val_obj, E.
Qed.

Theorem parse_raw_print_raw j : parse_raw (print_raw j) = Some j.
Proof.
  unfold parse_raw. pose proof (parse_val_print j [] (length (print_raw j)) I (le_n _)) as H.
  rewrite app_nil_r in H. now rewrite H.
Qed.

Fixpoint ssorted (ord : list N -> list N -> comparison) (m : list (list N * json)) : Prop :=
  match m with
  | kv1 :: ((kv2 :: _) as t) => ord (fst kv1) (fst kv2) = Lt /\ ssorted ord t
  | _ => True
  end.

Inductive canonical : json -> Prop :=
| cn_null : canonical JNull
| cn_bool b : canonical (JBool b)
| cn_int z : canonical (JInt z)
| cn_str s : canonical (JStr s)
| cn_arr l : Forall canonical l -> canonical (JArr l)
| cn_obj m : ssorted key_cmp m -> Forall (fun kv => canonical (snd kv)) m -> canonical (JObj m).

Lemma key_cmp_opp a b : key_cmp b a = CompOpp (key_cmp a b).
Proof.
  unfold key_cmp. rewrite (Nat.compare_antisym (length a) (length b)).
  destruct (Nat.compare (length a) (length b)); cbn; try reflexivity. apply bytes_cmp_opp.
Qed.

Lemma key_cmp_eq a b : key_cmp a b = Eq -> a = b.
Proof. unfold key_cmp. destruct (Nat.compare (length a) (length b)); try discriminate. apply bytes_cmp_eq. Qed.

Section Sorting.
  Variable ord : list N -> list N -> comparison.
  Hypothesis ord_opp : forall a b, ord b a = CompOpp (ord a b).
  Hypothesis ord_eq : forall a b, ord a b = Eq -> a = b.

  (* the first key after an insertion is the inserted one, or the old first key, which is then below the inserted one *)
  Lemma insert_head k v m :
    match kv_insert ord k v m with
    | kv :: _ => fst kv = k \/ (exists kv' m', m = kv' :: m' /\ fst kv = fst kv' /\ ord (fst kv') k = Lt)
    | [] => False
    end.
  Proof.
    destruct m as [|[k' v'] m']; [left; reflexivity|]. cbn [kv_insert].
    destruct (ord k k') eqn:E; cbn [fst]; try (left; reflexivity).
    right. exists (k', v'), m'. repeat split. cbn [fst]. rewrite ord_opp, E. reflexivity.
  Qed.

  Lemma insert_sorted k v : forall m, ssorted ord m -> ssorted ord (kv_insert ord k v m).
  Proof.
    induction m as [|[k' v'] m IH]; intros Hs; [exact I|]. cbn [kv_insert].
    destruct (ord k k') eqn:E.
    - apply ord_eq in E. subst k'. destruct m as [|kv2 m']; [exact I|]. exact Hs.
    - cbn [ssorted fst]. split; [exact E|exact Hs].
    - assert (Hs' : ssorted ord m) by (destruct m as [|kv2 m']; [exact I|apply Hs]).
      specialize (IH Hs'). pose proof (insert_head k v m) as Hh.
      destruct (kv_insert ord k v m) as [|kv t] eqn:Ei; [contradiction|].
      cbn [ssorted fst]. split; [|exact IH].
      destruct Hh as [->|(kv' & m' & -> & -> & _)]; [rewrite ord_opp, E; reflexivity|apply Hs].
  Qed.

  Lemma sort_sorted m : ssorted ord (kv_sort ord m).
  Proof. induction m as [|[k v] m IH]; [exact I|]. cbn. apply insert_sorted. exact IH. Qed.

  Lemma sort_of_sorted : forall m, ssorted ord m -> kv_sort ord m = m.
  Proof.
    induction m as [|[k v] m IH]; intros Hs; [reflexivity|]. cbn [kv_sort fold_right fst snd].
    fold (kv_sort ord m). destruct m as [|[k2 v2] m'].
    - reflexivity.
    - destruct Hs as [Hlt Hs]. rewrite (IH Hs). cbn [kv_insert]. cbn [fst] in Hlt. rewrite Hlt. reflexivity.
  Qed.

  Lemma insert_Forall (P : list N * json -> Prop) k v : P (k, v) -> forall m, Forall P m -> Forall P (kv_insert ord k v m).
  Proof.
    intros Hk. induction m as [|[k' v'] m IH]; intros HF; cbn; [constructor; auto|].
    inversion HF as [|? ? H1 H2]; subst. destruct (ord k k'); constructor; auto.
  Qed.

  Lemma sort_Forall (P : list N * json -> Prop) m : Forall P m -> Forall P (kv_sort ord m).
  Proof.
    induction 1 as [|[k v] m H1 H2 IH]; [constructor|]. cbn. apply insert_Forall; assumption.
  Qed.
End Sorting.

Theorem canon_canonical : forall j, canonical (canon j).
Proof.
  induction j using json_ind2; [constructor|constructor|constructor|constructor| |].
  - cbn [canon]. constructor. rewrite Forall_map. exact H.
  - cbn [canon]. constructor.
    + apply sort_sorted; [apply key_cmp_opp|apply key_cmp_eq].
    + apply sort_Forall. rewrite Forall_map. exact H.
Qed.

Theorem canonical_fixed : forall j, canonical j -> canon j = j.
Proof.
  induction j using json_ind2; intros Hc; try reflexivity.
  - inversion Hc as [| | | |l0 HF|]; subst. cbn [canon]. f_equal.
    rewrite <- (map_id l) at 2. apply map_ext_Forall.
    rewrite Forall_forall in *. intros x Hx. apply H; [exact Hx|apply HF; exact Hx].
  - inversion Hc as [| | | | |m0 Hs HF]; subst. cbn [canon]. f_equal.
    assert (E : map (fun kv => (fst kv, canon (snd kv))) m = m).
    { rewrite <- (map_id m) at 2. apply map_ext_Forall.
      rewrite Forall_forall in *. intros [k v] Hx. cbn [fst snd]. f_equal. apply (H (k, v) Hx). apply (HF (k, v) Hx). }
    rewrite E. apply sort_of_sorted. exact Hs.
Qed.

Theorem canon_idempotent j : canon (canon j) = canon j.
Proof. apply canonical_fixed. apply canon_canonical. Qed.

Theorem parse_print j : parse (print j) = Some (canon j).
Proof. unfold parse, print. rewrite parse_raw_print_raw. cbn. now rewrite canon_idempotent. Qed.

Lemma parse_print_example :
  print (JObj [([98; 98], JInt (-12)%Z); ([97], JArr [JStr [34; 233]; JNull; JBool true]); ([98; 97], JObj [])]) =
    [123; 34;97;34; 58;32; 91; 34;92;34;233;34; 44;32; 110;117;108;108; 44;32; 116;114;117;101; 93; 44;32;
     34;98;97;34; 58;32; 123;125; 44;32; 34;98;98;34; 58;32; 45;49;50; 125] /\
  parse [123; 34;98;34; 58;32; 49; 44;32; 34;97;34; 58;32; 91;93; 125] = Some (JObj [([97], JArr []); ([98], JInt 1)]).
Proof. split; vm_compute; reflexivity. Qed.
