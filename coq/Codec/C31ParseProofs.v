(* C31 -- STR_TO_DATE (DATE_FORMAT d fmt) fmt = d for complete, separated formats (part 1: lexical lemmas). *)
From Coq Require Import List NArith ZArith Bool Lia Arith.
Import ListNotations.
From GMS Require Import Codec.C31Format Codec.C31FormatProofs Codec.C31Parse.
Open Scope Z_scope.

Lemma digit_char c : 0 <= dval c < 10 -> is_digit c = true /\ is_sp c = false /\ is_ws c = false.
Proof.
  unfold dval, is_digit, is_sp, is_ws. intros H.
  rewrite (proj2 (N.leb_le 48 c)), (proj2 (N.leb_le c 57)), (proj2 (N.leb_gt c 13)), (proj2 (N.eqb_neq c 32)) by lia.
  rewrite andb_false_r. auto.
Qed.

Definition no_digit_head (s : list N) : Prop := match s with [] => True | c :: _ => is_digit c = false end.

Lemma span_exact ds : digit_string ds -> forall rest, span_digits (length ds) (ds ++ rest) = (ds, rest).
Proof.
  induction 1 as [|c ds Hc _ IH]; intros rest.
  - cbn. destruct rest; reflexivity.
  - cbn [length app span_digits]. rewrite (proj1 (digit_char c Hc)), IH. reflexivity.
Qed.

Lemma span_greedy ds : digit_string ds -> forall rest fuel,
  no_digit_head rest -> (length ds + length rest <= fuel)%nat -> span_digits fuel (ds ++ rest) = (ds, rest).
Proof.
  induction 1 as [|c ds Hc _ IH]; intros rest fuel Hr Hf.
  - cbn [app]. destruct fuel; [destruct rest; reflexivity|]. destruct rest as [|x r]; [reflexivity|].
    cbn [span_digits]. cbn in Hr. rewrite Hr. reflexivity.
  - destruct fuel; [cbn in Hf; lia|]. cbn [app span_digits]. rewrite (proj1 (digit_char c Hc)).
    rewrite IH; [reflexivity|exact Hr|cbn in Hf; lia].
Qed.

Lemma parse_uint_ok ds v : ds <> [] -> num_of ds = v -> 0 <= v < 2 ^ 32 -> parse_uint ds = Some v.
Proof.
  intros Hne Hv Hb. unfold parse_uint. destruct ds; [congruence|]. rewrite Hv.
  replace (v <? 2 ^ 32) with true by (symmetry; apply Z.ltb_lt; lia). reflexivity.
Qed.

Lemma take_at_most_ok k s v rest : rendered s v -> length s = k -> 0 <= v < 2 ^ 32 ->
  take_number_at_most k (s ++ rest) = Some (v, rest).
Proof.
  intros [Hd Hn Hv] <- Hb. unfold take_number_at_most. rewrite (span_exact s Hd), (parse_uint_ok s v Hn Hv Hb). reflexivity.
Qed.

Lemma take_number_ok s v rest : rendered s v -> 0 <= v < 2 ^ 32 -> no_digit_head rest ->
  take_number (s ++ rest) = Some (v, rest).
Proof.
  intros [Hd Hn Hv] Hb Hr. unfold take_number. rewrite (span_greedy s Hd rest _ Hr) by (rewrite app_length; lia).
  rewrite (parse_uint_ok s v Hn Hv Hb). reflexivity.
Qed.

Lemma ltrim_idem s : ltrim (ltrim s) = ltrim s.
Proof. induction s as [|c r IH]; [reflexivity|]. cbn [ltrim]. destruct (is_sp c) eqn:E; [exact IH|]. cbn [ltrim]. now rewrite E. Qed.
Lemma ltrim_nonspace c r : is_sp c = false -> ltrim (c :: r) = c :: r.
Proof. intros H. cbn [ltrim]. now rewrite H. Qed.
Lemma ltrim_space r : ltrim (32%N :: r) = ltrim r.
Proof. reflexivity. Qed.

Lemma lit_ok c rest : (c =? 32)%N = false -> lit c (c :: rest) = Some rest.
Proof.
  intros H. unfold lit. cbn [andb]. assert (Hs : is_sp c = false) by exact H.
  rewrite (ltrim_nonspace c rest Hs). rewrite H. now rewrite N.eqb_refl.
Qed.
Lemma lit_space chars : lit 32 chars = Some (ltrim chars).
Proof. unfold lit. change (32 =? 32)%N with true. cbn [negb]. rewrite andb_false_r. reflexivity. Qed.
