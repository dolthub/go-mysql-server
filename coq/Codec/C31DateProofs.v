(* C31 -- proofs: the civil calendar round trip over all of Z (one era of 400 years, then periodicity),
   interval arithmetic inverses, DATEDIFF / TIMESTAMPDIFF. *)
From Coq Require Import List NArith ZArith Bool Lia.
Import ListNotations.
From GMS Require Import Codec.C31Date.
Open Scope Z_scope.

Fixpoint upto (n : nat) (start : Z) : list Z :=
  match n with O => [] | S k => start :: upto k (start + 1) end.
Definition range (n : Z) : list Z := upto (Z.to_nat n) 0.
Lemma in_upto n : forall s z, s <= z < s + Z.of_nat n -> In z (upto n s).
Proof.
  induction n as [|n IH]; intros s z H; [lia|]. cbn [upto].
  destruct (Z.eq_dec s z) as [->|Hn]; [now left|]. right. apply IH. lia.
Qed.
Lemma in_range z n : 0 <= z < n -> In z (range n).
Proof. intros H. unfold range. apply in_upto. rewrite Z2Nat.id by lia. lia. Qed.

Lemma is_leap_iff y : is_leap y = true <-> y mod 4 = 0 /\ (y mod 100 <> 0 \/ y mod 400 = 0).
Proof.
  unfold is_leap. rewrite orb_true_iff, andb_true_iff, negb_true_iff, !Z.eqb_eq, Z.eqb_neq.
  Z.div_mod_to_equations. lia.
Qed.

Lemma valid_date_iff y m d : valid_date (y, m, d) = true <-> 1 <= m <= 12 /\ 1 <= d <= days_in_month y m.
Proof. unfold valid_date. rewrite !andb_true_iff, !Z.leb_le. lia. Qed.

Lemma days_in_month_le_31 y m : days_in_month y m <= 31.
Proof. unfold days_in_month. repeat destruct (_ =? _); try destruct (is_leap y); cbn; lia. Qed.

(* An era is 400 years that begin on March 1st, so that the leap day comes last.  A day of the era is a number
   with two digits in a mixed radix: the year [yoe], which begins on day [year_start yoe], and the day of that
   year, which [month_start] splits into a month [mp] (0 = March) and a day in the same way.  For either digit
   the calendar has a closed formula, and each formula is characterised by start <= x < start of the next. *)
Definition year_start (yoe : Z) : Z := 365 * yoe + yoe / 4 - yoe / 100.
Definition year_len (yoe : Z) : Z := if is_leap (yoe + 1) then 366 else 365.
Definition yoe_of_doe (doe : Z) : Z := (doe - doe / 1460 + doe / 36524 - doe / 146096) / 365.
Definition month_start (mp : Z) : Z := (153 * mp + 2) / 5.
Definition month_of (mp : Z) : Z := if mp <? 10 then mp + 3 else mp - 9.
Definition mp_of (m : Z) : Z := if 2 <? m then m - 3 else m + 9.
Definition month_len (yoe mp : Z) : Z :=
  let m := month_of mp in days_in_month (yoe + (if m <=? 2 then 1 else 0)) m.

Lemma civil_of_doe_eq doe :
  civil_of_doe doe =
  let yoe := yoe_of_doe doe in let doy := doe - year_start yoe in let mp := (5 * doy + 2) / 153 in
  (yoe, month_of mp, doy - month_start mp + 1).
Proof.
  (* unfolded by hand: left to find the unfoldings itself, the conversion check takes a long detour *)
  unfold civil_of_doe, yoe_of_doe, year_start, month_start, month_of. reflexivity.
Qed.

Lemma doe_of_eq yoe m d : doe_of yoe m d = year_start yoe + (month_start (mp_of m) + d - 1).
Proof. unfold doe_of, year_start, month_start, mp_of. lia. Qed.

Lemma year_len_cases yoe :
  let leap := (yoe + 1) mod 4 = 0 /\ ((yoe + 1) mod 100 <> 0 \/ (yoe + 1) mod 400 = 0) in
  year_len yoe = 366 /\ leap \/ year_len yoe = 365 /\ ~ leap.
Proof.
  cbv zeta. rewrite <- is_leap_iff. unfold year_len. destruct (is_leap (yoe + 1)); [left|right]; easy.
Qed.

(* the year digit: both directions are linear arithmetic over the floor divisions *)
Lemma yoe_of_doe_spec doe : 0 <= doe < 146097 ->
  0 <= yoe_of_doe doe < 400 /\ 0 <= doe - year_start (yoe_of_doe doe) < year_len (yoe_of_doe doe).
Proof.
  intros H. pose proof (year_len_cases (yoe_of_doe doe)) as L. revert L.
  generalize (year_len (yoe_of_doe doe)). unfold yoe_of_doe, year_start. intros l L.
  Z.div_mod_to_equations. lia.
Qed.

(* the years tile the era: each begins where the one before ends, and the last ends with the era *)
Lemma year_start_next yoe : 0 <= yoe < 399 -> year_start (yoe + 1) = year_start yoe + year_len yoe.
Proof.
  intros H. pose proof (year_len_cases yoe) as L. revert L. generalize (year_len yoe). unfold year_start. intros l L.
  Z.div_mod_to_equations. lia.
Qed.

Lemma year_start_mono a b : a <= b -> year_start a <= year_start b.
Proof. intros H. unfold year_start. Z.div_mod_to_equations. lia. Qed.

Lemma year_in_era yoe : 0 <= yoe < 400 -> 0 <= year_start yoe /\ year_start yoe + year_len yoe <= 146097.
Proof.
  intros H. split; [exact (year_start_mono 0 yoe ltac:(lia))|].
  destruct (Z.eq_dec yoe 399) as [->|N]; [reflexivity|]. rewrite <- year_start_next by lia.
  pose proof (year_start_mono (yoe + 1) 399 ltac:(lia)) as M. change (year_start 399) with 145731 in M. lia.
Qed.

(* so a day lies in one year only, the one [yoe_of_doe] finds *)
Lemma yoe_of_doe_unique yoe doy : 0 <= yoe < 400 -> 0 <= doy < year_len yoe ->
  0 <= year_start yoe + doy < 146097 /\ yoe_of_doe (year_start yoe + doy) = yoe.
Proof.
  intros Hy Hd. pose proof (year_in_era yoe Hy) as He. set (doe := year_start yoe + doy) in *.
  assert (Hr : 0 <= doe < 146097) by lia. split; [exact Hr|].
  destruct (yoe_of_doe_spec doe Hr) as [Hy' Hd']. set (y' := yoe_of_doe doe) in *.
  destruct (Z.lt_trichotomy y' yoe) as [L|[E|L]]; [exfalso|exact E|exfalso].
  - pose proof (year_start_next y' ltac:(lia)). pose proof (year_start_mono (y' + 1) yoe ltac:(lia)). lia.
  - pose proof (year_start_next yoe ltac:(lia)). pose proof (year_start_mono (yoe + 1) y' ltac:(lia)). lia.
Qed.

Lemma month_of_doy doy : 0 <= doy <= 365 ->
  let mp := (5 * doy + 2) / 153 in 0 <= mp <= 11 /\ month_start mp <= doy /\ (mp < 11 -> doy < month_start (mp + 1)).
Proof. intros H. unfold month_start. Z.div_mod_to_equations. lia. Qed.

Lemma month_of_doy_unique mp doy :
  0 <= mp <= 11 -> month_start mp <= doy <= 365 -> (mp < 11 -> doy < month_start (mp + 1)) -> (5 * doy + 2) / 153 = mp.
Proof. intros H. unfold month_start. Z.div_mod_to_equations. lia. Qed.

Lemma month_of_bounds mp : 0 <= mp <= 11 -> 1 <= month_of mp <= 12 /\ mp_of (month_of mp) = mp.
Proof. intros H. unfold month_of, mp_of. destruct (Z.ltb_spec mp 10); match goal with |- context [2 <? ?x] => destruct (Z.ltb_spec 2 x) end; lia. Qed.

Lemma mp_of_bounds m : 1 <= m <= 12 -> 0 <= mp_of m <= 11 /\ month_of (mp_of m) = m.
Proof. intros H. unfold month_of, mp_of. destruct (Z.ltb_spec 2 m); match goal with |- context [?x <? 10] => destruct (Z.ltb_spec x 10) end; lia. Qed.

(* the months of a March-based year tile it: twelve cases, February taking what is left of the year *)
Lemma month_start_next yoe mp : 0 <= mp <= 11 ->
  month_start mp + month_len yoe mp = if mp =? 11 then year_len yoe else month_start (mp + 1).
Proof.
  intros H.
  assert (C : mp = 0 \/ mp = 1 \/ mp = 2 \/ mp = 3 \/ mp = 4 \/ mp = 5 \/ mp = 6 \/ mp = 7 \/ mp = 8 \/ mp = 9 \/
              mp = 10 \/ mp = 11) by lia.
  repeat destruct C as [->|C]; try subst mp; try reflexivity.
  unfold month_len, year_len. cbn. destruct (is_leap (yoe + 1)); reflexivity.
Qed.

Lemma month_len_ge_28 yoe mp : 28 <= month_len yoe mp.
Proof. unfold month_len, days_in_month. repeat destruct (_ =? _); try destruct (is_leap _); cbn; lia. Qed.

(* day of era -> (year of era, month, day) is valid and is undone by [doe_of] *)
Lemma civil_of_doe_valid doe : 0 <= doe < 146097 ->
  let '(yoe, m, d) := civil_of_doe doe in
  0 <= yoe < 400 /\ 1 <= m <= 12 /\ 1 <= d <= days_in_month (yoe + (if m <=? 2 then 1 else 0)) m /\
  doe_of yoe m d = doe.
Proof.
  intros H. rewrite civil_of_doe_eq. cbv beta iota zeta. rewrite doe_of_eq.
  destruct (yoe_of_doe_spec doe H) as [Hy Hd]. set (yoe := yoe_of_doe doe) in *. set (doy := doe - year_start yoe) in *.
  assert (Hl : year_len yoe <= 366) by (unfold year_len; destruct (is_leap _); lia).
  destruct (month_of_doy doy ltac:(lia)) as (Hmp & Hlo & Hhi). set (mp := (5 * doy + 2) / 153) in *.
  destruct (month_of_bounds mp Hmp) as [Hm ->]. pose proof (month_start_next yoe mp Hmp) as Hn.
  fold (month_len yoe mp). destruct (Z.eqb_spec mp 11); lia.
Qed.

(* and conversely *)
Lemma civil_of_doe_of yoe m d :
  0 <= yoe < 400 -> 1 <= m <= 12 -> 1 <= d <= days_in_month (yoe + (if m <=? 2 then 1 else 0)) m ->
  0 <= doe_of yoe m d < 146097 /\ civil_of_doe (doe_of yoe m d) = (yoe, m, d).
Proof.
  intros Hy Hm Hd. rewrite doe_of_eq. destruct (mp_of_bounds m Hm) as [Hmp Hmm].
  set (mp := mp_of m) in *. rewrite <- Hmm in Hd. fold (month_len yoe mp) in Hd.
  pose proof (month_start_next yoe mp Hmp) as Hn. set (doy := month_start mp + d - 1).
  assert (Hl : year_len yoe <= 366) by (unfold year_len; destruct (is_leap _); lia).
  assert (Hms : 0 <= month_start mp /\ (mp < 11 -> month_start (mp + 1) <= 337))
    by (unfold month_start; Z.div_mod_to_equations; lia).
  assert (H11 : 337 + month_len yoe 11 = year_len yoe) by exact (month_start_next yoe 11 ltac:(lia)).
  pose proof (month_len_ge_28 yoe 11).
  assert (Hdoy : 0 <= doy < year_len yoe) by (destruct (Z.eqb_spec mp 11); lia).
  destruct (yoe_of_doe_unique yoe doy Hy Hdoy) as [Hr Hu]. split; [exact Hr|].
  rewrite civil_of_doe_eq. cbv zeta. rewrite Hu. replace (year_start yoe + doy - year_start yoe) with doy by lia.
  rewrite (month_of_doy_unique mp doy Hmp) by (destruct (Z.eqb_spec mp 11); lia).
  rewrite Hmm. unfold doy. repeat f_equal. lia.
Qed.

Lemma leap_periodic y k : is_leap (y + 400 * k) = is_leap y.
Proof.
  unfold is_leap.
  replace ((y + 400 * k) mod 4) with (y mod 4) by (replace (y + 400 * k) with (y + (100 * k) * 4) by ring; now rewrite Z.mod_add by lia).
  replace ((y + 400 * k) mod 100) with (y mod 100) by (replace (y + 400 * k) with (y + (4 * k) * 100) by ring; now rewrite Z.mod_add by lia).
  replace ((y + 400 * k) mod 400) with (y mod 400) by (replace (y + 400 * k) with (y + k * 400) by ring; now rewrite Z.mod_add by lia).
  reflexivity.
Qed.
Lemma dim_periodic y m k : days_in_month (y + 400 * k) m = days_in_month y m.
Proof. unfold days_in_month. now rewrite leap_periodic. Qed.

Theorem days_civil_days z : days_from_civil (civil_from_days z) = z /\ valid_date (civil_from_days z) = true.
Proof.
  unfold civil_from_days. set (z' := z + 719468). set (era := z' / 146097). set (doe := z' - era * 146097).
  assert (Hdoe : 0 <= doe < 146097) by (subst doe era; Z.div_mod_to_equations; lia).
  pose proof (civil_of_doe_valid doe Hdoe) as Hok.
  destruct (civil_of_doe doe) as [[yoe m] d]. destruct Hok as (Hy & Hm & Hd & Hdoe').
  set (c := if m <=? 2 then 1 else 0) in *. split.
  - unfold days_from_civil. fold c.
    replace (if m <=? 2 then yoe + era * 400 + c - 1 else yoe + era * 400 + c) with (yoe + era * 400)
      by (subst c; destruct (m <=? 2); lia).
    rewrite Z.div_add, Z.div_small by lia. replace (yoe + era * 400 - (0 + era) * 400) with yoe by lia. lia.
  - apply valid_date_iff. replace (yoe + era * 400 + c) with (yoe + c + 400 * era) by lia. now rewrite dim_periodic.
Qed.

Theorem civil_days_civil dt : valid_date dt = true -> civil_from_days (days_from_civil dt) = dt.
Proof.
  destruct dt as [[y m] d]. intros Hv. apply valid_date_iff in Hv. destruct Hv as [Hm Hd].
  set (c := if m <=? 2 then 1 else 0).
  assert (Hy' : (if m <=? 2 then y - 1 else y) = y - c) by (subst c; destruct (m <=? 2); lia).
  set (era := (y - c) / 400). set (yoe := y - c - era * 400).
  assert (Hy : 0 <= yoe < 400) by (subst yoe era; Z.div_mod_to_equations; lia).
  replace y with (yoe + c + 400 * era) in Hd by (subst yoe; lia). rewrite dim_periodic in Hd.
  destruct (civil_of_doe_of yoe m d Hy Hm Hd) as [Hr Hc]. set (doe := doe_of yoe m d) in *.
  assert (Hdays : days_from_civil (y, m, d) = doe + era * 146097 - 719468).
  { unfold days_from_civil. rewrite Hy'. fold era yoe doe. lia. }
  rewrite Hdays. unfold civil_from_days. replace (doe + era * 146097 - 719468 + 719468) with (doe + era * 146097) by lia.
  rewrite Z.div_add, Z.div_small by lia. replace (doe + era * 146097 - (0 + era) * 146097) with doe by lia.
  rewrite Hc. fold c. f_equal. f_equal. lia.
Qed.

Lemma add_days_valid dt n : valid_date (add_days dt n) = true.
Proof. unfold add_days. apply days_civil_days. Qed.

Theorem add_sub_days_inverse dt n : valid_date dt = true -> add_days (add_days dt n) (- n) = dt.
Proof.
  intros Hv. unfold add_days. rewrite (proj1 (days_civil_days _)).
  replace (days_from_civil dt + n + - n) with (days_from_civil dt) by lia. now apply civil_days_civil.
Qed.

Theorem datediff_add_days dt n : datediff (add_days dt n) dt = n.
Proof. unfold datediff, add_days. rewrite (proj1 (days_civil_days _)). lia. Qed.

Theorem datediff_zero_iff a b : valid_date a = true -> valid_date b = true -> (datediff a b = 0 <-> a = b).
Proof.
  intros Ha Hb. unfold datediff. split; [|intros ->; lia]. intros H.
  rewrite <- (civil_days_civil a Ha), <- (civil_days_civil b Hb). f_equal. lia.
Qed.

Lemma go_date_valid_id y m d : valid_date (y, m, d) = true -> go_date y m d = (y, m, d).
Proof.
  intros Hv. pose proof (proj1 (valid_date_iff y m d) Hv) as [Hm _].
  unfold go_date. rewrite Z.div_small, Z.mod_small by lia.
  replace (days_from_civil (y + 0, m - 1 + 1, 1) + (d - 1)) with (days_from_civil (y, m, d))
    by (rewrite Z.add_0_r, Z.sub_add; unfold days_from_civil, doe_of; lia).
  now apply civil_days_civil.
Qed.

(* without clamping, adding months only moves the (year, month) pair, counted in months *)
Lemma add_months_no_clamp y m d n :
  valid_date (y, m, d) = true -> no_clamp_months (y, m, d) n = true ->
  let t := m - 1 + n in
  add_months (y, m, d) n = (y + t / 12, t mod 12 + 1, d) /\ valid_date (y + t / 12, t mod 12 + 1, d) = true.
Proof.
  intros Hv Hnc t. apply valid_date_iff in Hv. unfold no_clamp_months in Hnc. apply Z.leb_le in Hnc. fold t in Hnc.
  assert (Hv1 : valid_date (y + t / 12, t mod 12 + 1, d) = true)
    by (apply valid_date_iff; pose proof (Z.mod_pos_bound t 12); lia).
  split; [|exact Hv1]. unfold add_months. fold t.
  replace (days_in_month (y + t / 12) (t mod 12 + 1) <? d) with false by (symmetry; apply Z.ltb_ge; lia).
  now apply go_date_valid_id.
Qed.

(* adding then subtracting n months restores the date when the first step does not clamp the day
   (the second then cannot) *)
Theorem add_sub_months_inverse y m d n :
  valid_date (y, m, d) = true -> no_clamp_months (y, m, d) n = true ->
  add_months (add_months (y, m, d) n) (- n) = (y, m, d).
Proof.
  intros Hv Hnc. destruct (add_months_no_clamp y m d n Hv Hnc) as [-> Hv1]. cbv zeta in *.
  set (t := m - 1 + n) in *. pose proof (proj1 (valid_date_iff y m d) Hv) as [Hm Hd].
  assert (Hq : (t mod 12 + 1 - 1 + - n) / 12 = - (t / 12) /\ (t mod 12 + 1 - 1 + - n) mod 12 = m - 1)
    by (subst t; Z.div_mod_to_equations; lia).
  destruct Hq as [Hq Hr].
  destruct (add_months_no_clamp (y + t / 12) (t mod 12 + 1) d (- n) Hv1) as [-> _].
  - unfold no_clamp_months. rewrite Hq, Hr. apply Z.leb_le. replace (y + t / 12 + - (t / 12)) with y by lia.
    replace (m - 1 + 1) with m by lia. lia.
  - cbv zeta. rewrite Hq, Hr. f_equal. f_equal; lia.
Qed.

(* with clamping the inverse fails: Jan 31 + 1 month - 1 month = Jan 29 (2024) *)
Lemma add_sub_months_clamped : add_months (add_months (2024, 1, 31) 1) (- 1) = (2024, 1, 29).
Proof. vm_compute. reflexivity. Qed.

(* TIMESTAMPDIFF in seconds is the difference of second counts; other units truncate toward zero *)
Theorem timestampdiff_seconds_add b tb n :
  timestampdiff_seconds b tb (add_days b n) tb = n * 86400.
Proof. unfold timestampdiff_seconds, to_seconds, add_days. rewrite (proj1 (days_civil_days _)). lia. Qed.

Theorem timestampdiff_unit_bounds u b tb a ta :
  0 < u -> let q := timestampdiff_unit u b tb a ta in let s := timestampdiff_seconds b tb a ta in
  Z.abs (q * u) <= Z.abs s /\ Z.abs (s - q * u) < u.
Proof.
  intros Hu q s. unfold q, timestampdiff_unit. fold s.
  pose proof (Z.quot_rem s u ltac:(lia)) as Hqr. pose proof (Z.rem_bound_abs s u ltac:(lia)) as Hb.
  destruct (Z_le_gt_dec 0 s) as [Hs|Hs].
  - pose proof (Z.rem_nonneg s u ltac:(lia) Hs). pose proof (Z.quot_pos s u Hs Hu). nia.
  - pose proof (Z.rem_nonpos s u ltac:(lia) ltac:(lia)).
    pose proof (Z.quot_pos (- s) u ltac:(lia) Hu) as Hx. rewrite Z.quot_opp_l in Hx by lia. nia.
Qed.

(* STR_TO_DATE: a field-wise valid but non-existent date is shifted, not rejected *)
Lemma str_to_date_shifts_invalid :
  str_to_date_ymd true 2023 2 30 = Some (2023, 3, 2) /\ valid_date (2023, 2, 30) = false.
Proof. split; vm_compute; reflexivity. Qed.

Theorem str_to_date_valid_exact y m d :
  valid_date (y, m, d) = true -> str_to_date_ymd true y m d = Some (y, m, d).
Proof.
  intros Hv. unfold str_to_date_ymd. rewrite (go_date_valid_id _ _ _ Hv). apply valid_date_iff in Hv.
  pose proof (days_in_month_le_31 y m).
  replace ((1 <=? m) && (m <=? 12) && (1 <=? d) && (d <=? 31)) with true; [reflexivity|].
  symmetry. rewrite !andb_true_iff, !Z.leb_le. lia.
Qed.

(* DATEDIFF as computed (through time.Duration) is the day difference up to about 292 years, and saturates beyond *)
Lemma datediff_go_exact a b : -106752 <= datediff a b <= 106752 -> datediff_go a b = datediff a b.
Proof.
  intros H. unfold datediff_go. cbv zeta.
  replace (106752 <? datediff a b) with false by (symmetry; apply Z.ltb_ge; lia).
  replace (datediff a b <? -106752) with false by (symmetry; apply Z.ltb_ge; lia). reflexivity.
Qed.
Lemma datediff_go_saturates :
  datediff_go (2337, 10, 4) (1964, 2, 21) = 106752 /\ datediff (2337, 10, 4) (1964, 2, 21) = 136461.
Proof. split; vm_compute; reflexivity. Qed.

(* sub-day intervals: adding then subtracting any number of microseconds (hence seconds, minutes, hours)
   restores the moment, across day, month, year and epoch boundaries *)
Theorem add_sub_us_inverse dt tod n :
  valid_date dt = true -> 0 <= tod < usday ->
  let '(d1, t1) := add_us dt tod n in add_us d1 t1 (- n) = (dt, tod).
Proof.
  intros Hv Ht. unfold add_us. set (tot := days_from_civil dt * usday + tod + n).
  rewrite (proj1 (days_civil_days _)).
  assert (Hu : 0 < usday) by (unfold usday; lia).
  pose proof (Z.div_mod tot usday ltac:(lia)) as Hdm.
  replace (tot / usday * usday + tot mod usday + - n) with (tod + days_from_civil dt * usday) by (unfold tot in *; lia).
  rewrite Z.div_add, Z.mod_add by lia. rewrite Z.div_small, Z.mod_small by lia.
  rewrite Z.add_0_l. rewrite civil_days_civil by exact Hv. reflexivity.
Qed.

Theorem add_us_value dt tod n :
  0 <= tod < usday ->
  let '(d1, t1) := add_us dt tod n in 0 <= t1 < usday /\ days_from_civil d1 * usday + t1 = days_from_civil dt * usday + tod + n.
Proof.
  intros Ht. unfold add_us. set (tot := days_from_civil dt * usday + tod + n).
  assert (Hu : 0 < usday) by (unfold usday; lia).
  rewrite (proj1 (days_civil_days _)). pose proof (Z.div_mod tot usday ltac:(lia)). pose proof (Z.mod_pos_bound tot usday Hu). lia.
Qed.

(* DATEDIFF ignores the time parts, before and after 1970 alike *)
Theorem datediff_dt_ignores_time a ta b tb : datediff_dt a ta b tb = datediff_go a b.
Proof. reflexivity. Qed.

Lemma moment_lt_irrefl a : moment_lt a a = false.
Proof.
  destruct a as [[[y m] d] t]. unfold moment_lt. rewrite !Z.ltb_irrefl, !Z.eqb_refl. reflexivity.
Qed.
Lemma moment_lt_spec y1 m1 d1 t1 y2 m2 d2 t2 :
  moment_lt ((y1, m1, d1), t1) ((y2, m2, d2), t2) = true <->
  (y1 < y2 \/ (y1 = y2 /\ (m1 < m2 \/ (m1 = m2 /\ (d1 < d2 \/ (d1 = d2 /\ t1 < t2)))))).
Proof.
  unfold moment_lt. rewrite !orb_true_iff, !andb_true_iff, !orb_true_iff, !andb_true_iff, !orb_true_iff, !andb_true_iff.
  rewrite !Z.ltb_lt, !Z.eqb_eq. reflexivity.
Qed.
Lemma moment_lt_asym a b : moment_lt a b = true -> moment_lt b a = false.
Proof.
  destruct a as [[[y1 m1] d1] t1], b as [[[y2 m2] d2] t2]. intros H.
  destruct (moment_lt (y2, m2, d2, t2) (y1, m1, d1, t1)) eqn:E; [|first [reflexivity|exact E]]. exfalso.
  apply moment_lt_spec in H. apply moment_lt_spec in E. lia.
Qed.

Theorem months_diff_refl a : months_diff a a = 0.
Proof.
  unfold months_diff. rewrite moment_lt_irrefl. destruct a as [[[y m] d] t]. unfold months_between.
  rewrite Z.ltb_irrefl, Z.eqb_refl. replace ((t / 3600 - t / 3600) * 3600 + (t / 60 mod 60 - t / 60 mod 60) * 0 + (t mod 60 - t mod 60)) with 0 by lia.
  cbn. lia.
Qed.

Theorem months_diff_antisym a b : moment_lt a b = true -> months_diff b a = - months_diff a b.
Proof.
  intros H. unfold months_diff. rewrite H. rewrite (moment_lt_asym a b H). reflexivity.
Qed.

(* adding n >= 0 months without clamping, same time of day: the difference is exactly n months *)
Theorem months_diff_add_months y m d t n :
  valid_date (y, m, d) = true -> no_clamp_months (y, m, d) n = true -> 0 <= n ->
  months_diff ((y, m, d), t) (add_months (y, m, d) n, t) = n.
Proof.
  intros Hv Hnc Hn. destruct (add_months_no_clamp y m d n Hv Hnc) as [-> _]. cbv zeta.
  apply valid_date_iff in Hv. set (tot := m - 1 + n).
  assert (Hq : 0 <= tot / 12 /\ (tot / 12 = 0 -> m <= tot mod 12 + 1)) by (subst tot; Z.div_mod_to_equations; lia).
  unfold months_diff. destruct (moment_lt _ _) eqn:E; [apply moment_lt_spec in E; lia|].
  unfold months_between. rewrite Z.ltb_irrefl, Z.eqb_refl, !Z.sub_diag. cbn [Z.mul Z.add Z.ltb Z.compare andb].
  subst tot. Z.div_mod_to_equations. lia.
Qed.

Theorem cast_date_valid_exact y m d : valid_date (y, m, d) = true -> cast_date_str y m d = (y, m, d).
Proof. intros H. unfold cast_date_str. now rewrite H. Qed.
Lemma cast_date_misparses : cast_date_str 2023 2 30 = (2023, 2, 3) /\ valid_date (2023, 2, 30) = false.
Proof. split; vm_compute; reflexivity. Qed.

(* the minutes are ignored when both moments fall on the same day of the month: 12:22:47 -> 12:38:15 counts as -1 month *)
Lemma months_diff_ignores_minutes :
  months_diff ((1950, 4, 29), 44567) ((1950, 4, 29), 45495) = -1.
Proof. vm_compute. reflexivity. Qed.
