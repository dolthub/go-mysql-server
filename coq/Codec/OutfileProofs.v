(* C50 - proofs about the INTO OUTFILE writer / LOAD DATA reader model. *)
From Coq Require Import List NArith ZArith Bool Lia.
Import ListNotations.
From GMS Require Import Base.ListFacts Codec.Outfile.
Open Scope N_scope.

Lemma is_prefix_app : forall p x, is_prefix p (p ++ x) = true.
Proof.
  induction p as [|a p IH]; intros x; cbn; [reflexivity|].
  rewrite N.eqb_refl, IH. reflexivity.
Qed.

Lemma is_prefix_hd_neq : forall p c tl, p <> [] -> c <> hd 0 p -> is_prefix p (c :: tl) = false.
Proof.
  intros [|a p] c tl Hne Hc; [congruence|]. cbn in *.
  destruct (N.eqb_spec a c) as [->|]; [congruence|reflexivity].
Qed.

Lemma bytes_eq_refl : forall a, bytes_eq a a = true.
Proof. induction a as [|x a IH]; cbn; [reflexivity|]. rewrite N.eqb_refl, IH. reflexivity. Qed.

Lemma bytes_eq_true : forall a b, bytes_eq a b = true -> a = b.
Proof.
  induction a as [|x a IH]; intros [|y b] H; cbn in H; try discriminate; [reflexivity|].
  apply andb_prop in H. destruct H as [H1 H2]. apply N.eqb_eq in H1. apply IH in H2. congruence.
Qed.

Lemma mem_app_false : forall c a b, mem c (a ++ b) = false -> mem c a = false /\ mem c b = false.
Proof. unfold mem. intros c a b H. rewrite existsb_app in H. apply orb_false_elim in H. exact H. Qed.

Lemma mem_false_all : forall c l, mem c l = false -> Forall (fun x => x <> c) l.
Proof.
  intros c. induction l as [|a l IH]; cbn; intros H; constructor; apply orb_false_elim in H.
  - intros ->. rewrite N.eqb_refl in H. destruct H. discriminate.
  - apply IH, H.
Qed.

Definition pstep (a d : N) : N := 10 * a + (d - 48).

Lemma in_int64_iff z : in_int64 z = true <-> (-9223372036854775808 <= z <= 9223372036854775807)%Z.
Proof. unfold in_int64. rewrite andb_true_iff, !Z.leb_le. reflexivity. Qed.

Lemma div10_lt n f : n < 10 ^ N.of_nat (S f) -> n / 10 < 10 ^ N.of_nat f.
Proof. rewrite Nat2N.inj_succ, N.pow_succ_r'. intros H. apply N.div_lt_upper_bound; [lia|exact H]. Qed.

Lemma to_digits_parse : forall fuel n acc,
  n < 10 ^ N.of_nat fuel -> fold_left pstep (to_digits_aux fuel n acc) 0 = fold_left pstep acc n.
Proof.
  induction fuel as [|f IH]; intros n acc Hn; [cbn in Hn; replace n with 0 by lia; reflexivity|].
  cbn [to_digits_aux]. destruct (N.ltb_spec n 10) as [Hlt|Hge].
  - cbn [fold_left]. f_equal. unfold pstep. rewrite N.mod_small by assumption. clear. lia.
  - rewrite IH by (apply div10_lt; exact Hn). cbn [fold_left]. f_equal. unfold pstep.
    pose proof (N.div_mod n 10 ltac:(lia)) as E. pose proof (N.mod_lt n 10 ltac:(lia)) as Hm.
    clear - E Hm. set (m := n mod 10) in *. set (q := n / 10) in *. clearbody m q. lia.
Qed.

Lemma to_digits_digits : forall fuel n acc,
  forallb is_digit acc = true -> forallb is_digit (to_digits_aux fuel n acc) = true.
Proof.
  induction fuel as [|f IH]; intros n acc H; [exact H|].
  assert (forallb is_digit ((48 + n mod 10) :: acc) = true) as Hd.
  { cbn [forallb]. rewrite H, andb_true_r. pose proof (N.mod_lt n 10 ltac:(lia)) as Hm. unfold is_digit.
    set (m := n mod 10) in *. clearbody m. apply andb_true_intro. split; apply N.leb_le; lia. }
  cbn [to_digits_aux]. destruct (n <? 10); [exact Hd|apply IH; exact Hd].
Qed.

(* shape of the result: a non-zero leading digit (or the single digit 0) in front of the accumulator *)
Lemma to_digits_shape : forall fuel n acc,
  n < 10 ^ N.of_nat fuel -> (0 < fuel)%nat ->
  exists d r, to_digits_aux fuel n acc = d :: r /\ 48 <= d <= 57 /\ (d = 48 -> n = 0 /\ r = acc).
Proof.
  induction fuel as [|f IH]; intros n acc Hn Hf; [lia|].
  cbn [to_digits_aux]. destruct (N.ltb_spec n 10) as [Hlt|Hge].
  - exists (48 + n mod 10), acc. rewrite N.mod_small by assumption.
    split; [reflexivity|]. split; [lia|]. intros; split; [lia|reflexivity].
  - pose proof (N.div_str_pos n 10 ltac:(lia)) as Hpos. pose proof (div10_lt _ _ Hn) as Hd.
    destruct f as [|f']; [cbn in Hd; lia|].
    destruct (IH (n / 10) ((48 + n mod 10) :: acc) Hd ltac:(lia)) as (d & r & E & Hr & H0).
    exists d, r. split; [exact E|]. split; [exact Hr|]. intros Hd0. destruct (H0 Hd0). lia.
Qed.

Lemma render_N_spec : forall n, n < 10 ^ 20 ->
  exists d r, render_N n = d :: r /\ 48 <= d <= 57 /\ forallb is_digit (d :: r) = true /\
              parse_N (d :: r) = n /\ (d = 48 -> n = 0 /\ r = []).
Proof.
  intros n Hn. unfold render_N.
  destruct (to_digits_shape 20 n [] Hn ltac:(lia)) as (d & r & E & Hr & H0).
  exists d, r. rewrite <- E. split; [reflexivity|]. split; [exact Hr|].
  split; [apply to_digits_digits; reflexivity|]. split; [exact (to_digits_parse 20 n [] Hn)|exact H0].
Qed.

Lemma parse_int_unsigned : forall d r, d <> 45 ->
  parse_int (d :: r) =
  if forallb is_digit (d :: r) && (negb (d =? 48) || (is_nil r && true))
  then (if in_int64 (Z.of_N (parse_N (d :: r))) then Some (Z.of_N (parse_N (d :: r))) else None)
  else None.
Proof.
  intros d r Hd. unfold parse_int. destruct d as [|p]; [reflexivity|].
  do 6 (destruct p as [p|p|]; try reflexivity). congruence.
Qed.

(* an int64 has at most 19 digits: render_N sees its absolute value whole *)
Lemma int64_lt n : (Z.of_N n <= 9223372036854775808)%Z -> n < 10 ^ 20.
Proof. change (10 ^ 20) with 100000000000000000000. lia. Qed.

Lemma parse_int_render : forall z, in_int64 z = true -> parse_int (render_Z z) = Some z.
Proof.
  intros z Hz. pose proof (proj1 (in_int64_iff z) Hz) as Hb. destruct z as [|p|p].
  - reflexivity.
  - unfold render_Z. destruct (render_N_spec _ (int64_lt (Z.to_N (Z.pos p)) ltac:(lia))) as (d & r & E & Hr & Hdig & Hp & H0).
    rewrite E, (parse_int_unsigned d r) by lia.
    assert (d =? 48 = false) as Hnz by (apply N.eqb_neq; intros E48; destruct (H0 E48); lia).
    rewrite Hdig, Hnz, Hp. cbn [negb orb andb Z.to_N]. change (Z.of_N (N.pos p)) with (Z.pos p). rewrite Hz. reflexivity.
  - unfold render_Z. destruct (render_N_spec _ (int64_lt (N.pos p) ltac:(lia))) as (d & r & E & Hr & Hdig & Hp & H0).
    rewrite E. unfold parse_int.
    assert (d =? 48 = false) as Hnz by (apply N.eqb_neq; intros E48; destruct (H0 E48); lia).
    rewrite Hdig, Hnz, Hp. cbn [negb orb andb]. change (- Z.of_N (N.pos p))%Z with (Z.neg p). rewrite Hz. reflexivity.
Qed.

Lemma render_Z_first : forall z, in_int64 z = true ->
  exists d r, render_Z z = d :: r /\ (d = 45 \/ 48 <= d <= 57).
Proof.
  intros z Hz%in_int64_iff. destruct z as [|p|p]; unfold render_Z.
  - exists 48, []. split; [reflexivity|right; lia].
  - destruct (render_N_spec _ (int64_lt (Z.to_N (Z.pos p)) ltac:(lia))) as (d & r & E & Hr & _).
    exists d, r. split; [exact E|right; exact Hr].
  - eexists 45, _. split; [reflexivity|left; reflexivity].
Qed.

Section Guarded.
  Variable o : opts.
  Hypothesis WF : wf_opts o = true.

  Lemma wf_parts :
    ft o <> [] /\ lt o <> [] /\ (length (enc o) <= 1)%nat /\ (length (esc o) <= 1)%nat /\ encEqEsc o = false /\
    mem (hd 0 (lt o)) (ls o ++ ft o ++ enc o ++ esc o) = false /\
    mem (hd 0 (ft o)) (enc o ++ esc o) = false /\
    (if is_nil (esc o) then forallb (safe o) str_NULL else negb (78 =? hd 0 (lt o))) = true.
  Proof.
    generalize WF. unfold wf_opts.
    intros [[[[[[[W1%negb_true_iff W2%negb_true_iff]%andb_prop W3%Nat.leb_le]%andb_prop W4%Nat.leb_le]%andb_prop
                        W5%negb_true_iff]%andb_prop W6%negb_true_iff]%andb_prop W7%negb_true_iff]%andb_prop W8]%andb_prop.
    repeat split; try assumption.
    - destruct (ft o); [discriminate|congruence].
    - destruct (lt o); [discriminate|congruence].
  Qed.

  Lemma ltne : lt o <> [].
  Proof. apply wf_parts. Qed.

  Lemma safe_spec : forall c, safe o c = true ->
    c <> hd 0 (ft o) /\ c <> hd 0 (lt o) /\ mem c (enc o) = false /\ mem c (esc o) = false.
  Proof.
    intros c [[[H1%negb_true_iff%N.eqb_neq H2%negb_true_iff%N.eqb_neq]%andb_prop H3%negb_true_iff]%andb_prop
                H4%negb_true_iff]%andb_prop. auto.
  Qed.

  (* a byte that is not the enclosure / escape character is not taken for it by the field loop *)
  Lemma not_enc : forall c, mem c (enc o) = false -> hasEnc o && (c =? encb o) = false.
  Proof.
    intros c H. unfold hasEnc, encb. destruct (enc o) as [|e r]; [reflexivity|].
    cbn in H |- *. apply orb_false_elim in H. apply H.
  Qed.

  Lemma not_esc : forall c, mem c (esc o) = false -> hasEsc o && negb (encEqEsc o) && (c =? escb o) = false.
  Proof.
    intros c H. unfold hasEsc, escb. destruct (esc o) as [|e r]; [reflexivity|].
    cbn in H. apply orb_false_elim in H. destruct H as [H _]. cbn [is_nil negb hd]. rewrite H. apply andb_false_r.
  Qed.

  Lemma safe_not_ft : forall c tl, safe o c = true -> is_prefix (ft o) (c :: tl) = false.
  Proof.
    intros c tl H. destruct (safe_spec c H) as (Hf & _). apply is_prefix_hd_neq; [apply wf_parts|assumption].
  Qed.

  Lemma pf_safe_run : forall nlt c rest inEnc cur acc,
    forallb (safe o) c = true ->
    pf o nlt (c ++ rest) O inEnc cur acc = pf o nlt rest O inEnc (rev c ++ cur) acc.
  Proof.
    intros nlt c. induction c as [|ch c IH]; intros rest inEnc cur acc H; [reflexivity|].
    cbn [forallb] in H. apply andb_prop in H. destruct H as [Hs Hc].
    destruct (safe_spec ch Hs) as (_ & _ & He & Hx).
    cbn [app pf]. rewrite (not_enc ch He), (not_esc ch Hx). cbn [andb].
    rewrite (safe_not_ft ch (c ++ rest) Hs). rewrite andb_false_r.
    rewrite IH by exact Hc. cbn [rev]. rewrite <- app_assoc. reflexivity.
  Qed.

  (* bytes consumed by an earlier i += k are passed over *)
  Lemma pf_skip : forall nlt a rest inEnc cur acc,
    pf o nlt (a ++ rest) (length a) inEnc cur acc = pf o nlt rest O inEnc cur acc.
  Proof.
    intros nlt a. induction a as [|x a IH]; intros rest inEnc cur acc; [reflexivity|].
    cbn [app length pf]. apply IH.
  Qed.

  Lemma pf_ft : forall nlt rest cur acc,
    pf o nlt (ft o ++ rest) O false cur acc = pf o nlt rest O false [] (rev cur :: acc).
  Proof.
    intros nlt rest cur acc.
    pose proof (is_prefix_app (ft o) rest) as Hp.
    destruct wf_parts as (Hfn & _ & _ & _ & _ & _ & Hm & _). apply mem_app_false in Hm.
    pose proof (not_enc _ (proj1 Hm)) as He. pose proof (not_esc _ (proj2 Hm)) as Hs.
    destruct (ft o) as [|f fr] eqn:Eft; [congruence|].
    cbn [hd] in He, Hs.
    cbn [app pf]. rewrite He, Hs. cbn [andb negb]. rewrite Eft.
    change (f :: fr ++ rest) with ((f :: fr) ++ rest). rewrite Hp.
    cbn [length pred]. apply pf_skip.
  Qed.

  Lemma pf_open : forall nlt e rest acc, enc o = [e] ->
    pf o nlt (e :: rest) O false [] acc = pf o nlt rest O true [] acc.
  Proof.
    intros nlt e rest acc E. cbn [pf]. unfold hasEnc, encb. rewrite E. cbn [is_nil negb hd].
    rewrite N.eqb_refl. reflexivity.
  Qed.

  Lemma pf_close : forall e rest cur acc, enc o = [e] ->
    (rest = [] \/ is_prefix (ft o) rest = true) ->
    pf o true (e :: rest) O true cur acc = pf o true rest O false cur acc.
  Proof.
    intros e rest cur acc E Hrest. destruct wf_parts as (_ & _ & _ & _ & Hne & _).
    cbn [pf]. rewrite Hne. unfold hasEnc, encb. rewrite E. cbn [is_nil negb hd].
    rewrite N.eqb_refl. cbn [andb negb].
    destruct Hrest as [-> | Hp].
    - cbn [is_nil andb]. rewrite orb_true_r. reflexivity.
    - rewrite Hp. reflexivity.
  Qed.

  (* safe bytes between the enclosure characters, if there is one, and then the end of the line or a terminator *)
  Lemma pf_enclosed : forall c rest acc, forallb (safe o) c = true ->
    (rest = [] \/ is_prefix (ft o) rest = true) ->
    pf o true (enc o ++ c ++ enc o ++ rest) O false [] acc = pf o true rest O false (rev c) acc.
  Proof.
    intros c rest acc Hs Hrest. destruct wf_parts as (_ & _ & Hle & _).
    destruct (enc o) as [|e [|]] eqn:Eenc; [| |cbn in Hle; lia]; cbn [app].
    - rewrite pf_safe_run, app_nil_r by exact Hs. reflexivity.
    - rewrite (pf_open true e _ acc Eenc), pf_safe_run, app_nil_r by exact Hs. apply pf_close; assumption.
  Qed.

  (* the NULL marker is read as the four letters NULL, which the post-pass turns into SQL NULL *)
  Lemma pf_null : forall nlt rest acc,
    pf o nlt (null_marker o ++ rest) O false [] acc = pf o nlt rest O false (rev str_NULL) acc.
  Proof.
    intros nlt rest acc. destruct wf_parts as (_ & _ & Hle & Hl & Hne & _ & _ & Hn).
    unfold null_marker. destruct (esc o) as [|x xr] eqn:Eesc.
    - cbn [is_nil] in *. rewrite pf_safe_run by exact Hn. rewrite app_nil_r. reflexivity.
    - cbn [is_nil]. destruct xr; [|cbn in Hl; lia].
      assert (hasEnc o && (x =? encb o) = false) as He.
      { unfold encEqEsc, hasEnc, hasEsc, encb in *. rewrite Eesc in Hne.
        destruct (enc o) as [|e er] eqn:Eenc; [reflexivity|]. cbn [is_nil negb andb hd] in *.
        destruct er; [|cbn in Hle; lia].
        cbn in Hne. rewrite andb_true_r in Hne. rewrite N.eqb_sym. exact Hne. }
      cbn [app str_N pf]. rewrite He. cbn [andb].
      unfold hasEsc, escb. rewrite Eesc, Hne. cbn [is_nil negb andb hd].
      rewrite N.eqb_refl. cbn [andb hd]. apply (pf_skip nlt [78] rest).
  Qed.

  (* what the reader must see for a value *)
  Definition fc (v : val) : bytes :=
    match v with VNull => str_NULL | VInt z => render_Z z | VStr s => s | VRaw t => t end.

  Lemma replace_noop : forall old new s, old <> [] -> Forall (fun c => c <> hd 0 old) s ->
    replace_go old new s O = s.
  Proof.
    intros old new s Hne H. induction H as [|c s Hc _ IH]; [reflexivity|].
    cbn [replace_go]. rewrite is_prefix_hd_neq by assumption. rewrite IH. reflexivity.
  Qed.

  Lemma safe_all_not_lt : forall s, forallb (safe o) s = true -> Forall (fun c => c <> hd 0 (lt o)) s.
  Proof.
    intros s H. apply Forall_forall. intros c Hin.
    rewrite forallb_forall in H. destruct (safe_spec c (H c Hin)) as (_ & Hl & _). exact Hl.
  Qed.

  Lemma field_shape : forall t v, val_ok o t v = true ->
    v = VNull \/
    forallb (safe o) (fc v) = true /\ (field o t v = enc o ++ fc v ++ enc o \/ field o t v = fc v).
  Proof.
    intros t v H. destruct v as [|z|s|raw]; [left; reflexivity| | |destruct t; discriminate]; right.
    - destruct t; try discriminate. cbn in H. apply andb_prop in H. split; [apply H|].
      unfold field. destruct (negb (enc_opt o) || is_text TInt); [left|right]; reflexivity.
    - destruct t; try discriminate. cbn in H. apply andb_prop in H. destruct H as [H _]. split; [exact H|].
      unfold field. destruct (negb (enc_opt o) || is_text TText); [left|right; reflexivity].
      cbn [content fc]. destruct (lt o) eqn:E; [reflexivity|]. cbn [is_nil]. rewrite <- E.
      rewrite replace_noop; [reflexivity|exact ltne|]. apply safe_all_not_lt. exact H.
  Qed.

  Lemma pf_field : forall t v rest acc, val_ok o t v = true ->
    (rest = [] \/ is_prefix (ft o) rest = true) ->
    pf o true (field o t v ++ rest) O false [] acc = pf o true rest O false (rev (fc v)) acc.
  Proof.
    intros t v rest acc H Hrest. destruct (field_shape t v H) as [->|(Hs & [-> | ->])].
    - apply pf_null.
    - rewrite <- !app_assoc. apply pf_enclosed; assumption.
    - rewrite pf_safe_run, app_nil_r by exact Hs. reflexivity.
  Qed.

  Lemma pf_fields : forall vs tys v acc, row_ok o tys (v :: vs) = true ->
    pf o true (field o (hd TInt tys) v ++ dump_fields o (tl tys) vs false) O false [] acc
    = rev acc ++ map fc (v :: vs).
  Proof.
    induction vs as [|v' vs IH]; intros tys v acc H.
    - destruct tys as [|t ts]; [discriminate|]. cbn [row_ok] in H. apply andb_prop in H. destruct H as [Hv _].
      cbn [dump_fields hd tl]. rewrite (pf_field t v [] acc Hv (or_introl eq_refl)).
      cbn [pf]. rewrite rev_involutive. cbn [rev map]. reflexivity.
    - destruct tys as [|t ts]; [discriminate|]. cbn [row_ok] in H. apply andb_prop in H. destruct H as [Hv Hr].
      cbn [dump_fields hd tl].
      rewrite (pf_field t v _ acc Hv).
      2:{ right. apply is_prefix_app. }
      rewrite pf_ft. rewrite rev_involutive.
      pose proof (IH ts v' (fc v :: acc) Hr) as Q. cbn [rev map] in Q |- *.
      rewrite <- app_assoc in Q. exact Q.
  Qed.

  Lemma to_val_fc : forall t v, val_ok o t v = true -> to_val t (Some (fc v)) = Some v.
  Proof.
    intros t v H. destruct v as [|z|s|raw]; [| | |destruct t; discriminate].
    - reflexivity.
    - destruct t; cbn in H; try discriminate. apply andb_prop in H. destruct H as [Hz _].
      cbn [fc to_val]. destruct (render_Z_first z Hz) as (d & r & E & Hd).
      rewrite E. cbn [is_nil].
      assert (bytes_eq (d :: r) str_NULL = false) as Hn.
      { cbn. destruct (N.eqb_spec d 78); [lia|reflexivity]. }
      rewrite Hn, <- E. rewrite parse_int_render by exact Hz. reflexivity.
    - destruct t; cbn in H; try discriminate. apply andb_prop in H. destruct H as [_ Hn].
      apply negb_true_iff in Hn. cbn [fc to_val]. destruct s as [|c s]; [reflexivity|].
      cbn [is_nil]. rewrite Hn. reflexivity.
  Qed.

  Lemma build_row_fc : forall tys r, row_ok o tys r = true -> build_row tys (map fc r) = Some r.
  Proof.
    induction tys as [|t ts IH]; intros [|v vs] H; try discriminate; [reflexivity|].
    cbn [row_ok] in H. apply andb_prop in H. destruct H as [Hv Hr].
    cbn [map build_row hd_error tl]. rewrite (to_val_fc t v Hv), (IH vs Hr). reflexivity.
  Qed.

  Lemma has_suffix_app : forall s b, has_suffix s (b ++ s) = true.
  Proof. intros s b. unfold has_suffix. rewrite rev_app_distr. apply is_prefix_app. Qed.

  Lemma index_of_here : forall p x, index_of p (p ++ x) = Some O.
  Proof. intros p x. destruct (p ++ x) eqn:E; cbn [index_of]; rewrite <- ?E, is_prefix_app; reflexivity. Qed.

  Lemma parse_line_prefix_ls : forall x, parse_line_prefix o (ls o ++ x) = x.
  Proof.
    intros x. unfold parse_line_prefix. destruct (ls o) as [|a l] eqn:E; [reflexivity|].
    cbn [is_nil]. rewrite <- E, index_of_here. cbn [Nat.add]. apply skipn_app_length.
  Qed.

  Lemma parse_row : forall tys r, row_ok o tys r = true ->
    exists fs, parse_fields o (dump_row o tys r) = Some fs /\ build_row tys fs = Some r.
  Proof.
    intros tys r H. unfold dump_row, parse_fields. rewrite parse_line_prefix_ls.
    destruct (dump_fields o tys r true ++ lt o) eqn:El.
    { apply app_eq_nil in El. destruct El as [_ El]. exfalso. exact (ltne El). }
    cbn [is_nil]. rewrite <- El. rewrite has_suffix_app, app_length, Nat.add_sub, firstn_app_length. cbn [orb].
    destruct r as [|v vs].
    - destruct tys; [|discriminate]. eexists. split; [reflexivity|reflexivity].
    - cbn [dump_fields app]. rewrite (pf_fields vs tys v [] H). cbn [rev app].
      eexists. split; [reflexivity|]. apply build_row_fc. exact H.
  Qed.

  Lemma load_tokens_rows : forall tys rows, Forall (fun r => row_ok o tys r = true) rows ->
    load_tokens o tys (map (dump_row o tys) rows) = Some rows.
  Proof.
    intros tys rows H. induction H as [|r rows Hr _ IH]; [reflexivity|].
    cbn [map load_tokens]. destruct (parse_row tys r Hr) as (fs & E1 & E2).
    rewrite E1, E2, IH. reflexivity.
  Qed.

  Lemma index_of_first : forall body rest,
    Forall (fun c => c <> hd 0 (lt o)) body -> index_of (lt o) (body ++ lt o ++ rest) = Some (length body).
  Proof.
    intros body rest H. induction H as [|c body Hc _ IH]; [apply (index_of_here (lt o) rest)|].
    cbn [app length index_of]. rewrite is_prefix_hd_neq by (try exact ltne; assumption).
    rewrite IH. reflexivity.
  Qed.

  (* lines whose bodies do not contain the first byte of the terminator are split where they were joined;
     the fuel of the model, one more than the length of the data, suffices *)
  Lemma split_lines_bodies : forall bodies fuel,
    Forall (Forall (fun c => c <> hd 0 (lt o))) bodies ->
    (length (concat (map (fun b => b ++ lt o) bodies)) < fuel)%nat ->
    split_lines fuel (lt o) (concat (map (fun b => b ++ lt o) bodies)) = map (fun b => b ++ lt o) bodies.
  Proof.
    induction bodies as [|b bs IH]; intros fuel H Hf; [destruct fuel; reflexivity|].
    destruct fuel as [|f]; [lia|]. inversion H as [|? ? Hb Hbs]; subst.
    pose proof ltne as Hl. cbn [map concat split_lines] in *.
    destruct ((b ++ lt o) ++ concat (map (fun b0 => b0 ++ lt o) bs)) eqn:E.
    { apply app_eq_nil in E. destruct E as [E _]. apply app_eq_nil in E. destruct E as [_ E]. congruence. }
    rewrite <- E in *. rewrite <- app_assoc, (index_of_first b _ Hb), app_assoc, <- (app_length b (lt o)).
    rewrite firstn_app_length, skipn_app_length, IH; [reflexivity|exact Hbs|].
    rewrite !app_length in Hf. destruct (lt o); [congruence|cbn [length] in Hf; lia].
  Qed.

  (* no byte of an exported line body is the first byte of the line terminator *)
  Lemma syntax_no_lt :
    Forall (fun c => c <> hd 0 (lt o)) (ls o) /\ Forall (fun c => c <> hd 0 (lt o)) (ft o) /\
    Forall (fun c => c <> hd 0 (lt o)) (enc o) /\ Forall (fun c => c <> hd 0 (lt o)) (esc o).
  Proof. rewrite <- !Forall_app. apply mem_false_all, wf_parts. Qed.

  Lemma null_marker_no_lt : Forall (fun c => c <> hd 0 (lt o)) (null_marker o).
  Proof.
    destruct wf_parts as (_ & _ & _ & _ & _ & _ & _ & Hn). destruct syntax_no_lt as (_ & _ & _ & Hesc).
    unfold null_marker. destruct (esc o) as [|x xr] eqn:E; cbn [is_nil] in *.
    - apply safe_all_not_lt. exact Hn.
    - apply Forall_app. split; [exact Hesc|].
      constructor; [|constructor]. apply negb_true_iff in Hn. apply N.eqb_neq in Hn. exact Hn.
  Qed.

  Lemma field_no_lt : forall t v, val_ok o t v = true -> Forall (fun c => c <> hd 0 (lt o)) (field o t v).
  Proof.
    intros t v H. destruct syntax_no_lt as (_ & _ & Henc & _).
    destruct (field_shape t v H) as [->|(Hs%safe_all_not_lt & [-> | ->])].
    - apply null_marker_no_lt.
    - rewrite !Forall_app. auto.
    - exact Hs.
  Qed.

  Lemma dump_fields_no_lt : forall r tys first, row_ok o tys r = true ->
    Forall (fun c => c <> hd 0 (lt o)) (dump_fields o tys r first).
  Proof.
    destruct syntax_no_lt as (_ & Hft & _).
    induction r as [|v vs IH]; intros tys first H; [constructor|].
    destruct tys as [|t ts]; [discriminate|]. cbn [row_ok] in H. apply andb_prop in H. destruct H as [Hv Hr].
    cbn [dump_fields hd tl]. apply Forall_app. split.
    - destruct first; [constructor|exact Hft].
    - apply Forall_app. split; [apply field_no_lt; exact Hv|apply IH; exact Hr].
  Qed.

  (* with IGNORE n LINES: the first n exported rows are dropped, the others come back *)
  Theorem load_ignore_dump_guarded : forall n tys rows,
    Forall (fun r => row_ok o tys r = true) rows ->
    load_ignore n o tys (dump o tys rows) = Loaded (skipn n rows).
  Proof.
    intros n tys rows H. unfold load_ignore.
    replace (is_nil (lt o)) with false by (pose proof ltne; destruct (lt o); [congruence|reflexivity]).
    cbn [andb]. destruct syntax_no_lt as (Hls & _).
    (* every exported row is a body free of the terminator's first byte, followed by the terminator *)
    set (bodies := map (fun r => ls o ++ dump_fields o tys r true) rows).
    assert (map (dump_row o tys) rows = map (fun b => b ++ lt o) bodies) as Em.
    { unfold bodies. rewrite map_map. apply map_ext. intros r. unfold dump_row. now rewrite app_assoc. }
    unfold dump. rewrite Em, split_lines_bodies, <- Em.
    - rewrite skipn_map, load_tokens_rows by (apply Forall_skipn; exact H). reflexivity.
    - unfold bodies. apply Forall_map. eapply Forall_impl; [|exact H]. intros r Hr.
      apply Forall_app. split; [exact Hls|]. apply dump_fields_no_lt, Hr.
    - apply Nat.lt_succ_diag_r.
  Qed.

  Theorem load_dump_id_guarded : forall tys rows,
    Forall (fun r => row_ok o tys r = true) rows -> load o tys (dump o tys rows) = Loaded rows.
  Proof. intros tys rows H. unfold load. rewrite (load_ignore_dump_guarded 0 tys rows H). reflexivity. Qed.
End Guarded.

(* the guard stated on strings only *)
(* '-' and the ten digits *)
Definition num_bytes : bytes := [45; 48; 49; 50; 51; 52; 53; 54; 55; 56; 57].
Definition num_safe (o : opts) : bool := forallb (safe o) num_bytes.

Definition val_ok_str (o : opts) (t : colty) (v : val) : bool :=
  match v, t with
  | VNull, _ => true
  | VInt z, TInt => in_int64 z
  | VStr s, TText => forallb (safe o) s && negb (bytes_eq s str_NULL)
  | _, _ => false
  end.
Fixpoint row_ok_str (o : opts) (tys : list colty) (r : list val) : bool :=
  match tys, r with
  | [], [] => true
  | t :: ts, v :: vs => val_ok_str o t v && row_ok_str o ts vs
  | _, _ => false
  end.

Lemma digit_in_num : forall c, is_digit c = true -> In c num_bytes.
Proof.
  intros c H. unfold is_digit in H. rewrite andb_true_iff, !N.leb_le in H.
  assert (c = 48 \/ c = 49 \/ c = 50 \/ c = 51 \/ c = 52 \/ c = 53 \/ c = 54 \/ c = 55 \/ c = 56 \/ c = 57) as D by lia.
  cbn. intuition.
Qed.

Lemma render_Z_num : forall z, Forall (fun c => In c num_bytes) (render_Z z).
Proof.
  assert (forall n, Forall (fun c => In c num_bytes) (render_N n)) as Hn.
  { intros n. eapply Forall_impl; [exact digit_in_num|].
    apply Forall_forall, forallb_forall, to_digits_digits. reflexivity. }
  intros [|p|p]; unfold render_Z; try apply Hn. constructor; [cbn; tauto|apply Hn].
Qed.

Lemma val_ok_of_str : forall o t v, num_safe o = true -> val_ok_str o t v = true -> val_ok o t v = true.
Proof.
  intros o t v Hn H. destruct v as [|z|s|raw]; destruct t; cbn in H |- *; try assumption; try discriminate.
  rewrite H. cbn [andb]. apply forallb_forall. intros c Hin.
  unfold num_safe in Hn. rewrite forallb_forall in Hn. apply Hn.
  pose proof (render_Z_num z) as F. rewrite Forall_forall in F. apply F. exact Hin.
Qed.

Lemma row_ok_of_str : forall o tys r, num_safe o = true -> row_ok_str o tys r = true -> row_ok o tys r = true.
Proof.
  intros o. induction tys as [|t ts IH]; intros [|v vs] Hn H; try discriminate; [reflexivity|].
  cbn [row_ok_str] in H. apply andb_prop in H. destruct H as [Hv Hr].
  cbn [row_ok]. rewrite (val_ok_of_str o t v Hn Hv), (IH vs Hn Hr). reflexivity.
Qed.

Theorem load_dump_id_strings : forall o tys rows,
  wf_opts o = true -> num_safe o = true ->
  Forall (fun r => row_ok_str o tys r = true) rows ->
  load o tys (dump o tys rows) = Loaded rows.
Proof.
  intros o tys rows WF Hn H. apply load_dump_id_guarded; [exact WF|].
  apply Forall_forall. intros r Hin. apply row_ok_of_str; [exact Hn|].
  rewrite Forall_forall in H. apply H. exact Hin.
Qed.

Definition dflt : opts := mkOpts [9] [] false [92] [] [10].      (* tab, no enclosure, backslash, newline *)
Definition csv : opts := mkOpts [44] [34] false [92] [] [10].    (* comma, double quote, backslash, newline *)

Definition roundtrips (o : opts) (tys : list colty) (rows : list (list val)) : Prop :=
  load o tys (dump o tys rows) = Loaded rows.

Ltac refute := unfold roundtrips; vm_compute; discriminate.

(* a TEXT value containing the field terminator (no enclosure) *)
Lemma refuted_field_terminator :
  wf_opts dflt = true /\ row_typed [TText; TText] [VStr [97; 9; 98]; VStr [99]] = true /\
  ~ roundtrips dflt [TText; TText] [[VStr [97; 9; 98]; VStr [99]]].
Proof. split; [reflexivity|split; [reflexivity|refute]]. Qed.

(* a TEXT value containing the enclosure followed by the field terminator *)
Lemma refuted_enclosure :
  wf_opts csv = true /\ row_typed [TText; TText] [VStr [97; 34; 44; 98]; VStr [99]] = true /\
  ~ roundtrips csv [TText; TText] [[VStr [97; 34; 44; 98]; VStr [99]]].
Proof. split; [reflexivity|split; [reflexivity|refute]]. Qed.

(* a TEXT value containing the escape character: a\b comes back as a<BS> *)
Lemma refuted_escape :
  wf_opts dflt = true /\
  load dflt [TText] (dump dflt [TText] [[VStr [97; 92; 98]]]) = Loaded [[VStr [97; 8]]].
Proof. split; reflexivity. Qed.

(* the four-letter string NULL comes back as SQL NULL *)
Lemma refuted_null_string :
  wf_opts dflt = true /\ load dflt [TText] (dump dflt [TText] [[VStr str_NULL]]) = Loaded [[VNull]].
Proof. split; reflexivity. Qed.

(* a line terminator inside a value is escaped by the writer and still splits the line *)
Lemma refuted_line_terminator :
  wf_opts dflt = true /\
  load dflt [TText; TText] (dump dflt [TText; TText] [[VStr [97; 10; 98]; VStr [99]]])
  = Loaded [[VStr [97; 92]; VNull]; [VStr [98]; VStr [99]]].
Proof. split; reflexivity. Qed.

Theorem load_dump_refuted :
  ~ (forall o tys rows, wf_opts o = true -> Forall (fun r => row_typed tys r = true) rows ->
       load o tys (dump o tys rows) = Loaded rows).
Proof.
  intros H. specialize (H dflt [TText] [[VStr str_NULL]] eq_refl).
  assert (Forall (fun r => row_typed [TText] r = true) [[VStr str_NULL]]) as F by (repeat constructor).
  specialize (H F). vm_compute in H. discriminate.
Qed.

(* the clauses of wf_opts are needed: with rows that satisfy the guard, dropping a clause breaks the round trip *)
Definition enc_is_esc : opts := mkOpts [44] [34] false [34] [] [10].   (* ENCLOSED BY and ESCAPED BY both the double quote *)
Lemma wf_needs_enc_neq_esc :
  wf_opts enc_is_esc = false /\ row_ok enc_is_esc [TText; TText] [VNull; VStr [99]] = true /\
  ~ roundtrips enc_is_esc [TText; TText] [[VNull; VStr [99]]].
Proof. split; [reflexivity|split; [reflexivity|refute]]. Qed.

Definition lt_in_ls : opts := mkOpts [44] [] false [92] [62; 10] [10]. (* LINES STARTING BY '>\n' TERMINATED BY '\n' *)
Lemma wf_needs_lt_not_in_prefix :
  wf_opts lt_in_ls = false /\ row_ok lt_in_ls [TText] [VStr [97]] = true /\
  ~ roundtrips lt_in_ls [TText] [[VStr [97]]].
Proof. split; [reflexivity|split; [reflexivity|refute]]. Qed.

Definition empty_lt : opts := mkOpts [44] [] false [92] [] [].        (* LINES TERMINATED BY '' *)
Lemma wf_needs_line_terminator :
  wf_opts empty_lt = false /\ load empty_lt [TText] (dump empty_lt [TText] [[VStr [97]]]) = NoTermination.
Proof. split; reflexivity. Qed.

(* non-vacuity: a mixed table under CSV-like options meets every hypothesis *)
Definition ex_rows : list (list val) :=
  [[VInt (-5)%Z; VStr [97; 32; 98]; VNull]; [VNull; VStr []; VStr [120]]; [VInt 9223372036854775807%Z; VStr [78]; VStr [110; 117; 108; 108]]].
Lemma guarded_nonvacuous :
  wf_opts csv = true /\ num_safe csv = true /\
  forallb (row_ok_str csv [TInt; TText; TText]) ex_rows = true /\
  dump csv [TInt; TText; TText] ex_rows <> [].
Proof. repeat split; try reflexivity. vm_compute. discriminate. Qed.
