(* C27 — proofs about the Convert model of Codec/C27Convert.v *)
From Coq Require Import ZArith Bool List Lia.
Import ListNotations.
From GMS Require Import Codec.C25Arith Codec.C25ArithProofs Codec.C27Convert.
Open Scope Z_scope.

Definition int_src (v : value) (z : Z) : Prop :=
  (v = SI z /\ min_i64 <= z <= max_i64) \/ (v = SU z /\ 0 <= z <= max_u64).

(* integer source into an integer type: exact, or flagged with the nearest value
   (except unsigned underflow, refuted below) *)
Lemma narrow_spec t n out f :
  narrow t n = COk out f ->
  (f = InRange -> out = mk t n /\ in_range t n) /\
  (f = Overflow -> ity_max t < n /\ out = mk t (ity_max t)) /\
  (f = Underflow -> n < ity_min t /\ (unsigned t = false -> out = mk t (ity_min t))).
Proof.
  unfold narrow. intros E.
  destruct (Z.gtb_spec n (ity_max t)) as [C|C].
  - injection E as <- <-. (split; [|split]); intros F; try discriminate F. split; [lia|reflexivity].
  - destruct (Z.ltb_spec n (ity_min t)) as [C2|C2].
    + destruct (unsigned t) eqn:U; injection E as <- <-; (split; [|split]); intros F; try discriminate F;
        (split; [lia|intros D; first [discriminate D | unfold mk; rewrite U; reflexivity]]).
    + injection E as <- <-. (split; [|split]); intros F; try discriminate F.
      split; [reflexivity|unfold in_range; lia].
Qed.

(* the int64 image convertToInt64 hands to the range check, for integer sources *)
Lemma to_i64_signed z : to_i64 (SI z) = (z, InRange).
Proof. reflexivity. Qed.

Lemma to_i64_unsigned z :
  (z <= max_i64 -> to_i64 (SU z) = (z, InRange)) /\ (max_i64 < z -> to_i64 (SU z) = (max_i64, Overflow)).
Proof.
  unfold to_i64. destruct (z >? max_i64) eqn:G; split; intros H; try reflexivity;
    [apply Z.gtb_lt in G; lia | rewrite Z.gtb_ltb in G; apply Z.ltb_ge in G; lia].
Qed.

Lemma conv_narrow t v : t <> I64 -> t <> U64 -> conv_int t v = narrow t (fst (to_i64 v)).
Proof. intros H1 H2. destruct t; try reflexivity; contradiction. Qed.

Lemma conv_i64_signed z : conv_int I64 (SI z) = COk (SI z) InRange.
Proof. reflexivity. Qed.

Lemma conv_i64_unsigned z :
  (z <= max_i64 -> conv_int I64 (SU z) = COk (SI z) InRange) /\
  (max_i64 < z -> conv_int I64 (SU z) = COk (SI max_i64) Overflow).
Proof.
  destruct (to_i64_unsigned z) as [A B]. unfold conv_int. split; intros H; [rewrite (A H)|rewrite (B H)]; reflexivity.
Qed.

Lemma conv_u64_signed z :
  (0 <= z -> conv_int U64 (SI z) = COk (SU z) InRange) /\
  (z < 0 -> conv_int U64 (SI z) = COk (SU (two64 + z)) Underflow).
Proof.
  unfold conv_int, to_u64. destruct (z <? 0) eqn:L; split; intros H; try reflexivity;
    [apply Z.ltb_lt in L; lia | apply Z.ltb_ge in L; lia].
Qed.

Lemma conv_u64_unsigned z : conv_int U64 (SU z) = COk (SU z) InRange.
Proof. reflexivity. Qed.

Theorem representable_is_fixpoint_narrow t z :
  t <> I64 -> t <> U64 -> in_range t z -> conv_int t (mk t z) = COk (mk t z) InRange.
Proof.
  intros H1 H2 R. rewrite conv_narrow by assumption.
  assert (N : fst (to_i64 (mk t z)) = z).
  { unfold mk. destruct (unsigned t) eqn:U; [|reflexivity].
    destruct (to_i64_unsigned z) as [A _]. rewrite A; [reflexivity|].
    unfold in_range in R. destruct t; try discriminate U; try contradiction; unfold ity_max, max_i64 in *; lia. }
  rewrite N. unfold narrow, in_range in *.
  destruct (z >? ity_max t) eqn:G; [apply Z.gtb_lt in G; lia|].
  destruct (z <? ity_min t) eqn:L; [apply Z.ltb_lt in L; lia|]. reflexivity.
Qed.

(* unsigned underflow is flagged but the value is wrapped, not the nearest (0); for MEDIUMINT UNSIGNED it can
   even leave the type's range (2^24) *)
Lemma unsigned_underflow_wraps :
  conv_int U8 (SI (-1)) = COk (SU 255) Underflow /\
  conv_int U64 (SI (-1)) = COk (SU 18446744073709551615) Underflow /\
  conv_int U24 (SD (-184467440737095516175) 1) = COk (SU 16777216) Underflow /\ ~ in_range U24 16777216.
Proof. repeat split; try (vm_compute; reflexivity). unfold in_range. cbn. lia. Qed.

(* a Go uint above MaxInt64 is converted with int64(v): a different value, flagged InRange *)
Lemma gouint_silently_altered :
  conv_int I64 (SW 18446744073709551615) = COk (SI (-1)) InRange /\
  conv_int I24 (SW 18446744073709551615) = COk (SI (-1)) InRange.
Proof. split; vm_compute; reflexivity. Qed.

(* decimal sources into narrow integer types: in range means rounded half away from zero *)
Theorem decimal_source_in_range_is_rounded t m s out :
  t <> I64 -> t <> U64 -> min_i64 * 10 ^ s <= m <= max_i64 * 10 ^ s ->
  conv_int t (SD m s) = COk out InRange -> out = mk t (round_to m s 0) /\ in_range t (round_to m s 0).
Proof.
  intros H1 H2 B E. rewrite conv_narrow in E by assumption.
  assert (N : fst (to_i64 (SD m s)) = round_to m s 0).
  { unfold to_i64. destruct (m >? max_i64 * 10 ^ s) eqn:G; [apply Z.gtb_lt in G; lia|].
    destruct (m <? min_i64 * 10 ^ s) eqn:L; [apply Z.ltb_lt in L; lia|]. reflexivity. }
  rewrite N in E. destruct (narrow_spec _ _ _ _ E) as [A _]. exact (A eq_refl).
Qed.

Lemma round_to_same m s : round_to m s s = m.
Proof. unfold round_to. rewrite Z.leb_refl, Z.sub_diag. cbn. lia. Qed.

Lemma round_to_pad m s0 s : s0 <= s -> round_to m s0 s = m * 10 ^ (s - s0).
Proof. intros H. unfold round_to. destruct (Z.leb_spec s0 s); [reflexivity|lia]. Qed.

Lemma round_to_nearest m s0 s : s < s0 -> 2 * Z.abs (round_to m s0 s * 10 ^ (s0 - s) - m) <= 10 ^ (s0 - s).
Proof.
  intros H. unfold round_to. destruct (Z.leb_spec s0 s); [lia|]. rewrite (pow10_even (s0 - s)) by lia.
  apply rha_nearest_even. pose proof (pow10_pos (s0 - s - 1)). lia.
Qed.

(* what a successful conversion stores: within the bound, and either the source quantized to the type's scale, or
   the source itself when its scale fits and no quantization is asked for *)
Lemma conv_dec_ok p s col v out f : conv_dec p s col v = COk out f ->
  let '(m0, s0) := to_dec v in
  f = InRange /\ exists m2 s2, out = SD m2 s2 /\ Z.abs m2 < 10 ^ (p - s + s2) /\
    ((m2 = round_to m0 s0 s /\ s2 = s) \/
     (m2 = m0 /\ s2 = s0 /\ s0 <= s /\ col && negb ((s0 =? 0) && (s =? 0)) = false)).
Proof.
  unfold conv_dec. destruct (to_dec v) as [m0 s0].
  assert (G : forall m2 s2, (if Z.abs m2 >=? 10 ^ (p - s + s2) then CErr else COk (SD m2 s2) InRange) = COk out f ->
              f = InRange /\ out = SD m2 s2 /\ Z.abs m2 < 10 ^ (p - s + s2)).
  { intros m2 s2. destruct (Z.geb_spec (Z.abs m2) (10 ^ (p - s + s2))); [discriminate|]. intros [= <- <-]. auto. }
  destruct (col && negb ((s0 =? 0) && (s =? 0))); cbv zeta beta iota.
  - rewrite Z.gtb_ltb, Z.ltb_irrefl. intros H. apply G in H as (-> & -> & B).
    split; [reflexivity|]. exists (round_to m0 s0 s), s. tauto.
  - destruct (Z.gtb_spec s0 s) as [L|L]; intros H; apply G in H as (-> & -> & B); (split; [reflexivity|]).
    + exists (round_to m0 s0 s), s. tauto.
    + exists m0, s0. tauto.
Qed.

(* never clamps: the outcome is the (possibly rounded) value in range, or an error *)
Theorem conv_dec_never_flags p s col v out f : conv_dec p s col v = COk out f -> f = InRange.
Proof. intros H. apply conv_dec_ok in H. destruct (to_dec v). apply H. Qed.

(* the stored value keeps the source value exactly when the source has no more fraction digits than the type *)
Theorem conv_dec_exact_when_scale_fits p s col v m2 s2 f :
  0 <= snd (to_dec v) <= s -> conv_dec p s col v = COk (SD m2 s2) f ->
  m2 * 10 ^ snd (to_dec v) = fst (to_dec v) * 10 ^ s2 /\ snd (to_dec v) <= s2 <= s /\ Z.abs m2 < 10 ^ (p - s + s2).
Proof.
  intros Hs H. apply conv_dec_ok in H. destruct (to_dec v) as [m0 s0]. cbn [fst snd] in *.
  destruct H as (_ & ? & ? & [= <- <-] & B & [[-> ->]|(-> & -> & _)]); (split; [|split; [lia|exact B]]); [|reflexivity].
  rewrite round_to_pad, <- Z.mul_assoc, <- Z.pow_add_r by lia. do 2 f_equal. lia.
Qed.

(* with more fraction digits than the type has, the value is rounded to scale s, to a nearest value
   (the documented exception: no warning is produced) *)
Theorem conv_dec_rounds_to_nearest p s col m0 s0 m2 s2 f :
  0 <= s < s0 -> conv_dec p s col (SD m0 s0) = COk (SD m2 s2) f ->
  s2 = s /\ 2 * Z.abs (m2 * 10 ^ (s0 - s) - m0) <= 10 ^ (s0 - s).
Proof.
  intros Hs H. apply conv_dec_ok in H. cbn [to_dec] in H.
  destruct H as (_ & ? & ? & [= <- <-] & _ & [[-> ->]|(_ & _ & L & _)]); [|lia].
  split; [reflexivity|apply round_to_nearest; lia].
Qed.

(* out of range is an error, never a stored clamp *)
Theorem conv_dec_out_of_range_is_error p s col v :
  conv_dec p s col v = CErr <->
  (let '(m0, s0) := to_dec v in
   let '(m1, s1) := if col && negb ((s0 =? 0) && (s =? 0)) then (round_to m0 s0 s, s) else (m0, s0) in
   let '(m2, s2) := if s1 >? s then (round_to m1 s1 s, s) else (m1, s1) in
   10 ^ (p - s + s2) <= Z.abs m2).
Proof.
  unfold conv_dec. destruct (to_dec v) as [m0 s0]. destruct (if col && _ then _ else _) as [m1 s1].
  destruct (if s1 >? s then _ else _) as [m2 s2]. destruct (Z.geb_spec (Z.abs m2) (10 ^ (p - s + s2)));
    split; intros; try discriminate; try lia; reflexivity.
Qed.

Theorem conv_dec_idempotent p s col v m2 s2 f :
  0 <= s -> 0 <= snd (to_dec v) -> conv_dec p s col v = COk (SD m2 s2) f ->
  conv_dec p s col (SD m2 s2) = COk (SD m2 s2) InRange.
Proof.
  intros _ _ H. apply conv_dec_ok in H. destruct (to_dec v) as [m0 s0].
  destruct H as (_ & ? & ? & [= <- <-] & B & C). unfold conv_dec, to_dec.
  assert (E : (if col && negb ((s2 =? 0) && (s =? 0)) then (round_to m2 s2 s, s) else (m2, s2)) = (m2, s2) /\ s2 <= s).
  { destruct C as [[_ ->]|(_ & -> & L & ->)]; [|auto]. rewrite round_to_same. destruct (_ && _); split; (reflexivity || lia). }
  destruct E as [-> L]. destruct (Z.gtb_spec s2 s); [lia|].
  destruct (Z.geb_spec (Z.abs m2) (10 ^ (p - s + s2))); [lia|reflexivity].
Qed.

Lemma nonvacuous_converts :
  conv_int I8 (SI 127) = COk (SI 127) InRange /\
  conv_int I8 (SI 128) = COk (SI 127) Overflow /\
  conv_int I8 (SU 18446744073709551615) = COk (SI 127) Overflow /\
  conv_int I16 (SI (-32769)) = COk (SI (-32768)) Underflow /\
  conv_int I32 (SD 21474836474 1) = COk (SI 2147483647) InRange /\
  conv_int I32 (SD 21474836475 1) = COk (SI 2147483647) Overflow /\
  conv_dec 10 2 true (SD 1005 3) = COk (SD 101 2) InRange /\
  conv_dec 5 0 true (SI 100000) = CErr /\
  conv_dec 10 2 false (SD 15 1) = COk (SD 15 1) InRange.
Proof. repeat split; vm_compute; reflexivity. Qed.
