(* C52 — proofs about the WKB codec model (Codec/Wkb.v). *)
From Coq Require Import List NArith ZArith Arith Bool Lia.
Import ListNotations.
From GMS Require Import Base.ListFacts Codec.Wkb.
Open Scope N_scope.

Lemma le_bytes_length k n : length (le_bytes k n) = k.
Proof. revert n. induction k as [|k IH]; intros n; cbn [le_bytes length]; [reflexivity|]. now rewrite IH. Qed.

Lemma le_val_le_bytes k : forall n, n < 256 ^ N.of_nat k -> le_val (le_bytes k n) = n.
Proof.
  induction k as [|k IH]; intros n Hn.
  - cbn in *. lia.
  - cbn [le_bytes le_val].
    rewrite Nat2N.inj_succ, N.pow_succ_r' in Hn.
    rewrite IH.
    + pose proof (N.div_mod n 256 ltac:(lia)) as E. lia.
    + apply N.div_lt_upper_bound; lia.
Qed.

Lemma enc_length big k n : length (enc big k n) = k.
Proof. unfold enc. destruct big; [rewrite rev_length|]; apply le_bytes_length. Qed.

Lemma dec_enc big k n : n < 256 ^ N.of_nat k -> dec big (enc big k n) = n.
Proof.
  intros H. unfold dec, enc. destruct big; [rewrite rev_involutive|]; now apply le_val_le_bytes.
Qed.

Lemma firstn_exact {A} (a b : list A) k : length a = k -> firstn k (a ++ b) = a.
Proof. intros <-. apply firstn_app_length. Qed.

Lemma skipn_exact {A} (a b : list A) k : length a = k -> skipn k (a ++ b) = b.
Proof. intros <-. apply skipn_app_length. Qed.

Lemma skipn_plus {A} (a b : list A) k j : length a = k -> skipn (k + j) (a ++ b) = skipn j b.
Proof. intros H. rewrite <- skipn_skipn, (skipn_exact a b k H). reflexivity. Qed.

Lemma p32 : 256 ^ N.of_nat 4 = 2 ^ 32. Proof. reflexivity. Qed.
Lemma p64 : 256 ^ N.of_nat 8 = 2 ^ 64. Proof. reflexivity. Qed.

Lemma u32_enc big n x : n < 2 ^ 32 -> u32 big (enc big 4 n ++ x) = n.
Proof.
  intros H. unfold u32. rewrite firstn_exact by apply enc_length. apply dec_enc. now rewrite p32.
Qed.

Definition wf_pt (p : pt) : Prop := px p < 2 ^ 64 /\ py p < 2 ^ 64.
Definition wf_line (l : list pt) : Prop := (2 <= length l)%nat /\ len l < 2 ^ 32 /\ Forall wf_pt l.
Definition wf_ring (l : list pt) : Prop := (4 <= length l)%nat /\ len l < 2 ^ 32 /\ Forall wf_pt l.
Definition wf_poly (rs : list (list pt)) : Prop := rs <> [] /\ len rs < 2 ^ 32 /\ Forall wf_ring rs.

Fixpoint wf (s : shape) : Prop :=
  match s with
  | SPoint p => wf_pt p
  | SLine l => wf_line l
  | SPoly rs => wf_poly rs
  | SMPoint ps => ps <> [] /\ len ps < 2 ^ 32 /\ Forall wf_pt ps
  | SMLine ls => ls <> [] /\ len ls < 2 ^ 32 /\ Forall wf_line ls
  | SMPoly ps => ps <> [] /\ len ps < 2 ^ 32 /\ Forall wf_poly ps
  | SColl gs => len gs < 2 ^ 32 /\ (fix all (l : list shape) : Prop :=
                                      match l with [] => True | g :: r => wf g /\ all r end) gs
  end.

Lemma wf_coll_forall gs :
  (fix all (l : list shape) : Prop := match l with [] => True | g :: r => wf g /\ all r end) gs <-> Forall wf gs.
Proof.
  induction gs as [|g gs IH]; split; intros H.
  - constructor.
  - exact I.
  - destruct H as [H1 H2]. constructor; [exact H1|now apply IH].
  - inversion H; subst. split; [assumption|now apply IH].
Qed.

Fixpoint depth (s : shape) : nat :=
  match s with
  | SColl gs => S (fold_right (fun g a => Nat.max (depth g) a) 0%nat gs)
  | _ => 0%nat
  end.

(* induction principle with Forall for the nested list *)
Section ShapeInd.
  Variable P : shape -> Prop.
  Hypothesis Hpoint : forall p, P (SPoint p).
  Hypothesis Hline : forall l, P (SLine l).
  Hypothesis Hpoly : forall r, P (SPoly r).
  Hypothesis Hmpoint : forall l, P (SMPoint l).
  Hypothesis Hmline : forall l, P (SMLine l).
  Hypothesis Hmpoly : forall l, P (SMPoly l).
  Hypothesis Hcoll : forall gs, Forall P gs -> P (SColl gs).
  Fixpoint shape_ind2 (s : shape) : P s :=
    match s with
    | SPoint p => Hpoint p
    | SLine l => Hline l
    | SPoly r => Hpoly r
    | SMPoint l => Hmpoint l
    | SMLine l => Hmline l
    | SMPoly l => Hmpoly l
    | SColl gs => Hcoll gs ((fix go (l : list shape) : Forall P l :=
                               match l with
                               | [] => Forall_nil P
                               | x :: r => Forall_cons x (shape_ind2 x) (go r)
                               end) gs)
    end.
End ShapeInd.

Lemma w_pt_length big p : length (w_pt big p) = 16%nat.
Proof. unfold w_pt. now rewrite app_length, !enc_length. Qed.

Lemma w_hdr_length big t : length (w_hdr big t) = 5%nat.
Proof. unfold w_hdr. cbn [length]. now rewrite enc_length. Qed.

Lemma flat_map_length_const {A} (w : A -> list N) c l :
  (forall a, In a l -> length (w a) = c) -> length (flat_map w l) = (c * length l)%nat.
Proof.
  induction l as [|a l IH]; intros H; cbn [flat_map length]; [lia|].
  rewrite app_length, H by (left; reflexivity). rewrite IH by (intros; apply H; now right). lia.
Qed.

Lemma flat_map_length_ge {A} (w : A -> list N) c l :
  (forall a, In a l -> (c <= length (w a))%nat) -> (c * length l <= length (flat_map w l))%nat.
Proof.
  induction l as [|a l IH]; intros H; cbn [flat_map length]; [lia|].
  rewrite app_length. specialize (H a (or_introl eq_refl)) as Ha.
  specialize (IH (fun x Hx => H x (or_intror Hx))). lia.
Qed.

Lemma w_line_length big l : length (w_line big l) = (4 + 16 * length l)%nat.
Proof.
  unfold w_line. rewrite app_length, enc_length.
  rewrite (flat_map_length_const _ 16%nat) by (intros; apply w_pt_length). lia.
Qed.

Lemma w_poly_length_ge big rs : Forall wf_ring rs -> (4 + 68 * length rs <= length (w_poly big rs))%nat.
Proof.
  intros Hr. unfold w_poly. rewrite app_length, enc_length. apply Nat.add_le_mono_l, flat_map_length_ge.
  intros a Ha. rewrite Forall_forall in Hr. destruct (Hr a Ha) as (H4 & _). rewrite w_line_length. lia.
Qed.

Lemma rd_point_ok big p : wf_pt p -> rd_point big (w_pt big p) = Ok p.
Proof.
  intros [Hx Hy]. unfold rd_point. rewrite w_pt_length. cbn [Nat.eqb]. unfold w_pt.
  rewrite firstn_exact, skipn_exact by apply enc_length.
  rewrite !dec_enc by (now rewrite p64). destruct p; reflexivity.
Qed.

Lemma rd_point_slice_ok big p rest :
  wf_pt p -> rd_point_slice big (w_pt big p ++ rest) = Ok (p, rest).
Proof.
  intros Hp. unfold rd_point_slice, split_at.
  rewrite app_length, w_pt_length. cbn [Nat.leb plus].
  rewrite firstn_exact, skipn_exact by apply w_pt_length. rewrite rd_point_ok by exact Hp. reflexivity.
Qed.

Lemma len_cons {A} (a : A) l : len (a :: l) - 1 = len l.
Proof. unfold len. cbn [length]. lia. Qed.

Lemma len_cons_nz {A} (a : A) l : (len (a :: l) =? 0) = false.
Proof. unfold len. cbn [length]. apply N.eqb_neq. lia. Qed.

Lemma rd_seq_ok {A} (step : list N -> res (A * list N)) (w : A -> list N) o :
  forall l rest fuel,
    (forall a r, In a l -> step (w a ++ r) = Ok (a, r)) -> (length l <= fuel)%nat ->
    rd_seq step o fuel (len l) (flat_map w l ++ rest) = Ok (l, rest).
Proof.
  induction l as [|a l IH]; intros rest fuel Hs Hf.
  - destruct fuel; reflexivity.
  - destruct fuel as [|f]; [cbn in Hf; lia|].
    cbn [rd_seq]. rewrite len_cons_nz. cbn [flat_map]. rewrite <- app_assoc.
    rewrite Hs by (left; reflexivity). cbn [bind]. rewrite len_cons.
    rewrite IH; [reflexivity| intros; apply Hs; now right | cbn in Hf; lia].
Qed.

(* the common shape of DeserializeLine/Poly/MPoint/MLine/MPoly/GeomColl: a minimum-length test K, a 32-bit count,
   then that many elements; every element takes at least c >= 1 bytes, so the buffer length is enough fuel *)
Lemma rd_counted_ok {A} (step : list N -> res (A * list N)) (w : A -> list N) o big l rest K c buf :
  buf = (enc big 4 (len l) ++ flat_map w l) ++ rest ->
  len l < 2 ^ 32 -> (forall a r, In a l -> step (w a ++ r) = Ok (a, r)) ->
  (forall a, In a l -> (c <= length (w a))%nat) -> (1 <= c)%nat -> (K <= 4 + c * length l)%nat ->
  (if (length buf <? K)%nat then Err else rd_seq step o (length buf) (u32 big buf) (skipn 4 buf)) = Ok (l, rest).
Proof.
  intros Hbuf H32 Hs Hc Hc1 HK. pose proof (flat_map_length_ge w c l Hc) as HG.
  assert (Hlen : (4 + c * length l <= length buf)%nat) by (rewrite Hbuf, !app_length, enc_length; lia).
  rewrite (proj2 (Nat.ltb_ge _ _)) by lia. revert Hlen. generalize (length buf) as fuel. intros fuel Hlen.
  rewrite Hbuf, <- app_assoc, u32_enc, skipn_exact by (assumption || apply enc_length).
  apply rd_seq_ok; [exact Hs|nia].
Qed.

(* DeserializeGeomColl applies its constructor inside the length test *)
Lemma rmap_if {A B} (f : A -> B) (c : bool) x : (if c then Err else rmap f x) = rmap f (if c then Err else x).
Proof. destruct c; reflexivity. Qed.

Lemma nonempty_len {A} (l : list A) : l <> [] -> (1 <= length l)%nat.
Proof. destruct l; [congruence|cbn; lia]. Qed.

Lemma rd_line_ok big l rest :
  wf_line l -> rd_line big (w_line big l ++ rest) = Ok (l, rest).
Proof.
  intros (H2 & H32 & Hp). rewrite Forall_forall in Hp.
  apply (rd_counted_ok _ (w_pt big) _ big l rest 36 16 _ eq_refl); [exact H32| | |lia|lia].
  - intros a r Ha. apply rd_point_slice_ok, Hp, Ha.
  - intros a _. rewrite w_pt_length. lia.
Qed.

Lemma wf_ring_line l : wf_ring l -> wf_line l.
Proof. intros (H & H1 & H2). repeat split; try assumption. lia. Qed.

Lemma rd_poly_ok big rs rest :
  wf_poly rs -> rd_poly big (w_poly big rs ++ rest) = Ok (rs, rest).
Proof.
  intros (Hne%nonempty_len & H32 & Hr). rewrite Forall_forall in Hr.
  apply (rd_counted_ok _ (w_line big) _ big rs rest 72 68 _ eq_refl); [exact H32| | |lia|lia].
  - intros a r Ha. apply rd_line_ok, wf_ring_line, Hr, Ha.
  - intros a Ha. destruct (Hr a Ha) as (H4 & _). rewrite w_line_length. lia.
Qed.

Lemma rd_hdr_ok big t x : t < 2 ^ 32 -> rd_hdr (w_hdr big t ++ x) = Some (big, t, x).
Proof.
  intros Ht. unfold rd_hdr. rewrite (proj2 (Nat.ltb_ge _ _)) by (rewrite app_length, w_hdr_length; lia).
  unfold w_hdr. cbn [app nth]. rewrite !skipn_cons, skipn_O.
  assert ((if big then 0 else 1) =? 0 = big) as -> by (destruct big; reflexivity).
  rewrite firstn_exact by apply enc_length. rewrite dec_enc by (now rewrite p32).
  rewrite skipn_exact by apply enc_length. reflexivity.
Qed.

Lemma with_hdr_ok {A} big t (f : bool -> list N -> res (A * list N)) (w : A -> list N) a r :
  t < 2 ^ 32 -> f big (w a ++ r) = Ok (a, r) ->
  with_hdr t f ((w_hdr big t ++ w a) ++ r) = Ok (a, r).
Proof.
  intros Ht Hf. unfold with_hdr. rewrite <- app_assoc, rd_hdr_ok by assumption.
  rewrite N.eqb_refl. exact Hf.
Qed.

Lemma depth_fold_le g gs :
  In g gs -> (depth g <= fold_right (fun g a => Nat.max (depth g) a) 0%nat gs)%nat.
Proof.
  induction gs as [|x gs IH]; intros H; [destruct H|].
  cbn [fold_right]. destruct H as [->|H]; [lia|]. specialize (IH H). lia.
Qed.

Lemma type_code_lt s : type_code s < 2 ^ 32.
Proof. destruct s; cbn; lia. Qed.

Theorem rd_by_type_ok : forall s, wf s -> forall big fuel rest, (depth s < fuel)%nat ->
  rd_by_type fuel big (type_code s) (w_shape big s ++ rest) = Ok (s, rest).
Proof.
  induction s as [p|l|rs|ps|ls|ps|gs IH] using shape_ind2; intros Hwf big fuel rest Hd;
    (destruct fuel as [|f]; [lia|]); cbn [type_code rd_by_type w_shape].
  - rewrite rd_point_slice_ok by exact Hwf. reflexivity.
  - rewrite rd_line_ok by exact Hwf. reflexivity.
  - rewrite rd_poly_ok by exact Hwf. reflexivity.
  - destruct Hwf as (Hne%nonempty_len & H32 & Hp). rewrite Forall_forall in Hp. unfold rd_mpoint.
    rewrite (rd_counted_ok _ (fun p => w_hdr big 1 ++ w_pt big p) _ big ps rest 25 21 _ eq_refl);
      [reflexivity|exact H32| | |lia|lia].
    + intros a r Ha. apply (with_hdr_ok big 1 rd_point_slice (w_pt big)); [lia|]. apply rd_point_slice_ok, Hp, Ha.
    + intros a _. rewrite app_length, w_hdr_length, w_pt_length. lia.
  - destruct Hwf as (Hne%nonempty_len & H32 & Hp). rewrite Forall_forall in Hp. unfold rd_mline.
    rewrite (rd_counted_ok _ (fun l => w_hdr big 2 ++ w_line big l) _ big ls rest 45 41 _ eq_refl);
      [reflexivity|exact H32| | |lia|lia].
    + intros a r Ha. apply (with_hdr_ok big 2 rd_line (w_line big)); [lia|]. apply rd_line_ok, Hp, Ha.
    + intros a Ha. destruct (Hp a Ha) as (H2 & _). rewrite app_length, w_hdr_length, w_line_length. lia.
  - destruct Hwf as (Hne%nonempty_len & H32 & Hp). rewrite Forall_forall in Hp. unfold rd_mpoly.
    rewrite (rd_counted_ok _ (fun p => w_hdr big 3 ++ w_poly big p) _ big ps rest 81 77 _ eq_refl);
      [reflexivity|exact H32| | |lia|lia].
    + intros a r Ha. apply (with_hdr_ok big 3 rd_poly (w_poly big)); [lia|]. apply rd_poly_ok, Hp, Ha.
    + intros a Ha. destruct (Hp a Ha) as (Hne'%nonempty_len & _ & Hr).
      pose proof (w_poly_length_ge big a Hr). rewrite app_length, w_hdr_length. lia.
  - destruct Hwf as (H32 & Hall%wf_coll_forall). rewrite Forall_forall in IH, Hall.
    rewrite rmap_if, (rd_counted_ok _ (fun g => w_hdr big (type_code g) ++ w_shape big g) _ big gs rest 4 5 _ eq_refl);
      [reflexivity|exact H32| | |lia|lia].
    + intros a r Ha. rewrite <- app_assoc, rd_hdr_ok by apply type_code_lt.
      apply IH; [exact Ha|apply Hall, Ha|]. cbn [depth] in Hd. pose proof (depth_fold_le a gs Ha). lia.
    + intros a _. rewrite app_length, w_hdr_length. lia.
Qed.

Lemma depth_le_length big s : (depth s <= length (w_shape big s))%nat.
Proof.
  induction s as [p|l|rs|ps|ls|ps|gs IH] using shape_ind2; cbn [depth]; try lia.
  cbn [w_shape]. rewrite app_length, enc_length.
  induction gs as [|g gs IHg]; cbn [fold_right flat_map length]; [lia|].
  inversion IH as [|? ? Hg Hgs]; subst. specialize (IHg Hgs).
  rewrite !app_length, w_hdr_length. lia.
Qed.

Theorem rd_top_ok big s : wf s -> rd_top big (type_code s) (w_shape big s) = Ok s.
Proof.
  intros Hwf. unfold rd_top. destruct (type_code s =? 1) eqn:E.
  - destruct s; try discriminate E. cbn [w_shape]. rewrite rd_point_ok by exact Hwf. reflexivity.
  - pose proof (rd_by_type_ok s Hwf big (S (length (w_shape big s))) []) as H.
    rewrite app_nil_r in H. rewrite H; [reflexivity|]. pose proof (depth_le_length big s). lia.
Qed.

(* the internal form: GeometryType.Convert(Serialize(g)) = g *)
Theorem deserialize_serialize g : fst g < 2 ^ 32 -> wf (snd g) -> deserialize (serialize g) = Ok g.
Proof.
  destruct g as [srid s]. cbn [fst snd]. intros Hs Hwf. unfold deserialize, serialize. cbn [fst snd].
  rewrite (proj2 (Nat.ltb_ge _ _)) by (rewrite !app_length, enc_length, w_hdr_length; lia).
  rewrite firstn_exact by apply enc_length. rewrite dec_enc by (now rewrite p32).
  assert (nth 4 (enc false 4 srid ++ w_hdr false (type_code s) ++ w_shape false s) 0 = 1) as ->.
  { rewrite app_nth2 by (rewrite enc_length; lia). rewrite enc_length. reflexivity. }
  cbn [N.eqb].
  replace (skipn 5 (enc false 4 srid ++ w_hdr false (type_code s) ++ w_shape false s))
    with (enc false 4 (type_code s) ++ w_shape false s).
  2:{ change 5%nat with (4 + 1)%nat. rewrite skipn_plus by apply enc_length. reflexivity. }
  rewrite firstn_exact by apply enc_length. rewrite dec_enc by (rewrite p32; apply type_code_lt).
  replace (skipn 9 (enc false 4 srid ++ w_hdr false (type_code s) ++ w_shape false s)) with (w_shape false s).
  2:{ change 9%nat with (4 + 5)%nat. rewrite skipn_plus by apply enc_length.
      rewrite skipn_exact by apply w_hdr_length. reflexivity. }
  rewrite rd_top_ok by assumption. reflexivity.
Qed.

Lemma swap_pt_invol p : swap_pt (swap_pt p) = p.
Proof. destruct p; reflexivity. Qed.

Lemma map_invol {A} (f : A -> A) : (forall a, f (f a) = a) -> forall l, map f (map f l) = l.
Proof. intros H l. rewrite map_map. rewrite <- (map_id l) at 2. apply map_ext. exact H. Qed.

Lemma swap_invol s : swap (swap s) = s.
Proof.
  induction s as [p|l|rs|ps|ls|ps|gs IH] using shape_ind2; cbn [swap]; f_equal;
    try apply swap_pt_invol; try (repeat apply map_invol; apply swap_pt_invol).
  rewrite map_map. rewrite <- (map_id gs) at 2. apply map_ext_in. rewrite Forall_forall in IH. exact IH.
Qed.

Lemma type_code_swap s : type_code (swap s) = type_code s.
Proof. destruct s; reflexivity. Qed.

Lemma wf_pt_swap p : wf_pt p -> wf_pt (swap_pt p).
Proof. intros [H1 H2]. split; assumption. Qed.

Lemma len_map {A B} (f : A -> B) l : len (map f l) = len l.
Proof. unfold len. now rewrite map_length. Qed.

Lemma map_nonempty {A B} (f : A -> B) l : l <> [] -> map f l <> [].
Proof. destruct l; [congruence|discriminate]. Qed.

Lemma count_Forall_map {A} (P : A -> Prop) f l : (forall a, P a -> P (f a)) ->
  len l < 2 ^ 32 /\ Forall P l -> len (map f l) < 2 ^ 32 /\ Forall P (map f l).
Proof. intros Hf [H1 H2]. rewrite len_map. split; [exact H1|]. clear H1. induction H2; cbn; constructor; auto. Qed.

Lemma wf_line_swap l : wf_line l -> wf_line (map swap_pt l).
Proof. intros (H1 & H). split; [now rewrite map_length|]. exact (count_Forall_map _ _ _ wf_pt_swap H). Qed.

Lemma wf_ring_swap l : wf_ring l -> wf_ring (map swap_pt l).
Proof. intros (H1 & H). split; [now rewrite map_length|]. exact (count_Forall_map _ _ _ wf_pt_swap H). Qed.

Lemma wf_poly_swap rs : wf_poly rs -> wf_poly (map (map swap_pt) rs).
Proof. intros (H1 & H). split; [now apply map_nonempty|]. exact (count_Forall_map _ _ _ wf_ring_swap H). Qed.

Lemma wf_swap s : wf s -> wf (swap s).
Proof.
  induction s as [p|l|rs|ps|ls|ps|gs IH] using shape_ind2; cbn [wf swap].
  - apply wf_pt_swap.
  - apply wf_line_swap.
  - apply wf_poly_swap.
  - intros (H1 & H). split; [now apply map_nonempty|]. exact (count_Forall_map _ _ _ wf_pt_swap H).
  - intros (H1 & H). split; [now apply map_nonempty|]. exact (count_Forall_map _ _ _ wf_line_swap H).
  - intros (H1 & H). split; [now apply map_nonempty|]. exact (count_Forall_map _ _ _ wf_poly_swap H).
  - rewrite !wf_coll_forall, len_map. intros (H1 & H2). split; [exact H1|].
    rewrite Forall_forall in *. intros g' (g & <- & Hg)%in_map_iff. exact (IH g Hg (H2 g Hg)).
Qed.

(* SQL level: ST_GeomFromWKB(ST_AsWKB(g), SRID(g)) = g, including the axis swap of SRID 4326 *)
Theorem geom_from_wkb_as_wkb g : wf (snd g) -> geom_from_wkb (as_wkb g) (fst g) = Ok g.
Proof.
  destruct g as [srid s]. cbn [fst snd]. intros Hwf. unfold geom_from_wkb, as_wkb. cbn [fst snd].
  rewrite rd_hdr_ok by apply type_code_lt.
  destruct (srid =? geo_srid).
  - rewrite rd_top_ok by now apply wf_swap. cbn [bind]. now rewrite swap_invol.
  - rewrite rd_top_ok by assumption. reflexivity.
Qed.

(* reading accepts both byte orders: a big-endian encoding of the same value is read back to it *)
Theorem geom_from_wkb_any_order big srid s :
  wf s -> srid <> geo_srid ->
  geom_from_wkb (w_hdr big (type_code s) ++ w_shape big s) srid = Ok (srid, s).
Proof.
  intros Hwf Hs. unfold geom_from_wkb. rewrite rd_hdr_ok by apply type_code_lt.
  rewrite rd_top_ok by assumption. cbn [bind]. apply N.eqb_neq in Hs. now rewrite Hs.
Qed.

(* Serialize allocates exactly the bytes WriteData fills *)
Lemma npoints_rings_length big rs :
  length (flat_map (w_line big) rs) = (16 * npoints_rings rs + 4 * length rs)%nat.
Proof.
  induction rs as [|r rs IH]; cbn [flat_map npoints_rings fold_right length]; [reflexivity|].
  rewrite app_length, w_line_length. fold (npoints_rings rs). lia.
Qed.

Theorem alloc_size_exact big s : length (w_shape big s) = alloc_size s.
Proof.
  unfold alloc_size.
  induction s as [p|l|rs|ps|ls|ps|gs IH] using shape_ind2; cbn [w_shape calc_size].
  - rewrite w_pt_length. reflexivity.
  - rewrite w_line_length. lia.
  - unfold w_poly. rewrite app_length, enc_length, npoints_rings_length. lia.
  - rewrite app_length, enc_length.
    rewrite (flat_map_length_const _ 21%nat)
      by (intros; now rewrite app_length, w_hdr_length, w_pt_length). lia.
  - rewrite app_length, enc_length.
    induction ls as [|l ls IHl]; cbn [flat_map npoints_rings fold_right length]; [reflexivity|].
    rewrite !app_length, w_hdr_length, w_line_length. fold (npoints_rings ls). lia.
  - rewrite app_length, enc_length.
    induction ps as [|p ps IHp]; cbn [flat_map fold_right length]; [reflexivity|].
    rewrite !app_length, w_hdr_length. unfold w_poly at 1.
    rewrite app_length, enc_length, npoints_rings_length. lia.
  - rewrite app_length, enc_length.
    induction gs as [|g gs IHg]; cbn [flat_map fold_right length]; [reflexivity|].
    inversion IH as [|? ? Hg Hgs]; subst. specialize (IHg Hgs).
    rewrite !app_length, w_hdr_length.
    destruct (fold_right _ _ gs) as [[p c] h]. destruct (calc_size g) as [[p1 c1] h1].
    lia.
Qed.

(* the faithful reader can fail on the writer's own output, and can go out of range *)
Definition one_point_line : geom := (0, SLine [mkpt 0 0]).

Lemma one_point_line_not_read : deserialize (serialize one_point_line) = Err.
Proof. vm_compute. reflexivity. Qed.

(* a LINESTRING header announcing 3 points followed by 2: the slice buf[:16] is out of range *)
Definition truncated_line : list N :=
  [1;2;0;0;0; 3;0;0;0] ++ repeat 0 32.

Lemma truncated_line_panics : geom_from_wkb truncated_line 0 = Panic.
Proof. vm_compute. reflexivity. Qed.

Lemma roundtrip_refuted : exists g, deserialize (serialize g) <> Ok g.
Proof. exists one_point_line. rewrite one_point_line_not_read. discriminate. Qed.

Lemma reader_out_of_range : exists buf, geom_from_wkb buf 0 = Panic.
Proof. exists truncated_line. exact truncated_line_panics. Qed.

Lemma nonvacuous_example :
  wf (SColl [SPoint (mkpt 1 2); SColl [SLine [mkpt 1 2; mkpt 3 4]]; SPoly [[mkpt 0 0; mkpt 1 0; mkpt 1 1; mkpt 0 0]]])
  /\ geom_from_wkb (as_wkb (4326, SMPoint [mkpt 7 9])) 4326 = Ok (4326, SMPoint [mkpt 7 9])
  /\ as_wkb (4326, SPoint (mkpt 1 2)) = [1; 1;0;0;0; 2;0;0;0;0;0;0;0; 1;0;0;0;0;0;0;0].
Proof.
  split; [|split; vm_compute; reflexivity].
  cbn. unfold wf_pt, wf_line, wf_poly, wf_ring, len. cbn.
  repeat split; repeat constructor; cbn; try lia; try discriminate.
Qed.

Open Scope Z_scope.

Lemma ivl_test_iff a b c d : a <= b -> c <= d ->
  (ivl_test a b c d = true <-> exists x, a <= x <= b /\ c <= x <= d).
Proof.
  intros Hab Hcd. unfold ivl_test. rewrite !orb_true_iff, !andb_true_iff, !Z.leb_le. split.
  - intros [[[H|H]|H]|H]; [exists c|exists d|exists a|exists b]; lia.
  - intros (x & H1 & H2). lia.
Qed.

Definition in_box (b : box) (p : zpt) : Prop :=
  match b with
  | None => False
  | Some (x0, y0, x1, y1) => x0 <= fst p <= x1 /\ y0 <= snd p <= y1
  end.

Definition box_le (b1 b2 : box) : Prop := forall p, in_box b1 p -> in_box b2 p.

Lemma box_add_in b p : in_box (box_add b p) p.
Proof. destruct b as [[[[a b0] c] d]|]; cbn; lia. Qed.

Lemma box_add_mono b p : box_le b (box_add b p).
Proof. intros q. destruct b as [[[[a b0] c] d]|]; cbn; [lia|tauto]. Qed.

Lemma fold_box_mono ps : forall b, box_le b (fold_left box_add ps b).
Proof.
  induction ps as [|p ps IH]; intros b q Hq; cbn [fold_left]; [assumption|].
  apply IH. now apply box_add_mono.
Qed.

Lemma bbox_pts_covers ps p : In p ps -> in_box (bbox_pts ps) p.
Proof.
  unfold bbox_pts. generalize (@None (Z * Z * Z * Z)). induction ps as [|q ps IH]; intros b H; [destruct H|].
  cbn [fold_left]. destruct H as [->|H].
  - apply fold_box_mono. apply box_add_in.
  - now apply IH.
Qed.

Lemma in_box_wf b p : in_box (Some b) p -> let '(x0, y0, x1, y1) := b in x0 <= x1 /\ y0 <= y1.
Proof. destruct b as [[[a b0] c] d]. cbn. lia. Qed.

(* two geometries that share a vertex are never separated by the lookup's bounding-box test *)
Theorem shared_vertex_passes_box_test g q p bg bq :
  bbox_pts g = Some bg -> bbox_pts q = Some bq -> In p g -> In p q -> box_test bg bq = true.
Proof.
  intros Hg Hq Ig Iq. pose proof (bbox_pts_covers g p Ig) as H1. pose proof (bbox_pts_covers q p Iq) as H2.
  rewrite Hg in H1. rewrite Hq in H2.
  destruct bg as [[[a b] c] d]. destruct bq as [[[a' b'] c'] d']. cbn in H1, H2. cbn [box_test].
  apply andb_true_iff; split; apply ivl_test_iff; try lia; [exists (fst p)|exists (snd p)]; lia.
Qed.

(* the memory backend's spatial lookup: rows whose box passes the test, then the predicate that the
   analyzer always leaves in place; it equals the plain predicate scan whenever the predicate implies
   that the boxes overlap *)
Section Lookup.
  Variable row : Type.
  Variable rbox : row -> Z * Z * Z * Z.
  Variable pred : row -> bool.
  Variable qbox : Z * Z * Z * Z.
  Hypothesis pred_implies_box : forall r, pred r = true -> box_test (rbox r) qbox = true.

  Definition indexed_lookup (rows : list row) : list row :=
    filter pred (filter (fun r => box_test (rbox r) qbox) rows).

  Lemma indexed_lookup_eq_scan rows : indexed_lookup rows = filter pred rows.
  Proof.
    unfold indexed_lookup. induction rows as [|r rows IH]; cbn [filter]; [reflexivity|].
    destruct (pred r) eqn:Ep.
    - rewrite pred_implies_box by assumption. cbn [filter]. rewrite Ep. now rewrite IH.
    - destruct (box_test (rbox r) qbox); cbn [filter]; [rewrite Ep|]; exact IH.
  Qed.
End Lookup.
Close Scope Z_scope.
