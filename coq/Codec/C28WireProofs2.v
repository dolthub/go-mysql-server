(* C28 -- proofs, part 2: DATETIME(n) / TIMESTAMP(n) (same formatter and parser), TIME, SET round trips and their
   announced lengths.  [datetime_shape] and [time_shape] give the emitted text in fixed-width fields; the text
   readers are followed over them here, the binary encoders in C28BinProofs2. *)
From Coq Require Import List NArith ZArith Bool Lia Arith.
Import ListNotations.
From GMS Require Import Codec.C28Date Codec.C28DateProofs Codec.C28Wire Codec.C28WireProofs.
Open Scope Z_scope.

Definition clock_fields (h mi se : Z) : bytes := pad2 h ++ 58%N :: pad2 mi ++ 58%N :: pad2 se.

(* appendTimeFormat pads the hours to two digits by hand *)
Lemma hour_text_2 h : 0 <= h <= 99 -> (if h <? 10 then [48%N] else []) ++ format_int h = pad2 h.
Proof.
  intros H. rewrite format_int_nonneg by lia. destruct (h <? 10) eqn:E; [apply Z.ltb_lt in E|apply Z.ltb_ge in E].
  - rewrite (format_uint_width 0) by (cbn; lia). cbn [padn app]. unfold pad2. now rewrite Z.div_small by lia.
  - rewrite (format_uint_width 1), padn_pad2 by (cbn; lia). cbn [padn app]. now rewrite Z.mod_small by lia.
Qed.

Lemma hour_text_3 h : 100 <= h <= 999 -> format_int h = digit_char (h / 100) :: pad2 (h mod 100).
Proof.
  intros H. rewrite format_int_nonneg, (format_uint_width 2), padn_pad2 by (cbn; lia).
  cbn [padn app]. now rewrite Z.mod_small by (Z.div_mod_to_equations; lia).
Qed.

Lemma clock_text_fields h m s : 0 <= h <= 99 -> clock_text h m s = clock_fields h m s.
Proof. intros H. unfold clock_text. rewrite app_assoc, hour_text_2 by lia. reflexivity. Qed.

Lemma tod_split t : 0 <= t ->
  t = (t / 3600000000) * 3600000000 + (t / 60000000 mod 60) * 60000000 + (t / us_per_sec mod 60) * us_per_sec + t mod us_per_sec
  /\ 0 <= t / 60000000 mod 60 < 60 /\ 0 <= t / us_per_sec mod 60 < 60 /\ 0 <= t mod us_per_sec < us_per_sec.
Proof. intros Ht. unfold us_per_sec. Z.div_mod_to_equations. lia. Qed.

Lemma parse_clock_fields h mi se rest : 0 <= h < 24 -> 0 <= mi < 60 -> 0 <= se < 60 ->
  parse_clock (32%N :: clock_fields h mi se ++ rest) =
  let base := h * 3600000000 + mi * 60000000 + se * us_per_sec in
  match rest with
  | [] => Some base
  | dot :: fr => if (dot =? 46)%N then option_map (Z.add base) (parse_frac fr) else None
  end.
Proof.
  intros Hh Hmi Hse. unfold clock_fields, pad2. cbn [app parse_clock].
  rewrite !N.eqb_refl, !d2_pad2 by lia.
  now rewrite (proj2 (Z.ltb_lt h 24)), (proj2 (Z.ltb_lt mi 60)), (proj2 (Z.ltb_lt se 60)) by lia.
Qed.

Lemma frac_unit_divides n : (n <= 6)%nat -> us_per_sec = 10 ^ Z.of_nat n * frac_unit n.
Proof.
  intros Hn. unfold frac_unit, us_per_sec. rewrite <- Z.pow_add_r by lia.
  now replace (Z.of_nat n + (6 - Z.of_nat n)) with 6 by lia.
Qed.

Lemma frac_unit_pos n : (n <= 6)%nat -> 0 < frac_unit n.
Proof. intros Hn. apply Z.pow_pos_nonneg; lia. Qed.

(* appendMicroseconds on a multiple of the unit: nothing for n = 0, else the n leading digits of the six *)
Lemma frac_text_shape n us : (n <= 6)%nat -> 0 <= us < us_per_sec -> us mod frac_unit n = 0 ->
  match n with
  | O => us = 0
  | _ => exists v, 0 <= v < 10 ^ Z.of_nat n /\ us = v * 10 ^ (6 - Z.of_nat n) /\ frac_text n us = 46%N :: padn n v
  end.
Proof.
  intros Hn Hus Hm. pose proof (frac_unit_pos n Hn) as Hu. pose proof (frac_unit_divides n Hn) as Hk.
  destruct n as [|n']; [now rewrite Z.mod_small in Hm|]. set (n := S n') in *.
  exists (us / frac_unit n). split; [|split; [|reflexivity]].
  - split; [apply Z.div_pos; lia|]. apply Z.div_lt_upper_bound; lia.
  - fold (frac_unit n). pose proof (Z.div_mod us (frac_unit n) ltac:(lia)). lia.
Qed.

Lemma parse_frac_padn n v : (1 <= n <= 6)%nat -> 0 <= v < 10 ^ Z.of_nat n ->
  parse_frac (padn n v) = Some (v * 10 ^ (6 - Z.of_nat n)).
Proof.
  intros Hn Hv. unfold parse_frac. rewrite padn_length, parse_padn by exact Hv.
  now rewrite (proj2 (Z.eqb_neq _ 0)), (proj2 (Z.ltb_ge 9 _)), (proj2 (Z.leb_le _ 6)) by lia.
Qed.

Lemma round_us_id n x : (n <= 6)%nat -> x mod frac_unit n = 0 -> round_us n x = x.
Proof.
  intros Hn Hm. unfold round_us. pose proof (frac_unit_pos n Hn) as Hu. set (q := frac_unit n) in *.
  pose proof (Z.div_mod x q ltac:(lia)) as D. rewrite Hm in D.
  replace (x + q / 2) with (q / 2 + x / q * q) by lia.
  rewrite Z.div_add, (Z.div_small (q / 2)) by (Z.div_mod_to_equations; lia). lia.
Qed.

Definition datetime_storable (n : nat) (x : Z) : Prop :=
  (n <= 6)%nat /\ x mod frac_unit n = 0 /\ x <> zero_time_us /\ 1000 <= year_of_us x <= 9999 /\
  datetime_range_ok n x = true.

Definition datetime_text_len (n : nat) : nat := match n with O => 19 | _ => 20 + n end.

Lemma datetime_shape n x : datetime_storable n x ->
  exists y m d h mi se us,
    1000 <= y <= 9999 /\ 1 <= m <= 12 /\ 1 <= d <= 31 /\ valid_date (y, m, d) = true /\
    0 <= h < 24 /\ 0 <= mi < 60 /\ 0 <= se < 60 /\ 0 <= us < us_per_sec /\ us mod frac_unit n = 0 /\
    x = days_from_civil (y, m, d) * us_per_day + (h * 3600000000 + mi * 60000000 + se * us_per_sec + us) /\
    datetime_sql_text n x = Some (date_fields y m d ++ 32%N :: clock_fields h mi se ++ frac_text n us).
Proof.
  intros (Hn & Hm & Hz & Hy & Hr).
  destruct (civil_fields (x / us_per_day)) as (y & m & d & Ec & R1 & R2 & Hmo & Hd).
  assert (Ey : year_of_us x = y) by (unfold year_of_us; now rewrite Ec). rewrite Ey in Hy.
  set (tod := x mod us_per_day).
  assert (Htod : 0 <= tod < 24 * 3600000000) by (apply Z.mod_pos_bound; reflexivity).
  destruct (tod_split tod (proj1 Htod)) as (Hsplit & Hmi & Hse & Hus).
  assert (Hh : 0 <= tod / 3600000000 < 24) by (split; [apply Z.div_pos|apply Z.div_lt_upper_bound]; lia).
  exists y, m, d, (tod / 3600000000), (tod / 60000000 mod 60), (tod / us_per_sec mod 60), (tod mod us_per_sec).
  do 8 (split; [assumption|]). split; [|split].
  - (* us_per_sec and us_per_day are multiples of the unit *)
    assert (HS : (frac_unit n | us_per_sec)) by (exists (10 ^ Z.of_nat n); now apply frac_unit_divides).
    unfold tod. rewrite <- (Znumtheory.Zmod_div_mod _ us_per_sec), <- (Znumtheory.Zmod_div_mod _ us_per_day); try reflexivity; auto using frac_unit_pos.
    apply Z.divide_trans with (1 := HS). now exists 86400.
  - rewrite R1. pose proof (Z.div_mod x us_per_day ltac:(discriminate)). fold tod in H. lia.
  - unfold datetime_sql_text. rewrite (proj2 (Z.eqb_neq x _)), (round_us_id n x Hn Hm) by exact Hz.
    cbv zeta. rewrite Hr, Ec. fold tod. now rewrite civil_text_fields, clock_text_fields by lia.
Qed.

Theorem datetime_text_roundtrip n x : datetime_storable n x ->
  exists t, datetime_sql_text n x = Some t /\ datetime_convert_text n t = Some x /\ length t = datetime_text_len n.
Proof.
  intros Hs. destruct (datetime_shape n x Hs) as (y & m & d & h & mi & se & us &
    Hy & Hmo & Hd & Hv & Hh & Hmi & Hse & Hus & Husm & Hx & Et).
  destruct Hs as (Hn & Hm & Hz & _ & Hr). pose proof (frac_text_shape n us Hn Hus Husm) as Hf.
  eexists. split; [exact Et|]. split.
  - unfold datetime_convert_text. rewrite parse_date_fields by (assumption || lia). cbv zeta iota.
    rewrite parse_clock_fields by assumption. cbv zeta.
    assert (E : match frac_text n us with
                | [] => Some (h * 3600000000 + mi * 60000000 + se * us_per_sec)
                | dot :: fr => if (dot =? 46)%N
                               then option_map (Z.add (h * 3600000000 + mi * 60000000 + se * us_per_sec)) (parse_frac fr)
                               else None
                end = Some (h * 3600000000 + mi * 60000000 + se * us_per_sec + us)).
    { destruct n as [|n']; [subst us; cbn [frac_text]; f_equal; lia|]. destruct Hf as (v & Hv' & -> & ->).
      now rewrite N.eqb_refl, parse_frac_padn by lia. }
    rewrite E. cbn [option_map]. rewrite <- Hx, (proj2 (Z.eqb_neq x _)), (round_us_id n x Hn Hm), Hr by exact Hz.
    reflexivity.
  - unfold date_fields, clock_fields, pad2. cbn [app length]. destruct n as [|n']; [reflexivity|].
    destruct Hf as (v & _ & _ & ->). cbn [length]. now rewrite padn_length.
Qed.

Theorem datetime_zero_roundtrip n : (n <= 6)%nat ->
  exists t, datetime_sql_text n zero_time_us = Some t /\ datetime_convert_text n t = Some zero_time_us /\
            length t = datetime_text_len n.
Proof.
  intros Hn. do 7 (destruct n as [|n]; [eexists; split; [vm_compute; reflexivity|split; vm_compute; reflexivity]|]). lia.
Qed.

Lemma datetime_len_le_announced n : (n <= 6)%nat -> Z.of_nat (datetime_text_len n) <= datetime_announced.
Proof. intros H. unfold datetime_text_len, datetime_announced. destruct n; lia. Qed.

Lemma time_shape x : - time_max_us <= x <= time_max_us ->
  exists h mi se us, 0 <= h <= 838 /\ 0 <= mi < 60 /\ 0 <= se < 60 /\ 0 <= us < us_per_sec /\
    Z.abs x = h * 3600000000 + mi * 60000000 + se * us_per_sec + us /\
    time_sql_text x = (if x <? 0 then [45%N] else []) ++
                      ((if h <? 10 then [48%N] else []) ++ format_int h) ++
                      58%N :: pad2 mi ++ 58%N :: pad2 se ++ 46%N :: padn 6 us.
Proof.
  intros Hx. unfold time_max_us in Hx. set (a := Z.abs x).
  destruct (tod_split a ltac:(lia)) as (Hsplit & Hmi & Hse & Hus).
  exists (a / 3600000000), (a / 60000000 mod 60), (a / us_per_sec mod 60), (a mod us_per_sec).
  split; [Z.div_mod_to_equations; lia|]. do 4 (split; [assumption|]).
  unfold time_sql_text, clock_text, frac_text. fold a. change (frac_unit 6) with 1. rewrite Z.div_1_r.
  now rewrite <- !app_assoc.
Qed.

Definition time_after_sign (neg : bool) (r : bytes) : option Z :=
  match r with
  | a :: b :: c :: rest =>
      if (c =? 58)%N then match d2 a b with Some h => parse_time_tail neg h rest | None => None end
      else match rest with
           | d :: rest' =>
               if (d =? 58)%N then
                 match digit_val a, d2 b c with
                 | Some x, Some y => parse_time_tail neg (x * 100 + y) rest'
                 | _, _ => None end
               else None
           | [] => None
           end
  | _ => None
  end.

Lemma time_convert_sign (neg : bool) (c : N) (r : bytes) : (c =? 45)%N = false ->
  time_convert_text ((if neg then [45%N] else []) ++ c :: r) = time_after_sign neg (c :: r).
Proof.
  intros H. destruct neg; cbn [app]; unfold time_convert_text.
  - rewrite N.eqb_refl. reflexivity.
  - rewrite H. reflexivity.
Qed.

(* hours of two or of three digits *)
Lemma time_after_sign_hours neg h tail : 0 <= h <= 999 ->
  exists c r, (if h <? 10 then [48%N] else []) ++ format_int h = c :: r /\ (c =? 45)%N = false /\ (length r <= 2)%nat /\
              time_after_sign neg (c :: r ++ 58%N :: tail) = parse_time_tail neg h tail.
Proof.
  intros Hh. destruct (Z_le_gt_dec h 99).
  - rewrite hour_text_2 by lia. do 2 eexists. split; [reflexivity|].
    split; [apply digit_char_neq; Z.div_mod_to_equations; lia|]. split; [cbn; lia|].
    cbn [app time_after_sign]. now rewrite N.eqb_refl, d2_pad2 by lia.
  - rewrite (proj2 (Z.ltb_ge h 10)), hour_text_3 by lia. do 2 eexists. split; [reflexivity|].
    split; [apply digit_char_neq; Z.div_mod_to_equations; lia|]. split; [cbn; lia|].
    cbn [pad2 app time_after_sign].
    rewrite digit_char_neq, N.eqb_refl, digit_val_char, d2_pad2 by (Z.div_mod_to_equations; lia).
    do 2 f_equal. Z.div_mod_to_equations; lia.
Qed.

Lemma time_tail neg h mi se us : 0 <= mi <= 59 -> 0 <= se <= 59 -> 0 <= us < us_per_sec ->
  parse_time_tail neg h (pad2 mi ++ 58%N :: pad2 se ++ 46%N :: padn 6 us) = time_units neg h mi se us.
Proof.
  intros Hmi Hse Hus. unfold pad2. cbn [app parse_time_tail].
  rewrite !N.eqb_refl, !d2_pad2, padn_length, parse_padn by (assumption || lia). reflexivity.
Qed.

Theorem time_text_roundtrip x : - time_max_us <= x <= time_max_us ->
  time_convert_text (time_sql_text x) = Some x /\ Z.of_nat (length (time_sql_text x)) <= time_announced.
Proof.
  intros Hx. destruct (time_shape x Hx) as (h & mi & se & us & Hh & Hmi & Hse & Hus & Ha & ->).
  unfold time_max_us, us_per_sec in *.
  destruct (time_after_sign_hours (x <? 0) h (pad2 mi ++ 58%N :: pad2 se ++ 46%N :: padn 6 us) ltac:(lia))
    as (c & r & -> & N45 & Lr & E).
  split.
  - cbn [app]. rewrite time_convert_sign, E, time_tail by (assumption || lia). unfold time_units, us_per_sec.
    rewrite (proj2 (Z.leb_gt 60 mi)), (proj2 (Z.leb_gt 60 se)), (proj2 (Z.ltb_ge 838 h)) by lia. cbn [orb].
    (* at 838:59:59 the fraction is dropped, and it is zero there *)
    destruct ((h =? 838) && (mi =? 59) && (se =? 59)) eqn:El.
    + apply andb_prop in El. destruct El as [El E3]. apply andb_prop in El. destruct El as [E1 E2].
      apply Z.eqb_eq in E1, E2, E3. f_equal. destruct (x <? 0) eqn:Es; [apply Z.ltb_lt in Es|apply Z.ltb_ge in Es]; lia.
    + f_equal. destruct (x <? 0) eqn:Es; [apply Z.ltb_lt in Es|apply Z.ltb_ge in Es]; lia.
  - unfold time_announced, pad2. rewrite !app_length. cbn [length app]. rewrite padn_length.
    destruct (x <? 0); cbn [length]; lia.
Qed.

Definition no_comma (x : bytes) : Prop := Forall (fun c => c <> 44%N) x.

Lemma split_no_comma x : no_comma x -> forall cur rest, split_comma cur (x ++ rest) = split_comma (rev x ++ cur) rest.
Proof.
  induction 1 as [|c x Hc _ IH]; intros cur rest; [reflexivity|].
  cbn [app split_comma rev]. rewrite (proj2 (N.eqb_neq c 44)) by exact Hc.
  rewrite IH, <- app_assoc. reflexivity.
Qed.

Lemma split_join l : l <> [] -> Forall no_comma l -> split_comma [] (join_comma l) = l.
Proof.
  induction l as [|x l IH]; intros Hn Hf; [contradiction|]. inversion Hf as [|? ? Hx Hl]; subst.
  destruct l as [|y r].
  - cbn [join_comma]. rewrite <- (app_nil_r x) at 1. rewrite split_no_comma by exact Hx.
    cbn [split_comma]. rewrite app_nil_r, rev_involutive. reflexivity.
  - change (join_comma (x :: y :: r)) with (x ++ 44%N :: join_comma (y :: r)).
    rewrite split_no_comma by exact Hx. cbn [split_comma]. rewrite N.eqb_refl, app_nil_r, rev_involutive.
    rewrite IH by (auto; discriminate). reflexivity.
Qed.

Lemma lor_disjoint_bit a k : 0 <= a -> 0 <= k -> Z.lor (a * 2 ^ (k + 1)) (2 ^ k) = a * 2 ^ (k + 1) + 2 ^ k.
Proof.
  intros Ha Hk.
  assert (L : Z.land (a * 2 ^ (k + 1)) (2 ^ k) = 0).
  { apply Z.bits_inj'. intros n Hn. rewrite Z.land_spec, Z.bits_0, Z.pow2_bits_eqb by lia.
    destruct (Z.eqb_spec k n) as [<-|]; [|apply andb_false_r]. now rewrite Z.mul_pow2_bits_low by lia. }
  rewrite <- Z.lxor_lor by exact L. symmetry. now apply Z.add_nocarry_lxor.
Qed.

Lemma set_bits_members names : NoDup names -> Forall (fun n => n <> []) names ->
  forall suf pre b, names = pre ++ suf -> 0 <= b < 2 ^ Z.of_nat (length suf) ->
    set_bits_of names (set_members suf b) = Some (b * 2 ^ Z.of_nat (length pre)).
Proof.
  intros Hd Hne. induction suf as [|n r IH]; intros pre b Hnames Hb.
  - cbn in *. f_equal. lia.
  - cbn [set_members]. cbn [length] in Hb. rewrite pow_nat_S in Hb.
    assert (Hq : 0 <= b / 2 < 2 ^ Z.of_nat (length r)) by (Z.div_mod_to_equations; lia).
    assert (Hnames' : names = (pre ++ [n]) ++ r) by (rewrite <- app_assoc; exact Hnames).
    specialize (IH (pre ++ [n]) (b / 2) Hnames' Hq). rewrite app_length in IH. cbn [length] in IH.
    replace (Z.of_nat (length pre + 1)) with (Z.of_nat (length pre) + 1) in IH by lia.
    set (k := Z.of_nat (length pre)) in *.
    pose proof (Z.div_mod b 2 ltac:(lia)) as Hdm. rewrite Zmod_odd in Hdm.
    destruct (Z.odd b).
    + cbn [app set_bits_of]. rewrite IH.
      assert (Hn0 : n <> []) by (apply (proj1 (Forall_forall _ names) Hne); rewrite Hnames; apply in_elt).
      destruct n as [|c0 n0] eqn:En; [contradiction|]. rewrite <- En in *.
      assert (Hnp : ~ In n pre).
      { rewrite Hnames in Hd. apply NoDup_remove_2 in Hd. intros C. apply Hd, in_or_app. now left. }
      pose proof (index_of_app n pre r Hnp 0) as Ei. unfold bytes in *. rewrite Hnames at 1. rewrite Ei. fold k. rewrite Z.add_0_l.
      rewrite lor_disjoint_bit by (unfold k; lia). f_equal. rewrite Z.pow_add_r by (unfold k; lia). lia.
    + cbn [app]. rewrite IH. f_equal. rewrite Z.pow_add_r by (unfold k; lia). lia.
Qed.

Lemma set_members_props names : Forall (fun n => n <> [] /\ no_comma n) names ->
  forall b, Forall (fun n => n <> [] /\ no_comma n) (set_members names b).
Proof.
  induction 1 as [|n r Hn _ IH]; intros b; cbn [set_members]; [constructor|].
  apply Forall_app. split; [destruct (Z.odd b); repeat constructor; tauto|apply IH].
Qed.

Lemma join_nonempty l : Forall (fun n : bytes => n <> [] /\ no_comma n) l -> l <> [] -> join_comma l <> [].
Proof.
  intros H Hn. destruct l as [|x r]; [contradiction|]. inversion H as [|? ? [Hx _] _]; subst.
  destruct r; cbn [join_comma]; [exact Hx|]. destruct x; [contradiction|discriminate].
Qed.

Theorem set_text_roundtrip names b :
  NoDup names -> Forall (fun n => n <> [] /\ no_comma n) names -> 0 <= b < 2 ^ Z.of_nat (length names) ->
  set_convert_text names (set_sql_text names b) = Some b.
Proof.
  intros Hd Hf Hb. unfold set_convert_text, set_sql_text.
  pose proof (set_members_props names Hf b) as Hm.
  assert (Hne : Forall (fun n : bytes => n <> []) names) by (eapply Forall_impl; [|exact Hf]; cbn; tauto).
  pose proof (set_bits_members names Hd Hne names [] b eq_refl Hb) as Hbits. cbn [length] in Hbits. rewrite Z.mul_1_r in Hbits.
  destruct (set_members names b) as [|m ms] eqn:Em.
  - cbn [join_comma]. cbn in Hbits. exact Hbits.
  - pose proof (join_nonempty (m :: ms) Hm ltac:(discriminate)) as Hj.
    destruct (join_comma (m :: ms)) as [|c0 j0] eqn:Ej; [contradiction|]. rewrite <- Ej.
    rewrite split_join; [exact Hbits|discriminate|]. eapply Forall_impl; [|exact Hm]. cbn. tauto.
Qed.
