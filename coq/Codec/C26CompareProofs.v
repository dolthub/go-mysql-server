(* C26 — proofs about the Compare model of Codec/C26Compare.v *)
From Coq Require Import ZArith Bool List Lia.
Import ListNotations.
From GMS Require Import Codec.C25Arith Codec.C25ArithProofs Codec.C27Convert Codec.C27ConvertProofs Codec.C26Compare.
Open Scope Z_scope.

Lemma sgn_cmp_spec a b :
  (a < b /\ sgn_cmp a b = -1) \/ (a = b /\ sgn_cmp a b = 0) \/ (b < a /\ sgn_cmp a b = 1).
Proof. unfold sgn_cmp. destruct (Z.compare_spec a b); [right; left|left|right; right]; split; auto. Qed.

Lemma sgn_cmp_refl x : sgn_cmp x x = 0.
Proof. unfold sgn_cmp. rewrite Z.compare_refl. reflexivity. Qed.
Lemma sgn_cmp_antisym x y : sgn_cmp x y = - sgn_cmp y x.
Proof. unfold sgn_cmp. rewrite (Z.compare_antisym y x). destruct (y ?= x); reflexivity. Qed.
Lemma sgn_cmp_trans x y z : sgn_cmp x y <= 0 -> sgn_cmp y z <= 0 -> sgn_cmp x z <= 0.
Proof.
  destruct (sgn_cmp_spec x y) as [[H ->]|[[H ->]|[H ->]]];
    destruct (sgn_cmp_spec y z) as [[G ->]|[[G ->]|[G ->]]];
    destruct (sgn_cmp_spec x z) as [[K ->]|[[K ->]|[K ->]]]; lia.
Qed.

(* well-formed: decimal scales are non-negative, and the operand is of a kind the type compares
   (numbers for integer / DECIMAL types, temporal operands for temporal types, strings for the binary collation) *)
Definition wf_val (v : value) : Prop := match v with SD _ s => 0 <= s | _ => True end.
Definition numeric_type (t : ctype) : Prop := match t with CInt _ | CDec _ _ => True | _ => False end.
Definition wf_for (t : ctype) (c : cval) : Prop :=
  match c with
  | CNull => True
  | CV v => numeric_type t /\ wf_val v
  | CX x => match t with
            | CInt _ | CDec _ _ => False
            | CBin => match x with TStr _ => True | _ => False end
            | _ => True
            end
  end.
Definition wf_type (t : ctype) : Prop := match t with CDec s _ => 0 <= s | _ => True end.

Lemma key_dec_scale s col v : 0 <= s -> wf_val v -> 0 <= snd (key_dec s col v).
Proof.
  intros Hs Hv. unfold key_dec. destruct v as [z|z|z|m s0]; cbn [to_dec wf_val] in *;
    match goal with |- context [if ?c then _ else _] => destruct c end; cbn [snd]; lia.
Qed.

Lemma cmp_dec_refl a : cmp_dec a a = 0.
Proof. destruct a as [m s]. apply sgn_cmp_refl. Qed.

Lemma cmp_dec_antisym a b : cmp_dec a b = - cmp_dec b a.
Proof. destruct a as [m1 s1], b as [m2 s2]. apply sgn_cmp_antisym. Qed.

Lemma cmp_dec_le a b :
  (cmp_dec a b <= 0 <-> fst a * 10 ^ snd b <= fst b * 10 ^ snd a) /\
  (cmp_dec a b = 0 <-> fst a * 10 ^ snd b = fst b * 10 ^ snd a).
Proof.
  destruct a as [m1 s1], b as [m2 s2]. cbn [fst snd]. unfold cmp_dec.
  destruct (sgn_cmp_spec (m1 * 10 ^ s2) (m2 * 10 ^ s1)) as [[H ->]|[[H ->]|[H ->]]]; split; split; intros; lia.
Qed.

Lemma cmp_dec_trans a b c : 0 <= snd a -> 0 <= snd b -> 0 <= snd c ->
  cmp_dec a b <= 0 -> cmp_dec b c <= 0 -> cmp_dec a c <= 0.
Proof.
  intros Ha Hb Hc H1 H2.
  apply (proj1 (cmp_dec_le a b)) in H1. apply (proj1 (cmp_dec_le b c)) in H2. apply (proj1 (cmp_dec_le a c)).
  destruct a as [m1 s1], b as [m2 s2], c as [m3 s3]; cbn [fst snd] in *.
  pose proof (pow10_pos s1 Ha). pose proof (pow10_pos s2 Hb). pose proof (pow10_pos s3 Hc).
  apply Z.mul_le_mono_pos_r with (p := 10 ^ s2); [lia|].
  transitivity (m2 * 10 ^ s1 * 10 ^ s3); [|nia]. nia.
Qed.

Lemma cmp_bytes_refl a : cmp_bytes a a = 0.
Proof. induction a as [|x a IH]; cbn [cmp_bytes]; [reflexivity|]. rewrite Z.compare_refl. exact IH. Qed.

Lemma cmp_bytes_antisym a : forall b, cmp_bytes a b = - cmp_bytes b a.
Proof.
  induction a as [|x a IH]; intros [|y b]; cbn [cmp_bytes]; try reflexivity.
  rewrite (Z.compare_antisym x y). destruct (x ?= y); cbn [CompOpp]; [apply IH|reflexivity|reflexivity].
Qed.

Lemma cmp_bytes_range a : forall b, cmp_bytes a b = -1 \/ cmp_bytes a b = 0 \/ cmp_bytes a b = 1.
Proof.
  induction a as [|x a IH]; intros [|y b]; cbn [cmp_bytes]; auto.
  destruct (x ?= y); auto.
Qed.

Lemma cmp_bytes_eq a : forall b, cmp_bytes a b = 0 -> a = b.
Proof.
  induction a as [|x a IH]; intros [|y b]; cbn [cmp_bytes]; intros H; try reflexivity; try discriminate.
  destruct (Z.compare_spec x y); try discriminate. subst. f_equal. apply IH. exact H.
Qed.

Lemma cmp_bytes_trans a : forall b c, cmp_bytes a b <= 0 -> cmp_bytes b c <= 0 -> cmp_bytes a c <= 0.
Proof.
  induction a as [|x a IH]; intros [|y b] [|z c]; cbn [cmp_bytes]; intros H1 H2; try lia.
  destruct (Z.compare_spec x y) as [E1|L1|G1]; destruct (Z.compare_spec y z) as [E2|L2|G2];
    destruct (Z.compare_spec x z) as [E3|L3|G3]; try lia.
  apply (IH b c); assumption.
Qed.

Theorem compare_refl t a : compare t a a = 0.
Proof.
  destruct a as [|x|x]; [reflexivity| |].
  - destruct t; cbn [compare]; try reflexivity; [apply sgn_cmp_refl|apply cmp_dec_refl].
  - destruct t; cbn [compare]; try apply sgn_cmp_refl. destruct x; try reflexivity. apply cmp_bytes_refl.
Qed.

Theorem compare_antisym t a b : compare t a b = - compare t b a.
Proof.
  destruct a as [|x|x], b as [|y|y]; try reflexivity.
  - destruct t; cbn [compare]; try reflexivity; [apply sgn_cmp_antisym|apply cmp_dec_antisym].
  - destruct t; cbn [compare]; try apply sgn_cmp_antisym. destruct x, y; try reflexivity. apply cmp_bytes_antisym.
Qed.

Theorem compare_trans t a b c :
  wf_type t -> wf_for t a -> wf_for t b -> wf_for t c ->
  compare t a b <= 0 -> compare t b c <= 0 -> compare t a c <= 0.
Proof.
  intros Ht Ha Hb Hc.
  destruct a as [|x|x], b as [|y|y], c as [|z|z]; cbn [compare]; try lia;
    cbn [wf_for] in Ha, Hb, Hc; try (destruct t; cbn [numeric_type] in *; tauto).
  - (* numbers *) destruct t; cbn [numeric_type] in *; try tauto.
    + apply sgn_cmp_trans.
    + apply cmp_dec_trans; apply key_dec_scale; tauto.
  - (* temporal / strings *) destruct t; try tauto; try apply sgn_cmp_trans.
    destruct x; try tauto. destruct y; try tauto. destruct z; try tauto. apply cmp_bytes_trans.
Qed.

(* equivalence is transitive because <= is, in both directions *)
Theorem compare_eq_trans t a b c :
  wf_type t -> wf_for t a -> wf_for t b -> wf_for t c ->
  compare t a b = 0 -> compare t b c = 0 -> compare t a c = 0.
Proof.
  intros Ht Ha Hb Hc H1 H2.
  pose proof (compare_trans t a b c Ht Ha Hb Hc) as L. pose proof (compare_trans t c b a Ht Hc Hb Ha) as R.
  rewrite (compare_antisym t c b), (compare_antisym t b a), (compare_antisym t c a) in R. lia.
Qed.

Theorem compare_total t a b : compare t a b = -1 \/ compare t a b = 0 \/ compare t a b = 1.
Proof.
  assert (S : forall x y, sgn_cmp x y = -1 \/ sgn_cmp x y = 0 \/ sgn_cmp x y = 1).
  { intros x y. destruct (sgn_cmp_spec x y) as [[_ ->]|[[_ ->]|[_ ->]]]; auto. }
  destruct a as [|x|x], b as [|y|y]; cbn [compare]; auto.
  - destruct t; auto. unfold cmp_dec. destruct (key_dec s col x), (key_dec s col y). apply S.
  - destruct t; auto. destruct x, y; auto. apply cmp_bytes_range.
Qed.

(* under the binary collation two strings compare equal only if they are the same bytes *)
Theorem binary_compare_equal_iff p q : compare CBin (CX (TStr p)) (CX (TStr q)) = 0 <-> p = q.
Proof. cbn [compare]. split; [apply cmp_bytes_eq|intros ->; apply cmp_bytes_refl]. Qed.

(* NULL: CompareNulls puts NULL after every non-NULL value (consistently), not before *)
Theorem null_sorts_last t x :
  x <> CNull -> compare t CNull x = 1 /\ compare t x CNull = -1 /\ compare t CNull CNull = 0.
Proof. intros H. destruct x; [contradiction| |]; repeat split. Qed.

(* compare-after-convert: witnesses where Convert (in range) changes the comparison *)
Lemma via_convert_unsigned_negative_fraction :
  compare (CInt U32) (CV (SD (-499) 3)) (CV (SU 37)) = 1 /\
  conv_int U32 (SD (-499) 3) = COk (SU 0) InRange /\ conv_int U32 (SU 37) = COk (SU 37) InRange /\
  compare (CInt U32) (CV (SU 0)) (CV (SU 37)) = -1.
Proof. repeat split; vm_compute; reflexivity. Qed.

Lemma via_convert_noncolumn_decimal :
  compare (CDec 2 false) (CV (SD 1001 3)) (CV (SD 1002 3)) = -1 /\
  conv_dec 10 2 false (SD 1001 3) = COk (SD 100 2) InRange /\ conv_dec 10 2 false (SD 1002 3) = COk (SD 100 2) InRange /\
  compare (CDec 2 false) (CV (SD 100 2)) (CV (SD 100 2)) = 0.
Proof. repeat split; vm_compute; reflexivity. Qed.

(* a column DECIMAL compares exactly as after Convert: both quantize to the column scale *)
Theorem via_convert_column_decimal p s x y x' y' fx fy :
  0 <= s -> wf_val x -> wf_val y ->
  conv_dec p s true x = COk x' fx -> conv_dec p s true y = COk y' fy ->
  compare (CDec s true) (CV x) (CV y) = compare (CDec s true) (CV x') (CV y').
Proof.
  intros _ _ _ Ex Ey.
  (* Convert quantizes to the column scale as the comparison key does, and quantizing what is already at that scale
     changes nothing *)
  assert (K : forall v v' f, conv_dec p s true v = COk v' f -> key_dec s true v' = key_dec s true v).
  { intros v v' f E. apply conv_dec_ok in E. unfold key_dec at 2. destruct (to_dec v) as [m0 s0].
    destruct E as (_ & m2 & s2 & -> & _ & [[-> ->]|(-> & -> & _ & Z0)]); unfold key_dec, to_dec; cbn [andb] in *.
    - rewrite round_to_same. destruct (negb ((s =? 0) && (s =? 0))), (negb ((s0 =? 0) && (s =? 0))) eqn:Z0;
        try reflexivity;
        apply negb_false_iff, andb_true_iff in Z0 as [->%Z.eqb_eq ->%Z.eqb_eq]; rewrite round_to_same; reflexivity.
    - rewrite Z0. reflexivity. }
  cbn [compare]. rewrite (K x x' fx Ex), (K y y' fy Ey). reflexivity.
Qed.

Lemma nonvacuous_compares :
  compare (CInt I8) (CV (SI 300)) (CV (SI 400)) = -1 /\
  compare (CInt I64) (CV (SU 9223372036854775808)) (CV (SU 18446744073709551615)) = 0 /\
  compare (CInt U8) (CV (SI (-1))) (CV (SU 255)) = 1 /\
  compare (CDec 2 true) (CV (SD 1001 3)) (CV (SD 1002 3)) = 0 /\
  compare (CDec 2 false) (CV (SI 1)) (CV (SD 10 1)) = 0.
Proof. repeat split; vm_compute; reflexivity. Qed.

(* the day count is the chronological order: strictly monotone in (year, month, day) over every valid date
   (month by month, then lifted) *)
Definition leap (y : Z) : bool := (y mod 4 =? 0) && (negb (y mod 100 =? 0) || (y mod 400 =? 0)).
Definition mlen (y m : Z) : Z :=
  if m =? 2 then (if leap y then 29 else 28)
  else if (m =? 4) || (m =? 6) || (m =? 9) || (m =? 11) then 30 else 31.
Definition valid_date (y m d : Z) : Prop := 1000 <= y <= 9999 /\ 1 <= m <= 12 /\ 1 <= d <= mlen y m.

Lemma leap_iff y : leap y = true <-> y mod 4 = 0 /\ (y mod 100 <> 0 \/ y mod 400 = 0).
Proof. unfold leap. rewrite andb_true_iff, orb_true_iff, negb_true_iff, !Z.eqb_eq, Z.eqb_neq. tauto. Qed.

(* The day count in closed form: the days before 1 March of year y (up to a constant), then the start of the month
   within a year that begins in March, then the day. *)
Definition days_before (y : Z) : Z := 365 * y + y / 4 - y / 100 + y / 400.

Lemma days_from_civil_eq y m d :
  days_from_civil y m d =
  days_before (if m <=? 2 then y - 1 else y) + (153 * ((m + 9) mod 12) + 2) / 5 + d - 1 - 719468.
Proof.
  unfold days_from_civil, days_before.
  generalize (if m <=? 2 then y - 1 else y) ((153 * ((m + 9) mod 12) + 2) / 5). intros y' ms.
  Z.div_mod_to_equations. lia.
Qed.

Lemma days_before_succ y : days_before y = days_before (y - 1) + 365 + (if leap y then 1 else 0).
Proof. pose proof (leap_iff y) as L. unfold days_before. destruct (leap y); Z.div_mod_to_equations; lia. Qed.

(* The first of the next month comes [mlen y m] days after the first of month m, in every year: for each month but
   February both dates lie in the same March-based year and the month starts are constants; from February to March that
   year moves on, by 365 days and the leap day. *)
Lemma next_month_start y m : 1 <= m <= 12 ->
  days_from_civil (if m =? 12 then y + 1 else y) (if m =? 12 then 1 else m + 1) 1 = days_from_civil y m 1 + mlen y m.
Proof.
  intros H. rewrite !days_from_civil_eq.
  assert (C : m = 1 \/ m = 2 \/ m = 3 \/ m = 4 \/ m = 5 \/ m = 6 \/ m = 7 \/ m = 8 \/ m = 9 \/ m = 10 \/ m = 11 \/ m = 12)
    by lia.
  repeat destruct C as [->|C]; try subst m; unfold mlen; cbn -[days_before leap];
    rewrite ?Z.add_simpl_r, ?(days_before_succ y); try destruct (leap y); lia.
Qed.

(* months counted from year 0: k = 12*y + (m-1); first day of month k *)
Definition first_of (k : Z) : Z := days_from_civil (k / 12) (k mod 12 + 1) 1.

Lemma month_index y m : 1 <= m <= 12 -> (12 * y + (m - 1)) / 12 = y /\ (12 * y + (m - 1)) mod 12 + 1 = m.
Proof. intros H. Z.div_mod_to_equations. lia. Qed.

Lemma month_step k : first_of (k + 1) = first_of k + mlen (k / 12) (k mod 12 + 1).
Proof.
  unfold first_of. set (y := k / 12). set (m := k mod 12 + 1).
  assert (Hm : 1 <= m <= 12) by (subst m; Z.div_mod_to_equations; lia).
  rewrite <- (next_month_start y m Hm).
  replace (k + 1) with (12 * (if m =? 12 then y + 1 else y) + ((if m =? 12 then 1 else m + 1) - 1))
    by (subst y m; destruct (Z.eqb_spec (k mod 12 + 1) 12); Z.div_mod_to_equations; lia).
  destruct (month_index (if m =? 12 then y + 1 else y) (if m =? 12 then 1 else m + 1)) as [-> ->];
    [destruct (Z.eqb_spec m 12); lia|reflexivity].
Qed.

Lemma mlen_ge_28 y m : 28 <= mlen y m.
Proof. unfold mlen. destruct (m =? 2); [destruct (leap y); lia|]. destruct (_ || _); lia. Qed.

Lemma first_of_mono n : forall k, first_of k <= first_of (k + Z.of_nat n).
Proof.
  induction n as [|n IH]; intros k; [rewrite Z.add_0_r; lia|].
  rewrite Nat2Z.inj_succ. replace (k + Z.succ (Z.of_nat n)) with (k + Z.of_nat n + 1) by lia.
  rewrite month_step. pose proof (mlen_ge_28 ((k + Z.of_nat n) / 12) ((k + Z.of_nat n) mod 12 + 1)).
  specialize (IH k). lia.
Qed.

Lemma days_linear_in_day y m d : days_from_civil y m d = days_from_civil y m 1 + (d - 1).
Proof. unfold days_from_civil. lia. Qed.

(* the day count orders the valid dates of all years chronologically *)
Lemma days_chronological y1 m1 d1 y2 m2 d2 :
  1 <= m1 <= 12 -> 1 <= d1 <= mlen y1 m1 -> 1 <= m2 <= 12 -> 1 <= d2 ->
  (y1 < y2 \/ (y1 = y2 /\ (m1 < m2 \/ (m1 = m2 /\ d1 < d2)))) ->
  days_from_civil y1 m1 d1 < days_from_civil y2 m2 d2.
Proof.
  intros Hm1 Hd1 Hm2 Hd2 L.
  set (k1 := 12 * y1 + (m1 - 1)). set (k2 := 12 * y2 + (m2 - 1)).
  destruct (month_index y1 m1 Hm1) as [A1 B1]. destruct (month_index y2 m2 Hm2) as [A2 B2]. fold k1 in A1, B1.
  rewrite (days_linear_in_day y1), (days_linear_in_day y2).
  replace (days_from_civil y1 m1 1) with (first_of k1) by (unfold first_of; now rewrite A1, B1).
  replace (days_from_civil y2 m2 1) with (first_of k2) by (unfold first_of, k2; now rewrite A2, B2).
  destruct (Z_lt_le_dec k1 k2) as [K|K].
  - pose proof (month_step k1) as S. rewrite A1, B1 in S.
    pose proof (first_of_mono (Z.to_nat (k2 - (k1 + 1))) (k1 + 1)) as M.
    rewrite Z2Nat.id in M by lia. replace (k1 + 1 + (k2 - (k1 + 1))) with k2 in M by lia. lia.
  - replace k2 with k1 by (unfold k1, k2 in *; lia). lia.
Qed.

Theorem days_strictly_chronological y1 m1 d1 y2 m2 d2 :
  valid_date y1 m1 d1 -> valid_date y2 m2 d2 ->
  (y1 < y2 \/ (y1 = y2 /\ (m1 < m2 \/ (m1 = m2 /\ d1 < d2)))) ->
  days_from_civil y1 m1 d1 < days_from_civil y2 m2 d2.
Proof. intros (_ & Hm1 & Hd1) (_ & Hm2 & Hd2). apply days_chronological; tauto. Qed.

(* hence the microsecond count orders two instants with valid time-of-day fields chronologically *)
Definition valid_tod (h mi s us : Z) : Prop := 0 <= h <= 23 /\ 0 <= mi <= 59 /\ 0 <= s <= 59 /\ 0 <= us <= 999999.

Theorem us_of_strictly_chronological y1 m1 d1 h1 mi1 s1 us1 y2 m2 d2 h2 mi2 s2 us2 :
  valid_date y1 m1 d1 -> valid_date y2 m2 d2 -> valid_tod h1 mi1 s1 us1 -> valid_tod h2 mi2 s2 us2 ->
  (y1 < y2 \/ (y1 = y2 /\ (m1 < m2 \/ (m1 = m2 /\ d1 < d2)))) ->
  us_of y1 m1 d1 h1 mi1 s1 us1 < us_of y2 m2 d2 h2 mi2 s2 us2.
Proof.
  intros V1 V2 T1 T2 L. pose proof (days_strictly_chronological _ _ _ _ _ _ V1 V2 L).
  unfold us_of, day_us, valid_tod in *. lia.
Qed.

Theorem us_of_same_day_chronological y m d h1 mi1 s1 us1 h2 mi2 s2 us2 :
  valid_tod h1 mi1 s1 us1 -> valid_tod h2 mi2 s2 us2 ->
  (h1 < h2 \/ (h1 = h2 /\ (mi1 < mi2 \/ (mi1 = mi2 /\ (s1 < s2 \/ (s1 = s2 /\ us1 < us2)))))) ->
  us_of y m d h1 mi1 s1 us1 < us_of y m d h2 mi2 s2 us2.
Proof. intros T1 T2 L. unfold us_of, valid_tod in *. lia. Qed.

Lemma nonvacuous_temporal :
  compare (CDatetime 0) (CX (TTime 1500 6 15 0 0 0 0)) (CX (TTime 2000 1 1 0 0 0 0)) = -1 /\
  compare (CDatetime 6) (CX (TTime 9999 12 31 23 59 59 999999)) (CX (TText 2000 1 1 0 0 0 0)) = 1 /\
  compare CDate (CX (TTime 2024 2 29 23 0 0 0)) (CX (TText 2024 2 29 0 0 0 0)) = 0 /\
  compare (CDatetime 0) (CX (TText 2023 1 15 10 30 45 500000)) (CX (TTime 2023 1 15 10 30 46 0)) = 0 /\
  compare CYear (CX (TYearI 69)) (CX (TYearS 70)) = 1 /\
  compare CBin (CX (TStr [97])) (CX (TStr [97; 98])) = -1 /\
  days_from_civil 1970 1 1 = 0 /\ days_from_civil 2000 3 1 = 11017.
Proof. repeat split; vm_compute; reflexivity. Qed.
