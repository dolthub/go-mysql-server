(* C28 -- VARCHAR / VARBINARY / TEXT on the wire (sql/types/strings.go StringType.SQL, ConvertToBytes length checks,
   MaxTextResponseByteLength) for utf8mb4 columns and utf8mb4 results: the text is the stored byte string; lengths
   are counted in runes exactly as Go does (len([]rune(s)) = utf8.RuneCountInString: an invalid byte is one rune). *)
From Coq Require Import List NArith ZArith Bool Lia Arith.
Import ListNotations.
From GMS Require Import Codec.C28Wire.
Open Scope N_scope.

Definition cont (b : N) : bool := (128 <=? b) && (b <=? 191).

(* utf8.DecodeRune: number of bytes of the first rune (1 for an invalid or truncated sequence) *)
Definition size_at (s : bytes) : nat :=
  match s with
  | [] => 1%nat
  | c :: r =>
      if c <? 128 then 1%nat
      else if (194 <=? c) && (c <=? 223) then
        match r with b1 :: _ => if cont b1 then 2%nat else 1%nat | _ => 1%nat end
      else if (224 <=? c) && (c <=? 239) then
        match r with
        | b1 :: b2 :: _ =>
            let lo := if c =? 224 then 160 else 128 in
            let hi := if c =? 237 then 159 else 191 in
            if (lo <=? b1) && (b1 <=? hi) && cont b2 then 3%nat else 1%nat
        | _ => 1%nat
        end
      else if (240 <=? c) && (c <=? 244) then
        match r with
        | b1 :: b2 :: b3 :: _ =>
            let lo := if c =? 240 then 144 else 128 in
            let hi := if c =? 244 then 143 else 191 in
            if (lo <=? b1) && (b1 <=? hi) && cont b2 && cont b3 then 4%nat else 1%nat
        | _ => 1%nat
        end
      else 1%nat
  end.

(* rune count; [skip] bytes still belong to the rune in progress *)
Fixpoint rc (s : bytes) (skip : nat) : nat :=
  match s with
  | [] => 0%nat
  | c :: r => match skip with S k => rc r k | O => S (rc r (size_at s - 1)%nat) end
  end.
Definition rune_count (s : bytes) : nat := rc s 0.

(* utf8mb4 VARCHAR(n), VARBINARY(n), TEXT, CHAR(n), BINARY(n) *)
Inductive sty := VarChar (n : nat) | VarBinary (n : nat) | Text | Char (n : nat) | Binary (n : nat).

Definition text_max_bytes : nat := Z.to_nat 65535.
(* Convert: the length checks of ConvertToBytes; a BINARY(n) value is right-padded with 0x00 to n bytes when it is
   stored; a CHAR(n) value is kept as given (no padding, no stripping of trailing spaces) *)
Definition str_convert_text (t : sty) (s : bytes) : option bytes :=
  match t with
  | VarChar n | Char n => if (length s <=? n)%nat || (rune_count s <=? n)%nat then Some s else None
  | VarBinary n => if (length s <=? n)%nat then Some s else None
  | Binary n => if (length s <=? n)%nat then Some (s ++ repeat 0 (n - length s)) else None
  | Text => if (length s <=? text_max_bytes)%nat then Some s else None
  end.
(* SQL: binary types go through ConvertToBytes again (so BINARY pads; too long a value is an error: None);
   the others are sent as they are *)
Definition str_sql_text (t : sty) (s : bytes) : option bytes :=
  match t with
  | VarBinary _ | Binary _ => str_convert_text t s
  | _ => Some s
  end.
Definition str_storable (t : sty) (s : bytes) : Prop := str_convert_text t s = Some s.
Definition str_announced (t : sty) : nat :=
  match t with
  | VarChar n | Char n => (n * 4)%nat
  | VarBinary n | Binary n => n
  | Text => (text_max_bytes * 4)%nat
  end.

Lemma size_at_le4 s : (1 <= size_at s <= 4)%nat.
Proof.
  unfold size_at. destruct s as [|c r]; [lia|].
  repeat match goal with
         | |- context [if ?b then _ else _] => destruct b
         | |- context [match ?l with [] => _ | _ :: _ => _ end] => destruct l
         end; lia.
Qed.

Lemma rc_bound s : forall skip, (length s - skip <= 4 * rc s skip)%nat.
Proof.
  induction s as [|c r IH]; intros skip; [cbn; lia|].
  cbn [rc length]. destruct skip as [|k].
  - pose proof (size_at_le4 (c :: r)) as Hs. specialize (IH (size_at (c :: r) - 1)%nat). lia.
  - specialize (IH k). lia.
Qed.

Theorem bytes_le_4_runes s : (length s <= 4 * rune_count s)%nat.
Proof. unfold rune_count. pose proof (rc_bound s 0). lia. Qed.

Theorem str_text_roundtrip t s : str_storable t s ->
  str_sql_text t s = Some s /\ str_convert_text t s = Some s /\ (length s <= str_announced t)%nat.
Proof.
  unfold str_storable. intros H. split; [destruct t; cbn [str_sql_text]; auto|]. split; [exact H|].
  (* the length check that Convert passed; a rune has at most four bytes *)
  pose proof (bytes_le_4_runes s).
  destruct t as [n|n| |n|n]; cbn [str_convert_text str_announced] in *;
    match type of H with (if ?c then _ else _) = _ => destruct c eqn:E; [|discriminate] end;
    try (apply orb_prop in E; destruct E as [E|E]); apply Nat.leb_le in E; lia.
Qed.

Lemma binary_stored_length n r s : str_convert_text (Binary n) r = Some s -> length s = n.
Proof.
  cbn [str_convert_text]. destruct (length r <=? n)%nat eqn:E; [|discriminate]. apply Nat.leb_le in E.
  intros H. injection H as <-. rewrite app_length, repeat_length. lia.
Qed.

(* whatever Convert accepts, what it stores is a fixpoint: storing pads BINARY(n) to exactly n bytes, once *)
Theorem str_convert_storable t r s : str_convert_text t r = Some s -> str_storable t s.
Proof.
  unfold str_storable. destruct t as [n|n| |n|n]; intros H.
  1-4: cbn [str_convert_text] in *;
    match type of H with (if ?c then _ else _) = _ => destruct c eqn:E; [|discriminate] end; injection H as <-; now rewrite E.
  cbn [str_convert_text]. rewrite (binary_stored_length n r s H), Nat.leb_refl, Nat.sub_diag. cbn [repeat]. now rewrite app_nil_r.
Qed.

Example str_nonvacuous :
  str_storable (VarChar 2) [230; 151; 165; 230; 156; 172] /\ rune_count [230; 151; 165; 230; 156; 172] = 2%nat /\
  rune_count [255; 97; 240; 159] = 4%nat.
Proof. vm_compute. repeat split; reflexivity. Qed.

(* announced lengths of ENUM and SET (enum.go / set.go: runes * 4 per member, + 4 per separator) *)
Open Scope nat_scope.
Definition enum_announced (names : list bytes) : nat := fold_right (fun n acc => Nat.max (rune_count n * 4) acc) 0 names.
Definition set_announced (names : list bytes) : nat :=
  fold_right (fun n acc => rune_count n * 4 + acc) 0 names + 4 * (length names - 1).

Lemma enum_member_le names : forall k, length (nth k names []) <= enum_announced names.
Proof.
  induction names as [|n r IH]; intros k; [destruct k; cbn; lia|].
  cbn [enum_announced fold_right]. fold (enum_announced r). destruct k as [|k]; cbn [nth].
  - pose proof (bytes_le_4_runes n). lia.
  - specialize (IH k). lia.
Qed.
Theorem enum_text_len names i : length (enum_sql_text names i) <= enum_announced names.
Proof. unfold enum_sql_text. destruct (i =? 0)%Z; [cbn; lia|apply enum_member_le]. Qed.

Definition sum_len1 (l : list bytes) : nat := fold_right (fun x acc => length x + 1 + acc) 0 l.
Lemma join_len l : length (join_comma l) + (match l with [] => 0 | _ => 1 end) = sum_len1 l.
Proof.
  induction l as [|x r IH]; [reflexivity|]. destruct r as [|y r'].
  - cbn. lia.
  - change (join_comma (x :: y :: r')) with (x ++ 44%N :: join_comma (y :: r')).
    rewrite app_length. cbn [length]. unfold sum_len1 in *. cbn [fold_right] in *. lia.
Qed.
Lemma members_sum names : forall b, sum_len1 (set_members names b) <= sum_len1 names.
Proof.
  induction names as [|n r IH]; intros b; cbn [set_members]; [cbn; lia|].
  specialize (IH (b / 2)%Z). unfold sum_len1 in *. destruct (Z.odd b); cbn [app fold_right] in *; lia.
Qed.
Lemma sum_len1_runes names : sum_len1 names <= fold_right (fun n acc => rune_count n * 4 + acc) 0 names + length names.
Proof.
  induction names as [|n r IH]; [cbn; lia|]. unfold sum_len1 in *. cbn [fold_right length] in *. pose proof (bytes_le_4_runes n). lia.
Qed.
Theorem set_text_len names b : length (set_sql_text names b) <= set_announced names.
Proof.
  unfold set_sql_text, set_announced. pose proof (join_len (set_members names b)) as J.
  pose proof (members_sum names b) as M. pose proof (sum_len1_runes names) as R.
  destruct (set_members names b) as [|m ms] eqn:E; [cbn; lia|].
  destruct names as [|n r]; [cbn in E; discriminate|]. cbn [length] in *. lia.
Qed.
